(* Properties/C02.v — a Reader bound to a topic partition delivers exactly the partition's
   records from its position, in order.  The statements; the lemmas their proofs rest on are
   in Proofs/Reader*.v.

   Structure: L1 (bytes) establishes, for a broker response, the FETCH CONTRACT [fetch_ok]; L2
   (offsets) proves the delivery theorems for every run in which the current generation's data
   responses obey that contract.  Proved here:
     - L2 in full (C02_delivery_exact, C02_setoffset_next, C02_generation_exact, ...), with the
       contract as an explicit hypothesis on labels;
     - C02_conn_offset_advances in full, for arbitrary response bytes;
     - L1 decoding and progress (the properties C02_batch_decode_exact and C02_progress, whose
       statements without size hypotheses are the two _full_statement Definitions): proved for every layout whose
       formats are ordered (v0/v1 batches, then v2 batches) and whose sizes fit the wire format
       ([wire_fits]) — v2 batches of any codec, plain v0/v1 messages, compressed v0/v1 wrappers,
       record-less batches, compaction holes —, every fetch offset >= 0 with data at or after it
       and every legal cut (C02_batch_decode_exact_ordered_partial, C02_progress_ordered_partial,
       linked to L2 by C02_contract_ordered); decompression is an oracle with
       decomp c (compress c x) = Some x.  The special cases …_v2_partial,
       …_legacy_uncompressed_partial, …_legacy_then_v2_partial, …_legacy_wrapped_then_v2_partial
       are stated as well.
   Four defects of the code found by this check (F1 and three more) were fixed in /repo; their
   witnesses are below as regression Examples. *)
From Coq Require Import List NArith ZArith Bool Lia ZifyBool.
From KV Require Import Lib.Bits Lib.Bytes Lib.Varint Model.MsgSetReader Model.ReaderModel Spec.FetchSpec
  Proofs.ReaderBatch Proofs.ReaderProofs Proofs.ReaderLTS
  Proofs.ReaderPrim Proofs.ReaderV2 Proofs.ReaderV2Run Proofs.ReaderV2Sound Proofs.ReaderV2Final
  Proofs.ReaderV1 Proofs.ReaderV1Run Proofs.ReaderV1Final Proofs.ReaderMixedFinal
  Proofs.ReaderWrap Proofs.ReaderWrapInner Proofs.ReaderWrapRun Proofs.ReaderWrapFinal Proofs.ReaderClose
  Model.ReaderLookup Proofs.ReaderLookup.
Import ListNotations.
Open Scope Z_scope.

(* [formats_ordered f l] (Proofs/ReaderWrapFinal.v): the formats of the batches of l never
   decrease, starting at f — a partition's message format is only ever upgraded. *)

(* the property C02_batch_decode_exact: for every log, layout (record-less batches included), fetch offset
   with data at or after it, and legal cut, reading the batch to its end yields exactly the
   stored records in [o, f) where f >= o is Conn.offset after Batch.close, then io.EOF.
   NOT proved without size hypotheses (an encoder cannot write a key of 2^40 bytes): the proved
   form is C02_batch_decode_exact_ordered_partial below, which adds [Forall wire_fits l] (every
   length fits its wire field), 0 <= o, and makes the fuel bound explicit. *)
Definition C02_batch_decode_exact_full_statement : Prop :=
  forall (compress : Z -> list N -> list N) (decomp : Z -> list N -> option (list N)),
    (forall c x, decomp c (compress c x) = Some x) ->
  forall log l o k hwm,
    log_ok log -> layout_ok log l -> formats_ordered 0 l ->
    from_offset l o <> [] -> valid_cut compress l o k -> hwm <> o ->
    exists fuel0, forall fuel, (fuel0 <= fuel)%nat ->
      exists ms f,
        fetch_run decomp fuel o hwm (fetch_response compress l o k) (Z.of_nat k) false = Some (ms, EEOF, f)
        /\ fetch_ok log o ms f.

(* proved: the full statement restricted to RESPONSES made of v2 batches, COMPRESSED OR NOT (the
   batches before the fetch offset may be anything well formed: the layout may begin with v0/v1
   batches), whose sizes
   fit the wire format ([v2ok]: codec 0..4, lengths and counts below 2^30, record bodies below
   2^31, a record-less batch carries no payload), with decompression as an oracle obeying
   decomp c (compress c x) = Some x: for every such layout — compaction holes at the head,
   inside and at the tail of batches, record-less batches anywhere, any number in a row, any
   mix of compressed and uncompressed batches —, every fetch offset with data at or after it
   and every legal cut (any byte position that keeps the first batch whole), the model's
   Batch.ReadMessage loop returns exactly the stored records in [o, f), in order, with the
   stored offset / millisecond timestamp / key / value / headers, then io.EOF, and leaves
   Conn.offset = f >= o.  Uncompressed batches are delivered record by record up to the cut;
   a compressed batch is delivered whole or not at all.  [fetch_ok] with the exactness of
   [between] says: the records wholly contained in the received bytes with offset >= o, none
   else. *)
Theorem C02_batch_decode_exact_v2_partial :
  forall (compress : Z -> list N -> list N) (decomp : Z -> list N -> option (list N)),
  (forall c x, decomp c (compress c x) = Some x) ->
  forall log l o k hwm,
  log_ok log -> layout_ok log l ->
  Forall (fun b => pb_fmt b = 2) (from_offset l o) -> Forall (v2ok compress) (from_offset l o) ->
  from_offset l o <> [] -> valid_cut compress l o k -> hwm <> o ->
  forall fuel, (S (tokens [] (from_offset l o)) <= fuel)%nat ->
  exists ms f,
    fetch_run decomp fuel o hwm (fetch_response compress l o k) (Z.of_nat k) false = Some (ms, EEOF, f)
    /\ fetch_ok log o ms f.
Proof. exact batch_decode_exact_v2. Qed.
Print Assumptions C02_batch_decode_exact_v2_partial.

(* the link L1 -> L2: such a response is a legal answer in the sense of the delivery theorems *)
Theorem C02_contract_v2 :
  forall (compress : Z -> list N -> list N) (decomp : Z -> list N -> option (list N)),
  (forall c x, decomp c (compress c x) = Some x) ->
  forall log l k hwm fuel g,
  log_ok log -> layout_ok log l ->
  Forall (fun b => pb_fmt b = 2) (from_offset l (g_conn g)) -> Forall (v2ok compress) (from_offset l (g_conn g)) ->
  from_offset l (g_conn g) <> [] -> valid_cut compress l (g_conn g) k -> hwm <> g_conn g ->
  (S (tokens [] (from_offset l (g_conn g))) <= fuel)%nat ->
  ev_ok (fetch_run decomp fuel) log g
        (GFetch (FData hwm (fetch_response compress l (g_conn g) k) (Z.of_nat k) false)).
Proof. exact contract_v2. Qed.
Print Assumptions C02_contract_v2.

(* proved: the full statement restricted to layouts of UNCOMPRESSED v0 / v1 messages
   ([legacy_ok]: format 0 or 1, codec 0, keys and values below 2^29 bytes, v0 records carry no
   timestamp, no record headers): for every such layout (gaps between offsets included),
   every fetch offset o >= 0 with data at or after it — the batch containing o may begin before
   it: readMessageV1 skips those messages — and every legal cut, the Batch.ReadMessage loop
   returns exactly the stored records in [o, f), in order, fields as stored, then io.EOF, and
   leaves Conn.offset = f >= o. *)
Theorem C02_batch_decode_exact_legacy_uncompressed_partial :
  forall (compress : Z -> list N -> list N) (decomp : Z -> list N -> option (list N)) log l o k hwm,
  log_ok log -> layout_ok log l -> Forall legacy_ok l -> 0 <= o ->
  from_offset l o <> [] -> valid_cut compress l o k -> hwm <> o ->
  forall fuel, (length (all_items (from_offset l o)) + 4 <= fuel)%nat ->
  exists ms f,
    fetch_run decomp fuel o hwm (fetch_response compress l o k) (Z.of_nat k) false = Some (ms, EEOF, f)
    /\ fetch_ok log o ms f.
Proof. exact batch_decode_exact_legacy_uncompressed. Qed.
Print Assumptions C02_batch_decode_exact_legacy_uncompressed_partial.

Theorem C02_contract_legacy_uncompressed :
  forall (compress : Z -> list N -> list N) (decomp : Z -> list N -> option (list N)) log l k hwm fuel g,
  log_ok log -> layout_ok log l -> Forall legacy_ok l -> 0 <= g_conn g ->
  from_offset l (g_conn g) <> [] -> valid_cut compress l (g_conn g) k -> hwm <> g_conn g ->
  (length (all_items (from_offset l (g_conn g))) + 4 <= fuel)%nat ->
  ev_ok (fetch_run decomp fuel) log g
        (GFetch (FData hwm (fetch_response compress l (g_conn g) k) (Z.of_nat k) false)).
Proof. exact contract_legacy_uncompressed. Qed.
Print Assumptions C02_contract_legacy_uncompressed.

(* proved: the layout of a partition whose message format was upgraded — uncompressed v0/v1
   batches followed by v2 batches of any codec — with the fetch offset inside the v0/v1 part:
   the response is v0/v1 messages followed by all the v2 batches, cut anywhere legal *)
Theorem C02_batch_decode_exact_legacy_then_v2_partial :
  forall (compress : Z -> list N -> list N) (decomp : Z -> list N -> option (list N)),
  (forall c x, decomp c (compress c x) = Some x) ->
  forall log lg v2 o k hwm,
  log_ok log -> layout_ok log (lg ++ v2) ->
  Forall legacy_ok lg -> Forall (fun b => pb_fmt b = 2) v2 -> Forall (v2ok compress) v2 -> 0 <= o ->
  from_offset lg o <> [] -> valid_cut compress (lg ++ v2) o k -> hwm <> o ->
  forall fuel, (length (all_items (from_offset lg o)) + tokens [] v2 + 5 <= fuel)%nat ->
  exists ms f,
    fetch_run decomp fuel o hwm (fetch_response compress (lg ++ v2) o k) (Z.of_nat k) false = Some (ms, EEOF, f)
    /\ fetch_ok log o ms f.
Proof. exact batch_decode_exact_legacy_then_v2. Qed.
Print Assumptions C02_batch_decode_exact_legacy_then_v2_partial.

Theorem C02_contract_legacy_then_v2 :
  forall (compress : Z -> list N -> list N) (decomp : Z -> list N -> option (list N)),
  (forall c x, decomp c (compress c x) = Some x) ->
  forall log lg v2 k hwm fuel g,
  log_ok log -> layout_ok log (lg ++ v2) ->
  Forall legacy_ok lg -> Forall (fun b => pb_fmt b = 2) v2 -> Forall (v2ok compress) v2 -> 0 <= g_conn g ->
  from_offset lg (g_conn g) <> [] -> valid_cut compress (lg ++ v2) (g_conn g) k -> hwm <> g_conn g ->
  (length (all_items (from_offset lg (g_conn g))) + tokens [] v2 + 5 <= fuel)%nat ->
  ev_ok (fetch_run decomp fuel) log g
        (GFetch (FData hwm (fetch_response compress (lg ++ v2) (g_conn g) k) (Z.of_nat k) false)).
Proof. exact contract_legacy_then_v2. Qed.
Print Assumptions C02_contract_legacy_then_v2.

(* proved: v0/v1 batches whose messages are plain OR inside a compressed wrapper message
   ([lgc_ok]: format 0 or 1; codec 0, or codec 1..4 with the compressed inner message set below
   2^30 bytes; keys and values below 2^29 bytes; v1 inner offsets relative to the batch base, v0
   absolute), alone or followed by v2 batches of any codec, the fetch offset inside the v0/v1
   part: the reader decompresses the wrapper, rebases the inner offsets on the wrapper's offset,
   skips the inner messages below the fetch offset, and pops back to the response when the
   inner set is exhausted; a wrapper that the cut truncates is not delivered at all *)
Theorem C02_batch_decode_exact_legacy_wrapped_then_v2_partial :
  forall (compress : Z -> list N -> list N) (decomp : Z -> list N -> option (list N)),
  (forall c x, decomp c (compress c x) = Some x) ->
  forall o log lg v2 k hwm,
  log_ok log -> layout_ok log (lg ++ v2) ->
  Forall (lgc_ok compress) lg -> Forall (fun b => pb_fmt b = 2) v2 -> Forall (v2ok compress) v2 -> 0 <= o ->
  from_offset lg o <> [] -> valid_cut compress (lg ++ v2) o k -> hwm <> o ->
  forall fuel, (length (all_items (from_offset lg o)) + tokens [] v2 + 5 <= fuel)%nat ->
  exists ms f,
    fetch_run decomp fuel o hwm (fetch_response compress (lg ++ v2) o k) (Z.of_nat k) false = Some (ms, EEOF, f)
    /\ fetch_ok log o ms f.
Proof. exact batch_decode_exact_legacy_wrapped_then_v2. Qed.
Print Assumptions C02_batch_decode_exact_legacy_wrapped_then_v2_partial.

(* proved: C02_batch_decode_exact for EVERY layout with ordered formats whose sizes fit the wire
   format ([wire_fits]: [v2ok] for a v2 batch, [lgc_ok] for a v0/v1 batch), every fetch offset
   o >= 0 with data at or after it, every legal cut; fuel0 = length log + length l + 5 *)
Theorem C02_batch_decode_exact_ordered_partial :
  forall (compress : Z -> list N -> list N) (decomp : Z -> list N -> option (list N)),
  (forall c x, decomp c (compress c x) = Some x) ->
  forall log l o k hwm,
  log_ok log -> layout_ok log l -> formats_ordered 0 l -> Forall (wire_fits compress) l -> 0 <= o ->
  from_offset l o <> [] -> valid_cut compress l o k -> hwm <> o ->
  forall fuel, (length log + length l + 5 <= fuel)%nat ->
  exists ms f,
    fetch_run decomp fuel o hwm (fetch_response compress l o k) (Z.of_nat k) false = Some (ms, EEOF, f)
    /\ fetch_ok log o ms f.
Proof. exact batch_decode_exact_ordered. Qed.
Print Assumptions C02_batch_decode_exact_ordered_partial.

Theorem C02_contract_ordered :
  forall (compress : Z -> list N -> list N) (decomp : Z -> list N -> option (list N)),
  (forall c x, decomp c (compress c x) = Some x) ->
  forall log l k hwm fuel g,
  log_ok log -> layout_ok log l -> formats_ordered 0 l -> Forall (wire_fits compress) l -> 0 <= g_conn g ->
  from_offset l (g_conn g) <> [] -> valid_cut compress l (g_conn g) k -> hwm <> g_conn g ->
  (length log + length l + 5 <= fuel)%nat ->
  ev_ok (fetch_run decomp fuel) log g
        (GFetch (FData hwm (fetch_response compress l (g_conn g) k) (Z.of_nat k) false)).
Proof. exact contract_ordered. Qed.
Print Assumptions C02_contract_ordered.

(* the property C02_progress: a response whose first batch (whole, by the cut rule) contains a
   record >= o delivers at least one record.  The statement without size hypotheses is the
   Definition; the proved form is C02_progress_ordered_partial (every ordered layout whose sizes fit
   the wire format), after its special cases. *)
Definition C02_progress_full_statement : Prop :=
  forall (compress : Z -> list N -> list N) (decomp : Z -> list N -> option (list N)),
    (forall c x, decomp c (compress c x) = Some x) ->
  forall log l o k hwm fuel ms e f,
    log_ok log -> layout_ok log l -> formats_ordered 0 l ->
    valid_cut compress l o k -> hwm <> o ->
    (exists b r, hd_error (from_offset l o) = Some b /\ In r (pb_recs b) /\ o <= r_off r) ->
    fetch_run decomp fuel o hwm (fetch_response compress l o k) (Z.of_nat k) false = Some (ms, e, f) ->
    e <> EFuel -> ms <> [].

Theorem C02_progress_v2_partial :
  forall (compress : Z -> list N -> list N) (decomp : Z -> list N -> option (list N)),
  (forall c x, decomp c (compress c x) = Some x) ->
  forall log l o k hwm,
  log_ok log -> layout_ok log l ->
  Forall (fun b => pb_fmt b = 2) (from_offset l o) -> Forall (v2ok compress) (from_offset l o) ->
  from_offset l o <> [] -> valid_cut compress l o k -> hwm <> o ->
  (exists b r, hd_error (from_offset l o) = Some b /\ In r (pb_recs b) /\ o <= r_off r) ->
  forall fuel ms e f, (S (tokens [] (from_offset l o)) <= fuel)%nat ->
  fetch_run decomp fuel o hwm (fetch_response compress l o k) (Z.of_nat k) false = Some (ms, e, f) ->
  ms <> [].
Proof. exact progress_v2. Qed.
Print Assumptions C02_progress_v2_partial.

(* for v0/v1 the first batch of the response always reaches the fetch offset (its last record is
   at or after o), so no extra hypothesis is needed *)
Theorem C02_progress_legacy_uncompressed_partial :
  forall (compress : Z -> list N -> list N) (decomp : Z -> list N -> option (list N)) log l o k hwm,
  log_ok log -> layout_ok log l -> Forall legacy_ok l -> 0 <= o ->
  from_offset l o <> [] -> valid_cut compress l o k -> hwm <> o ->
  forall fuel ms e f, (length (all_items (from_offset l o)) + 4 <= fuel)%nat ->
  fetch_run decomp fuel o hwm (fetch_response compress l o k) (Z.of_nat k) false = Some (ms, e, f) ->
  ms <> [].
Proof. exact progress_legacy_uncompressed. Qed.
Print Assumptions C02_progress_legacy_uncompressed_partial.

Theorem C02_progress_legacy_then_v2_partial :
  forall (compress : Z -> list N -> list N) (decomp : Z -> list N -> option (list N)),
  (forall c x, decomp c (compress c x) = Some x) ->
  forall log lg v2 o k hwm,
  log_ok log -> layout_ok log (lg ++ v2) ->
  Forall legacy_ok lg -> Forall (fun b => pb_fmt b = 2) v2 -> Forall (v2ok compress) v2 -> 0 <= o ->
  from_offset lg o <> [] -> valid_cut compress (lg ++ v2) o k -> hwm <> o ->
  forall fuel ms e f, (length (all_items (from_offset lg o)) + tokens [] v2 + 5 <= fuel)%nat ->
  fetch_run decomp fuel o hwm (fetch_response compress (lg ++ v2) o k) (Z.of_nat k) false = Some (ms, e, f) ->
  ms <> [].
Proof. exact progress_legacy_then_v2. Qed.
Print Assumptions C02_progress_legacy_then_v2_partial.

Theorem C02_progress_legacy_wrapped_then_v2_partial :
  forall (compress : Z -> list N -> list N) (decomp : Z -> list N -> option (list N)),
  (forall c x, decomp c (compress c x) = Some x) ->
  forall o log lg v2 k hwm,
  log_ok log -> layout_ok log (lg ++ v2) ->
  Forall (lgc_ok compress) lg -> Forall (fun b => pb_fmt b = 2) v2 -> Forall (v2ok compress) v2 -> 0 <= o ->
  from_offset lg o <> [] -> valid_cut compress (lg ++ v2) o k -> hwm <> o ->
  forall fuel ms e f, (length (all_items (from_offset lg o)) + tokens [] v2 + 5 <= fuel)%nat ->
  fetch_run decomp fuel o hwm (fetch_response compress (lg ++ v2) o k) (Z.of_nat k) false = Some (ms, e, f) ->
  ms <> [].
Proof. exact progress_legacy_wrapped_then_v2. Qed.
Print Assumptions C02_progress_legacy_wrapped_then_v2_partial.

Theorem C02_progress_ordered_partial :
  forall (compress : Z -> list N -> list N) (decomp : Z -> list N -> option (list N)),
  (forall c x, decomp c (compress c x) = Some x) ->
  forall log l o k hwm,
  log_ok log -> layout_ok log l -> formats_ordered 0 l -> Forall (wire_fits compress) l -> 0 <= o ->
  valid_cut compress l o k -> hwm <> o ->
  (exists b r, hd_error (from_offset l o) = Some b /\ In r (pb_recs b) /\ o <= r_off r) ->
  forall fuel ms e f, (length log + length l + 5 <= fuel)%nat ->
  fetch_run decomp fuel o hwm (fetch_response compress l o k) (Z.of_nat k) false = Some (ms, e, f) ->
  ms <> [].
Proof. exact progress_ordered. Qed.
Print Assumptions C02_progress_ordered_partial.

(* C02_conn_offset_advances, in full and for every response whatsoever (any bytes, any cut, any
   codec behaviour): Conn.offset after Batch.close is never below the offset the fetch was
   issued at, and every delivered message has fetch offset <= offset < Conn.offset.  (That
   Conn.offset is exactly 1 + the last delivered offset or the batch's lastOffset + 1 over a
   compacted tail is the [fetch_ok] part of C02_batch_decode_exact.) *)
Theorem C02_conn_offset_advances : forall decomp fuel o hwm bytes remain late ms e f,
  fetch_run decomp fuel o hwm bytes remain late = Some (ms, e, f) ->
  o <= f /\ Forall (fun g => o <= g_off g < f) ms.
Proof.
  intros decomp fuel o hwm bytes remain late ms e f Hrun.
  destruct (new_batch_init o hwm bytes remain late) as (H1 & H2 & H3).
  destruct (batch_run_mono decomp fuel _ [] ms e f H3 Hrun) as [Ha Hb].
  rewrite H1 in Ha. rewrite H2 in Hb. split; [exact Ha|]. apply Hb. constructor.
Qed.
Print Assumptions C02_conn_offset_advances.


(* Batch.Close after the run ([fetch_close]: messages, last error, Conn.offset, Close's result,
   whether the library closes the connection) leaves the offset of the run *)
Theorem C02_close_keeps_run_offset : forall decomp fuel offset hwm i remain late,
  fetch_run decomp fuel offset hwm i remain late
  = match fetch_close decomp fuel offset hwm i remain late with
    | Some (ms, e, off, _, _) => Some (ms, e, off)
    | None => None
    end.
Proof.
  intros. unfold fetch_run, fetch_close. rewrite batch_run_b_run.
  destruct (batch_run_b decomp fuel _ []) as [[[ms e] b]|]; reflexivity.
Qed.
Print Assumptions C02_close_keeps_run_offset.

(* a connection cut inside the COMPRESSED payload of a v2 batch that the response announces whole
   ([cut_payload]: the batch header is current, its payload size fits the announced rest of the
   response, fewer bytes than the payload arrive): nothing of the batch is delivered, the run
   ends with an I/O error, Conn.offset after Close is the offset before the batch was entered —
   it never passes the records that did not arrive —, Close returns the error and the library
   closes the connection *)
Theorem C02_cut_in_compressed_payload : forall decomp fuel m m1 co off last late acc,
  m_empty m = false -> read_header (S fuel) m = MOk tt m1 -> cut_payload m1 ->
  exists b',
    batch_run_b decomp (S fuel) (mkBatch (Some m) true co off last None late) acc = Some (rev acc, EIO, b')
    /\ b_off b' = off /\ batch_close b' = (off, true) /\ batch_close_err b' = Some EIO.
Proof.
  intros decomp fuel m m1 co off last late acc He Hh Hc.
  destruct (msr_read_cut_payload decomp (S fuel) off m m1 He Hh Hc) as [m' Hm].
  exact (io_error_keeps_offset decomp fuel m m' co off last late acc Hm).
Qed.
Print Assumptions C02_cut_in_compressed_payload.

(* the same for a compressed v0 / v1 wrapper message ([cut_wrapper]: the wrapper's header is
   current, the value length n was read, the response announces n more bytes, fewer arrive) *)
Theorem C02_cut_in_compressed_wrapper : forall decomp fuel m m1 co off last late acc,
  m_empty m = false -> read_header (S (S fuel)) m = MOk tt m1 -> cut_wrapper m1 ->
  exists b',
    batch_run_b decomp (S (S fuel)) (mkBatch (Some m) true co off last None late) acc = Some (rev acc, EIO, b')
    /\ b_off b' = off /\ batch_close b' = (off, true) /\ batch_close_err b' = Some EIO.
Proof.
  intros decomp fuel m m1 co off last late acc He Hh Hc.
  destruct (msr_read_cut_wrapper decomp (S fuel) off m m1 He Hh Hc) as [m' Hm].
  exact (io_error_keeps_offset decomp (S fuel) m m' co off last late acc Hm).
Qed.
Print Assumptions C02_cut_in_compressed_wrapper.

(* the high watermark the Batch sees — compared with the fetch offset for the "nothing to read"
   shortcut of Conn.ReadBatchWith — is the high_watermark field of the partition header for
   every fetch version, never the last stable offset: a response of an open transaction
   (last stable offset below the high watermark) fetched at the last stable offset is decoded
   like any other *)
Theorem C02_hwm_of_header_v5 : forall h, hwm_of_header 5 h = fh_hwm h.
Proof. apply hwm_of_header_any. Qed.
Print Assumptions C02_hwm_of_header_v5.
Theorem C02_header_fields_do_not_matter : forall decomp fuel v offset h i remain late,
  fetch_close_hdr decomp fuel v offset h i remain late = fetch_close decomp fuel offset (fh_hwm h) i remain late.
Proof. intros. unfold fetch_close_hdr. rewrite hwm_of_header_any. reflexivity. Qed.
Print Assumptions C02_header_fields_do_not_matter.

(* Batch.Read / Conn.Read (io.Reader style): a read whose buffer is too short for the next value
   fails with io.ErrShortBuffer and is a no-op on the position — Batch.Offset and, after Close,
   Conn.offset are still the offset the batch had before the call, so the retry with a larger
   buffer on a new batch gets the very record that was not handed out; a read whose buffer is
   long enough hands out the value and continues as Batch.ReadMessage would *)
Theorem C02_short_read_keeps_position : forall decomp fuel b g b' n t,
  batch_read1 decomp fuel b = BMsg g b' -> n < len (g_val g) ->
  exists bs, batch_reads decomp fuel b (n :: t) = ([RShort], bs, true)
             /\ b_off bs = b_off b /\ fst (fst (reads_close bs true)) = b_off b.
Proof.
  intros decomp fuel b g b' n t Hr Hn. cbn [batch_reads]. rewrite Hr. replace (n <? len (g_val g)) with true by lia.
  eexists. split; [reflexivity|]. unfold set_b. cbn [b_off]. split; [reflexivity|].
  unfold reads_close. cbn [b_msgs b_off]. destruct (match b_msgs b' with Some m => msr_discard m | None => None end); reflexivity.
Qed.
Print Assumptions C02_short_read_keeps_position.
Theorem C02_long_read_delivers : forall decomp fuel b g b' n t,
  batch_read1 decomp fuel b = BMsg g b' -> len (g_val g) <= n ->
  batch_reads decomp fuel b (n :: t)
  = (let '(rs, b2, sh) := batch_reads decomp fuel b' t in (RVal (g_val g) :: rs, b2, sh)).
Proof.
  intros decomp fuel b g b' n t Hr Hn. cbn [batch_reads]. rewrite Hr. replace (n <? len (g_val g)) with false by lia. reflexivity.
Qed.
Print Assumptions C02_long_read_delivers.

(* instances (identity codec): a compressed v2 batch of three records after an uncompressed one,
   the whole response announced, the connection cut 10 bytes before its end / right after the
   compressed batch's header: the first batch is delivered, nothing of the cut one, Conn.offset
   stays at its base, Close fails, the connection is closed; the same for a v1 wrapper *)
Definition cut_layout : layout :=
  [mkPB 2 0 100 1 ts0 [mkRec 100 ts0 None (Some [1%N]) []; mkRec 101 ts0 None (Some [2%N]) []];
   mkPB 2 2 102 2 ts0 [mkRec 102 ts0 None (Some [3%N]) []; mkRec 103 ts0 None (Some [4%N]) []; mkRec 104 ts0 None (Some [5%N]) []]].
Definition cut_bytes := fetch_bytes no_compress cut_layout 100.
Example C02_regression_cut_compressed_v2 :
  fetch_close no_decomp 100 100 105 (firstn (length cut_bytes - 10) cut_bytes) (blen cut_bytes) false
  = Some (map msg_of (pb_recs (hd (mkPB 0 0 0 0 0 []) cut_layout)), EIO, 102, Some EIO, true)
  /\ fetch_close no_decomp 100 100 105 (firstn (length (enc_batch no_compress (hd (mkPB 0 0 0 0 0 []) cut_layout)) + 61) cut_bytes) (blen cut_bytes) false
  = Some (map msg_of (pb_recs (hd (mkPB 0 0 0 0 0 []) cut_layout)), EIO, 102, Some EIO, true).
Proof. split; vm_compute; reflexivity. Qed.
Definition cutw_layout : layout :=
  [mkPB 1 1 200 1 ts0 [mkRec 200 ts0 None (Some [1%N]) []; mkRec 201 ts0 None (Some [2%N]) []]].
Definition cutw_bytes := fetch_bytes no_compress cutw_layout 200.
Example C02_regression_cut_compressed_wrapper :
  fetch_close no_decomp 100 200 202 (firstn (length cutw_bytes - 5) cutw_bytes) (blen cutw_bytes) false
  = Some ([], EIO, 200, Some EIO, true).
Proof. vm_compute. reflexivity. Qed.

(* regression: the witnesses of the four defects fixed in /repo meet the property *)
Example C02_regression_empty_tail_batch :
  fetch_run no_decomp 100 100 101 (fetch_response no_compress f1_layout 100 61) 61 false = Some ([], EEOF, 105).
Proof. vm_compute. reflexivity. Qed.
Example C02_regression_consecutive_empty_batches :
  fetch_run no_decomp 100 90 131 (fetch_response no_compress p_layout 90 262) 262 false
  = Some ([msg_of (rec 90); msg_of (rec 130)], EEOF, 131).
Proof. exact p_run. Qed.
Example C02_regression_compacted_tail_then_partial_batch :
  fetch_run no_decomp 100 50 52 (fetch_response no_compress g_layout 50 135) 135 false = Some ([], EEOF, 51).
Proof. vm_compute. reflexivity. Qed.
Example C02_regression_compressed_compacted_tail :
  fetch_run no_decomp 100 49 51 (fetch_response no_compress c_layout 49 70) 70 false = Some ([], EEOF, 51).
Proof. vm_compute. reflexivity. Qed.

(* one generation of the background fetcher: for every sequence of broker / network answers
   (dial failures, ListOffsets values, data responses within the contract, kafka error codes,
   transport errors, io.ErrNoProgress, OffsetOutOfRange look-ups), the messages it sends are the
   stored records of a range [a, offset), in order, each once, fields as stored: a prefix of
   the records from a on; a is the start offset when that is an absolute offset *)
Theorem C02_generation_exact : forall run cfg log, increasing 0 log ->
  forall o evs g' outs,
  evs_ok run cfg log (gen_start o) evs -> gen_run run cfg (gen_start o) evs = Some (g', outs) ->
  exists a rest, msgs_of outs = mm (between a (g_offset g') log)
                 /\ mm (from a log) = msgs_of outs ++ rest /\ (0 <= o -> a = o).
Proof.
  intros run cfg log Hlog o evs g' outs Hok Hrun.
  destruct (gen_inv_prefix log Hlog o g' _ (gen_run_inv run cfg log Hlog o evs _ [] _ _ (gen_start_inv log o) Hok Hrun))
    as (a & rest & Ha & HE & Hp).
  exists a, (mm rest). auto.
Qed.
Print Assumptions C02_generation_exact.

(* whenever a generation is between two fetches, no stored record lies between its restart
   offset (last sent + 1) and Conn.offset, in either direction *)
Theorem C02_generation_conn_offset : forall run cfg log o evs g' outs,
  increasing 0 log ->
  evs_ok run cfg log (gen_start o) evs -> gen_run run cfg (gen_start o) evs = Some (g', outs) ->
  g_phase g' = PRead ->
  empty log (g_offset g') (g_conn g') /\ empty log (g_conn g') (g_offset g').
Proof.
  intros run cfg log o evs g' outs Hs Hok Hrun Hph.
  pose proof (gen_run_inv run cfg log Hs o evs _ [] _ _ (gen_start_inv log o) Hok Hrun) as (a & _ & _ & _ & Hh).
  apply Hh. left. exact Hph.
Qed.
Print Assumptions C02_generation_conn_offset.

(* C02_restart_offset_absolute_after_init: the FirstOffset / LastOffset placeholder a generation
   starts with is resolved by its first initialised connection ([resolved]: the ListOffsets
   answers of that connection) and at most once per Reader position: the restart offset of
   reader.run is then absolute, no later step (deliveries, error answers, OffsetOutOfRange
   handling, redials) brings a placeholder back, and the initialisation of a redial does not
   move it — a connection lost before the first message was delivered resumes at the offset
   the placeholder was FIRST resolved to, not at the partition's new first / last offset *)
Theorem C02_restart_offset_absolute_after_init : forall run cfg g first last first2 last2 g' outs,
  gen_step run cfg g (GInit first last first2 last2) = Some (g', outs) ->
  g_phase g = PInit -> g_phase g' = PRead -> 0 <= first -> 0 <= last ->
  0 <= g_offset g' /\ g_offset g' = resolved (g_offset g) first last.
Proof.
  intros run cfg g first last first2 last2 g' outs Hs Hp Hp' Hf Hl.
  rewrite (gen_step_init run cfg g first last first2 last2 Hp) in Hs. cbv zeta in Hs.
  destruct (_ || _) in Hs.
  - injection Hs as <- _. cbn [g_offset]. split; [apply resolved_abs; assumption|reflexivity].
  - destruct (c_oor_error cfg); injection Hs as <- _; cbn [g_phase] in Hp'; discriminate.
Qed.
Print Assumptions C02_restart_offset_absolute_after_init.
Theorem C02_restart_offset_stays_absolute : forall run cfg g ev g' outs,
  gen_step run cfg g ev = Some (g', outs) -> ev_abs run g ev -> 0 <= g_offset g -> 0 <= g_offset g'.
Proof. exact restart_offset_stays_absolute. Qed.
Print Assumptions C02_restart_offset_stays_absolute.
Theorem C02_redial_keeps_resolved_offset : forall run cfg g first last first2 last2 g' outs,
  gen_step run cfg g (GInit first last first2 last2) = Some (g', outs) ->
  g_phase g = PInit -> 0 <= g_offset g -> first <= g_offset g -> g_offset g' = g_offset g.
Proof.
  intros run cfg g first last first2 last2 g' outs Hs Hp Hab Hge.
  rewrite (gen_step_init run cfg g first last first2 last2 Hp) in Hs. cbv zeta in Hs.
  rewrite (resolved_fixed _ _ _ Hab Hge) in Hs. destruct (_ || _) in Hs; [injection Hs as <- _; reflexivity|].
  destruct (c_oor_error cfg); injection Hs as <- _; reflexivity.
Qed.
Print Assumptions C02_redial_keeps_resolved_offset.

(* the connection of a Reader is bound to the CONFIGURED partition: Dialer.LookupPartition takes
   the partition descriptor of the Metadata answer by its id ([lookup_partition]), so the
   dialled partition ([dialled_partition]: the id DialPartition puts in the Conn, named by every
   Fetch / ListOffsets) is the configured one, and the descriptor found (hence the leader
   dialled) is the same for every order in which the broker lists the partitions *)
Theorem C02_dialled_partition_is_configured : forall id ds p, dialled_partition id ds = Some p -> p = id.
Proof.
  intros id ds p. unfold dialled_partition. destruct (lookup_partition id ds) as [d|] eqn:E; [|discriminate].
  intros H. injection H as <-. apply (lookup_partition_id id ds d E).
Qed.
Print Assumptions C02_dialled_partition_is_configured.
Theorem C02_lookup_partition_any_order : forall id ds ds',
  NoDup (map pd_id ds) -> Permutation.Permutation ds ds' -> lookup_partition id ds' = lookup_partition id ds.
Proof. exact lookup_partition_permutation. Qed.
Print Assumptions C02_lookup_partition_any_order.

(* C02_delivery_exact: for every label sequence (FetchMessage entries and receptions, SetOffset
   calls, steps of any generation — stale ones answered arbitrarily, cancelled ones cut
   anywhere — with the CURRENT generation's answers within the contract), what FetchMessage
   returned since the last (re)start is a prefix of the stored records from some offset a:
   increasing, no gap, no duplicate, fields as stored *)
Theorem C02_delivery_exact : forall run cfg log, increasing 0 log ->
  forall s s0, reach run cfg log s s0 -> exists a rest, mm (from a log) = r_delivered s ++ rest.
Proof.
  intros run cfg log Hlog s s0 Hr. destruct (Z.eq_dec (r_version s) 0) as [E0|E0].
  - rewrite (not_started run cfg log Hlog s s0 Hr E0). exists 0, (mm (from 0 log)). reflexivity.
  - destruct (delivered_prefix run cfg log Hlog s s0 Hr E0) as (a & rest & _ & H & _). exists a, rest. exact H.
Qed.
Print Assumptions C02_delivery_exact.

(* SetOffset(o) with o different from the Reader's offset restarts the fetcher at o with nothing
   delivered yet ... *)
Theorem C02_setoffset_restarts : forall run cfg log s s0 o s' ret,
  reach run cfg log s s0 -> r_version s <> 0 -> o <> r_offset s ->
  r_step run cfg s (LSetOffset o) = RState s' ret ->
  reach run cfg log s' o /\ r_delivered s' = [] /\ r_version s' = r_version s + 1.
Proof.
  intros run cfg log s s0 o s' ret Hr Hn Ho Hs.
  pose proof (reach_step run cfg log s s0 (LSetOffset o) s' ret Hr I Hs) as Hr'.
  cbn [next_start r_step] in Hr', Hs.
  destruct (r_call s); [discriminate|].
  replace (o =? r_offset s) with false in * by lia.
  replace (r_version s =? 0) with false in * by lia.
  injection Hs as <- <-. split; [exact Hr'|]. split; reflexivity.
Qed.
Print Assumptions C02_setoffset_restarts.

(* ... and whatever is returned afterwards (stale queue entries are filtered by version) is a
   prefix of the stored records at or after o: the next message is the stored record with the
   least offset >= o *)
Theorem C02_setoffset_next : forall run cfg log, increasing 0 log ->
  forall s s0, reach run cfg log s s0 -> r_version s <> 0 -> 0 <= s0 ->
  exists rest, mm (from s0 log) = r_delivered s ++ rest.
Proof.
  intros run cfg log Hlog s s0 Hr Hn H0.
  destruct (delivered_prefix run cfg log Hlog s s0 Hr Hn) as (a & rest & Ha & H & _).
  rewrite <- (Ha H0). exists rest. exact H.
Qed.
Print Assumptions C02_setoffset_next.

(* Reader.offset IS the position of the next message: what FetchMessage returned since the last
   (re)start, followed by the stored records at or after Reader.offset, is the stored sequence from
   the start position.  (FetchMessage takes its snapshot of the version AFTER the lazy start, so
   the call that starts the fetcher moves Reader.offset like every other call: invariant
   [r_call s = Some snap -> snap = r_version s] of Proofs/ReaderLTS.v.) *)
Theorem C02_offset_is_position : forall run cfg log, increasing 0 log ->
  forall s s0, reach run cfg log s s0 -> r_version s <> 0 -> (0 <= s0 \/ r_delivered s <> []) ->
  exists a, (0 <= s0 -> a = s0) /\ mm (from a log) = r_delivered s ++ mm (from (r_offset s) log).
Proof.
  intros run cfg log Hlog s s0 Hr Hn Hpos.
  destruct (delivered_prefix run cfg log Hlog s s0 Hr Hn) as (a & rest & Ha & H & HO).
  exists a. split; [exact Ha|]. rewrite H, (rest_from_pos log a _ rest Hlog H), HO. do 3 f_equal.
  destruct Hpos as [H0|Hd]; [rewrite (Ha H0); reflexivity|apply pos_after_start, Hd].
Qed.
Print Assumptions C02_offset_is_position.

(* ... hence SetOffset(o) with o = Reader.offset, which changes nothing, is right to change
   nothing: whatever is returned afterwards by the same generation is the stored records at or
   after o, in order — the next message is the stored record with the least offset >= o *)
Theorem C02_setoffset_same_next : forall run cfg log, increasing 0 log ->
  forall s s0 o s1 later,
  reach run cfg log s s0 -> r_version s <> 0 -> r_call s = None -> (0 <= s0 \/ r_delivered s <> []) -> o = r_offset s ->
  reach run cfg log s1 s0 -> r_version s1 <> 0 -> r_delivered s1 = r_delivered s ++ later ->
  r_step run cfg s (LSetOffset o) = RState s None
  /\ exists rest, mm (from o log) = later ++ rest.
Proof.
  intros run cfg log Hlog s s0 o s1 later Hr Hn Hcall Hpos Ho Hr1 Hn1 Hd1. split.
  { cbn [r_step]. rewrite Hcall. replace (o =? r_offset s) with true by lia. reflexivity. }
  rewrite Ho. apply (later_from_offset run cfg log Hlog s s0 s1 later); assumption.
Qed.
Print Assumptions C02_setoffset_same_next.

(* the contract composes from one response (the heart of the no-gap / no-duplicate argument) *)
Theorem C02_fetch_extends : forall log lo0 a l c ms f,
  increasing lo0 log -> a <= l -> empty log l c -> empty log c l -> fetch_ok log c ms f ->
  mm (between a l log) ++ ms = mm (between a (next_off ms l) log) /\ a <= next_off ms l /\ l <= next_off ms l
  /\ empty log (next_off ms l) f /\ empty log f (next_off ms l).
Proof. exact fetch_extends. Qed.
Print Assumptions C02_fetch_extends.

Definition ex_recs : list record :=
  [mkRec 10 ts0 (Some [1%N;2%N]) (Some [3%N]) [([104%N], [118%N])];
   mkRec 12 (ts0 + 5) None (Some []) [];
   mkRec 13 (ts0 + 6) (Some [7%N]) None []].
(* a v1 gzip-style wrapper (identity codec), a v2 batch with head and tail holes, a compressed v2
   batch *)
Definition ex_layout : layout :=
  [mkPB 1 1 3 2 ts0 [mkRec 3 ts0 (Some [9%N]) (Some [8%N]) []; mkRec 5 (ts0+1) None (Some [6%N]) []];
   mkPB 2 0 8 6 ts0 ex_recs;
   mkPB 2 2 15 3 (ts0 + 7) [mkRec 16 (ts0 + 7) (Some [1%N]) (Some [2%N]) []]].

Example C02_instance_whole :
  fetch_run no_decomp 100 4 19 (fetch_response no_compress ex_layout 4 1000) (blen (fetch_bytes no_compress ex_layout 4)) false
  = Some (map msg_of (from 4 (layout_records ex_layout)), EEOF, 19).
Proof. vm_compute. reflexivity. Qed.

(* cut in the middle of the second record of the v2 batch: record-granular delivery *)
Example C02_instance_cut :
  exists ms, fetch_run no_decomp 100 4 19 (fetch_response no_compress ex_layout 4 185) 185 false = Some (ms, EEOF, 11)
             /\ fetch_okb (layout_records ex_layout) 4 ms 11 = true /\ length ms = 2%nat.
Proof. eexists. split; [vm_compute; reflexivity|]. split; vm_compute; reflexivity. Qed.

(* the Reader LTS: start, a fetch, two reads, SetOffset(12), the stale answer ignored *)
Definition ex_run := fetch_run no_decomp 100.
Definition ex_cfg := mkCfg 3 false.
Definition ex_data (o : Z) := FData 19 (fetch_bytes no_compress ex_layout o) (blen (fetch_bytes no_compress ex_layout o)) false.
(* LTake outside a call stands for a new FetchMessage call: LBegin first *)
Fixpoint run_labels (s : rstate) (ls : list label) {struct ls} : option rstate :=
  match ls with
  | [] => Some s
  | l :: t =>
    let s1 := match l, r_call s with
              | LTake, None => match r_step ex_run ex_cfg s LBegin with RState s' _ => s' | _ => s end
              | _, _ => s
              end in
    match r_step ex_run ex_cfg s1 l with RState s' _ => run_labels s' t | _ => None end
  end.
Example C02_instance_reader :
  option_map r_delivered
    (run_labels r_init
       [LBegin; LGen 1 (GInit 3 19 3 19) 99; LGen 1 (GFetch (ex_data 3)) 99; LTake; LTake;
        LSetOffset 12; LGen 1 (GFetch (ex_data 19)) 99;
        LGen 2 (GInit 3 19 3 19) 99; LGen 2 (GFetch (ex_data 12)) 99;
        LTake; LTake; LTake; LTake; LTake; LTake])
  = Some (map msg_of (firstn 2 (from 12 (layout_records ex_layout)))).
Proof. vm_compute. reflexivity. Qed.

(* SetOffset(12), ONE read (the call that starts the fetcher returns the record 12), SetOffset(12)
   again: Reader.offset was 13, so the fetcher restarts at 12 (generation 2) *)
Example C02_instance_setoffset_after_one_read :
  option_map (fun s => (r_version s, r_offset s, map g_off (r_delivered s)))
    (run_labels r_init
       [LSetOffset 12; LBegin; LGen 1 (GInit 3 19 3 19) 99; LGen 1 (GFetch (ex_data 12)) 99; LTake; LSetOffset 12])
  = Some (2, 12, [])
  /\ option_map (fun s => (r_version s, r_offset s, map g_off (r_delivered s)))
    (run_labels r_init
       [LSetOffset 12; LBegin; LGen 1 (GInit 3 19 3 19) 99; LGen 1 (GFetch (ex_data 12)) 99; LTake])
  = Some (1, 13, [12]).
Proof.
  (* the response is encoded once for the two runs *)
  remember (ex_data 12) as d eqn:E. vm_compute in E. subst d. split; vm_compute; reflexivity.
Qed.

(* the synchronisation skeleton the model assumes (which Go critical section / channel operation
   each step of Model/Lifecycle.v, Model/GroupReader.v, Model/ReaderModel.v stands for;
   reader_assumptions: Model/SkeletonAssumptions.v)
   holds of /repo's CURRENT source: call/access facts regenerated by harness/cmd/vskel on every run. *)
From KV Require Model.SkeletonAssumptions Gen.Skeleton Proofs.SkeletonReader.
Theorem C02_skeleton_assumptions :
  KV.Model.SkeletonAssumptions.reader_assumptions_hold KV.Gen.Skeleton.calls KV.Gen.Skeleton.accesses = true.
Proof. exact KV.Proofs.SkeletonReader.reader_skeleton_ok. Qed.
Print Assumptions C02_skeleton_assumptions.
