(* Properties/C13.v — Partition balancers return offered partitions and match the
   reference hashes.  A sheet of statements: each proof is the last step from the lemmas of
   Proofs/BalancersProofs.v. *)
From Coq Require Import List NArith ZArith Bool Lia.
From KV Require Import Lib.Bits Lib.Crc Model.Balancers Spec.RefPartitioners Proofs.BalancersProofs.
Import ListNotations.

(* ---- every balancer returns one of the partitions it was offered ---- *)
Theorem C13_in_range_hash : forall s key n p s',
  (0 < n)%nat -> (Z.of_nat n < ZM31)%Z ->
  hash_step s key (offered n) = Some (p, s') -> In p (offered n).
Proof.
  intros s key n p s' Hn Hlt. destruct key as [k|]; [|apply rr_step_in].
  rewrite hash_step_keyed by assumption. intros [= <- _]. apply In_offered, hash_index_range. lia.
Qed.
Print Assumptions C13_in_range_hash.

Theorem C13_in_range_refhash : forall r key n p,
  (0 < n)%nat -> (Z.of_nat n < ZM31)%Z ->
  refhash_balance r key (offered n) = Some p -> In p (offered n).
Proof.
  intros r key n p Hn Hlt. destruct key as [k|]; [|apply random_pick_in].
  rewrite refhash_keyed by assumption. intros [= <-]. apply In_offered, refhash_index_range. lia.
Qed.
Print Assumptions C13_in_range_refhash.

Theorem C13_in_range_crc32 : forall cons r key ps p,
  (Z.of_nat (length ps) < ZM31)%Z -> crc32_balance cons r key ps = Some p -> In p ps.
Proof. intros cons r key ps p Hlen. rewrite crc32_balance_pick. apply hashed_pick_in, Hlen. Qed.
Print Assumptions C13_in_range_crc32.

Theorem C13_in_range_murmur2 : forall cons r key ps p,
  (Z.of_nat (length ps) < ZM31)%Z -> murmur2_balance cons r key ps = Some p -> In p ps.
Proof. intros cons r key ps p Hlen. rewrite murmur2_balance_pick. apply hashed_pick_in, Hlen. Qed.
Print Assumptions C13_in_range_murmur2.

Theorem C13_in_range_rr : forall s ps p s', rr_step s ps = Some (p, s') -> In p ps.
Proof. exact rr_step_in. Qed.
Print Assumptions C13_in_range_rr.

Theorem C13_in_range_lb : forall cs sz n p cs',
  (0 < n)%nat -> lb_inv cs -> lb_step cs sz (offered n) = Some (p, cs') -> In p (offered n).
Proof.
  intros cs sz n p cs' Hn Hinv. destruct (lb_step_pick cs sz n Hn Hinv) as [-> [Hi _]].
  intros [= <- _]. apply In_offered. lia.
Qed.
Print Assumptions C13_in_range_lb.

(* ---- the keyed balancers are pure functions of (key, n) equal to the reference clients ---- *)
(* Hash = Sarama NewHashPartitioner: |int32(fnv1a(key))| mod n; the state is untouched. *)
Theorem C13_hash_is_sarama : forall s key n,
  bytes_ok key -> (0 < n)%nat -> (Z.of_nat n < ZM31)%Z ->
  hash_step s (Some key) (offered n) = Some (sarama_hash key (Z.of_nat n), s).
Proof.
  intros s key n _ Hn Hlt. rewrite hash_step_keyed, hash_is_sarama by (assumption || lia). reflexivity.
Qed.
Print Assumptions C13_hash_is_sarama.

(* ReferenceHash = Sarama NewReferenceHashPartitioner: (fnv1a(key) mod 2^31) mod n. *)
Theorem C13_refhash_is_sarama_reference : forall r key n,
  bytes_ok key -> (0 < n)%nat -> (Z.of_nat n < ZM31)%Z ->
  refhash_balance r (Some key) (offered n) = Some (sarama_refhash key (Z.of_nat n)).
Proof.
  intros r key n _ Hn Hlt. rewrite refhash_keyed, refhash_is_sarama by (assumption || lia). reflexivity.
Qed.
Print Assumptions C13_refhash_is_sarama_reference.

(* CRC32Balancer = librdkafka consistent (Consistent) / consistent_random (default):
   crc32(key) mod n indexes the offered list, unless the key is nil/empty and
   Consistent is off (then a random offered partition, see C13_in_range_crc32). *)
Theorem C13_crc32_is_librdkafka : forall cons r key ps,
  ps <> [] -> (Z.of_nat (length ps) < ZM31)%Z ->
  (key_bytes key <> [] \/ cons = true) ->
  crc32_balance cons r key ps =
  Some (nthZ ps (Z.to_N (rdkafka_consistent (key_bytes key) (Z.of_nat (length ps))))).
Proof.
  intros cons r key ps Hne Hlen Hk. rewrite crc32_balance_pick.
  replace (_ && negb cons) with false.
  - rewrite hashed_pick_hash by assumption. unfold rdkafka_consistent, lenN.
    rewrite <- nat_N_Z, <- N2Z.inj_mod, N2Z.id. reflexivity.
  - destruct Hk as [Hk | ->]; [|symmetry; apply andb_false_r].
    destruct (key_bytes key); [congruence|reflexivity].
Qed.
Print Assumptions C13_crc32_is_librdkafka.

(* Murmur2Balancer = Java default partitioner: toPositive(murmur2(key)) % n, with
   Java's signed-int murmur2; nil key without Consistent is random, an empty
   non-nil key is always hashed. *)
Theorem C13_murmur2_is_java : forall cons r key ps,
  ps <> [] -> (Z.of_nat (length ps) < ZM31)%Z -> bytes_ok (key_bytes key) ->
  (key <> None \/ cons = true) ->
  murmur2_balance cons r key ps =
  Some (nthZ ps (Z.to_N (java_partition (key_bytes key) (Z.of_nat (length ps))))).
Proof.
  intros cons r key ps Hne Hlen Hok Hk. rewrite murmur2_balance_pick.
  replace (_ && negb cons) with false.
  - rewrite hashed_pick_hash, java_partition_index by (assumption || apply lenN_pos, Hne).
    unfold lenN. rewrite nat_N_Z. reflexivity.
  - destruct Hk as [Hk | ->]; [|symmetry; apply andb_false_r].
    destruct key; [reflexivity|congruence].
Qed.
Print Assumptions C13_murmur2_is_java.

Theorem C13_murmur2_hash_is_java : forall data, bytes_ok data -> u32 (java_murmur2 data) = murmur2 data.
Proof. exact murmur2_is_java. Qed.
Print Assumptions C13_murmur2_hash_is_java.

(* ---- RoundRobin: call i goes to ps[(i / ChunkSize) mod n]; the uint64 counter (after
        the fix of the 2^32 wrap, known_findings.json F6) bounds this to 2^64 calls,
        ChunkSize being a Go int is below 2^63 ---- *)
Theorem C13_rr_chunks : forall chunk ps m,
  ps <> [] -> (rr_eff_chunk chunk < ZM64)%Z -> (N.of_nat m < M64)%N ->
  exists s', rr_run m (rr_init chunk) ps =
    Some (map (fun i => nthZ ps ((N.of_nat i / Z.to_N (rr_eff_chunk chunk)) mod lenN ps)) (seq 0 m), s').
Proof.
  intros chunk ps m Hne Hc Hm. eexists.
  rewrite rr_run_spec; cbn [rr_init rr_chunk rr_counter]; try assumption; try lia. reflexivity.
Qed.
Print Assumptions C13_rr_chunks.

(* the same from any counter value (the harness presets it across 2^32 and 2^63) *)
Theorem C13_rr_chunks_from : forall m s ps,
  ps <> [] -> (rr_eff_chunk (rr_chunk s) < ZM64)%Z -> (rr_counter s + N.of_nat m < M64)%N ->
  rr_run m s ps =
  Some (map (fun i => nthZ ps (((rr_counter s + N.of_nat i) / Z.to_N (rr_eff_chunk (rr_chunk s))) mod lenN ps))
            (seq 0 m),
        {| rr_chunk := (if Nat.eqb m 0 then rr_chunk s else rr_eff_chunk (rr_chunk s));
           rr_counter := rr_counter s + N.of_nat m |}).
Proof. exact rr_run_spec. Qed.
Print Assumptions C13_rr_chunks_from.

(* ---- LeastBytes refines the specification "pick any partition with the fewest bytes
        routed since the partition count last changed" (no uint64 overflow) ---- *)
Theorem C13_lb_least : forall calls cs,
  lb_inv cs -> Forall (fun c => (0 < fst c)%nat) calls ->
  (forall b, In b (map snd cs) -> (b + sum_sizes calls < M64)%N) ->
  (sum_sizes calls < M64)%N ->
  exists outs cs', lb_run cs calls = Some (outs, cs') /\ lb_admissible (map snd cs) calls outs.
Proof. exact lb_run_admissible. Qed.
Print Assumptions C13_lb_least.

(* ---- non-vacuity ---- *)
Example C13_hash_example :
  hash_step (rr_init 0) (Some [104; 101; 108; 108; 111]%N) (offered 7) = Some (2%Z, rr_init 0)
  /\ bytes_ok [104; 101; 108; 108; 111]%N.
Proof. split; [vm_compute; reflexivity | repeat constructor]. Qed.

Example C13_rr_example :
  rr_run 7 (rr_init 2) [10; 20; 30]%Z = Some ([10; 10; 20; 20; 30; 30; 10]%Z, {| rr_chunk := 2; rr_counter := 7 |}).
Proof. vm_compute. reflexivity. Qed.

Example C13_lb_example :
  lb_inv [] /\ lb_run [] [(3%nat, 10%N); (3%nat, 5%N); (3%nat, 7%N); (2%nat, 1%N)] = Some ([0; 1; 2; 0]%Z, [(0%Z, 1%N); (1%Z, 0%N)]).
Proof. split; vm_compute; reflexivity. Qed.
