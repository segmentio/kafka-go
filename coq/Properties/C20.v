(* Properties/C20.v — malformed length fields cannot crash the client.
   Statements; each proof is a lemma of Proofs/ or a few steps from one. *)
From Coq Require Import List NArith ZArith Bool Lia.
From KV Require Import Lib.Bits Lib.Bytes Lib.Varint Model.Schema Gen.Schemas
  Proofs.SchemaBase Proofs.SchemaDefs Proofs.SchemaPrims Proofs.SchemaTotal Proofs.SchemaGen Proofs.SchemaAlloc Proofs.SchemaC20.
Import ListNotations.

(* For EVERY byte string: ReadResponse returns a message or an error (or reports that the
   memory budget would be exceeded, see below) — never a panic, never an endless loop
   (OutOfFuel is the model's outcome for a wire-counted loop that makes no progress); a
   message is only returned after exactly the declared frame was consumed. *)
Theorem C20_total : forall c flex t input,
  schema_ok flex t = true -> bytes_ok input ->
  match read_response c flex t input with
  | Ok _ s' =>
      exists size, (4 <= length input)%nat /\ size = get_bes 4 (firstn 4 input) /\ (4 <= size)%Z /\
        (4 + size <= Z.of_nat (length input))%Z /\
        d_in s' = skipn (4 + Z.to_nat size) input /\ d_remain s' = 0%Z
  | Err _ _ _ => True
  | Oom => True
  | Panic => False
  | OutOfFuel => False
  end.
Proof. exact read_response_total. Qed.
Print Assumptions C20_total.

(* the same for any value of any type, from any decoder state inside an int32-sized frame:
   a successful decode consumed at least min_size bytes of the input and exactly what it
   subtracted from the frame's remaining size *)
Theorem C20_decode_total : forall c flex t, schema_ok flex t = true ->
  forall s, small s -> good (N.to_nat (min_size flex t)) s (decode c flex t s).
Proof. intros c flex t Hok s Hs. exact (proj1 (decode_acct c flex t Hok s Hs)). Qed.
Print Assumptions C20_decode_total.

(* it applies to every message type registered in /repo/protocol today *)
Theorem C20_every_registered_type : forall c m input,
  In m schemas -> bytes_ok input ->
  match read_response c m.(ms_flex) m.(ms_ty) input with
  | Panic => False | OutOfFuel => False | _ => True
  end.
Proof. exact every_registered_type_total. Qed.
Print Assumptions C20_every_registered_type.

(* ---- "never allocates memory out of proportion to the bytes actually received" ----
   What holds: every allocation is paid for by frame bytes the decoder goes on to consume, except
   at most one per nesting level made just before the frame's remaining size is exhausted or an
   error stops the decode.  Hence, for EVERY byte string, ReadResponse allocates at most
   2 * K(t) bytes per byte of the DECLARED frame size (K(t): element sizes summed along the
   deepest nesting path of the schema; at most 217 for the registered types), and with a budget
   above that it never reports Oom. *)
Theorem C20_alloc_bounded_by_declared_size : forall c flex t input,
  schema_ok flex t = true -> bytes_ok input ->
  let size := get_bes 4 (firstn 4 input) in
  let K := Z.max 1 (kfac t) in
  match read_response c flex t input with
  | Ok _ s' => (zal s' <= 2 * K * Z.max 0 size)%Z
  | Err _ _ al => (Z.of_N al <= 2 * K * Z.max 0 size)%Z
  | Oom => (Z.of_N (budget c) < 2 * K * Z.max 0 size)%Z
  | Panic => True
  | OutOfFuel => True
  end.
Proof. exact response_alloc_bounded. Qed.
Print Assumptions C20_alloc_bounded_by_declared_size.

(* the invariant behind it, for any value of any type from any decoder state inside a frame *)
Theorem C20_decode_alloc_accounting : forall c flex t, schema_ok flex t = true ->
  forall s, small s -> nonneg s -> gab c (N.to_nat (min_size flex t)) (kfac t) s (decode c flex t s).
Proof. intros c flex t Hok s Hsm Hs. exact (acct_gab c _ _ _ _ (decode_acct c flex t Hok s Hsm) Hs). Qed.
Print Assumptions C20_decode_alloc_accounting.

(* The property's clause, under the hypothesis that the whole frame has arrived (then the
   declared size is at most the bytes received): allocation is proportional to the bytes
   received.  Without that hypothesis the clause is false: C20_alloc_proportional_refuted, on the
   witness of C20_alloc_follows_declared_size_refuted. *)
Definition C20_alloc_proportional_full_statement : Prop := forall c flex t input,
  schema_ok flex t = true -> bytes_ok input ->
  match read_response c flex t input with
  | Ok _ s' => (zal s' <= 2 * Z.max 1 (kfac t) * Z.of_nat (length input))%Z
  | Err _ _ al => (Z.of_N al <= 2 * Z.max 1 (kfac t) * Z.of_nat (length input))%Z
  | Oom => (Z.of_N (budget c) < 2 * Z.max 1 (kfac t) * Z.of_nat (length input))%Z
  | Panic => True | OutOfFuel => True
  end.

Theorem C20_alloc_proportional_partial : forall c flex t input,
  schema_ok flex t = true -> bytes_ok input -> (4 <= length input)%nat ->
  (4 + get_bes 4 (firstn 4 input) <= Z.of_nat (length input))%Z ->
  let K := Z.max 1 (kfac t) in
  match read_response c flex t input with
  | Ok _ s' => (zal s' <= 2 * K * Z.of_nat (length input))%Z
  | Err _ _ al => (Z.of_N al <= 2 * K * Z.of_nat (length input))%Z
  | Oom => (Z.of_N (budget c) < 2 * K * Z.of_nat (length input))%Z
  | Panic => True
  | OutOfFuel => True
  end.
Proof.
  intros c flex t input Hok Hb Hl Hc K. pose proof (response_alloc_bounded c flex t input Hok Hb) as H.
  cbv zeta in H. fold K in H. pose proof (kfac_nonneg t). assert (1 <= K)%Z by (unfold K; lia).
  destruct (read_response c flex t input); try exact I; nia.
Qed.
Print Assumptions C20_alloc_proportional_partial.

(* for every message type registered in /repo/protocol today, with the constant computed *)
Theorem C20_every_registered_type_alloc : forall c m input,
  In m schemas -> bytes_ok input ->
  let size := get_bes 4 (firstn 4 input) in
  match read_response c m.(ms_flex) m.(ms_ty) input with
  | Ok _ s' => (zal s' <= 2 * KMAX * Z.max 0 size)%Z
  | Err _ _ al => (Z.of_N al <= 2 * KMAX * Z.max 0 size)%Z
  | Oom => (Z.of_N (budget c) < 2 * KMAX * Z.max 0 size)%Z
  | Panic => False
  | OutOfFuel => False
  end.
Proof. exact every_registered_type_alloc. Qed.
Print Assumptions C20_every_registered_type_alloc.

(* Residual (known finding F8b): allocation is bounded by the DECLARED frame size, not by
   the bytes received.  Fourteen bytes make the decoder ask for 2 GiB. *)
Theorem C20_alloc_follows_declared_size_refuted :
  exists t input, schema_ok false t = true /\ length input = 14%nat /\ bytes_ok input /\
    read_response {| budget := 1073741824 |} false t input = Oom.
Proof. exists f8b_ty, f8b_input. exact f8b_oom. Qed.
Print Assumptions C20_alloc_follows_declared_size_refuted.

(* the full statement is refuted by the same witness: 14 bytes received, 2 * K * 14 = 28 < budget, yet Oom *)
Theorem C20_alloc_proportional_refuted : ~ C20_alloc_proportional_full_statement.
Proof.
  intros H. destruct f8b_oom as [Hok [_ [Hb E]]].
  specialize (H {| budget := 1073741824 |} false f8b_ty f8b_input Hok Hb).
  rewrite E in H. vm_compute in H. discriminate H.
Qed.
Print Assumptions C20_alloc_proportional_refuted.

(* non-vacuity: a response announcing 2^31-1 array elements in 12 bytes is an error, not an allocation *)
Example C20_example :
  read_response {| budget := 1073741824 |} false (TStruct [TArray false 40%N (TStruct [TInt 4; TString false] [])] [])
    [0; 0; 0; 8; 0; 0; 0; 1; 127; 255; 255; 255]%N = Err EEof 0 0.
Proof. vm_compute. reflexivity. Qed.

(* ---- the raw (SaslHandshake v0) SASL authentication response: the one response the Transport
   reads outside ReadResponse.  Statements in Properties/C20sasl.v (over Model/Sasl.v); restated
   here so that they are part of this property's obligations. ---- *)
From KV Require Model.Sasl Proofs.SaslRawRead Properties.C20sasl.

Theorem C20_raw_sasl_alloc_proportional :
  forall announced avail e,
    let r := Sasl.raw_read Sasl.Transport announced avail e in
    (Sasl.rr_alloc r <= 10 * Sasl.rr_received r + 2560)%N /\
    (Sasl.rr_received r <= N.of_nat (length avail))%N /\
    (0 <= announced -> Z.of_N (Sasl.rr_received r) <= announced)%Z.
Proof. exact C20sasl.C20_raw_sasl_alloc_proportional_go. Qed.
Print Assumptions C20_raw_sasl_alloc_proportional.
