(* Properties/C04.v — every frame on the wire is the canonical Kafka encoding;
   decoding inverts it.  A statement sheet: each proof is a lemma of Proofs/ or a few lines over them. *)
From Coq Require Import List NArith ZArith Bool.
From KV Require Import Lib.Bits Lib.Bytes Lib.Varint Model.Schema Gen.Schemas Golden.Schemas
  Proofs.SchemaBase Proofs.SchemaDefs Proofs.SchemaPrims Proofs.SchemaRoundtrip Proofs.SchemaFrames Proofs.SchemaGen.
Import ListNotations.

(* the schemas the code derives from its struct tags today are the pinned Kafka grammar *)
Theorem C04_canonical : schemas = golden_schemas.
Proof. exact gen_is_golden. Qed.
Print Assumptions C04_canonical.

(* every registered message type is a struct whose arrays have elements of at least
   one wire byte, sane int widths, distinct non-negative tag ids, tagged fields only in
   flexible versions, no zero-size field the encoder would skip but the decoder read *)
Theorem C04_schemas_ok : schemas_ok schemas = true.
Proof. exact gen_schemas_ok. Qed.
Print Assumptions C04_schemas_ok.

(* decode (encode v) = canon v, generic in the schema *)
Theorem C04_roundtrip : forall c flex t,
  schema_ok flex t = true -> flex && is_marker t = false ->
  forall v bs, wfb flex t v = true -> encode flex t v = Some bs ->
    bytes_ok bs /\ (min_size flex t <= N.of_nat (length bs))%N /\
    forall rest extra al, (0 <= extra)%Z -> (lenZ bs + extra < ZM31)%Z ->
      (al + alloc_of t v <= budget c)%N ->
      decode c flex t (st (bs ++ rest) (lenZ bs + extra) al)
      = Ok (canon t v) (st rest extra (al + alloc_of t v)).
Proof. exact roundtrip. Qed.
Print Assumptions C04_roundtrip.

Theorem C04_frame_wellformed : forall body, (Z.of_nat (length body) < ZM31)%Z ->
  frame body = put_bes 4 (Z.of_nat (length body)) ++ body /\
  length (frame body) = (4 + length body)%nat /\
  get_bes 4 (firstn 4 (frame body)) = Z.of_nat (length body).
Proof. exact frame_wellformed. Qed.
Print Assumptions C04_frame_wellformed.

(* a request is size ++ api key ++ version ++ correlation id ++ client id ++ body, the
   client id a (nullable, in flexible versions) int16-prefixed string followed there
   by an empty tag buffer; the body is the encoding of the value *)
Theorem C04_request_frame : forall flex t key ver corr client v f,
  write_request flex t key ver corr client v = Some f ->
  exists b, encode flex t v = Some b /\
    f = frame (enc_i16 key ++ enc_i16 ver ++ enc_i32 corr ++
               (if flex
                then (match client with [] => enc_i16 (-1) | _ => enc_i16 (lenZ client) ++ client end) ++ put_uvarint 0
                else enc_i16 (lenZ client) ++ client) ++ b).
Proof. exact write_request_shape. Qed.
Print Assumptions C04_request_frame.

Theorem C04_response_frame : forall flex t corr v f,
  write_response flex t corr v = Some f ->
  exists b, encode flex t v = Some b /\
    f = frame (enc_i32 corr ++ (if flex then put_uvarint 0 else []) ++ b).
Proof. exact write_response_shape. Qed.
Print Assumptions C04_response_frame.

(* ReadResponse on a frame WriteResponse produced returns the correlation id and the
   (canonical) value and consumes exactly that frame: the rest of the stream is untouched *)
Theorem C04_response_consumes_one_frame : forall c flex fields tagged corr v f rest,
  let t := TStruct fields tagged in
  schema_ok flex t = true -> wfb flex t v = true -> in_signed 4 corr ->
  write_response flex t corr v = Some f ->
  (Z.of_nat (length f) < ZM31)%Z ->
  (alloc_of t v <= budget c)%N ->
  read_response c flex t (f ++ rest) = Ok (corr, canon t v) (st rest 0 (alloc_of t v)).
Proof. exact response_roundtrip. Qed.
Print Assumptions C04_response_consumes_one_frame.

(* non-vacuity: a flexible struct with a tagged field, a nullable string, a nested array *)
Definition ex_ty : ty :=
  TStruct [TInt 2; TString true; TArray false 24%N (TStruct [TInt 4; TBytes true] [])] [(0%Z, TInt 8)].
Definition ex_val : value :=
  VStruct [VInt (-2); VString []; VArray (Some [VStruct [VInt 7; VBytes None] []; VStruct [VInt (-1); VBytes (Some [1; 2; 3]%N)] []]) 0]
          [VInt 9000000000].
Definition ex_frame : option (list N) := Eval vm_compute in write_response true ex_ty 77 ex_val.
Example C04_example :
  schema_ok true ex_ty = true /\ wfb true ex_ty ex_val = true /\
  write_response true ex_ty 77 ex_val = ex_frame /\
  match ex_frame with
  | Some f => read_response {| budget := 1000 |} true ex_ty (f ++ [9; 9]%N)
              = Ok (77%Z, canon ex_ty ex_val) (st [9; 9]%N 0 (alloc_of ex_ty ex_val))
  | None => False
  end.
Proof. repeat split; vm_compute; reflexivity. Qed.

(* "skipping tagged fields it does not know"
   A flexible struct whose tag buffer carries entries with tag ids the schema does not have —
   before and after the entries it knows — decodes to the same value as without them, and the
   decoder consumes exactly the struct's bytes (their payloads are read and thrown away; they
   count as allocated because d.read makes a buffer for them). *)
From KV Require Import Proofs.SchemaEqns Proofs.SchemaUnknownTags.

Theorem C04_unknown_tags_skipped : forall c fields tagged fs ts br cnt bt pre post,
  let t := TStruct fields tagged in
  let v := VStruct fs ts in
  schema_ok true t = true -> wfb true t v = true ->
  enc_fields (encode true) fields fs = Some br ->
  enc_tags (encode true) tagged ts = Some (cnt, bt) ->
  unknown_ok tagged pre -> unknown_ok tagged post ->
  let bs := br ++ tag_buffer pre cnt bt post in
  forall rest extra al, (0 <= extra)%Z -> (lenZ bs + extra < ZM31)%Z ->
    (al + alloc_of t v + unknown_alloc pre + unknown_alloc post <= budget c)%N ->
    decode c true t (st (bs ++ rest) (lenZ bs + extra) al)
    = Ok (canon t v) (st rest extra (al + alloc_of t v + unknown_alloc pre + unknown_alloc post)).
Proof. exact unknown_tags_skipped. Qed.
Print Assumptions C04_unknown_tags_skipped.

(* the same through ReadResponse: "every well-formed response decodes to exactly the field values
   the broker encoded and consumes exactly one frame, skipping tagged fields it does not know" —
   tagged fields in the response header (the client knows none) and unknown ones in the body *)
Theorem C04_response_unknown_tags : forall c fields tagged fs ts br cnt bt hdr pre post corr rest,
  let t := TStruct fields tagged in
  let v := VStruct fs ts in
  schema_ok true t = true -> wfb true t v = true -> in_signed 4 corr ->
  enc_fields (encode true) fields fs = Some br ->
  enc_tags (encode true) tagged ts = Some (cnt, bt) ->
  unknown_ok [] hdr -> unknown_ok tagged pre -> unknown_ok tagged post ->
  let body := enc_i32 corr ++ (put_uvarint (N.of_nat (length hdr)) ++ enc_unknown hdr) ++
              br ++ tag_buffer pre cnt bt post in
  (Z.of_nat (length body) < ZM31)%Z ->
  (unknown_alloc hdr + alloc_of t v + unknown_alloc pre + unknown_alloc post <= budget c)%N ->
  read_response c true t (frame body ++ rest)
  = Ok (corr, canon t v) (st rest 0 (unknown_alloc hdr + alloc_of t v + unknown_alloc pre + unknown_alloc post)).
Proof. exact response_unknown_tags. Qed.
Print Assumptions C04_response_unknown_tags.

(* without unknown entries the buffer is the one the encoder writes *)
Theorem C04_tag_buffer_plain : forall fields tagged fs ts br cnt bt,
  enc_fields (encode true) fields fs = Some br ->
  enc_tags (encode true) tagged ts = Some (cnt, bt) ->
  encode true (TStruct fields tagged) (VStruct fs ts) = Some (br ++ tag_buffer [] cnt bt []).
Proof. exact tag_buffer_plain. Qed.
Print Assumptions C04_tag_buffer_plain.

(* non-vacuity: ex_ty knows tag 0; entries with tags 1 (after) and 7 (before, as an old encoder
   might order them) are skipped *)
Example C04_unknown_tags_example :
  let pre := [(7%Z, [1; 2; 3]%N)] in let post := [(1%Z, []); (9%Z, [255]%N)] in
  unknown_ok [(0%Z, TInt 8)] pre /\ unknown_ok [(0%Z, TInt 8)] post /\
  match ex_val, ex_ty with
  | VStruct fs ts, TStruct fields tagged =>
    match enc_fields (encode true) fields fs, enc_tags (encode true) tagged ts with
    | Some br, Some (cnt, bt) =>
        decode {| budget := 1000 |} true ex_ty
          (st ((br ++ tag_buffer pre cnt bt post) ++ [9]%N) (lenZ (br ++ tag_buffer pre cnt bt post)) 0)
        = Ok (canon ex_ty ex_val) (st [9]%N 0 (alloc_of ex_ty ex_val + 3 + 1))
    | _, _ => False
    end
  | _, _ => False
  end.
Proof.
  cbv zeta. split; [|split].
  - repeat constructor; try (vm_compute; first [reflexivity | discriminate]); cbn; intuition discriminate.
  - repeat constructor; try (vm_compute; first [reflexivity | discriminate]); cbn; intuition discriminate.
  - vm_compute. reflexivity.
Qed.

(* The hand-written Conn codec (write.go, sizeof.go, protocol.go requestHeader, the
   size()/writeTo() methods of the request structs, recordbatch.go), modelled function by
   function in Model/ConnWriters.v: [creq] is a request the Conn can write (one constructor per
   API: produce v2/v3/v7, fetch v2/v5/v10, list-offsets v1, api-versions v0, metadata v1/v6,
   find-coordinator v0, join-group v1/v2, sync-group v0, heartbeat v0, leave-group v0,
   offset-commit v2, offset-fetch v1, list-groups v1, create-topics v0/v1/v2, delete-topics
   v0/v1, sasl-handshake v0/v1, sasl-authenticate v0), [creq_size] the size pre-computation,
   [creq_body] the bytes emitted after the header, [conn_frame] the whole frame. *)
From KV Require Spec.RecordFormat Model.Records Model.ConnWriters
  Proofs.ConnWritersSize Proofs.ConnWritersDefs Proofs.ConnWritersRefine.

(* (a) the pre-computed size is the number of bytes written: for every request, every
        field value (produce: any messages — nil/empty/non-empty keys and values, headers, any
        times, zero time included; an opaque compressed payload).  Always: the 4-byte prefix is
        the int32 conversion of the number of bytes that follow, and size() agrees with writeTo()
        modulo 2^32; below 2 GiB ([frame_fits]) the prefix IS that number. *)
Theorem C04_conn_size_exact : forall corr client r,
  let rest := enc_i16 (ConnWriters.creq_key r) ++ enc_i16 (ConnWriters.creq_ver r) ++ enc_i32 corr ++
              (enc_i16 (lenZ client) ++ client) ++ ConnWriters.creq_body r in
  ConnWriters.conn_frame corr client r = put_bes 4 (wrap32 (lenZ rest)) ++ rest /\
  wrap32 (ConnWriters.creq_size r) = wrap32 (lenZ (ConnWriters.creq_body r)) /\
  (ConnWritersSize.frame_fits client r = true ->
     ConnWriters.conn_frame corr client r = put_bes 4 (lenZ rest) ++ rest /\
     length (ConnWriters.conn_frame corr client r) = (4 + length rest)%nat /\
     get_bes 4 (firstn 4 (ConnWriters.conn_frame corr client r)) = lenZ rest /\
     (match r with
      | ConnWriters.QProduce _ _ _ _ _ _ _ _ _ => True
      | _ => ConnWriters.creq_size r = lenZ (ConnWriters.creq_body r)
      end)).
Proof. exact ConnWritersSize.conn_size_exact. Qed.
Print Assumptions C04_conn_size_exact.

(* [frame_fits]: what follows the size prefix is shorter than 2^31 bytes *)
Theorem C04_conn_frame_fits_def : forall client r,
  ConnWritersSize.frame_fits client r = (10 + lenZ client + lenZ (ConnWriters.creq_body r) <? ZM31)%Z.
Proof. reflexivity. Qed.
Print Assumptions C04_conn_frame_fits_def.

(* the size fields inside a produce request: the record set is its int32 size followed by that
   many bytes; in a record batch (v3/v7) the batch length counts what follows that field *)
Theorem C04_conn_produce_set_sizes : forall v cz m0 rest,
  exists body,
    ConnWriters.produce_set_write v cz m0 rest = put_bes 4 (wrap32 (lenZ body)) ++ body /\
    ((lenZ body < ZM31)%Z -> ConnWriters.produce_set_write v cz m0 rest = put_bes 4 (lenZ body) ++ body) /\
    match v with
    | ConnWriters.PV2 => True
    | _ => exists tail, body = put_bes 8 0 ++ put_bes 4 (wrap32 (lenZ body) - 12) ++ tail /\
                        lenZ tail = (lenZ body - 12)%Z
    end.
Proof. exact ConnWritersSize.produce_set_sizes. Qed.
Print Assumptions C04_conn_produce_set_sizes.

(* every record of an uncompressed batch: its varint length prefix counts the record's bytes *)
Theorem C04_conn_record_length_exact : forall base i m,
  exists body, Records.write_record base i m = put_varint (lenZ body) ++ body.
Proof.
  intros base i m. destruct (ConnWritersSize.write_record_split base i m) as (body & E & L).
  exists body. change (lenZ body) with (RecordFormat.zlen body). rewrite L. exact E.
Qed.
Print Assumptions C04_conn_record_length_exact.

(* (b) refinement to the generic schema model: the frame a hand-written writer produces is
        [write_request] for the grammar the translator regenerates from /repo's protocol package
        for that (api key, version) — looked up in Gen/Schemas.v — applied to the value built from
        the same arguments ([creq_value]; a record set is the opaque [VRecords] of that model).
        [creq_canon_ok]: no pointer to "" as transactional id (the Conn never builds one:
        emptyToNullable) and no empty string where the protocol package's grammar has a
        NULLABLE_STRING but the Conn's struct a plain string (metadata topic names, the
        offset-commit metadata, create-topics config values). *)
Theorem C04_conn_canonical : forall corr client r,
  ConnWritersDefs.creq_canon_ok r = true ->
  exists t, lookup_schema schemas false (ConnWriters.creq_key r) (ConnWriters.creq_ver r) = Some (false, t) /\
    write_request false t (ConnWriters.creq_key r) (ConnWriters.creq_ver r) corr client (ConnWritersDefs.creq_value r)
    = Some (ConnWriters.conn_frame corr client r).
Proof.
  intros corr client r H. apply andb_prop in H as [Htx Hs].
  exists (ConnWritersDefs.creq_ty true r). split; [apply ConnWritersRefine.lookup_creq_ty|].
  apply ConnWritersRefine.conn_frame_refines; [exact Htx|intros _; exact Hs].
Qed.
Print Assumptions C04_conn_canonical.

(* with empty strings in those positions: the same regenerated grammar with its nullable strings
   read as non-null strings ([conn_view]) — the Conn sends "" as a string of length 0, a valid
   NULLABLE_STRING that the generic model (like the protocol package) cannot express *)
Theorem C04_conn_canonical_nonnull_strings : forall corr client r,
  ConnWritersDefs.creq_txid_ok r = true ->
  exists t, lookup_schema schemas false (ConnWriters.creq_key r) (ConnWriters.creq_ver r) = Some (false, t) /\
    write_request false (ConnWritersDefs.conn_view r t) (ConnWriters.creq_key r) (ConnWriters.creq_ver r)
                  corr client (ConnWritersDefs.creq_value r)
    = Some (ConnWriters.conn_frame corr client r).
Proof.
  intros corr client r Htx.
  exists (ConnWritersDefs.creq_ty true r). split; [apply ConnWritersRefine.lookup_creq_ty|].
  rewrite ConnWritersRefine.conn_view_ty. apply ConnWritersRefine.conn_frame_refines; [exact Htx|discriminate].
Qed.
Print Assumptions C04_conn_canonical_nonnull_strings.

Theorem C04_conn_txid_from_config : forall s v cz acks timeout topic partition m0 rest,
  ConnWritersDefs.creq_txid_ok
    (ConnWriters.QProduce v cz (ConnWriters.empty_to_nullable s) acks timeout topic partition m0 rest) = true.
Proof. intros []; reflexivity. Qed.
Print Assumptions C04_conn_txid_from_config.

(* (c) the header: api key, version, correlation id and client id sit where the grammar of
        C04_request_frame puts them (non-flexible header: the client id a non-null string) *)
Theorem C04_conn_header_fields : forall corr client r,
  ConnWriters.conn_frame corr client r =
  frame (enc_i16 (ConnWriters.creq_key r) ++ enc_i16 (ConnWriters.creq_ver r) ++ enc_i32 corr ++
         (enc_i16 (lenZ client) ++ client) ++ ConnWriters.creq_body r).
Proof. intros corr client r. rewrite ConnWritersRefine.conn_frame_is_frame. reflexivity. Qed.
Print Assumptions C04_conn_header_fields.

(* the version in the header: apiVersionMap.negotiate picks a version the Conn supports
        that is not above the maximum the broker advertised for the API (taken as 0 when the
        broker did not list the API), or nothing is sent (-1) *)
Theorem C04_conn_version_le_advertised : forall adv supported,
  let v := ConnWriters.conn_negotiate adv supported in
  let bmax := match adv with Some (_, mx) => mx | None => 0%Z end in
  (v = (-1)%Z /\ forall s, In s supported -> (bmax < s)%Z) \/ (In v supported /\ (v <= bmax)%Z).
Proof.
  intros adv supported. cbn zeta. unfold ConnWriters.conn_negotiate.
  destruct (ConnWritersSize.negotiate_rev_spec (match adv with Some (_, mx) => mx | None => 0%Z end) (rev supported))
    as [[E H]|[Hin Hle]].
  - left. split; [exact E|]. intros s Hs. apply H. apply in_rev in Hs. exact Hs.
  - right. split; [|exact Hle]. apply in_rev. exact Hin.
Qed.
Print Assumptions C04_conn_version_le_advertised.

(* timestamp(t): 0 for the zero time, UnixNano()/1e6 otherwise — the milliseconds Records.ts_ms
   computes from the nanoseconds handed to the record writers *)
Theorem C04_conn_timestamp : forall t,
  ConnWriters.timestamp t = Records.ts_ms (ConnWriters.ns_of t).
Proof. intros []; reflexivity. Qed.
Print Assumptions C04_conn_timestamp.

(* non-vacuity: produce v7 with a transactional id, three messages with distinct
        sub-millisecond / millisecond / zero times, a nil key, an empty value, headers with a nil
        value; a create-topics v2 request; the nil SaslAuthenticate token, written as
        length 0 (00 00 00 00), as the protocol package writes it *)
Definition ex_conn_produce : ConnWriters.creq :=
  ConnWriters.QProduce ConnWriters.PV7 None (Some [116; 120]%N) (-1) 1500000000 [116]%N 3
    {| ConnWriters.c_off := 0; ConnWriters.c_time := ConnWriters.TUnix 1600000000123456789;
       ConnWriters.c_key := None; ConnWriters.c_val := Some [1; 2; 3]%N; ConnWriters.c_hdrs := [] |}
    [ {| ConnWriters.c_off := 0; ConnWriters.c_time := ConnWriters.TUnix 1600000000123999999;
         ConnWriters.c_key := Some [7]%N; ConnWriters.c_val := Some []; 
         ConnWriters.c_hdrs := [([104]%N, None); ([105; 106]%N, Some [9]%N)] |};
      {| ConnWriters.c_off := 0; ConnWriters.c_time := ConnWriters.TUnix 1600000007000000000;
         ConnWriters.c_key := Some []; ConnWriters.c_val := None; ConnWriters.c_hdrs := [] |};
      {| ConnWriters.c_off := 0; ConnWriters.c_time := ConnWriters.TZero;
         ConnWriters.c_key := None; ConnWriters.c_val := Some [255]%N; ConnWriters.c_hdrs := [] |} ].
Definition ex_conn_create : ConnWriters.creq :=
  ConnWriters.QCreateTopics ConnWriters.CV2
    [ {| ConnWriters.ct_name := [97]%N; ConnWriters.ct_partitions := 3; ConnWriters.ct_replication := (-1);
         ConnWriters.ct_assignments := [(0%Z, [1; 2]%Z); (1%Z, [])];
         ConnWriters.ct_configs := [([107]%N, [118]%N)] |} ] 2147483647 true.
Example C04_conn_example :
  ConnWritersSize.frame_fits [99]%N ex_conn_produce = true /\
  ConnWritersDefs.creq_canon_ok ex_conn_produce = true /\
  ConnWritersDefs.creq_canon_ok ex_conn_create = true /\
  (exists t, lookup_schema schemas false 0 7 = Some (false, t) /\
     write_request false t 0 7 77 [99]%N (ConnWritersDefs.creq_value ex_conn_produce)
     = Some (ConnWriters.conn_frame 77 [99]%N ex_conn_produce)) /\
  get_bes 4 (firstn 4 (ConnWriters.conn_frame 77 [99]%N ex_conn_produce))
  = Z.of_nat (length (ConnWriters.conn_frame 77 [99]%N ex_conn_produce) - 4) /\
  ConnWriters.conn_frame (-1) [99]%N (ConnWriters.QSaslAuthenticate None)
  = [0; 0; 0; 15; 0; 36; 0; 0; 255; 255; 255; 255; 0; 1; 99; 0; 0; 0; 0]%N /\
  write_request false (TStruct [TBytes false] []) 36 0 (-1) [99]%N (VStruct [VBytes None] [])
  = Some (ConnWriters.conn_frame (-1) [99]%N (ConnWriters.QSaslAuthenticate None)).
Proof.
  split; [vm_compute; reflexivity|]. split; [vm_compute; reflexivity|]. split; [vm_compute; reflexivity|].
  split; [exact (C04_conn_canonical 77 [99]%N ex_conn_produce eq_refl)|].
  split; vm_compute; [reflexivity|]. split; reflexivity.
Qed.

(* The response direction of the hand-written Conn codec (read.go, the readFrom() methods of
   the response structs, the reflective read(), the inline readers of conn.go): "every
   well-formed response for that version decodes to exactly the field values the broker
   encoded and consumes exactly one frame".  Model/Legacy.v has the reader combinators of
   read.go and the reflective reader [read_ty] over a grammar descriptor, Model/ConnOps.v the
   response grammar of every (operation, version) ([resp_ty]) and the inline readers
   (produce_read, listoffsets_read, fetch_header, apiversions_read: C11_* over Proofs/ConnOpsAll.v
   state their framing and the kind of their result; the values they decode are compared with the
   implementation only), Model/ConnReaders.v the table reader -> grammar and the two
   consumer-group blobs that are not in protocol/ (ConsumerProtocolSubscription /
   ConsumerProtocolAssignment v0, read by groupMetadata.readFrom and groupAssignment.readFrom ->
   readMapStringInt32). *)
From KV Require Model.Legacy Model.ConnOps Model.ConnReaders Proofs.ConnOpsCodec Proofs.ConnReadersProofs.

(* the Legacy reader on the reference encoding of a well-typed wire value returns that value
   (null string / bytes / array read as empty) and consumes exactly the encoding, whatever
   follows in the stream: for every grammar descriptor, hence for every response struct the Conn
   reads with readFrom() / read() *)
Theorem C04_conn_response_roundtrip : forall t w, Legacy.wt t w -> forall sz rest,
  (Z.of_nat (length (Legacy.enc t w)) <= sz)%Z ->
  Legacy.read_ty t sz (Legacy.enc t w ++ rest)
  = (inl (Legacy.dec_val t w), (sz - Z.of_nat (length (Legacy.enc t w)))%Z, rest).
Proof. exact ConnOpsCodec.read_ty_enc. Qed.
Print Assumptions C04_conn_response_roundtrip.

(* the Conn's response grammar for every (operation, version) it reads — 29 pairs — IS the
   response schema the translator regenerates from /repo's protocol package for that api key
   and version, read as a Legacy descriptor ([legacy_of]: nullable flags and element sizes
   dropped, RECORDS as BYTES; none of these versions is flexible) *)
Theorem C04_conn_response_grammar_generated : forall a v,
  In (a, v) ConnReadersProofs.conn_responses ->
  exists t, lookup_schema schemas true (ConnReadersProofs.key_of a) (Z.of_N v) = Some (false, t) /\
            ConnReadersProofs.legacy_of t = ConnOps.resp_ty a v.
Proof.
  intros a v Hin. pose proof ConnReadersProofs.all_generated_ok as H.
  rewrite forallb_forall in H. specialize (H _ Hin). unfold ConnReadersProofs.generated_ok in H. cbn [fst snd] in H.
  destruct (lookup_schema schemas true (ConnReadersProofs.key_of a) (Z.of_N v)) as [[[] t]|]; try discriminate H.
  exists t. split; [reflexivity|]. apply ConnReadersProofs.lty_eqb_eq, H.
Qed.
Print Assumptions C04_conn_response_grammar_generated.

(* the member metadata blob of JoinGroup: groupMetadata.readFrom *)
Theorem C04_conn_group_metadata_roundtrip : forall w,
  Legacy.wt ConnReaders.t_group_metadata w -> forall sz rest,
  (Z.of_nat (length (Legacy.enc ConnReaders.t_group_metadata w)) <= sz)%Z ->
  ConnReaders.read_group_metadata sz (Legacy.enc ConnReaders.t_group_metadata w ++ rest)
  = (inl (Legacy.dec_val ConnReaders.t_group_metadata w),
     (sz - Z.of_nat (length (Legacy.enc ConnReaders.t_group_metadata w)))%Z, rest).
Proof.
  intros w Hwt. apply ConnOpsCodec.runs_at_size, ConnReadersProofs.runs_group_metadata, Hwt.
Qed.
Print Assumptions C04_conn_group_metadata_roundtrip.

(* the member assignment blob of SyncGroup: groupAssignment.readFrom -> readMapStringInt32.  The
   result is the encoded value with its topic -> partitions entries as a Go map holds them
   ([assignment_of]: a later entry of the same topic replaces the earlier one; every partition
   list is the one encoded for ITS topic) *)
Theorem C04_conn_group_assignment_roundtrip : forall w,
  Legacy.wt ConnReaders.t_group_assignment w -> forall sz rest,
  (Z.of_nat (length (Legacy.enc ConnReaders.t_group_assignment w)) <= sz)%Z ->
  ConnReaders.read_group_assignment sz (Legacy.enc ConnReaders.t_group_assignment w ++ rest)
  = (inl (ConnReadersProofs.assignment_of (Legacy.dec_val ConnReaders.t_group_assignment w)),
     (sz - Z.of_nat (length (Legacy.enc ConnReaders.t_group_assignment w)))%Z, rest).
Proof.
  intros w Hwt. apply ConnOpsCodec.runs_at_size, ConnReadersProofs.runs_group_assignment, Hwt.
Qed.
Print Assumptions C04_conn_group_assignment_roundtrip.

(* with distinct topics the map is the list of entries that was encoded *)
Theorem C04_conn_assignment_distinct_topics : forall es,
  NoDup (map fst es) -> ConnReaders.map_of_entries es = es.
Proof. intros es H. exact (ConnReadersProofs.fold_map_put_nodup es [] H). Qed.
Print Assumptions C04_conn_assignment_distinct_topics.

(* non-vacuity: the assignment {orders: [0 1 2], payments: [7 8], audit: [5]} with null user data *)
Definition ex_conn_assignment : Legacy.wval :=
  Legacy.WP (Legacy.WZ 0%Z)
   (Legacy.WP (Legacy.WL (Some
      [Legacy.WP (Legacy.WS (Some [111; 114; 100; 101; 114; 115]%N))
                 (Legacy.WL (Some [Legacy.WZ 0%Z; Legacy.WZ 1%Z; Legacy.WZ 2%Z]));
       Legacy.WP (Legacy.WS (Some [112; 97; 121; 109; 101; 110; 116; 115]%N))
                 (Legacy.WL (Some [Legacy.WZ 7%Z; Legacy.WZ 8%Z]));
       Legacy.WP (Legacy.WS (Some [97; 117; 100; 105; 116]%N)) (Legacy.WL (Some [Legacy.WZ 5%Z]))]))
      (Legacy.WS None)).
Example C04_conn_assignment_example :
  ConnReaders.read_group_assignment 71%Z (Legacy.enc ConnReaders.t_group_assignment ex_conn_assignment ++ [9]%N)
  = (inl (Legacy.VP (Legacy.VZ 0%Z)
           (Legacy.VP (Legacy.VL
              [Legacy.VP (Legacy.VB [111; 114; 100; 101; 114; 115]%N) (Legacy.VL [Legacy.VZ 0%Z; Legacy.VZ 1%Z; Legacy.VZ 2%Z]);
               Legacy.VP (Legacy.VB [112; 97; 121; 109; 101; 110; 116; 115]%N) (Legacy.VL [Legacy.VZ 7%Z; Legacy.VZ 8%Z]);
               Legacy.VP (Legacy.VB [97; 117; 100; 105; 116]%N) (Legacy.VL [Legacy.VZ 5%Z])])
              (Legacy.VB []))), 0%Z, [9]%N).
Proof. vm_compute. reflexivity. Qed.
