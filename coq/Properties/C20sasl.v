(* Properties/C20sasl.v — C20 for the one response the Transport reads outside
   protocol.ReadResponse: the raw (SaslHandshake v0) SASL authentication response, a 4-byte
   length taken from the wire followed by that many bytes (protocol/saslauthenticate readResp).
   Statements only; the proofs are in Proofs/SaslRawRead.v.  The model is Model/Sasl.v (C18's). *)
From Coq Require Import List NArith ZArith Bool.
From KV Require Import Model.Sasl Proofs.SaslRawRead.
Import ListNotations.

(* For EVERY announced length (any integer the four bytes can denote), every sequence of
   payload bytes that actually arrives and either ending (close / silence), the bytes allocated
   for the response are at most 10 x the payload bytes RECEIVED + 2560: never a function of the
   announced length.  [grow] is append's capacity choice, only assumed to lie between 1.25 x
   and 2 x the old capacity (runtime.growslice). *)
Theorem C20_raw_sasl_alloc_proportional :
  forall grow : N -> N,
    (forall c, (512 <= c -> 5 * c <= 4 * grow c)%N) ->
    (forall c, (512 <= c -> grow c <= 2 * c)%N) ->
    forall announced avail e,
      let r := transport_raw_read grow announced avail e in
      (rr_alloc r <= 10 * rr_received r + 2560)%N /\
      (rr_received r <= N.of_nat (length avail))%N /\
      (0 <= announced -> Z.of_N (rr_received r) <= announced).
Proof. exact transport_raw_read_bounded. Qed.
Print Assumptions C20_raw_sasl_alloc_proportional.

(* the instance the correspondence driver evaluates (growslice's formula) *)
Theorem C20_raw_sasl_alloc_proportional_go :
  forall announced avail e,
    let r := raw_read Transport announced avail e in
    (rr_alloc r <= 10 * rr_received r + 2560)%N /\
    (rr_received r <= N.of_nat (length avail))%N /\
    (0 <= announced -> Z.of_N (rr_received r) <= announced).
Proof. intros. apply (transport_raw_read_bounded go_grow go_grow_lo go_grow_hi). Qed.
Print Assumptions C20_raw_sasl_alloc_proportional_go.
