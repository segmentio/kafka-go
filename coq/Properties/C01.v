(* Properties/C01.v — Writer: acknowledged messages are in the log; failures are attributed
   exactly.  The statements, each proved in a few lines from the lemmas of Proofs/Writer*.v.
   Model: Model/Writer.v; a run is
   [run (step cfg) init ls = Some s] for an arbitrary label sequence (every multiset of
   messages, number of callers, configuration, schedule and sequence of broker reactions:
   applied+acknowledged, applied but answer lost, rejected with an error code, not applied
   with a network error / time-out).  The theorems hold for every classification
   [retriable cfg : err -> bool] of errors.

   acked_attempt cfg s m      : the journal of the fake cluster holds a produce attempt that was
                                applied, acknowledged, contains m, to the partition (topic of m,
                                partition the balancer chose).
   last_attempt_seen s m o    : the last produce attempt that carried m was seen by the client
                                as o (None = acknowledged). *)
From Coq Require Import List NArith ZArith Bool Arith.
From KV Require Import Lib.LTS Model.Writer Proofs.WriterStmts Proofs.WriterBase Proofs.WriterC01a Proofs.WriterC01b
  Proofs.WriterHolds Proofs.WriterHolds2 Proofs.WriterHolds1 Proofs.WriterInFlight.
Import ListNotations.

Theorem C01_nil_means_logged :
  forall cfg ls s, cfg_ok cfg -> run (step cfg) init ls = Some s -> async cfg = false ->
  forall c cl, nth_error (s_calls s) c = Some cl -> c_ph cl = CReturned RNil ->
  forall m, In m (c_msgs cl) -> acked_attempt cfg s m /\ In m (log_of s (tp_of cfg m)).
Proof. exact C01_nil_means_logged_proof. Qed.
Print Assumptions C01_nil_means_logged.

Theorem C01_write_errors_exact :
  forall cfg ls s, cfg_ok cfg -> run (step cfg) init ls = Some s ->
  forall c cl we, nth_error (s_calls s) c = Some cl -> c_ph cl = CReturned (RWriteErrors we) ->
    length we = length (c_msgs cl) /\
    (exists i e, nth_error we i = Some (Some e)) /\
    forall i m o, nth_error (c_msgs cl) i = Some m -> nth_error we i = Some o ->
      (o = None <-> acked_attempt cfg s m) /\ last_attempt_seen s m o.
Proof. exact C01_write_errors_exact_proof. Qed.
Print Assumptions C01_write_errors_exact.

Theorem C01_completion_once :
  forall cfg ls s, cfg_ok cfg -> run (step cfg) init ls = Some s ->
    (* every message in at most one Completion event *)
    NoDup (flat_map (fun ce => map m_id (fst ce)) (s_compl s)) /\
    (* with the outcome of its last attempt, and it belongs to an accepted call *)
    (forall ms o m, In (ms, o) (s_compl s) -> In m ms ->
       last_attempt_seen s m o /\
       exists c cl, nth_error (s_calls s) c = Some cl /\ rejected cl = false /\ In m (c_msgs cl)) /\
    (* a synchronous call that returned nil or WriteErrors: each message was completed, with
       the outcome the call reports for it *)
    (async cfg = false ->
     forall c cl, nth_error (s_calls s) c = Some cl ->
       (c_ph cl = CReturned RNil ->
        forall m, In m (c_msgs cl) -> exists ms, In (ms, None) (s_compl s) /\ In m ms) /\
       (forall we, c_ph cl = CReturned (RWriteErrors we) ->
        forall i m o, nth_error (c_msgs cl) i = Some m -> nth_error we i = Some o ->
          exists ms, In (ms, o) (s_compl s) /\ In m ms)).
Proof. exact C01_completion_once_proof. Qed.
Print Assumptions C01_completion_once.

Theorem C01_no_foreign_log :
  forall cfg ls s, run (step cfg) init ls = Some s ->
  forall tp m, In (tp, m) (s_log s) -> tp = tp_of cfg m.
Proof. exact C01_no_foreign_log_proof. Qed.
Print Assumptions C01_no_foreign_log.

Theorem C01_duplicates_only_by_retry :
  forall cfg ls s, run (step cfg) init ls = Some s ->
    (* the log is exactly what the applied attempts appended, in order: a message appears in
       the log once per applied attempt that carried it *)
    s_log s = flat_map (fun a => if a_applied a then map (pair (a_tp a)) (a_msgs a) else []) (s_journal s) /\
    (* two attempts sharing a message are the same batch, and the client saw the earlier one
       fail with an error it classifies as retriable *)
    (forall j1 a j2 b j3, s_journal s = j1 ++ a :: j2 ++ b :: j3 ->
       (exists m, In m (a_msgs a) /\ In m (a_msgs b)) ->
       a_msgs a = a_msgs b /\ a_tp a = a_tp b /\
       exists e, a_seen a = Some e /\ retriable cfg e = true) /\
    (* at most maxAttempts attempts per batch *)
    (forall p k, length (filter (fun a => Nat.eqb (a_pw a) p && Nat.eqb (a_k a) k) (s_journal s))
                 <= maxAttempts cfg).
Proof. exact C01_duplicates_only_by_retry_proof. Qed.
Print Assumptions C01_duplicates_only_by_retry.

(* Nothing of a rejected call (too large, topic conflict, metadata failure, closed — at
   enter() or, when Close ran in between, at batchMessages) is ever sent. *)
Theorem C01_rejected_never_sent :
  forall cfg ls s, run (step cfg) init ls = Some s ->
  forall c cl, nth_error (s_calls s) c = Some cl -> rejected cl = true ->
  forall m a, In m (c_msgs cl) -> In a (s_journal s) -> ~ In m (a_msgs a).
Proof. exact C08_rejected_never_sent_proof. Qed.
Print Assumptions C01_rejected_never_sent.

(* The extracted boolean predicates that the correspondence run evaluates on every recorded
   real history are true on every run of the model (verdict_holds, C01_compl_total_holds and the
   conjunction C01_holds have no theorem). *)
Theorem C01_nil_holds_on_runs :
  forall cfg ls s, cfg_ok cfg -> run (step cfg) init ls = Some s ->
    C01_nil_holds cfg (s_calls s) (s_journal s) (s_log s) = true.
Proof. exact C01_nil_holds_runs. Qed.
Print Assumptions C01_nil_holds_on_runs.

Theorem C01_we_holds_on_runs :
  forall cfg ls s, cfg_ok cfg -> run (step cfg) init ls = Some s ->
    C01_we_holds cfg (s_calls s) (s_journal s) = true.
Proof. exact C01_we_holds_runs. Qed.
Print Assumptions C01_we_holds_on_runs.

Theorem C01_compl_holds_on_runs :
  forall cfg ls s, cfg_ok cfg -> run (step cfg) init ls = Some s ->
    C01_compl_holds cfg (s_calls s) (s_journal s) (s_compl s) = true.
Proof. exact C01_compl_holds_runs. Qed.
Print Assumptions C01_compl_holds_on_runs.

(* A batch is given up with an error classified as retriable only after MaxAttempts produce
   requests — for EVERY classification [retriable cfg]; recorded histories are judged with the
   SPECIFIED one, retriable_spec (Kafka protocol error table + transient transport errors: a cut
   response = unexpected EOF, reset, broken pipe, refused, time-out), never with the code's own
   isTemporary || isTransientNetworkError, which is compared with it class by class (op rtb). *)
Theorem C01_no_early_giveup_holds_on_runs :
  forall cfg ls s, run (step cfg) init ls = Some s ->
    no_early_giveup_holds cfg (s_journal s) (s_compl s) = true.
Proof. exact no_early_giveup_holds_runs. Qed.
Print Assumptions C01_no_early_giveup_holds_on_runs.

Example C01_retriable_spec_examples :
  retriable_spec 1001%N = true /\ retriable_spec 1005%N = true /\ retriable_spec 1008%N = false /\
  retriable_spec 1006%N = false /\ retriable_spec 65535%N = false /\ retriable_spec 7%N = true /\
  retriable_spec 9%N = false /\ retriable_spec 3%N = true /\ retriable_spec 1%N = false.
Proof. vm_compute. repeat split; reflexivity. Qed.

Theorem C01_no_foreign_holds_on_runs :
  forall cfg ls s, run (step cfg) init ls = Some s -> C01_no_foreign_holds cfg (s_log s) = true.
Proof.
  intros cfg ls s Hr. apply forallb_forall. intros [tp m] Hin.
  apply tp_eqb_eq. exact (C01_no_foreign_log cfg ls s Hr tp m Hin).
Qed.
Print Assumptions C01_no_foreign_holds_on_runs.

Theorem C01_log_is_journal_on_runs :
  forall cfg ls s, run (step cfg) init ls = Some s -> log_is_journal (s_journal s) (s_log s) = true.
Proof.
  intros cfg ls s Hr. unfold log_is_journal.
  destruct (C01_duplicates_only_by_retry cfg ls s Hr) as [H _]. rewrite <- H.
  apply log_is_journal_refl.
Qed.
Print Assumptions C01_log_is_journal_on_runs.

Theorem C01_dups_holds_on_runs :
  forall cfg ls s, run (step cfg) init ls = Some s -> C01_dups_holds cfg (s_journal s) (s_log s) = true.
Proof. exact C01_dups_holds_runs. Qed.
Print Assumptions C01_dups_holds_on_runs.

Theorem C01_rejected_sends_nothing_holds_on_runs :
  forall cfg ls s, run (step cfg) init ls = Some s ->
    rejected_sends_nothing_holds (s_calls s) (s_journal s) = true.
Proof. exact rejected_sends_nothing_holds_runs. Qed.
Print Assumptions C01_rejected_sends_nothing_holds_on_runs.

(* The broker's verdict on a produce request is "ok | error code" for ANY int16 code: only
   code 0 is success (Client.Produce: ProduceResponse.Error = makeError(code, ...), nil exactly
   for 0), every other code — negative ones like UNKNOWN_SERVER_ERROR = -1 included — is a
   failure the client sees, and nothing was appended.  The transition system takes an arbitrary
   [e : err] in [RejectedCode e]; no theorem above depends on the sign or size of a code.
   (The mapping itself is compared on all 65536 codes on every run: ops prr / pr.) *)
Theorem C01_error_code_sign_independent : forall c : Z,
  (code_err c = None <-> c = 0%Z) /\
  (r_seen (reaction_of_code c) = None <-> c = 0%Z) /\
  (c <> 0%Z -> r_applied (reaction_of_code c) = false /\ exists e, r_seen (reaction_of_code c) = Some e).
Proof.
  intros c. unfold reaction_of_code, code_err, produce_error.
  destruct (Z.eqb_spec c 0) as [->|E]; cbn [r_seen r_applied].
  - repeat split; auto; intros; congruence.
  - repeat split; intros; try congruence; eauto.
Qed.
Print Assumptions C01_error_code_sign_independent.

(* Real time enters only through the broker reaction the client observes.  The deadline of the
   produce round trip is the effective WriteTimeout (produce_deadline_ms o = eff_writeTimeoutMs o;
   ReadTimeout feeds no deadline here: the metadata lookup of WriteMessages runs under the
   caller's context only, metadata_deadline_ms = None) — compared with the context deadline the
   RoundTripper actually receives from the real Writer, for generated option pairs incl. zero =
   default (op pdl).  An acknowledgement arriving within WriteTimeout, whatever ReadTimeout is, is
   therefore seen as an acknowledgement and ends the retry loop at once: one produce request, one
   copy (ops pto run the transition system with this reaction against the real Writer on a
   delaying broker, both ways round); one arriving later is a lost acknowledgement (applied,
   deadline error seen), which C01_duplicates_only_by_retry accounts for. *)
Theorem C01_ack_within_write_timeout : forall o delay cfg n,
  (delay < eff_writeTimeoutMs o)%Z ->
  timed_reaction o delay = AppliedAcked /\
  r_seen (timed_reaction o delay) = None /\
  after_attempt cfg n (r_seen (timed_reaction o delay)) = PFinish None.
Proof.
  intros o delay cfg n H. unfold timed_reaction, produce_deadline_ms.
  apply Z.ltb_lt in H. rewrite H. simpl. auto.
Qed.
Print Assumptions C01_ack_within_write_timeout.

Theorem C01_ack_after_write_timeout : forall o delay,
  (eff_writeTimeoutMs o <= delay)%Z ->
  r_applied (timed_reaction o delay) = true /\ r_seen (timed_reaction o delay) = Some deadline_err.
Proof.
  intros o delay H. unfold timed_reaction, produce_deadline_ms.
  apply Z.ltb_ge in H. rewrite H. simpl. auto.
Qed.
Print Assumptions C01_ack_after_write_timeout.

(* a batch answered with UNKNOWN_SERVER_ERROR (-1) on its last allowed attempt: WriteErrors, not nil *)
Example C01_negative_code_is_an_error :
  exists s, run (step (mkCfg 2 100 1 false (Some 0%N) (fun _ => false))) init
              [Call 1 [mkMsg 1 None 30 0; mkMsg 2 None 30 0] None; Assign 0; Get 0;
               Attempt 0 (reaction_of_code (-1)); Finish 0; Timer 0 0; Return 0] = Some s /\
            map c_ph (s_calls s) = [CReturned (RWriteErrors [Some 65535%N; Some 65535%N])] /\
            s_log s = [] /\ map snd (s_compl s) = [Some 65535%N].
Proof.
  eexists. split; [vm_compute; reflexivity|]. split; [vm_compute; reflexivity|].
  split; vm_compute; reflexivity.
Qed.

(* ---- non-vacuity: two partitions, BatchSize 1, MaxAttempts 2, error 7 retriable, 3 permanent.
   Call 0 = [m1 -> partition 0; m2 -> partition 1]: m1 loses its acknowledgement and is retried
   (duplicate in the log), m2 is rejected with the permanent code 3: WriteErrors [nil; 3]. *)
Definition ex_cfg : config := mkCfg 1 100 2 false (Some 0%N) (fun e => N.eqb e 7).
Definition ex_run : list label :=
  [Call 1 [mkMsg 1 None 30 0; mkMsg 2 None 30 1] None; Assign 0;
   Get 0; Attempt 0 (AppliedLost 7%N); BackoffDone 0; Attempt 0 AppliedAcked; Finish 0;
   Get 1; Attempt 1 (RejectedCode 3%N); Finish 1; Timer 0 0; Timer 1 0; Return 0].
Example C01_nonvacuous :
  exists s, run (step ex_cfg) init ex_run = Some s /\
            map c_ph (s_calls s) = [CReturned (RWriteErrors [None; Some 3%N])] /\
            map m_id (log_of s (0%N, 0%N)) = [1%N; 1%N] /\ log_of s (0%N, 1%N) = [] /\
            map snd (s_compl s) = [None; Some 3%N].
Proof.
  eexists. split; [vm_compute; reflexivity|].
  split; [vm_compute; reflexivity|]. split; [vm_compute; reflexivity|].
  split; vm_compute; reflexivity.
Qed.

(* ---- the synchronisation skeleton the Writer model assumes (which Go critical section each
   label of Model/Writer.v stands for: Model/SkeletonAssumptions.v, writer_assumptions) holds
   of /repo's CURRENT source: facts regenerated by harness/cmd/vskel on every run. *)
From KV Require Model.SkeletonAssumptions Gen.Skeleton Proofs.SkeletonWriter.
Theorem C01_skeleton_assumptions :
  KV.Model.SkeletonAssumptions.writer_assumptions_hold KV.Gen.Skeleton.calls KV.Gen.Skeleton.accesses = true.
Proof. exact KV.Proofs.SkeletonWriter.writer_skeleton_ok. Qed.
Print Assumptions C01_skeleton_assumptions.
