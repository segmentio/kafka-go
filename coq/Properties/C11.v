(* Properties/C11.v — A Conn stays usable after broker-reported errors and is never reused
   misaligned.  A statement sheet: each proof is a lemma of Proofs/ or a few lines over them.
   Model: Model/Legacy.v (read.go / discard.go) + Model/ConnOps.v (per-operation response
   readers, waitResponse, Conn.do, ReadBatchWith + Batch.close).  [conn_do st o s] = one
   operation on a connection whose peer will deliver the bytes s; it returns the new state, the
   result and the bytes not consumed.  [negotiated a v]: v is a version Conn can use for API a;
   [well_formed a v w]: w is a value of the response grammar of (a, v) (reference encoder [enc])
   answering the one topic / partition the Conn asks for. *)
From Coq Require Import List NArith ZArith Bool Lia.
From KV Require Import Lib.Bits Lib.Bytes Model.Legacy Model.ConnOps.
From KV Require Import Proofs.ConnOpsBase Proofs.ConnOpsCodec Proofs.ConnOpsProofs Proofs.ConnOpsWitness
  Proofs.ConnOpsCustom Proofs.ConnOpsAll Proofs.ConnOpsInflight Proofs.ConnOpsNego.
Import ListNotations.
Open Scope Z_scope.

(* every operation (produce, fetch = ReadBatch+Close, list-offsets, metadata, the group
   APIs, create/delete topics, ApiVersions, SASL), every negotiated version, every well-formed
   response carrying any error code in any of its error fields, whatever follows in the stream:
   if the result is a Kafka error, the reader sits exactly behind the frame and the Conn is
   kept *)
Theorem C11_aligned_after_kafka_error : forall a v w st off code rest st' s',
  negotiated a v = true ->
  well_formed a v w -> fits (enc (resp_ty a v) w) -> closed st = false ->
  conn_do st (mkOp a v off) (frame (wrap32 (corr st + 1)) (enc (resp_ty a v) w) ++ rest)
    = (st', RErr (EKafka code), s') ->
  s' = rest /\ closed st' = false.
Proof.
  intros a v w st off code rest st' s' Hneg Hwf Hfit Hcl H.
  destruct (wf_step _ _ _ _ _ _ _ _ _ Hneg Hwf Hfit Hcl H) as [_ [[_ Hok]|(e & He & Hk & _)]].
  - exact Hok.
  - inversion He; subst e. discriminate Hk.
Qed.
Print Assumptions C11_aligned_after_kafka_error.

(* equivalently: the next operation runs exactly as on a connection that was never used for
   the first exchange (open, same counters, fed the rest of the stream) *)
Theorem C11_next_as_fresh : forall a v w st off code rest st' s' o2,
  negotiated a v = true ->
  well_formed a v w -> fits (enc (resp_ty a v) w) -> closed st = false ->
  conn_do st (mkOp a v off) (frame (wrap32 (corr st + 1)) (enc (resp_ty a v) w) ++ rest)
    = (st', RErr (EKafka code), s') ->
  conn_do st' o2 s' = conn_do (mkConn false (wrap32 (corr st + 1)) (cfg_topic st) (offset st')) o2 rest.
Proof.
  intros a v w st off code rest st' s' o2 Hneg Hwf Hfit Hcl H.
  destruct (C11_aligned_after_kafka_error _ _ _ _ _ _ _ _ _ Hneg Hwf Hfit Hcl H) as [Hs Hcl'].
  destruct (conn_do_state _ _ _ _ _ _ H) as (Hcorr & Ht & _).
  destruct st'; cbn in *. subst. reflexivity.
Qed.
Print Assumptions C11_next_as_fresh.

(* the same for ANY incoming bytes (no well-formedness): success of any operation but
   ApiVersions, or a Kafka error of any operation but ApiVersions / list-offsets, means that
   exactly the frame announced by the size prefix was consumed.  For fetch this says what
   ReadBatch + Close consume: the header, and then the whole message set (skipped after a
   broker error, discarded when highWaterMark = offset, discarded by Batch.close otherwise). *)
Theorem C11_frame_exact : forall st o s st' r s',
  closed st = false -> op_api o <> AApiVersions ->
  conn_do st o s = (st', r, s') ->
  match r with
  | ROk _ => True
  | RErr (EKafka _) => op_api o <> AListOffsets
  | _ => False
  end ->
  consumed_frame s s' /\ closed st' = false.
Proof. exact frame_exact. Qed.
Print Assumptions C11_frame_exact.

(* a framing / transport error closes the Conn and every later operation fails *)
(* the one exception, visible in the statement: io.ErrNoProgress (waitResponse returns it
   without closing; with aligned streams and a single goroutine it needs a broker that answers
   with a foreign correlation id) *)
Theorem C11_closed_after_other_error : forall st o s st' e s',
  conn_do st o s = (st', RErr e, s') ->
  is_kafka e = false -> e <> ENoProgress ->
  closed st' = true.
Proof. exact closed_after_other_error. Qed.
Print Assumptions C11_closed_after_other_error.

Theorem C11_closed_every_later_fails : forall st ops s,
  closed st = true ->
  exists st', conn_run st ops s = (st', map (fun _ => RErr EClosed) ops, s) /\ closed st' = true.
Proof. exact closed_run. Qed.
Print Assumptions C11_closed_every_later_fails.

(* Conn.inflight: enter/leave balance and the desynchronisation detector
   [conn_do_i (st, n)] threads Conn.inflight = n through one call ([Spins] = the call never
   returns: waitResponse loops on a frame with a foreign correlation id because
   concurrency() <> 1 and no other goroutine will consume it). *)
(* every call that returns leaves the counter where it found it, on every exit path *)
Theorem C11_inflight_balanced : forall st n o s st' n' r s',
  conn_do_i (st, n) o s = ((st', n'), Returns r, s') -> n' = n.
Proof.
  intros st n o s st' n' r s'. unfold conn_do_i. destruct (closed st).
  - destruct (conn_do st o s) as [[a b] c]. intros H; inversion H. lia.
  - destruct (foreign_head _ s && negb (n + 1 =? 1)); [intros H; inversion H|].
    destruct (conn_do st o s) as [[a b] c]. intros H; inversion H. lia.
Qed.
Print Assumptions C11_inflight_balanced.

(* hence after any completed call sequence inflight = 0, every call returns (the detector is
   enabled for the next call), and the results are those of conn_run, to which the theorems of
   this file apply *)
Theorem C11_inflight_zero_detector_enabled : forall ops st s,
  conn_run_i (st, 0) ops s =
    let '(st', rs, s') := conn_run st ops s in ((st', 0), map Returns rs, s').
Proof.
  induction ops as [|o ops IH]; intros st s; cbn [conn_run_i conn_run map]; [reflexivity|].
  rewrite detector_enabled. destruct (conn_do st o s) as [[st1 r1] s1].
  rewrite IH. destruct (conn_run st1 ops s1) as [[st2 rs] s2]. reflexivity.
Qed.
Print Assumptions C11_inflight_zero_detector_enabled.

(* the detector: a foreign correlation id on an open Conn is io.ErrNoProgress, nothing consumed *)
Theorem C11_foreign_id_is_noprogress : forall st o s,
  closed st = false -> foreign_head (wrap32 (corr st + 1)) s = true ->
  exists st', conn_do st o s = (st', RErr ENoProgress, s) /\ closed st' = false.
Proof.
  intros st o s Hc Hf. apply andb_true_iff in Hf as [H8 Hid].
  unfold conn_do. rewrite Hc. unfold wait_response.
  destruct (length s <? 8)%nat; [discriminate H8|].
  destruct (get_bes 4 (firstn 4 (skipn 4 s)) =? wrap32 (corr st + 1)); [discriminate Hid|].
  exists (mkConn false (wrap32 (corr st + 1)) (cfg_topic st) (op_offset st o)).
  destruct (op_api o); split; reflexivity.
Qed.
Print Assumptions C11_foreign_id_is_noprogress.

(* why the balance matters: with a leaked counter the same situation never returns *)
Theorem C11_leaked_counter_spins : forall st n o s,
  closed st = false -> 1 <= n -> foreign_head (wrap32 (corr st + 1)) s = true ->
  exists sti, conn_do_i (st, n) o s = (sti, Spins, s).
Proof.
  intros st n o s Hc Hn Hf. unfold conn_do_i. rewrite Hc, Hf.
  destruct (Z.eqb_spec (n + 1) 1); [lia|]. eexists. reflexivity.
Qed.
Print Assumptions C11_leaked_counter_spins.

(* no byte of one response is interpreted as part of another: over ANY sequence of
   operations answered by well-formed frames (any error codes, any values), after the run
   either the Conn has closed itself (and consumes nothing more, see above), or exactly the
   frames of the operations performed have been consumed — each operation read its own frame —
   and every result was a success or a Kafka error.  ([script_stream c l] = the frames of l
   with the correlation ids the Conn will use; the statement holds for every prefix.) *)
Theorem C11_no_cross_interpretation : forall l st rest st' rs s',
  closed st = false -> script_ok l ->
  conn_run st (map fst l) (script_stream (corr st) l ++ rest) = (st', rs, s') ->
  closed st' = true \/ (s' = rest /\ closed st' = false /\ Forall done_result rs).
Proof. exact run_aligned. Qed.
Print Assumptions C11_no_cross_interpretation.

(* one step of it: on a well-formed frame an operation either is done (success / Kafka error)
   with the reader exactly behind its frame and the Conn open, or fails otherwise with the
   Conn closed *)
Theorem C11_step : forall st a v off w rest st' r s',
  negotiated a v = true -> well_formed a v w -> fits (enc (resp_ty a v) w) -> closed st = false ->
  conn_do st (mkOp a v off) (frame (wrap32 (corr st + 1)) (enc (resp_ty a v) w) ++ rest) = (st', r, s') ->
  corr st' = wrap32 (corr st + 1) /\
  ((done_result r /\ s' = rest /\ closed st' = false) \/
   (exists e, r = RErr e /\ is_kafka e = false /\ closed st' = true)).
Proof. exact wf_step. Qed.
Print Assumptions C11_step.

(* Conn.offset is not disturbed by a broker error: after a Kafka error (after any result) the
   Conn's offset is the one it was positioned at — for fetch the offset seeked to before the
   call ([op_off], the model's Seek), for every other operation the offset it had.  Together with
   C11_next_as_fresh (stated with [offset st']): the next operation behaves as on a fresh Conn
   positioned at the SAME offset; the retry fetches from there, not from 0 *)
Theorem C11_kafka_error_keeps_offset : forall st o s st' c s',
  conn_do st o s = (st', RErr (EKafka c), s') ->
  offset st' = op_offset st o /\
  (op_api o <> AFetch -> (forall acts, op_api o <> AFetchRead acts) -> offset st' = offset st).
Proof.
  intros st o s st' c s' H. destruct (conn_do_state _ _ _ _ _ _ H) as (_ & _ & E).
  rewrite E. split; [reflexivity|].
  intros H1 H2. unfold op_offset. destruct (op_api o); try reflexivity.
  - contradiction.
  - exfalso. eapply H2. reflexivity.
Qed.
Print Assumptions C11_kafka_error_keeps_offset.

(* version negotiation (negotiateVersion / loadVersions as a step of [conn_nop]; the state is
   (conn_state, cached version map)) *)
(* C11's first sentence for the implicit ApiVersions exchange: when it is answered by a
   well-formed response carrying an error code, the negotiating operation returns that Kafka
   error, NOTHING is cached, the reader sits behind the ApiVersions frame and the Conn is open:
   the next operation behaves as on a fresh connection (it asks ApiVersions again and then sends
   its own request at the version a fresh Conn would choose) *)
Theorem C11_failed_apiversions_as_fresh : forall st a key offered off w code rest st1 s1,
  supported a = Some (key, offered) ->
  well_formed AApiVersions 0 w -> fits (enc (resp_ty AApiVersions 0) w) -> closed st = false ->
  conn_do st (mkOp AApiVersions 0 0)
    (frame (wrap32 (corr st + 1)) (enc (resp_ty AApiVersions 0) w) ++ rest) = (st1, RErr (EKafka code), s1) ->
  conn_nop (st, None) a off (frame (wrap32 (corr st + 1)) (enc (resp_ty AApiVersions 0) w) ++ rest)
    = ((st1, None), RErr (EKafka code), rest) /\
  closed st1 = false /\ corr st1 = wrap32 (corr st + 1).
Proof. exact nego_failed_as_fresh. Qed.
Print Assumptions C11_failed_apiversions_as_fresh.

(* the version map is stored only by a successful ApiVersions exchange, and then kept *)
Theorem C11_versions_cached_only_on_success : forall st a off s st' t r s',
  conn_nop (st, None) a off s = ((st', Some t), r, s') ->
  exists st1 r0 s1, conn_do st (mkOp AApiVersions 0 0) s = (st1, ROk r0, s1) /\ t = table_of r0.
Proof.
  intros st a off s st' t r s'. unfold conn_nop. destruct (supported a) as [[key offered]|].
  - destruct (conn_do st (mkOp AApiVersions 0 0) s) as [[st1 [r0|e]] s1].
    + destruct (negotiate _ _ <? 0).
      * intros H; inversion H. eauto.
      * destruct (conn_do st1 _ s1) as [[a1 b1] c1]. intros H; inversion H. eauto.
    + intros H; inversion H.
  - destruct (conn_do st _ s) as [[a1 b1] c1]. intros H; inversion H.
Qed.
Print Assumptions C11_versions_cached_only_on_success.

Theorem C11_versions_cache_kept : forall st t a off s c' r s',
  conn_nop (st, Some t) a off s = (c', r, s') -> snd c' = Some t.
Proof.
  intros st t a off s c' r s'. unfold conn_nop. destruct (supported a) as [[key offered]|].
  - destruct (negotiate _ _ <? 0); [intros H; inversion H; reflexivity|].
    destruct (conn_do st _ s) as [[a1 b1] c1]. intros H; inversion H; reflexivity.
  - destruct (conn_do st _ s) as [[a1 b1] c1]. intros H; inversion H; reflexivity.
Qed.
Print Assumptions C11_versions_cache_kept.

(* Batch.Read / Batch.ReadMessage / Conn.Read / Conn.ReadMessage: the operation
   [AFetchRead acts] = ReadBatch, the actions (a >= 0: Read into a buffer of a bytes, -1:
   ReadMessage) until io.ErrShortBuffer or the end of the batch, then Batch.Close.  Its result is
   ROk (fin_val flag offset outcomes) when Close returns nil (flag 0) or io.ErrShortBuffer (flag 1):
   exactly the outcomes after which Batch.close keeps the Conn.  All theorems above
   (C11_aligned_after_kafka_error, C11_step, C11_no_cross_interpretation, C17_conn_cut) quantify
   over it as over every other operation.  In particular, on ANY incoming bytes: after Close
   following io.ErrShortBuffer (or success) the reader sits exactly at the next frame boundary
   and the Conn is open *)
Theorem C11_read_short_buffer_aligned : forall st acts v off s st' x s',
  closed st = false ->
  conn_do st (mkOp (AFetchRead acts) v off) s = (st', ROk x, s') ->
  consumed_frame s s' /\ closed st' = false.
Proof.
  intros st acts v off s st' x s' Hcl H.
  apply (frame_exact st (mkOp (AFetchRead acts) v off) s st' (ROk x) s' Hcl); [discriminate|exact H|exact I].
Qed.
Print Assumptions C11_read_short_buffer_aligned.

(* instances: ReadMessage, then Read into a 1-byte buffer (value "cde"): io.ErrShortBuffer, the
   batch offset is rolled back to 8, the offset of the message that did not fit; the following
   heartbeat reads its own frame; the documented retry with a larger buffer delivers it *)
Theorem C11_regression_short_buffer :
  conn_run (fresh [116%N]) [mkOp (AFetchRead [-1; 1]) 2 7; hb]
    (frame 1 (enc (resp_ty AFetch 2) w_fetch_two) ++ hb_frame 2)
  = (mkConn false 2 [116%N] 7,
     [ROk (fin_val 1 8 [act_val 1 7 [] [97%N; 98%N] 0; act_val 0 1 [] [99%N] 1]); ROk (VZ 0)], []) /\
  conn_do (fresh [116%N]) (mkOp (AFetchRead [-1; 3]) 2 7) (frame 1 (enc (resp_ty AFetch 2) w_fetch_two))
  = (mkConn false 1 [116%N] 7,
     ROk (fin_val 0 9 [act_val 1 7 [] [97%N; 98%N] 0; act_val 0 3 [] [99%N; 100%N; 101%N] 0]), []).
Proof. split; vm_compute; reflexivity. Qed.
Print Assumptions C11_regression_short_buffer.

(* regression instances: a partition or top-level error code in a produce / fetch response, and a
   fetch with highWaterMark = offset and a non-empty message set: the heartbeat that follows reads
   its own frame *)
Theorem C11_regression_produce :
  then_next_ok AProduce 2 0 w_produce_v2 6 /\ then_next_ok AProduce 3 0 w_produce_v2 6 /\
  then_next_ok AProduce 7 0 w_produce_v7 6.
Proof. split; [|split]; vm_compute; reflexivity. Qed.
Print Assumptions C11_regression_produce.

Theorem C11_regression_fetch :
  then_next_ok AFetch 5 3 w_fetch_v5 1 /\ then_next_ok AFetch 10 3 w_fetch_v10_part 1 /\
  then_next_ok AFetch 10 3 w_fetch_v10_top 6 /\ then_next_ok AFetch 2 3 w_fetch_v2 1.
Proof. split; [|split; [|split]]; vm_compute; reflexivity. Qed.
Print Assumptions C11_regression_fetch.

Theorem C11_regression_fetch_hwm_eq_offset :
  conn_run (fresh [116%N]) [mkOp AFetch 2 100; hb]
    (frame 1 (enc (resp_ty AFetch 2) w_fetch_ok_v2) ++ hb_frame 2)
  = (mkConn false 2 [116%N] 100, [ROk (VL [VZ 0; VZ 100]); ROk (VZ 0)], []).
Proof. vm_compute. reflexivity. Qed.
Print Assumptions C11_regression_fetch_hwm_eq_offset.

Theorem C11_regression_former_cross_interpretation :
  conn_run (fresh [116%N]) [mkOp AProduce 2 0; hb; hb; hb; hb; hb]
    (frame 1 (enc (resp_ty AProduce 2) w_produce_v2_thr6)
     ++ hb_frame 2 ++ hb_frame 3 ++ hb_frame 4 ++ hb_frame 5 ++ hb_frame 6)
  = (mkConn false 6 [116%N] (-1),
     [RErr (EKafka 6); ROk (VZ 0); ROk (VZ 0); ROk (VZ 0); ROk (VZ 0); ROk (VZ 0)], []).
Proof. vm_compute. reflexivity. Qed.
Print Assumptions C11_regression_former_cross_interpretation.

(* non-vacuity: the hypotheses are met by concrete non-trivial instances *)
Example C11_nonvacuous_witnesses_well_formed :
  negotiated AProduce 7 = true /\ well_formed AProduce 7 w_produce_v7 /\
  negotiated AFetch 10 = true /\ well_formed AFetch 10 w_fetch_v10_top /\
  well_formed AFetch 5 w_fetch_v5 /\ well_formed AFetch 2 w_fetch_v2.
Proof.
  refine (conj eq_refl (conj _ (conj eq_refl (conj _ (conj _ _)))));
    (apply well_formed_by_eval; [vm_compute; reflexivity|cbn; repeat eexists]).
Qed.

Definition w_joingroup_err : wval :=
  WP (WZ 100) (WP (WZ 27) (WP (WZ 3) (WP (WS (Some [114%N])) (WP (WS (Some [108%N])) (WP (WS None)
     (WL (Some [WP (WS (Some [109%N])) (WS (Some [1%N; 2%N]))]))))))).
Example C11_nonvacuous_script :
  script_ok [(mkOp AJoinGroup 2 0, w_joingroup_err); (mkOp AProduce 2 0, w_produce_v2);
             (mkOp AHeartbeat 0 0, WZ 0)] /\
  conn_run (fresh [116%N]) [mkOp AJoinGroup 2 0; mkOp AProduce 2 0; hb]
    (script_stream 0 [(mkOp AJoinGroup 2 0, w_joingroup_err); (mkOp AProduce 2 0, w_produce_v2);
                      (mkOp AHeartbeat 0 0, WZ 0)] ++ [7%N])
  = (mkConn false 3 [116%N] (-1), [RErr (EKafka 27); RErr (EKafka 6); ROk (VZ 0)], [7%N]).
Proof.
  split; [|vm_compute; reflexivity].
  repeat first [apply Forall_nil | apply Forall_cons]; cbn [fst snd op_api op_ver];
    (split; [reflexivity|split; [|vm_compute; reflexivity]]);
    (apply well_formed_by_eval; [vm_compute; reflexivity|cbn; repeat eexists]).
Qed.

(* the synchronisation skeleton the model assumes (which Go critical section each label of
   Model/ConnMux.v / conn_do of Model/ConnOps.v stands for, conn_assumptions:
   Model/SkeletonAssumptions.v) holds of /repo's CURRENT source: call/access facts regenerated by harness/cmd/vskel on every run. *)
From KV Require Model.SkeletonAssumptions Gen.Skeleton Proofs.SkeletonConn.
Theorem C11_skeleton_assumptions :
  KV.Model.SkeletonAssumptions.conn_assumptions_hold KV.Gen.Skeleton.calls KV.Gen.Skeleton.accesses = true.
Proof. exact KV.Proofs.SkeletonConn.conn_skeleton_ok. Qed.
Print Assumptions C11_skeleton_assumptions.
