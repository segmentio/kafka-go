(* Properties/C17conn.v — the Conn half of C17: a response cut off at any byte yields an error,
   never a panic, hang or fake data.  A statement sheet: each proof is a lemma of Proofs/ or a few
   lines over them.
   The incoming stream of the model ends where the peer closed the connection:
   [firstn k frame] = the first k bytes of the response, then end-of-stream.
   Fetch is ReadBatch followed by Batch.Close without reading a message (what ReadMessage
   delivers before the error is the message-set reader's business: C02's model; the harness
   checks it directly on the implementation, see checks/c11.py PART C). *)
From Coq Require Import List NArith ZArith Bool Lia.
From KV Require Import Lib.Bits Lib.Bytes Model.Legacy Model.ConnOps.
From KV Require Import Proofs.ConnOpsBase Proofs.ConnOpsCodec Proofs.ConnOpsProofs Proofs.ConnOpsWitness
  Proofs.ConnOpsCustom Proofs.ConnOpsAll Proofs.ConnOpsNego.
Import ListNotations.
Open Scope Z_scope.

(* every operation of Conn, every negotiated version, every well-formed response (any
   error codes, any values), every cut position k < length frame: the call returns an error
   that is not a Kafka error — never success, never a panic outcome (the model's EPanic is a
   non-Kafka error and is not reachable here, see C17_conn_cut_consumed for its kind) — and the
   Conn has closed its connection *)
Theorem C17_conn_cut : forall st a v off w k,
  negotiated a v = true -> well_formed a v w -> fits (enc (resp_ty a v) w) -> closed st = false ->
  (k < length (frame (wrap32 (corr st + 1)) (enc (resp_ty a v) w)))%nat ->
  exists e st2 s2,
    conn_do st (mkOp a v off) (firstn k (frame (wrap32 (corr st + 1)) (enc (resp_ty a v) w)))
      = (st2, RErr e, s2) /\ is_kafka e = false /\ closed st2 = true.
Proof. exact conn_cut_full. Qed.
Print Assumptions C17_conn_cut.

(* the kind of the error, for ANY incoming bytes and every operation: a cut strictly inside
   what the complete exchange consumed yields io.EOF / io.ErrUnexpectedEOF (for fetch always
   io.ErrUnexpectedEOF, never the io.EOF that means "end of batch") and closes the Conn *)
Theorem C17_conn_cut_consumed : forall st o s st' r s' k,
  closed st = false ->
  conn_do st o s = (st', r, s') ->
  (k + length s' < length s)%nat ->
  exists e st2 s2,
    conn_do st o (firstn k s) = (st2, RErr e, s2) /\ transport e = true /\ closed st2 = true.
Proof.
  intros st o s st' r s' k Hcl H Hk.
  destruct (conn_do_cut _ _ _ _ _ _ k Hcl H Hk) as (e & st2 & s2 & Ht & E & Hc).
  exists (map_err (op_api o) e), st2, s2. auto using map_err_transport.
Qed.
Print Assumptions C17_conn_cut_consumed.

(* a cut at or beyond what the complete exchange consumed (only possible when that exchange
   itself failed before the end of its frame) gives the same result as the complete exchange *)
Theorem C17_conn_cut_beyond : forall st o s st' r s' k,
  closed st = false -> (8 <= k)%nat ->
  conn_do st o s = (st', r, s') ->
  get_bes 4 (firstn 4 s) - 4 <= Z.of_nat (length s) - 8 ->
  (length s <= k + length s')%nat ->
  exists s2, conn_do st o (firstn k s) = (st', r, s2).
Proof. exact conn_do_cut_beyond. Qed.
Print Assumptions C17_conn_cut_beyond.

(* the decoder of a well-formed response returns what was encoded and consumes exactly it *)
Theorem C17_conn_decode_exact : forall t w, wt t w -> forall sz rest,
  Z.of_nat (length (enc t w)) <= sz ->
  read_ty t sz (enc t w ++ rest) = (inl (dec_val t w), sz - Z.of_nat (length (enc t w)), rest).
Proof. exact read_ty_enc. Qed.
Print Assumptions C17_conn_decode_exact.

(* the Conn is not used again: once closed, every later operation fails *)
Theorem C17_conn_no_reuse : forall st ops s,
  closed st = true ->
  exists st', conn_run st ops s = (st', map (fun _ => RErr EClosed) ops, s) /\ closed st' = true.
Proof. exact closed_run. Qed.
Print Assumptions C17_conn_no_reuse.

(* regression instances: every cut of these concrete frames is reported *)
(* fetch, 77-byte frame with one magic-1 message: every cut (header, first message header, the
   part Batch.close discards) is io.ErrUnexpectedEOF and the Conn is closed *)
Theorem C17_conn_regression_fetch : forall k, (k < 77)%nat ->
  exists st' s', conn_do (fresh [116%N]) (mkOp AFetch 2 7)
                   (firstn k (frame 1 (enc (resp_ty AFetch 2) w_fetch_ok_v2)))
                 = (st', RErr EUnexpEOF, s') /\ closed st' = true.
Proof.
  intros k Hk.
  destruct (conn_do_cut (fresh [116%N]) _ _ _ _ _ k eq_refl fetch_full_ok) as (e & st2 & s2 & Ht & E & Hc).
  - change (k + 0 < 77)%nat. lia.
  - exists st2, s2. destruct e; try discriminate Ht; auto.
Qed.
Print Assumptions C17_conn_regression_fetch.

(* ApiVersions (a 20-byte frame: 8 of header, int16 error code, int32 count, one entry of three
   int16): io.EOF and the Conn is closed *)
Theorem C17_conn_regression_apiversions : forall k, (k < 20)%nat ->
  exists st' s', conn_do (fresh []) (mkOp AApiVersions 0 0)
                   (firstn k (frame 1 (enc (resp_ty AApiVersions 0) w_apiversions)))
                 = (st', RErr EEOF, s') /\ closed st' = true.
Proof.
  intros k Hk. apply (eof_cuts_by_sweep _ _ _ 0 20); [vm_compute; reflexivity|lia].
Qed.
Print Assumptions C17_conn_regression_apiversions.

(* produce error response (a 45-byte frame) cut inside the trailing int32 throttle field, bytes
   41..44, which the reader skips after the partition's error code *)
Theorem C17_conn_regression_produce_error : forall k, (41 <= k < 45)%nat ->
  exists st' s',
    conn_do (fresh [116%N]) (mkOp AProduce 2 0)
      (firstn k (frame 1 (enc (resp_ty AProduce 2) w_produce_v2)))
    = (st', RErr EEOF, s') /\ closed st' = true.
Proof.
  intros k Hk. apply (eof_cuts_by_sweep _ _ _ 41 4); [vm_compute; reflexivity|lia].
Qed.
Print Assumptions C17_conn_regression_produce_error.

(* Batch.Read into a buffer shorter than the value (AFetchRead [1], values "ab" / "cde"), the
   response cut at ANY byte — before, inside or after the value that does not fit: the call
   reports io.ErrUnexpectedEOF, never io.ErrShortBuffer, and the Conn is closed (an instance of
   C17_conn_cut, which quantifies over AFetchRead like over every operation) *)
Theorem C17_conn_short_buffer_read_cut :
  length (frame 1 (enc (resp_ty AFetch 2) w_fetch_two)) = 114%nat /\
  forall k, (k < 114)%nat ->
  exists st' s', conn_do (fresh [116%N]) (mkOp (AFetchRead [1]) 2 7)
                   (firstn k (frame 1 (enc (resp_ty AFetch 2) w_fetch_two)))
                 = (st', RErr EUnexpEOF, s') /\ closed st' = true.
Proof.
  split; [vm_compute; reflexivity|]. intros k Hk.
  destruct (conn_do_cut (fresh [116%N]) _ _ _ _ _ k eq_refl short_buffer_full) as (e & st2 & s2 & Ht & E & Hc).
  - change (k + 0 < 114)%nat. lia.
  - exists st2, s2. destruct e; try discriminate Ht; auto.
Qed.
Print Assumptions C17_conn_short_buffer_read_cut.

(* a peer that goes silent: which deadline bounds the call ([deadline_of], with the fallback of
   ApiVersions to the write deadline).  A call made under the deadline of its own side (read-side
   calls: SetReadDeadline or SetDeadline; write-side calls — produce, join/heartbeat/leave,
   offset-commit, create/delete topics, SASL: SetWriteDeadline or SetDeadline) is bounded in every
   exchange it performs, INCLUDING the implicit version negotiation of a first call on a Conn
   whose versions are not loaded: it returns by that deadline (timeout error, Conn closed: checked
   on the implementation by the stall cases of checks/c11.py) *)
Theorem C17_conn_stall_returns_by_deadline : forall rset wset loaded a,
  (match op_side a with SRead => rset | SWrite => wset end) = true ->
  deadline_of rset wset (stalled_exchange loaded a) <> None.
Proof.
  intros rset wset loaded a H. unfold stalled_exchange.
  assert (Hown : deadline_of rset wset a <> None).
  { unfold deadline_of. destruct a; cbn [op_side] in *; rewrite ?H; try discriminate;
      destruct rset; try discriminate; destruct wset; discriminate. }
  destruct (supported a) as [p|]; [|exact Hown].
  destruct loaded; [exact Hown|].
  unfold deadline_of. destruct (op_side a); rewrite H in *.
  - discriminate.
  - destruct rset; discriminate.
Qed.
Print Assumptions C17_conn_stall_returns_by_deadline.

Example C17_conn_nonvacuous_fetch_full :
  well_formed AFetch 2 w_fetch_ok_v2 /\
  length (frame 1 (enc (resp_ty AFetch 2) w_fetch_ok_v2)) = 77%nat /\
  conn_do (fresh [116%N]) (mkOp AFetch 2 7) (frame 1 (enc (resp_ty AFetch 2) w_fetch_ok_v2))
  = (mkConn false 1 [116%N] 7, ROk (VL [VZ 0; VZ 100]), []).
Proof.
  split; [|split; [vm_compute; reflexivity|exact fetch_full_ok]].
  apply well_formed_by_eval; [vm_compute; reflexivity|cbn; repeat eexists].
Qed.

Definition w_offsetfetch : wval :=
  WL (Some [WP (WS (Some [116%N])) (WL (Some [WP (WZ 0) (WP (WZ 42) (WP (WS None) (WZ 0)))]))]).
Example C17_conn_nonvacuous_offsetfetch :
  wt (resp_ty AOffsetFetch 1) w_offsetfetch /\
  length (frame 1 (enc (resp_ty AOffsetFetch 1) w_offsetfetch)) = 35%nat /\
  exists s', conn_do (fresh [116%N]) (mkOp AOffsetFetch 1 0)
    (firstn 34 (frame 1 (enc (resp_ty AOffsetFetch 1) w_offsetfetch)))
  = (mkConn true 1 [116%N] (-1), RErr EEOF, s').
Proof.
  split; [apply wtb_sound; vm_compute; reflexivity|split; [vm_compute; reflexivity|]].
  eexists. vm_compute. reflexivity.
Qed.
