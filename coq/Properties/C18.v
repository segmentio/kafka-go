(* Properties/C18.v — With SASL configured, nothing is sent before authentication succeeds.
   Statements; the invariants behind them are in Proofs/Sasl*.v.  The model is Model/Sasl.v: one
   connection of the Dialer path or of the Transport path as a labelled transition system
   over wire events; the mechanism (and, for C18_exchange_complete, its server) are
   universally quantified abstract state machines.  [tr s] is the trace newest-first,
   [trace s = rev (tr s)] is chronological. *)
From Coq Require Import List ZArith Bool Lia.
From Coq Require Import NArith.
From KV Require Import Model.Sasl Proofs.SaslProofs Proofs.SaslRawRead Proofs.SaslAddrConc.
Import ListNotations.
Open Scope Z_scope.

(* Every written request that is not ApiVersions(18) / SaslHandshake(17) / SaslAuthenticate(36)
   or raw SASL bytes is preceded, on that connection, by the verdict "accepted". *)
Theorem C18_nothing_before_auth :
  forall mstate mstart mnext p a (s : state mstate),
    reachable mstate mstart mnext p a s ->
    forall l1 m l2, trace s = l1 ++ ESend m :: l2 -> auth_msg m = false -> In EVerdict l1.
Proof.
  intros mstate mstart mnext p a s R l1 m l2.
  exact (guarded_rev _ l1 m l2 (proj1 (guarded_inv mstate mstart mnext p a s R))).
Qed.
Print Assumptions C18_nothing_before_auth.

(* The trace only grows: a step conses at least one event onto it. *)
Theorem C18_trace_monotone :
  forall mstate mstart mnext p a (s s' : state mstate) l,
    step mstate mstart mnext p a s l = Some s' ->
    exists evs, evs <> [] /\ tr s' = evs ++ tr s.
Proof.
  intros mstate mstart mnext p a s s' l H. apply step_stepR in H. destruct H; cbn [tr fail];
    match goal with
    | |- exists evs, _ /\ ?x :: ?y :: ?z :: tr ?s = _ => exists [x; y; z]
    | |- exists evs, _ /\ ?x :: ?y :: tr ?s = _ => exists [x; y]
    | |- exists evs, _ /\ ?x :: tr ?s = _ => exists [x]
    end; (split; [discriminate | reflexivity]).
Qed.
Print Assumptions C18_trace_monotone.

(* Any failing step — a non-zero error code (UnsupportedSASLMechanism 33,
   SASLAuthenticationFailed 58, any other), a malformed response (cut off, short body, wrong
   correlation id, or a negative length prefix on the raw exchange), the connection closed,
   a challenge the mechanism rejects, Start failing, no usable handshake version — ends in
   PFailed (dialling returned an error) with the connection closed by the client, the
   connection was never handed out, no verdict was reached, and nothing can happen on it
   any more.  There is no other abnormal end: the model has no panic state. *)
Theorem C18_failure_closes :
  forall mstate mstart mnext p a (s s' : state mstate) r,
    reachable mstate mstart mnext p a s ->
    step mstate mstart mnext p a s (LBroker r) = Some s' ->
    failing mstate mstart mnext p a s r ->
    ph s' = PFailed /\ tr s' = EClose :: ERecv r :: tr s
    /\ ~ In EHandOut (tr s') /\ ~ In EVerdict (tr s')
    /\ (forall l, step mstate mstart mnext p a s' l = None).
Proof.
  intros mstate mstart mnext p a s s' r R H F.
  destruct (failing_step mstate mstart mnext p a s s' r H F) as [P ->].
  exact (fail_final mstate mstart mnext p a s r R P).
Qed.
Print Assumptions C18_failure_closes.

(* What each path really does: the handshake goes out at min(advertised max, 1) (a missing
   key counts as 0; the Dialer gives up on a negative max); SASL bytes travel raw iff that
   version is 0 and in SaslAuthenticate requests iff it is 1; the SaslAuthenticate version
   is 0 on the Dialer path and the negotiated one on the Transport path. *)
Theorem C18_version_framing :
  forall mstate mstart mnext p a (s : state mstate),
    reachable mstate mstart mnext p a s ->
    forall m, In (ESend m) (tr s) ->
      (forall v, m = MReq K_SaslHandshake v -> v = hs_version p a /\ 0 <= v <= 1)
      /\ (authbytes_msg m = true -> (m = MRaw <-> hs_version p a = 0))
      /\ (forall v, m = MReq K_SaslAuthenticate v -> v = auth_version p a /\ hs_version p a = 1).
Proof. intros mstate mstart mnext p a s R. exact (proj1 (version_inv mstate mstart mnext p a s R)). Qed.
Print Assumptions C18_version_framing.

(* Against an honest server for the mechanism (ApiVersions and the handshake answered
   without error; a rejection reported as error 58 when framed, by closing when raw) the
   connection is accepted within n rounds exactly when the mechanism oracle [corun] — client
   machine against server machine with no wire in between — accepts within n rounds:
   neither path, handshake version or framing changes the verdict.  (The 3 extra units of fuel
   are LStart, the ApiVersions answer and the SaslHandshake answer.) *)
Theorem C18_exchange_complete :
  forall mstate mstart mnext p a sstate (srv_init : sstate) srv_next n,
    port_is_number (dial_addr a) = true ->
    0 <= hs_version p a ->
    accepted_or_out
      (drive mstate mstart mnext p a sstate srv_next (3 + n) None 0 init (Some srv_init)) =
    match mstart with
    | None => false
    | Some (ms, out) => corun mstate mnext sstate srv_next n ms (Some srv_init) out
    end.
Proof.
  intros mstate mstart mnext p a sstate srv_init srv_next n PN H. apply Z.ltb_ge in H.
  assert (DR : dialer_refuses p a = false)
    by (unfold dialer_refuses; rewrite PN; destruct p; reflexivity).
  assert (TR : transport_refuses p a = false)
    by (unfold transport_refuses; rewrite PN; destruct p; reflexivity).
  change (3 + n)%nat with (S (S (S n))). unfold init.
  cbn [drive ph tr step pick]. rewrite DR. cbn [drive ph tr step pick]. rewrite H, TR.
  cbn [orb drive ph tr step pick].
  destruct mstart as [[ms out]|] eqn:M; rewrite <- M.
  - eapply drive_corun. reflexivity.
  - rewrite drive_stuck; [reflexivity|cbn; tauto].
Qed.
Print Assumptions C18_exchange_complete.

(* The scripted runs of the correspondence driver (any fault, any fuel) are traces of the
   transition system, so the theorems above apply to them. *)
Theorem C18_run_reachable :
  forall p a k c fault,
    reachable nat (shape_start k) (shape_next k) p a (run_case p a k c fault).
Proof.
  intros p a k c fault. unfold run_case.
  match goal with |- context [handed_out ?s] => set (s0 := s) end.
  assert (R : reachable nat (shape_start k) (shape_next k) p a s0)
    by (apply drive_reachable; apply reach_init).
  cbv zeta. destruct (handed_out s0); [apply first_use_reachable|]; exact R.
Qed.
Print Assumptions C18_run_reachable.

(* Transport path (protocol/saslauthenticate readResp): for EVERY announced length (any
   int32, or any integer), every sequence of payload bytes that arrives and either ending,
   the bytes allocated for the response are at most 10 x the payload bytes RECEIVED + 2560 —
   never a function of the announced length — and no more is consumed than arrived or than
   was announced.  [grow] is append's capacity choice, only assumed to lie between 1.25 x and
   2 x the old capacity (runtime.growslice). *)
Theorem C18_raw_read_alloc_bounded :
  forall grow : N -> N,
    (forall c, (512 <= c -> 5 * c <= 4 * grow c)%N) ->
    (forall c, (512 <= c -> grow c <= 2 * c)%N) ->
    forall announced avail e,
      let r := transport_raw_read grow announced avail e in
      (rr_alloc r <= 10 * rr_received r + 2560)%N /\
      (rr_received r <= N.of_nat (length avail))%N /\
      (0 <= announced -> Z.of_N (rr_received r) <= announced).
Proof. exact transport_raw_read_bounded. Qed.
Print Assumptions C18_raw_read_alloc_bounded.

(* the instance the correspondence driver evaluates (growslice's formula) *)
Theorem C18_raw_read_alloc_bounded_go :
  forall announced avail e,
    let r := raw_read Transport announced avail e in
    (rr_alloc r <= 10 * rr_received r + 2560)%N /\
    (rr_received r <= N.of_nat (length avail))%N /\
    (0 <= announced -> Z.of_N (rr_received r) <= announced).
Proof. intros. apply (transport_raw_read_bounded go_grow go_grow_lo go_grow_hi). Qed.
Print Assumptions C18_raw_read_alloc_bounded_go.

(* Conn path (conn.go saslAuthenticate, raw branch): NOT bounded by what arrives — it
   allocates the announced length (an observation; the Conn is outside C20's scope). *)
Theorem C18_conn_raw_read_allocates_announced :
  forall announced avail e,
    0 < announced -> rr_alloc (raw_read Dialer announced avail e) = Z.to_N announced.
Proof.
  intros announced avail e H. unfold raw_read, conn_raw_read.
  destruct (Z.ltb_spec announced 0); [lia|]. destruct (Z.eqb_spec announced 0); [lia|].
  cbv zeta. destruct (announced <=? Z.of_nat (length avail)); [reflexivity|].
  destruct e; reflexivity.
Qed.
Print Assumptions C18_conn_raw_read_allocates_announced.

(* both paths classify the read alike: payload / io.EOF / io.ErrUnexpectedEOF / protocol
   error (negative length) / deadline *)
Theorem C18_raw_read_outcome_same :
  forall grow announced avail e,
    rr_out (transport_raw_read grow announced avail e) = rr_out (conn_raw_read announced avail e).
Proof.
  intros grow announced avail e. unfold transport_raw_read, conn_raw_read.
  destruct (announced <? 0) eqn:A; [reflexivity|].
  destruct (Z.eqb_spec announced 0) as [->|B]; cbv zeta.
  - destruct (Z.leb_spec 0 (Z.of_nat (length avail))); [reflexivity|lia].
  - destruct (announced <=? Z.of_nat (length avail)); [reflexivity|]. destruct e; reflexivity.
Qed.
Print Assumptions C18_raw_read_outcome_same.

(* a raw read that yields no payload fails the dial: error, connection closed, never handed
   out, no verdict, nothing can be written afterwards *)
Theorem C18_raw_read_failure_closes :
  forall mstate mstart mnext p a (s : state mstate) i ms out o,
    reachable mstate mstart mnext p a s ->
    ph s = PAuth Raw i ms out ->
    (forall payload, o <> RROk payload) ->
    exists s', step mstate mstart mnext p a s (LBroker (reaction_of_rr o)) = Some s'
      /\ ph s' = PFailed /\ tr s' = EClose :: ERecv (reaction_of_rr o) :: tr s
      /\ ~ In EHandOut (tr s') /\ ~ In EVerdict (tr s')
      /\ (forall l, step mstate mstart mnext p a s' l = None).
Proof.
  intros mstate mstart mnext p a s i ms out o R E NO.
  exists (fail mstate s (reaction_of_rr o)). split.
  - unfold step. rewrite E. destruct o as [pl| | | |]; try reflexivity. destruct (NO pl eq_refl).
  - apply fail_final; [exact R|rewrite E; exact I].
Qed.
Print Assumptions C18_raw_read_failure_closes.

(* [refused r := error_code r <> 0]: two responses that differ only in their error_message
   (null, empty, any text) are the same reaction, hence the same verdict in every state. *)
Theorem C18_refusal_ignores_message : forall code m1 m2 payload,
  refused (mkResp code m1 payload) = refused (mkResp code m2 payload) /\
  reaction_of_response (mkResp code m1 payload) = reaction_of_response (mkResp code m2 payload) /\
  (forall step, fault_of_response step (mkResp code m1 payload) = fault_of_response step (mkResp code m2 payload)).
Proof. intros. repeat split. Qed.
Print Assumptions C18_refusal_ignores_message.

(* a response with a non-zero error code — any int16, negative or >= 128 included, whatever
   its message — at any step where it is possible fails the dial: error, connection closed,
   never handed out, nothing afterwards *)
Theorem C18_refused_response_fails :
  forall mstate mstart mnext p a (s s' : state mstate) r,
    reachable mstate mstart mnext p a s ->
    refused r = true ->
    step mstate mstart mnext p a s (LBroker (reaction_of_response r)) = Some s' ->
    ph s' = PFailed /\ tr s' = EClose :: ERecv (RErr (error_code r)) :: tr s
    /\ ~ In EHandOut (tr s') /\ ~ In EVerdict (tr s')
    /\ (forall l, step mstate mstart mnext p a s' l = None).
Proof.
  intros mstate mstart mnext p a s s' r R F S.
  unfold reaction_of_response in S. rewrite F in S.
  apply (C18_failure_closes mstate mstart mnext p a s s' _ R S).
  cbn. unfold refused in F. apply negb_true_iff in F. apply Z.eqb_neq in F. exact F.
Qed.
Print Assumptions C18_refused_response_fails.

(* [a] carries the class of the address that was dialled (dial_addr): numeric port, no port,
   service-name port, IPv6 literal, port 0, port 65536, empty.  For EVERY address class, on
   both paths: a connection that is handed out has the verdict in its trace, and every
   non-authentication request on it comes after the verdict. *)
Theorem C18_authenticated_whatever_address :
  forall mstate mstart mnext p a (s : state mstate),
    reachable mstate mstart mnext p a s ->
    handed_out s = true ->
    In EVerdict (tr s) /\
    (forall l1 m l2, trace s = l1 ++ ESend m :: l2 -> auth_msg m = false -> In EVerdict l1).
Proof.
  intros mstate mstart mnext p a s R H. split.
  - apply (proj2 (guarded_inv mstate mstart mnext p a s R)).
    unfold handed_out in H. destruct (ph s); try discriminate H; exact I.
  - exact (C18_nothing_before_auth mstate mstart mnext p a s R).
Qed.
Print Assumptions C18_authenticated_whatever_address.

(* The one class both paths refuse — a port that is not a number: the connection is never
   handed out, no verdict, and nothing is written except, on the Transport path, the
   ApiVersions request that precedes its look at the address. *)
Theorem C18_refused_address_writes_nothing :
  forall mstate mstart mnext p a,
    port_is_number (dial_addr a) = false ->
    forall s : state mstate, reachable mstate mstart mnext p a s ->
      handed_out s = false /\ ~ In EVerdict (tr s) /\ ~ In EHandOut (tr s) /\
      (forall m, In (ESend m) (tr s) -> p = Transport /\ m = MReq K_ApiVersions 0).
Proof.
  intros mstate mstart mnext p a PN s R.
  destruct (refused_inv mstate mstart mnext p a PN s R) as (IP & _ & IS).
  assert (NP : ~ post mstate (ph s)) by (destruct (ph s); cbn in *; tauto).
  destruct (early_inv mstate mstart mnext p a s R NP) as [A B].
  split; [unfold handed_out; destruct (ph s); cbn in IP; try contradiction; reflexivity|].
  split; [exact B|]. split; [exact A|exact IS].
Qed.
Print Assumptions C18_refused_address_writes_nothing.

(* The joint system of n connections (a step of connection i is a step of its component;
   every connection owns the machine state Start gave it) is the product of n single
   systems: every component of a jointly reachable state is a reachable single-connection
   state, so every theorem above holds of each connection whatever the interleaving.
   Obligation on the code (ASSUMPTIONS, S-conc): Mechanism.Start allocates its StateMachine. *)
Theorem C18_concurrent_is_product :
  forall mstate mstart mnext p a n ss,
    mreachable mstate mstart mnext p a n ss ->
    length ss = n /\ Forall (reachable mstate mstart mnext p a) ss.
Proof.
  intros mstate mstart mnext p a n ss. induction 1 as [|ss i l ss' M [L F] H].
  - split; [apply repeat_length|]. apply Forall_forall. intros x X.
    apply repeat_spec in X. subst. apply reach_init.
  - destruct (mstep_reach mstate mstart mnext p a ss i l ss' F H) as [L' F']. split; [congruence|exact F'].
Qed.
Print Assumptions C18_concurrent_is_product.

Definition adv01 (hs au : option Z) : advert := {| hs_max := hs; auth_max := au; dial_addr := AddrNumericPort |}.
Definition adv_at (hs au : option Z) (ac : addr_class) : advert := {| hs_max := hs; auth_max := au; dial_addr := ac |}.

(* PLAIN, Dialer, handshake v1, right credentials: framed exchange, verdict, hand-out, use *)
Example ex_plain_dialer_v1 :
  trace (run_case Dialer (adv01 (Some 1) (Some 1)) MPlain CredRight None) =
  [ESend (MReq 18 0); ERecv (ROk []); ESend (MReq 17 1); ERecv (ROk []);
   ESend (MReq 36 0); ERecv (ROk []); EVerdict; EHandOut; ESend (MReq 3 1); EClose].
Proof. vm_compute. reflexivity. Qed.

(* SCRAM, Transport, handshake v0, wrong password: raw exchange, the broker closes at the
   client-final step, dialling fails, the client closes, nothing else is written *)
Example ex_scram_transport_v0_wrong :
  trace (run_case Transport (adv01 (Some 0) None) MScram CredWrongPassword None) =
  [ESend (MReq 18 0); ERecv (ROk []); ESend (MReq 17 0); ERecv (ROk []);
   ESend MRaw; ERecv (ROk [11]); ESend MRaw; ERecv RClose; EClose].
Proof. vm_compute. reflexivity. Qed.

(* SCRAM, Transport, v1 with SaslAuthenticate v1 advertised, unsupported mechanism *)
Example ex_scram_transport_unsupported :
  trace (run_case Transport (adv01 (Some 1) (Some 2)) MScram CredRight (Some (1%nat, RErr 33))) =
  [ESend (MReq 18 0); ERecv (ROk []); ESend (MReq 17 1); ERecv (RErr 33); EClose].
Proof. vm_compute. reflexivity. Qed.

Example ex_scram_transport_v1_right :
  trace (run_case Transport (adv01 (Some 3) (Some 2)) MScram CredRight None) =
  [ESend (MReq 18 0); ERecv (ROk []); ESend (MReq 17 1); ERecv (ROk []);
   ESend (MReq 36 1); ERecv (ROk [11]); ESend (MReq 36 1); ERecv (ROk [12]);
   EVerdict; EHandOut; ESend (MReq 3 1); EClose].
Proof. vm_compute. reflexivity. Qed.

(* a negative length prefix on the raw exchange (PLAIN, handshake v0) fails the dial on both
   paths: error, connection closed, nothing written afterwards, never handed out *)
Example ex_neglen_fails :
  forall p,
  trace (run_case p (adv01 (Some 0) None) MPlain CredRight (Some (2%nat, RNegLen))) =
  [ESend (MReq 18 0); ERecv (ROk []); ESend (MReq 17 0); ERecv (ROk []);
   ESend MRaw; ERecv RNegLen; EClose].
Proof. intros p; destruct p; vm_compute; reflexivity. Qed.

(* the oracle is not constant *)
Example ex_corun :
  corun nat (shape_next MScram) nat (shape_srv MScram CredRight) 2 O (Some O) [1] = true /\
  corun nat (shape_next MScram) nat (shape_srv MScram CredRight) 1 O (Some O) [1] = false /\
  corun nat (shape_next MScram) nat (shape_srv MScram CredWrongPassword) 5 O (Some O) [1] = false /\
  corun nat (shape_next MPlain) nat (shape_srv MPlain CredRight) 1 O (Some O) [1] = true.
Proof. vm_compute. repeat split; reflexivity. Qed.

(* raw reads: six bytes 3f ff ff ff 01 02 (announced length 0x3fffffff = 1073741823) allocate
   512 bytes on the Transport path and the announced length on the Conn path; 600 arriving
   bytes make ReadAll grow once *)
Example ex_raw_read_huge_prefix :
  raw_read Transport 1073741823 [1; 2] EndClose = mkRR RRUnexpectedEof 2 512 /\
  raw_read Dialer 1073741823 [1; 2] EndClose = mkRR RRUnexpectedEof 2 1073741823 /\
  raw_read Transport 1073741823 [] EndClose = mkRR RREof 0 512 /\
  raw_read Transport 2 [7; 8; 9] EndSilence = mkRR (RROk [7; 8]) 2 512 /\
  raw_read Transport 3 [7; 8] EndSilence = mkRR RRTimeout 2 512 /\
  raw_read Transport (-1) [7; 8] EndClose = mkRR RRProtocol 0 0 /\
  rr_alloc (raw_read Transport 600 (repeat 0 600) EndClose) = (512 + 832)%N.
Proof. vm_compute. repeat split; reflexivity. Qed.

(* error 58 with a null message, Dialer path, framed exchange: refused; code 0 with a text: not *)
Example ex_refusal_null_message :
  trace (run_case Dialer (adv01 (Some 1) (Some 1)) MPlain CredRight
           (fault_of_response 2 (mkResp 58 None []))) =
  [ESend (MReq 18 0); ERecv (ROk []); ESend (MReq 17 1); ERecv (ROk []);
   ESend (MReq 36 0); ERecv (RErr 58); EClose] /\
  fault_of_response 2 (mkResp 0 (Some [1; 2]) []) = None /\
  refused (mkResp (-1) (Some []) []) = true /\ refused (mkResp 200 None []) = true.
Proof. vm_compute. repeat split; reflexivity. Qed.

(* addresses: a service-name port is refused (Dialer: before anything is written and — as the
   code does — without closing the socket; Transport: after ApiVersions, closed); port 65536
   and the empty address authenticate like any other *)
Example ex_addresses :
  trace (run_case Dialer (adv_at (Some 1) (Some 1) AddrServiceName) MPlain CredRight None) = [ERefused] /\
  trace (run_case Transport (adv_at (Some 1) (Some 1) AddrServiceName) MPlain CredRight None) =
    [ESend (MReq 18 0); ERecv (ROk []); EClose] /\
  trace (run_case Dialer (adv_at (Some 1) (Some 1) AddrPortHuge) MPlain CredRight None) =
    trace (run_case Dialer (adv01 (Some 1) (Some 1)) MPlain CredRight None) /\
  handed_out (run_case Transport (adv_at (Some 0) None AddrEmpty) MScram CredRight None) = true.
Proof. vm_compute. repeat split; reflexivity. Qed.
