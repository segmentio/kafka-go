(* Properties/C19.v — Offset and metadata queries report exactly the brokers' state.
   Statements with short proofs from the lemmas of Proofs/Queries*.v.
   Vocabulary: Proofs/QueriesSpec.v. *)
From Coq Require Import List NArith ZArith Bool Lia Sorting.Permutation.
From KV Require Import Lib.Bits Proofs.BitsLemmas Model.Queries Proofs.QueriesSpec Proofs.QueriesSeekMap
  Proofs.QueriesMerge Proofs.QueriesClient.
Import ListNotations.
Open Scope Z_scope.

(* What Seek returns, what it leaves in c.offset and how many list-offsets requests it
   sends, for every current offset, argument, whence (with or without SeekDontCheck) and
   every (first, last) the broker holds.  t is the arithmetic of the property:
   SeekStart first+offset, SeekEnd last-offset, SeekAbsolute offset, SeekCurrent
   current+offset where current is the position Conn.Offset reports (first for the
   FirstOffset placeholder of a fresh connection, last for LastOffset).
   - SeekDontCheck with SeekAbsolute, or with SeekCurrent from a resolved offset: t,
     unchecked, no request;
   - SeekAbsolute to the offset the connection already has: returned as is, no request
     (a documented optimisation, see C19_seek_unchanged_shortcut_example);
   - otherwise t when first <= t <= last, else OffsetOutOfRange and c.offset unchanged
     (SeekDontCheck is ignored for SeekStart/SeekEnd, as documented, and for SeekCurrent
     from a placeholder, which only the broker can resolve). *)
Theorem C19_seek_spec : forall cur off whence f l,
  in_i64 cur -> in_i64 off -> valid_offsets f l ->
  let w := seek_whence whence in
  let t := seek_target cur off w f l in
  (w = SeekStart \/ w = SeekAbsolute \/ w = SeekEnd \/ w = SeekCurrent) ->
  (w = SeekCurrent -> in_i64 (current_position cur f l + off)) ->
  seek cur off whence (OffsOk f l) =
    if seek_unchecked whence cur then mk_seek (SeekOk t) t 0
    else if (w =? SeekAbsolute) && (off =? cur) then mk_seek (SeekOk cur) cur 0
    else if (f <=? t) && (t <=? l) then mk_seek (SeekOk t) t 2
    else mk_seek (SeekErr ErrOffsetOutOfRange) cur 2.
Proof.
  intros cur off whence f l _ Ho Hv w t Hw Hcur.
  apply (seek_spec cur off whence (OffsOk f l) f l 0 2 eq_refl Hw);
    change (seek_whence whence) with w; clearbody w; unfold seek_target.
  - intros _. split; [assumption|]. intros _.
    destruct Hw as [-> | [-> | [-> | ->]]]; cbn [Z.eqb Pos.eqb SeekStart SeekAbsolute SeekEnd SeekCurrent];
      try specialize (Hcur eq_refl); unfold in_i64, valid_offsets, ZM63, ZM64 in *; lia.
  - intros -> _. apply Hcur. reflexivity.
Qed.
Print Assumptions C19_seek_spec.

(* in particular on a connection that has not been positioned yet (c.offset is the
   FirstOffset placeholder, resp. LastOffset after seeking to the end without a check),
   SeekCurrent moves relative to the partition's start (resp. end), range-checked,
   with or without SeekDontCheck *)
Theorem C19_seek_current_fresh : forall d whence f l,
  in_i64 d -> valid_offsets f l -> seek_whence whence = SeekCurrent ->
  seek FirstOffset d whence (OffsOk f l) =
    (if (0 <=? d) && (f + d <=? l) then mk_seek (SeekOk (f + d)) (f + d) 2
     else mk_seek (SeekErr ErrOffsetOutOfRange) FirstOffset 2) /\
  seek LastOffset d whence (OffsOk f l) =
    (if (d <=? 0) && (f <=? l + d) then mk_seek (SeekOk (l + d)) (l + d) 2
     else mk_seek (SeekErr ErrOffsetOutOfRange) LastOffset 2).
Proof.
  intros d whence f l Hd Hv Hw. destruct (seek_target_fresh d f l) as [Tf Tl].
  assert (B : - ZM63 <= f + d < ZM64 /\ - ZM63 <= l + d < ZM64)
    by (unfold in_i64, valid_offsets, ZM63, ZM64 in *; lia).
  split; rewrite seek_current_placeholder by (rewrite ?Tf, ?Tl; tauto || reflexivity); rewrite ?Tf, ?Tl.
  - replace (f <=? f + d) with (0 <=? d) by lia. reflexivity.
  - replace ((f <=? l + d) && (l + d <=? l)) with ((d <=? 0) && (f <=? l + d)) by lia. reflexivity.
Qed.
Print Assumptions C19_seek_current_fresh.

(* any failure (bad whence, out of range, broker error) leaves c.offset untouched *)
Theorem C19_seek_error_keeps_offset : forall cur off whence b,
  seek_is_ok (so_res (seek cur off whence b)) = false -> so_offset (seek cur off whence b) = cur.
Proof.
  intros cur off whence b H. rewrite seek_offset_after.
  destruct (so_res (seek cur off whence b)); [discriminate H | reflexivity..].
Qed.
Print Assumptions C19_seek_error_keeps_offset.

Theorem C19_seek_ok_sets_offset : forall cur off whence b x,
  so_res (seek cur off whence b) = SeekOk x -> so_offset (seek cur off whence b) = x.
Proof. intros cur off whence b x H. rewrite seek_offset_after, H. reflexivity. Qed.
Print Assumptions C19_seek_ok_sets_offset.

Theorem C19_seek_broker_error : forall cur off whence b f l code n,
  read_offsets b = (f, l, code, n) -> code <> 0 ->
  let w := seek_whence whence in
  (w = SeekStart \/ w = SeekAbsolute \/ w = SeekEnd \/ w = SeekCurrent) ->
  seek_unchecked whence cur = false ->
  (w =? SeekAbsolute) && (off =? cur) = false ->
  seek cur off whence b = mk_seek (SeekErr code) cur n.
Proof.
  intros cur off whence b f l code n Hb Hcode w Hw Hdont Habs.
  rewrite (seek_spec cur off whence b f l code n Hb Hw); [|intro; contradiction | rewrite Hdont; discriminate].
  fold w. rewrite Hdont, Habs. destruct (Z.eqb_spec code 0); [contradiction | reflexivity].
Qed.
Print Assumptions C19_seek_broker_error.

Theorem C19_seek_bad_whence : forall cur off whence b,
  let w := seek_whence whence in
  ~ (w = SeekStart \/ w = SeekAbsolute \/ w = SeekEnd \/ w = SeekCurrent) ->
  seek cur off whence b = mk_seek SeekBadWhence cur 0.
Proof.
  intros cur off whence b w Hw.
  unfold seek. change (Z.ldiff whence SeekDontCheck) with w. clearbody w.
  destruct (Z.eqb_spec w SeekStart); [tauto|].
  destruct (Z.eqb_spec w SeekAbsolute); [tauto|].
  destruct (Z.eqb_spec w SeekEnd); [tauto|].
  destruct (Z.eqb_spec w SeekCurrent); [tauto|].
  reflexivity.
Qed.
Print Assumptions C19_seek_bad_whence.

(* The unchanged-offset shortcut of C19_seek_spec at work: SeekAbsolute to the offset the
   connection already holds is answered without asking the broker, so it is not
   range-checked — e.g. the placeholder -2 of a fresh connection, or an offset the log
   has since been truncated past.  Documented behaviour, not a defect. *)
Theorem C19_seek_unchanged_shortcut_example : exists cur f l,
  valid_offsets f l /\ ~ (f <= cur <= l) /\
  seek cur cur SeekAbsolute (OffsOk f l) = mk_seek (SeekOk cur) cur 0.
Proof.
  exists (-2), 0, 10. split; [|split].
  - unfold valid_offsets, ZM63. lia.
  - lia.
  - vm_compute. reflexivity.
Qed.
Print Assumptions C19_seek_unchanged_shortcut_example.

(* ReadFirstOffset / ReadLastOffset / ReadOffset: the answer for the one partition asked *)
Theorem C19_read_offset_exact : forall t p,
  read_offset_resp [(t, [p])] = if rp_error p =? 0 then ZOk (rp_offset p) else ZErr (rp_error p).
Proof.
  intros t p. unfold read_offset_resp. cbn [scan_topics scan_parts snd].
  destruct (rp_error p =? 0); reflexivity.
Qed.
Print Assumptions C19_read_offset_exact.

(* one sub-request per requested (topic, partition, timestamp), duplicates included, in order *)
Theorem C19_split_exact : forall r,
  listoffsets_split r = map (sub_request (q_replica r) (q_isolation r)) (req_entries r).
Proof.
  intro r. unfold listoffsets_split, req_entries.
  induction (q_topics r) as [|t ts IH]; [reflexivity|].
  cbn [flat_map]. rewrite map_app, IH. f_equal.
  unfold split_topic. rewrite map_map. apply map_ext.
  intros [p ep ts']. reflexivity.
Qed.
Print Assumptions C19_split_exact.

(* For every request and every outcome of every sub-request (answer with any error code /
   returned timestamp / offset, or failure), unless all failed: the merged answer holds
   exactly one entry per requested (topic, partition, timestamp) — the owning sub-request's
   answer with the requested timestamp restored, or (error -1, timestamp -1, offset -1) on
   that partition if the sub-request failed — sorted, throttle = the maximum. *)
Theorem C19_listoffsets_exact : forall r outs,
  length outs = length (req_entries r) ->
  existsb is_answer outs = true \/ outs = [] ->
  exists resp,
    listoffsets_merge (listoffsets_split r) (results_of (req_entries r) outs) = MergeOk resp /\
    Permutation (resp_entries (r_topics resp)) (expected_entries (req_entries r) outs) /\
    r_throttle resp = max_throttle outs /\
    merged_sorted (r_topics resp).
Proof.
  intros r outs Hlen Hans. rewrite C19_split_exact, merge_on_split by exact Hlen.
  replace (existsb is_answer outs || (length outs =? 0)%nat) with true
    by (destruct Hans as [-> | ->]; [reflexivity | symmetry; apply orb_true_r]).
  eexists. split; [reflexivity|]. cbn [r_topics r_throttle].
  destruct (merge_final_spec (q_replica r) (q_isolation r) (req_entries r) outs Hlen) as (Hp & Hn & _ & _).
  split; [rewrite merge_finish_entries; exact Hp|]. split; [reflexivity | exact (merge_finish_sorted _ Hn)].
Qed.
Print Assumptions C19_listoffsets_exact.

Theorem C19_listoffsets_all_failed : forall r outs,
  length outs = length (req_entries r) -> outs <> [] -> existsb is_answer outs = false ->
  listoffsets_merge (listoffsets_split r) (results_of (req_entries r) outs) = MergeErr (first_error outs).
Proof.
  intros r outs Hlen Hne Hall. rewrite C19_split_exact, merge_on_split, Hall by exact Hlen.
  destruct outs as [|o outs]; [congruence|]. destruct (req_entries r) as [|e es]; [discriminate Hlen|].
  cbn [existsb] in Hall. apply orb_false_iff in Hall. destruct o; [destruct Hall; discriminate | reflexivity].
Qed.
Print Assumptions C19_listoffsets_all_failed.

(* Failing sub-request i (whatever happened to the others, as long as one still answers)
   changes the entry of that requested (topic, partition) only: the two merged answers are
   l1 ++ x :: l2 and l1 ++ failed :: l2 up to order, with the same l1, l2. *)
Theorem C19_error_isolation : forall r outs i e,
  length outs = length (req_entries r) -> (i < length outs)%nat ->
  existsb is_answer (set_nth i (OFail e) outs) = true ->
  exists resp resp' q o l1 l2,
    nth_error (req_entries r) i = Some q /\ nth_error outs i = Some o /\
    listoffsets_merge (listoffsets_split r) (results_of (req_entries r) outs) = MergeOk resp /\
    listoffsets_merge (listoffsets_split r) (results_of (req_entries r) (set_nth i (OFail e) outs)) = MergeOk resp' /\
    Permutation (resp_entries (r_topics resp)) (l1 ++ expected_entry q o :: l2) /\
    Permutation (resp_entries (r_topics resp')) (l1 ++ (fst q, fail_part (snd q)) :: l2).
Proof.
  intros r outs i e Hlen Hi Hans.
  destruct (expected_entries_set_nth i (req_entries r) outs Hi Hlen) as (q & o & l1 & l2 & Hq & Ho & H1 & H2).
  destruct (C19_listoffsets_exact r outs Hlen (or_introl (set_nth_fail_answer i e outs Hans))) as (resp & Hm & Hp & _).
  destruct (C19_listoffsets_exact r (set_nth i (OFail e) outs)) as (resp' & Hm' & Hp' & _);
    [rewrite set_nth_length; exact Hlen | left; exact Hans |].
  exists resp, resp', q, o, l1, l2. rewrite H1 in Hp. rewrite (H2 (OFail e)) in Hp'.
  repeat split; assumption.
Qed.
Print Assumptions C19_error_isolation.

(* the Transport's split round trip (connPool.roundTrip Splitter path, join, joined.await).
   Every message is sent; results[i] is the outcome of messages[i] — an answer or the error of
   that round trip (unreachable leader, dropped connection, unknown broker) — and all of them are
   handed to Merge: the call is Merge over the positionally aligned outcomes. *)
Theorem C19_transport_split_is_merge : forall outcome_of r,
  split_round_trip (send_of outcome_of) r =
  listoffsets_merge (listoffsets_split r) (results_of (req_entries r) (map outcome_of (req_entries r))).
Proof.
  intros. unfold split_round_trip. rewrite C19_split_exact at 2. rewrite await_results_of. reflexivity.
Qed.
Print Assumptions C19_transport_split_is_merge.

(* hence, unless every sub-request failed, the call succeeds: healthy entries carry their
   leader's answer, a failed sub-request's error lands on its own (topic, partition) only *)
Theorem C19_transport_split_exact : forall outcome_of r,
  existsb is_answer (map outcome_of (req_entries r)) = true \/ req_entries r = [] ->
  exists resp,
    split_round_trip (send_of outcome_of) r = MergeOk resp /\
    Permutation (resp_entries (r_topics resp)) (expected_entries (req_entries r) (map outcome_of (req_entries r))) /\
    r_throttle resp = max_throttle (map outcome_of (req_entries r)) /\
    merged_sorted (r_topics resp).
Proof.
  intros outcome_of r H. rewrite C19_transport_split_is_merge.
  apply C19_listoffsets_exact; [apply map_length|].
  destruct H as [H|H]; [left; exact H | right; rewrite H; reflexivity].
Qed.
Print Assumptions C19_transport_split_exact.

(* and only when every sub-request failed is the (first) error the result of the call *)
Theorem C19_transport_split_all_failed : forall outcome_of r,
  req_entries r <> [] -> existsb is_answer (map outcome_of (req_entries r)) = false ->
  split_round_trip (send_of outcome_of) r = MergeErr (first_error (map outcome_of (req_entries r))).
Proof.
  intros outcome_of r Hne H. rewrite C19_transport_split_is_merge.
  apply C19_listoffsets_all_failed; [apply map_length | | exact H].
  intro E. apply Hne. destruct (req_entries r); [reflexivity | discriminate E].
Qed.
Print Assumptions C19_transport_split_all_failed.

(* the fan-out mergers: ListGroups (one request per broker), DescribeGroups (one per
   group, to its coordinator), DescribeConfigs (one per broker resource + the topic resources).
   NO SILENT DROP: either every sub-request was answered and the result is the concatenation
   of all their items in request order, or the call fails with the error of a failed sub-request;
   a failed part is never skipped. *)
Theorem C19_fanout_no_silent_drop : forall (A : Type) (results : list (part_result A)),
  match concat_merge results with
  | FanOk l => exists parts, results = map PartOk parts /\ l = concat parts
  | FanErr e => exists pre rest, results = map PartOk pre ++ PartErr e :: rest
  end.
Proof.
  intros A results. unfold concat_merge.
  pose proof (concat_merge_from_spec A results []) as H.
  destruct (concat_merge_from results []); exact H.
Qed.
Print Assumptions C19_fanout_no_silent_drop.

(* ListGroups: additionally every group is attributed to the broker that listed it *)
Theorem C19_listgroups_no_silent_drop : forall (A : Type) (brokers : list Z) (results : list (part_result A)),
  length brokers = length results ->
  match listgroups_merge brokers results with
  | FanOk l => exists parts, results = map PartOk parts /\
                 l = concat (map (fun bp => map (fun g => (g, fst bp)) (snd bp)) (combine brokers parts))
  | FanErr e => In (PartErr e) results
  end.
Proof.
  intros A brokers results Hl. unfold listgroups_merge, concat_merge.
  exact (listgroups_merge_from_spec A brokers results [] Hl).
Qed.
Print Assumptions C19_listgroups_no_silent_drop.

Theorem C19_mapping_exact_offsetfetch : forall r,
  NoDup (map fst (ofr_topics r)) ->
  let a := offsetfetch_map r in
  oa_throttle a = ofr_throttle r /\ oa_err a = ofr_error r /\
  Forall2 (fun x t => fst x = fst t /\ Forall2 of_part_same (snd x) (snd t)) (oa_topics a) (ofr_topics r).
Proof.
  intros r Hnd a. subst a. unfold offsetfetch_map. cbn [oa_throttle oa_err oa_topics].
  split; [reflexivity|]. split; [reflexivity|].
  rewrite (fold_set_fresh amap_set fst (fun t : str * list of_resp_part => map of_conv (snd t)) amap_set_fresh)
    by exact Hnd.
  cbn [app]. apply Forall2_map_l. intros t. cbn [fst snd]. split; [reflexivity|].
  apply Forall2_map_l. intros p. unfold of_part_same, of_conv.
  cbn [oa_partition oa_offset oa_metadata oa_error]. repeat split.
Qed.
Print Assumptions C19_mapping_exact_offsetfetch.

Theorem C19_mapping_exact_offsetcommit : forall r,
  NoDup (map fst (ocr_topics r)) ->
  oca_throttle (offsetcommit_map r) = ocr_throttle r /\ oca_topics (offsetcommit_map r) = ocr_topics r.
Proof.
  intros r Hnd. unfold offsetcommit_map. cbn [oca_throttle oca_topics].
  split; [reflexivity|].
  rewrite (fold_set_fresh amap_set fst snd amap_set_fresh) by exact Hnd. cbn [app].
  rewrite <- (map_id (ocr_topics r)) at 2. apply map_ext. intros [k v]. reflexivity.
Qed.
Print Assumptions C19_mapping_exact_offsetcommit.

(* what is committed is what the caller asked to commit *)
Theorem C19_mapping_exact_offsetcommit_request : forall g u,
  in_i32 g -> Forall (fun t : str * list oc_commit => Forall (fun c => in_i32 (occ_partition c)) (snd t)) u ->
  ocq_generation (offsetcommit_request g u) = g /\ ocq_topics (offsetcommit_request g u) = u.
Proof.
  intros g u Hg Hu. unfold offsetcommit_request. cbn [ocq_generation ocq_topics].
  split; [apply wrap32_id; exact Hg|].
  rewrite <- (map_id u) at 2. apply map_ext_in. intros [name cs] Hin.
  rewrite Forall_forall in Hu. specialize (Hu _ Hin). cbn [fst snd] in *.
  f_equal. rewrite <- (map_id cs) at 2. apply map_ext_in. intros [p o m] Hc.
  rewrite Forall_forall in Hu. specialize (Hu _ Hc).
  cbn [occ_partition occ_offset occ_metadata] in *. rewrite wrap32_id by exact Hu. reflexivity.
Qed.
Print Assumptions C19_mapping_exact_offsetcommit_request.

Theorem C19_find_broker_spec : forall bs id,
  match find_broker bs id with
  | Some m => In m bs /\ mb_node m = id
  | None => forall m, In m bs -> mb_node m <> id
  end.
Proof.
  intros bs id. unfold find_broker.
  destruct (find (fun b => mb_node b =? id) (rev bs)) as [m|] eqn:E.
  - apply find_some in E. destruct E as [Hin Heq].
    split; [apply in_rev; exact Hin | apply Z.eqb_eq; exact Heq].
  - intros m Hin. apply Z.eqb_neq.
    apply (find_none _ _ E). apply in_rev in Hin. exact Hin.
Qed.
Print Assumptions C19_find_broker_spec.

Theorem C19_mapping_exact_metadata : forall r,
  let a := metadata_map r in
  ma_throttle a = md_throttle r /\ ma_cluster a = md_cluster r /\
  Forall2 broker_same (ma_brokers a) (md_brokers r) /\
  ma_controller a = client_broker (md_brokers r) (md_controller r) /\
  Forall2 (md_topic_same (md_brokers r)) (ma_topics a) (md_topics r).
Proof.
  intros r a. subst a. split; [reflexivity|]. split; [reflexivity|]. split; [|split].
  - apply Forall2_map_l. intros b. repeat split.
  - apply controller_of_client.
  - apply metadata_map_topics.
Qed.
Print Assumptions C19_mapping_exact_metadata.

(* ReadPartitions: the error of the first failing topic that concerns the connection, or
   the partitions of all topics in order, each with its own leader / replicas / isr *)
Theorem C19_mapping_exact_read_partitions : forall v6 ct r,
  read_partitions v6 ct r =
  match find (rp_topic_fails ct) (md_topics r) with
  | Some t => PartsErr (mt_error t)
  | None => PartsOk (flat_map (fun t => map (rp_part v6 (md_brokers r) (mt_name t)) (mt_parts t)) (md_topics r))
  end.
Proof. intros v6 ct r. unfold read_partitions. apply read_topics_exact. Qed.
Print Assumptions C19_mapping_exact_read_partitions.

Theorem C19_mapping_exact_consumer_offsets : forall asked md ofr t rest parts,
  ma_topics md = t :: rest -> amap_get (oa_topics ofr) (at_name t) = Some parts ->
  NoDup (map oa_partition parts) ->
  consumer_offsets_request asked md = Some (asked, map pt_id (at_parts t)) /\
  consumer_offsets_result md ofr = Some (map (fun p => (oa_partition p, oa_offset p)) parts).
Proof.
  intros asked md ofr t rest parts Hmd Hget Hnd.
  unfold consumer_offsets_request, consumer_offsets_result. rewrite Hmd, Hget.
  split; [reflexivity|].
  rewrite (fold_set_fresh zmap_set oa_partition oa_offset zmap_set_fresh) by exact Hnd. reflexivity.
Qed.
Print Assumptions C19_mapping_exact_consumer_offsets.

Theorem C19_mapping_exact :
  (forall r, NoDup (map fst (ofr_topics r)) ->
     let a := offsetfetch_map r in
     oa_throttle a = ofr_throttle r /\ oa_err a = ofr_error r /\
     Forall2 (fun x t => fst x = fst t /\ Forall2 of_part_same (snd x) (snd t)) (oa_topics a) (ofr_topics r)) /\
  (forall r, NoDup (map fst (ocr_topics r)) ->
     oca_throttle (offsetcommit_map r) = ocr_throttle r /\ oca_topics (offsetcommit_map r) = ocr_topics r) /\
  (forall g u, in_i32 g ->
     Forall (fun t : str * list oc_commit => Forall (fun c => in_i32 (occ_partition c)) (snd t)) u ->
     ocq_generation (offsetcommit_request g u) = g /\ ocq_topics (offsetcommit_request g u) = u) /\
  (forall asked md ofr t rest parts,
     ma_topics md = t :: rest -> amap_get (oa_topics ofr) (at_name t) = Some parts ->
     NoDup (map oa_partition parts) ->
     consumer_offsets_request asked md = Some (asked, map pt_id (at_parts t)) /\
     consumer_offsets_result md ofr = Some (map (fun p => (oa_partition p, oa_offset p)) parts)) /\
  (forall r, let a := metadata_map r in
     ma_throttle a = md_throttle r /\ ma_cluster a = md_cluster r /\
     Forall2 broker_same (ma_brokers a) (md_brokers r) /\
     ma_controller a = client_broker (md_brokers r) (md_controller r) /\
     Forall2 (md_topic_same (md_brokers r)) (ma_topics a) (md_topics r)) /\
  (forall v6 ct r,
     read_partitions v6 ct r =
     match find (rp_topic_fails ct) (md_topics r) with
     | Some t => PartsErr (mt_error t)
     | None => PartsOk (flat_map (fun t => map (rp_part v6 (md_brokers r) (mt_name t)) (mt_parts t)) (md_topics r))
     end).
Proof.
  exact (conj C19_mapping_exact_offsetfetch (conj C19_mapping_exact_offsetcommit
        (conj C19_mapping_exact_offsetcommit_request (conj C19_mapping_exact_consumer_offsets
        (conj C19_mapping_exact_metadata C19_mapping_exact_read_partitions))))).
Qed.
Print Assumptions C19_mapping_exact.

(* What ListOffsets reports for one (topic, partition) is a function of that partition's
   own entries in the merged answer (and of what was asked for it): the PartitionOffsets
   prepared from the request, with the partition's entries applied in order. *)
Theorem C19_listoffsets_client_local : forall u res th m k,
  listoffsets_client u res = Some (th, m) ->
  th = r_throttle res /\
  tpmap_get m k = match entries_for (r_topics res) k with
                  | [] => tpmap_get (lo_prepare u) k
                  | es => po_apply_all (po_start u k) es
                  end.
Proof.
  intros u res th m k H. unfold listoffsets_client in H.
  destruct (lo_apply_topics (lo_prepare u) (r_topics res)) as [m1|] eqn:E; [|discriminate].
  injection H as <- <-. split; [reflexivity|].
  exact (po_run_spec _ _ _ (lo_apply_topics_run _ _ _ k E)).
Qed.
Print Assumptions C19_listoffsets_client_local.

(* hence an error or a failed sub-request on another partition cannot change it *)
Theorem C19_listoffsets_client_isolation : forall u res res' th th' m m' k,
  listoffsets_client u res = Some (th, m) -> listoffsets_client u res' = Some (th', m') ->
  entries_for (r_topics res) k = entries_for (r_topics res') k ->
  tpmap_get m k = tpmap_get m' k.
Proof.
  intros u res res' th th' m m' k H H' E.
  destruct (C19_listoffsets_client_local _ _ _ _ k H) as [_ ->].
  destruct (C19_listoffsets_client_local _ _ _ _ k H') as [_ ->].
  rewrite E. reflexivity.
Qed.
Print Assumptions C19_listoffsets_client_isolation.

(* the PartitionOffsets prepared for a requested partition depends on its own requests only *)
Theorem C19_listoffsets_prepare_local : forall u k,
  tpmap_get (lo_prepare u) k = match requested_ts u k with
                               | [] => None
                               | tss => Some (fold_left po_request tss (po_fresh (snd k)))
                               end.
Proof.
  intros u k.
  change (lo_prepare u) with (fold_left (fun m t => fold_left (prep_step t) (snd t) m) u []).
  rewrite prep_outer. unfold po_req_run. cbn [tpmap_get].
  destruct (requested_ts u k); reflexivity.
Qed.
Print Assumptions C19_listoffsets_prepare_local.

(* the common query (first and last offset of a partition): exactly the leader's two answers *)
Theorem C19_listoffsets_client_first_last : forall p f l e1 e2 ep1 ep2,
  po_apply_all (fold_left po_request [FirstOffset; LastOffset] (po_fresh p))
    [ {| rp_partition := p; rp_error := e1; rp_ts := FirstOffset; rp_offset := f; rp_epoch := ep1 |};
      {| rp_partition := p; rp_error := e2; rp_ts := LastOffset; rp_offset := l; rp_epoch := ep2 |} ]
  = Some {| po_partition := p; po_first := f; po_last := l; po_offsets := []; po_nil := false;
            po_error := if e2 =? 0 then e1 else e2 |}.
Proof.
  intros p f l e1 e2 ep1 ep2.
  unfold po_apply_all, po_apply, po_request, po_fresh, FirstOffset, LastOffset.
  cbn. destruct (e1 =? 0) eqn:E1; destruct (e2 =? 0) eqn:E2; try reflexivity.
  all: apply Z.eqb_eq in E1; subst; reflexivity.
Qed.
Print Assumptions C19_listoffsets_client_first_last.

(* ReadPartitions reports every partition's own error code on that partition (and nothing
   else changes): topic, id and error of the returned partitions are those of the response,
   in order *)
Theorem C19_read_partitions_partition_errors : forall v6 ct r l,
  read_partitions v6 ct r = PartsOk l ->
  map (fun p => (pt_topic p, pt_id p, pt_error p)) l =
  flat_map (fun t => map (fun p => (mt_name t, mp_index p, mp_error p)) (mt_parts t)) (md_topics r).
Proof.
  intros v6 ct r l H. rewrite C19_mapping_exact_read_partitions in H.
  destruct (find (rp_topic_fails ct) (md_topics r)); [discriminate H|].
  injection H as <-.
  induction (md_topics r) as [|t ts IH]; [reflexivity|].
  cbn [flat_map]. rewrite map_app, IH, map_map. reflexivity.
Qed.
Print Assumptions C19_read_partitions_partition_errors.

(* The topic array of the metadata request, for every shape of the argument (None = call
   without argument / nil slice, Some l = non-nil slice, possibly empty) and every
   connection: the caller's topics, else the connection's topic, else the NULL array
   (all topics) — never the empty array, which a broker reads as "no topic". *)
Theorem C19_read_partitions_request_exact : forall ct arg,
  read_partitions_request ct arg = topics_asked ct arg.
Proof.
  intros ct arg. unfold read_partitions_request, topics_asked, arg_topics.
  destruct arg as [l|]; [destruct l|]; destruct ct; reflexivity.
Qed.
Print Assumptions C19_read_partitions_request_exact.

(* no topic named by the caller or the connection: the request asks for all topics,
   whatever the nil-ness of the caller's slice *)
Theorem C19_read_partitions_asks_all : forall arg,
  arg_topics arg = [] -> read_partitions_request [] arg = None.
Proof.
  intros arg H. rewrite C19_read_partitions_request_exact. unfold topics_asked. rewrite H. reflexivity.
Qed.
Print Assumptions C19_read_partitions_asks_all.

(* against a broker that answers what is on the wire (null array: every topic; a list:
   one entry per distinct name, the cluster's topic or UNKNOWN_TOPIC_OR_PARTITION), the
   result lists exactly the cluster's partitions for the topics asked *)
Theorem C19_read_partitions_call_exact : forall v6 ct arg cluster,
  let topics := topics_of_cluster cluster (topics_asked ct arg) in
  read_partitions_call v6 ct arg cluster =
  match find (rp_topic_fails ct) topics with
  | Some t => PartsErr (mt_error t)
  | None => PartsOk (flat_map (fun t => map (rp_part v6 (md_brokers cluster) (mt_name t)) (mt_parts t)) topics)
  end.
Proof.
  intros v6 ct arg cluster topics. unfold read_partitions_call.
  rewrite C19_mapping_exact_read_partitions, C19_read_partitions_request_exact.
  unfold broker_metadata_answer, topics, topics_of_cluster; cbn [md_topics md_brokers].
  destruct (topics_asked ct arg); reflexivity.
Qed.
Print Assumptions C19_read_partitions_call_exact.

Theorem C19_read_partitions_all_topics : forall v6 arg cluster,
  arg_topics arg = [] ->
  read_partitions_call v6 [] arg cluster =
  match find (fun t => negb (mt_error t =? 0)) (md_topics cluster) with
  | Some t => PartsErr (mt_error t)
  | None => PartsOk (flat_map (fun t => map (rp_part v6 (md_brokers cluster) (mt_name t)) (mt_parts t)) (md_topics cluster))
  end.
Proof.
  intros v6 arg cluster H. rewrite C19_read_partitions_call_exact.
  unfold topics_asked. rewrite H. cbn [topics_of_cluster].
  rewrite find_fails_no_topic. reflexivity.
Qed.
Print Assumptions C19_read_partitions_all_topics.

(* Every Client query goes to the cluster at the effective address: the request's Addr
   when it has one (whatever the client's), else the client's Addr; with neither, the
   documented error and no round trip. *)
Theorem C19_client_addr_exact : forall (A Q R : Type) (transport : A -> Q -> R) req_addr client_addr q,
  client_round_trip transport req_addr client_addr q =
  option_map (fun a => transport a q) (effective_addr req_addr client_addr).
Proof. intros. destruct req_addr, client_addr; reflexivity. Qed.
Print Assumptions C19_client_addr_exact.

Theorem C19_client_addr_request_first : forall (A Q R : Type) (transport : A -> Q -> R) a client_addr q,
  client_round_trip transport (Some a) client_addr q = Some (transport a q).
Proof. reflexivity. Qed.
Print Assumptions C19_client_addr_request_first.

Theorem C19_client_addr_none : forall (A Q R : Type) (transport : A -> Q -> R) q,
  client_round_trip transport None None q = None.
Proof. reflexivity. Qed.
Print Assumptions C19_client_addr_none.

(* composed with any of the user-level mappings f proved exact above (metadata_map,
   offsetfetch_map, offsetcommit_map, listoffsets_client ...): what the API reports is f of
   the answer of the cluster at the effective address — the state of THAT cluster *)
Theorem C19_client_query_exact : forall (A Q R U : Type) (transport : A -> Q -> R) (f : R -> U) req_addr client_addr q,
  option_map f (client_round_trip transport req_addr client_addr q) =
  match effective_addr req_addr client_addr with
  | Some a => Some (f (transport a q))
  | None => None
  end.
Proof. intros. destruct req_addr, client_addr; reflexivity. Qed.
Print Assumptions C19_client_query_exact.

Example C19_seek_example :
  seek 150 20 SeekEnd (OffsOk 100 200) = mk_seek (SeekOk 180) 180 2 /\
  seek 150 20 SeekStart (OffsOk 100 200) = mk_seek (SeekOk 120) 120 2 /\
  seek 150 101 SeekStart (OffsOk 100 200) = mk_seek (SeekErr 1) 150 2 /\
  seek 150 20 (SeekCurrent + SeekDontCheck) (OffsOk 100 200) = mk_seek (SeekOk 170) 170 0 /\
  seek FirstOffset 5 SeekCurrent (OffsOk 100 200) = mk_seek (SeekOk 105) 105 2 /\
  seek FirstOffset 5 (SeekCurrent + SeekDontCheck) (OffsOk 100 200) = mk_seek (SeekOk 105) 105 2 /\
  valid_offsets 100 200 /\ in_i64 150.
Proof. repeat split; vm_compute; try reflexivity; intro H; discriminate H. Qed.

(* two topics, a partition asked at two timestamps, one sub-request failing *)
Definition C19_ex_req : lo_request :=
  {| q_replica := -1; q_isolation := 0;
     q_topics := [([98%N], [{| qp_partition := 1; qp_epoch := -1; qp_ts := -2 |};
                           {| qp_partition := 1; qp_epoch := -1; qp_ts := -1 |}]);
                  ([97%N], [{| qp_partition := 0; qp_epoch := -1; qp_ts := 1234 |}])] |}.
Definition C19_ex_outs : list outcome :=
  [OAnswer 0 (-1) 10 3 0; OFail 77; OAnswer 0 1300 42 3 5].

Example C19_listoffsets_example :
  listoffsets_merge (listoffsets_split C19_ex_req) (results_of (req_entries C19_ex_req) C19_ex_outs) =
  MergeOk {| r_throttle := 5;
             r_topics := [([97%N], [{| rp_partition := 0; rp_error := 0; rp_ts := 1234; rp_offset := 42; rp_epoch := 3 |}]);
                          ([98%N], [{| rp_partition := 1; rp_error := -1; rp_ts := -1; rp_offset := -1; rp_epoch := -1 |};
                                    {| rp_partition := 1; rp_error := 0; rp_ts := -2; rp_offset := 10; rp_epoch := 3 |}])] |}
  /\ length C19_ex_outs = length (req_entries C19_ex_req).
Proof. split; vm_compute; reflexivity. Qed.

(* an empty non-nil slice on a connection without topic still lists the whole cluster *)
Example C19_read_partitions_example :
  let cluster := {| md_throttle := 0; md_brokers := [{| mb_node := 1; mb_host := [104%N]; mb_port := 9092; mb_rack := [] |}];
                    md_cluster := []; md_controller := 1;
                    md_topics := [{| mt_error := 0; mt_name := [111%N]; mt_internal := false;
                                     mt_parts := [{| mp_error := 0; mp_index := 0; mp_leader := 1; mp_replicas := [1]; mp_isr := [1]; mp_offline := [] |}] |}] |} in
  read_partitions_request [] (Some []) = None /\
  read_partitions_call false [] (Some []) cluster = read_partitions_call false [] None cluster /\
  exists p, read_partitions_call false [] (Some []) cluster = PartsOk [p] /\ pt_id p = 0 /\ pt_topic p = [111%N].
Proof. repeat split. eexists. repeat split. Qed.

(* two clusters (true / false) answering differently: a request addressed to the second
   one is answered by the second one although the client's default is the first *)
Example C19_client_addr_example :
  client_round_trip (fun (a : bool) (q : Z) => if a then q + 1 else q + 1000) (Some false) (Some true) 5 = Some 1005 /\
  client_round_trip (fun (a : bool) (q : Z) => if a then q + 1 else q + 1000) None (Some true) 5 = Some 6.
Proof. split; reflexivity. Qed.
