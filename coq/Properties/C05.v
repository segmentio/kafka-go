(* Properties/C05.v — Record batches: what is produced is exactly what a consumer decodes.
   The statements; each proof is a few steps from the theorems of Proofs/Records*.v and Proofs/Pages*.v.
   dec_set: the strict reference decoder (lengths, CRC, count checked); raw_records: its records, offsets
   as stored; pbatch / lbatch: the batch expected on the wire; expected_records ts rs: record i =
   (offset i, ts r_i, key, value, headers).  wf_in, small, ptimes_ok, ltimes_ok, v2_fits: sizes below
   2^31 (int32 fields), timestamps within 2^62 ms.  Compression: any comp, decomp with decomp c (comp c b) = b. *)
From Coq Require Import List NArith ZArith Bool Lia.
From KV Require Import Lib.Bits Lib.Bytes Lib.Crc Spec.RecordFormat Model.Records
  Proofs.RecordsCodec Proofs.RecordsSet Proofs.RecordsWriters Proofs.RecordsLegacy
  Proofs.RecordsReaders Proofs.RecordsConn Proofs.RecordsFetch Proofs.RecordsV1
  Proofs.RecordsReadersV1 Model.Pages Proofs.PagesProofs Proofs.PagesReadFrom Proofs.PagesWriteAt.
Import ListNotations.
Open Scope Z_scope.

(* ---- the reference codec itself: decode (encode items) = items, for every sequence of
        well-formed items (formats 0/1, wrappers, format 2, every codec) *)
Theorem C05_reference_codec_roundtrip : forall comp decomp : N -> list N -> list N,
  (forall c b, decomp c (comp c b) = b) ->
  forall its, Forall (wf_item comp) its -> zlen (enc_items comp its) < ZM31 ->
  dec_set decomp (enc_set comp its) = Some its.
Proof. exact dec_enc_set. Qed.
Print Assumptions C05_reference_codec_roundtrip.

(* ---- protocol writer, format 2: for every non-empty record list, every codec 0..4, the
        bytes decode (strictly) to exactly the expected batch, whose records are the input
        records in order with offsets 0..n-1 and each record's millisecond timestamp
        (the current time where the record's own timestamp is 0, as the code does) *)
Theorem C05_produce_decodable_proto_v2 : forall comp decomp : N -> list N -> list N,
  (forall c b, decomp c (comp c b) = b) ->
  forall attrs now rs,
  rs <> [] -> Forall wf_in rs -> ptimes_ok now rs -> small rs -> -32768 <= attrs < 32768 ->
  (codec_of attrs <= 4)%N -> v2_fits comp (pbatch attrs now rs) ->
  exists bytes, proto_v2 comp attrs now rs = Some bytes /\
                dec_set decomp bytes = Some [IBatch (pbatch attrs now rs)] /\
                raw_records [IBatch (pbatch attrs now rs)] = expected_records (fun r => pts now (i_ns r)) rs.
Proof.
  intros comp decomp Hdc attrs now rs H1 H2 H3 H4 H5 H6 H7.
  destruct (proto_v2_decodable comp decomp Hdc attrs now rs H1 H2 H3 H4 H5 H6 H7) as (bytes & A & B).
  exists bytes. split; [exact A|]. split; [exact B|apply raw_records_pbatch].
Qed.
Print Assumptions C05_produce_decodable_proto_v2.

(* ---- legacy Conn writer, format 2 (write.go writeRecord / recordbatch.go; timestamp delta =
        timestamp(t_i) - timestamp(t_0), finding F4): for every non-empty message
        list — whatever the times: sub-millisecond parts, decreasing, arbitrarily far apart
        within +-2^62 ms — and every codec 0..4, the bytes decode strictly to the expected
        batch, whose records are the inputs in order with offsets 0..n-1 and timestamp(t_i) *)
Theorem C05_produce_decodable_legacy_v2 : forall comp decomp : N -> list N -> list N,
  (forall c b, decomp c (comp c b) = b) ->
  forall codec ms,
  ms <> [] -> Forall wf_in ms -> ltimes_ok ms -> small ms -> (codec <= 4)%N ->
  v2_fits comp (lbatch codec ms) ->
  exists bytes, legacy_v2 comp codec ms = Some bytes /\
                dec_set decomp bytes = Some [IBatch (lbatch codec ms)] /\
                raw_records [IBatch (lbatch codec ms)] = expected_records (fun r => ts_ms (i_ns r)) ms.
Proof.
  intros comp decomp Hdc codec ms H1 H2 H3 H4 H5 H6.
  destruct (legacy_v2_decodable comp decomp Hdc codec ms H1 H2 H3 H4 H5 H6) as (bytes & A & B).
  exists bytes. split; [exact A|]. split; [exact B|apply raw_records_lbatch].
Qed.
Print Assumptions C05_produce_decodable_legacy_v2.

(* ---- full statements, not proved in general; see the _partial theorems below ---- *)
(* format 1 writers: messages magic 1, IEEE CRC over magic..value, wrapper for codecs *)
Definition C05_produce_decodable_proto_v1_full_statement : Prop :=
  forall comp decomp : N -> list N -> list N, (forall c b, decomp c (comp c b) = b) ->
  forall attrs now rs, Forall wf_in rs -> ptimes_ok now rs -> small rs -> -128 <= attrs < 128 ->
  (codec_of attrs <= 4)%N -> zlen (proto_v1 comp attrs now rs) < ZM31 ->
  zlen (proto_messages attrs now rs) < ZM31 ->
  exists its, dec_set decomp (proto_v1 comp attrs now rs) = Some its /\
    raw_records its = mapi_from (fun i r => mk_rec i (pts now (i_ns r)) (i_key r) (i_val r) []) 0 rs.
(* proved for attributes = the codec id 0..4 (what Writer/Client pass for format 1); missing:
   other attribute bits.  Messages magic 1, IEEE CRC over magic..value, offsets 0..n-1, one
   wrapper message (offset 0, null key, timestamp = now) holding the compressed inner set
   when a codec is given; format 1 has no headers. *)
Theorem C05_produce_decodable_proto_v1_partial : forall comp decomp : N -> list N -> list N,
  (forall c b, decomp c (comp c b) = b) ->
  forall codec now rs,
  (codec <= 4)%N -> in_i64 now -> Forall wf_in rs -> ptimes_ok now rs -> small rs ->
  zlen (proto_messages 0 now rs) < ZM31 -> zlen (proto_v1 comp (Z.of_N codec) now rs) < ZM31 + 4 ->
  exists its, dec_set decomp (proto_v1 comp (Z.of_N codec) now rs) = Some its /\
    raw_records its = mapi_from (fun i r => mk_rec i (pts now (i_ns r)) (i_key r) (i_val r) []) 0 rs.
Proof. exact proto_v1_decodable. Qed.
Print Assumptions C05_produce_decodable_proto_v1_partial.

(* legacy Conn writer, format 1 (the record set of writeProduceRequestV2): uncompressed
   messages carry Message.Offset as given; with a codec the inner offsets are 0..n-1 inside one
   wrapper (offset 0, null key, timestamp 0).  Every record list (also the empty one). *)
Theorem C05_produce_decodable_legacy_v1 : forall comp decomp : N -> list N -> list N,
  (forall c b, decomp c (comp c b) = b) ->
  forall codec ms,
  (codec <= 4)%N -> Forall wf_in ms -> ltimes_ok ms -> small ms -> Forall (fun m => in_i64 (i_off m)) ms ->
  zlen (concat (map enc_msg (msgs_of (if (codec =? 0)%N then (fun _ r => i_off r) else (fun i _ => i))
                                     (fun r => ts_ms (i_ns r)) ms))) < ZM31 ->
  zlen (enc_items comp (v1_items codec 0 (fun _ r => i_off r) (fun r => ts_ms (i_ns r)) ms)) < ZM31 ->
  exists its, dec_set decomp (legacy_v1 comp codec ms) = Some its /\
    raw_records its = mapi_from (fun i r => mk_rec (if (codec =? 0)%N then i_off r else i)
                                              (ts_ms (i_ns r)) (i_key r) (i_val r) []) 0 ms.
Proof. exact legacy_v1_decodable. Qed.
Print Assumptions C05_produce_decodable_legacy_v1.

(* the message format is a function of the negotiated Produce API version: record batches
   (format 2, the only one carrying headers) exactly from v3 on; what Client.Produce / Writer
   put on the wire at version v is the format-2 writer's output for v >= 3 (so the theorem
   C05_produce_decodable_proto_v2 applies, headers included) and the format-1 writer's below
   (format 1 has no headers: C05_produce_decodable_proto_v1_partial speaks about keys, values,
   timestamps only — the property can hold for header-less records only there). *)
Theorem C05_format_of_version : forall v,
  (format_of_produce_version v = 2 <-> 3 <= v) /\ (format_of_produce_version v = 1 <-> v < 3).
Proof.
  intros v. unfold format_of_produce_version. destruct (Z.ltb_spec v 3) as [Hlt|Hge].
  - split; [split; [discriminate|lia]|split; [intros _; exact Hlt|reflexivity]].
  - split; [split; [intros _; exact Hge|reflexivity]|split; [discriminate|lia]].
Qed.
Print Assumptions C05_format_of_version.

Theorem C05_produce_at_version : forall (comp : N -> list N -> list N) v attrs now rs,
  (3 <= v -> proto_produce comp v attrs now rs = proto_v2 comp attrs now rs) /\
  (v < 3 -> proto_produce comp v attrs now rs = Some (proto_v1 comp attrs now rs)).
Proof.
  intros comp v attrs now rs. unfold proto_produce, format_of_produce_version.
  destruct (Z.ltb_spec v 3); split; intros; try lia; reflexivity.
Qed.
Print Assumptions C05_produce_at_version.

(* a fetch response: offsets strictly increasing and starting at or after the fetch offset,
   magic-1 wrappers with relative inner offsets 0..n-1 *)
Definition fetch_valid (min : Z) (its : list item) : Prop :=
  (forall r, In r (records_ctl its) -> min <= o_off r < ZM63) /\
  (forall a b l1 l2 l3, records_ctl its = l1 ++ a :: l2 ++ b :: l3 -> o_off a < o_off b) /\
  (forall it, In it its -> match it with
      | IWrap magic off _ _ inner => magic = 1 /\ inner <> [] /\
          map m_off inner = map Z.of_nat (seq 0 (length inner))
      | IMsg m => True
      | IBatch b => b_recs b <> [] /\ b_last b = r_offd (last (b_recs b) {| r_tsd := 0; r_offd := 0; r_key := None; r_val := None; r_hdrs := [] |})
      end).
Definition C05_fetch_paths_agree_full_statement : Prop :=
  forall comp decomp : N -> list N -> list N, (forall c b, decomp c (comp c b) = b) ->
  forall min its, Forall (wf_item comp) its -> fetch_valid min its -> zlen (enc_items comp its) < ZM31 ->
  (forall it, In it its -> match it with IBatch b => (codec_of (b_attrs b) <= 4)%N
                                       | IWrap _ _ a _ _ => (codec_of a <= 4)%N | _ => True end) ->
  proto_read decomp (enc_set comp its) = POut (records its) false /\
  exists fuel0, forall fuel, (fuel0 <= fuel)%nat ->
    msr_read decomp fuel min (enc_items comp its) = (map conn_view (records_ctl its), MEof).
(* a batch / message whose checksum does not match yields none of its records (any items) *)
Definition C05_crc_mismatch_no_records_full_statement : Prop :=
  forall comp decomp : N -> list N -> list N, (forall c b, decomp c (comp c b) = b) ->
  forall good bad_bytes rest, Forall (wf_item comp) good ->
  (forall fuel, exists l, dec_prefix decomp fuel bad_bytes = (l, false) /\ l = []) ->
  exists e, proto_read decomp (let c := enc_items comp good ++ bad_bytes ++ rest in put_bes 4 (zlen c) ++ c)
            = POut (records good) e.

(* ---- proved for fetch responses made of format-2 batches (every codec 0..4, control and
        transactional batches, offset gaps, any timestamps); missing: format 0/1 messages and
        wrappers, and sequences mixing formats (covered by the differential run only) ----
   batch_ok: wf_batch (field ranges, sizes below 2^31), codec <= 4, base+offsetDelta and
   firstTimestamp+timestampDelta within int64; batch_ok' adds: at least one record. *)

(* both paths return the reference's records: Client.Fetch without control batches and
   without error; the Conn path all of them (it does not know control batches), nil for
   empty, then io.EOF; without control batches the two lists are equal up to conn_view
   (nilify / conn_view, Proofs/RecordsConn.v: the Conn path does not distinguish nil from empty,
   and its makeTime maps t <= 0 to the zero time) *)
Theorem C05_fetch_paths_agree_partial : forall comp decomp : N -> list N -> list N,
  (forall c b, decomp c (comp c b) = b) ->
  forall bs fuel min,
  bs <> [] -> Forall (batch_ok' comp) bs -> zlen (enc_items comp (map IBatch bs)) < ZM31 ->
  (length (records_ctl (map IBatch bs)) < fuel)%nat ->
  proto_read decomp (enc_set comp (map IBatch bs)) = POut (records (map IBatch bs)) false /\
  msr_read decomp fuel min (enc_items comp (map IBatch bs)) =
    (map conn_view (records_ctl (map IBatch bs)), MEof) /\
  (Forall (fun b => is_control (b_attrs b) = false) bs ->
   exists recs, proto_read decomp (enc_set comp (map IBatch bs)) = POut recs false /\
                msr_read decomp fuel min (enc_items comp (map IBatch bs)) = (map conn_view recs, MEof) /\
                recs = records (map IBatch bs)).
Proof.
  intros comp decomp Hdc bs fuel min Hne Hok Hsz Hfuel.
  pose proof (proto_read_items comp decomp Hdc _ (batch_ok'_item_ok comp bs Hok) Hsz) as Hp.
  pose proof (msr_read_batches comp decomp Hdc bs fuel min Hne Hok Hfuel) as Hm.
  split; [exact Hp|]. split; [exact Hm|].
  intros Hnc. exists (records (map IBatch bs)). split; [exact Hp|]. split; [|reflexivity].
  rewrite (records_no_control bs Hnc). exact Hm.
Qed.
Print Assumptions C05_fetch_paths_agree_partial.

(* good items of ANY format, then a format-2 batch (any content [tail] after a stored checksum
   [crc] that differs from the CRC-32C of that content), then anything: Client.Fetch returns
   exactly the records of the good items; it reports the error only when there was no good
   item.  Missing for the full statement: a corrupted format-0/1 message (IEEE checksum). *)
Theorem C05_crc_mismatch_no_records_partial : forall comp decomp : N -> list N -> list N,
  (forall c b, decomp c (comp c b) = b) ->
  forall its base epoch crc tail rest,
  Forall (item_ok comp) its -> in_i64 base -> 9 + zlen tail < ZM31 -> length crc = 4%nat ->
  get_be crc 0%N <> w32 (crc32c tail) ->
  let content := enc_items comp its ++ raw_batch base epoch crc tail ++ rest in
  zlen content < ZM31 ->
  proto_read decomp (put_bes 4 (zlen content) ++ content) =
  POut (records its) (match its with [] => true | _ => false end).
Proof. exact proto_read_items_crc_mismatch. Qed.
Print Assumptions C05_crc_mismatch_no_records_partial.

(* ---- Client.Fetch path on EVERY kind of item (format 0 and 1 messages, compressed wrappers of
        magic 0 (absolute inner offsets) and magic 1 (relative inner offsets, contiguous or not
        — the wrapper rebase of readFromVersion1), format-2 batches; every codec; any mixture):
        exactly the reference's records with absolute offsets, no error.
        item_ok: well-formed (field ranges, sizes below 2^31), codec <= 4, wrappers non-empty,
        a magic-0 wrapper carries the offset of its last inner message, wrapper offset 0 only
        with last inner offset 0. *)
Theorem C05_fetch_protocol_path_all_formats : forall comp decomp : N -> list N -> list N,
  (forall c b, decomp c (comp c b) = b) ->
  forall its, Forall (item_ok comp) its -> zlen (enc_items comp its) < ZM31 ->
  proto_read decomp (enc_set comp its) = POut (records its) false.
Proof. exact proto_read_items. Qed.
Print Assumptions C05_fetch_protocol_path_all_formats.

(* control batches contribute nothing to [records], whatever surrounds them *)
Theorem C05_control_hidden : forall comp decomp : N -> list N -> list N,
  (forall c b, decomp c (comp c b) = b) ->
  forall its, Forall (item_ok comp) its -> zlen (enc_items comp its) < ZM31 ->
  proto_read decomp (enc_set comp its) = POut (flat_map (records_of false) its) false /\
  (forall b, is_control (b_attrs b) = true -> records_of false (IBatch b) = []).
Proof.
  intros comp decomp Hdc its Hok Hsz. split; [exact (proto_read_items comp decomp Hdc its Hok Hsz)|].
  intros b Hc. unfold records_of. rewrite Hc. reflexivity.
Qed.
Print Assumptions C05_control_hidden.

(* ---- pages (protocol/buffer.go; Model/Pages.v): for EVERY sequence of atomic actions of any
        number of buffers and refs, starting from nothing (every interleaving of concurrent
        decodes and Closes, the pool free to forget pages): the invariant holds (every holder
        of a page is counted in its refc; a pooled page has count 0) and the bytes seen through
        a pageRef are the same at every later moment until that ref is closed *)
Open Scope nat_scope.
Theorem C05_pages_stable : forall ops1 ops2 s1 s2 r bytes,
  run s0 ops1 = Some s1 -> run s1 ops2 = Some s2 ->
  read_ref s1 r = Some bytes ->
  Inv s2 /\ (read_ref s2 r = Some bytes \/ In (OUnrefRef r) ops2).
Proof.
  intros ops1 ops2 s1 s2 r bytes H1 H2 Hr. exact (run_stable ops2 s1 s2 r bytes (run_inv ops1 s0 s1 Inv_s0 H1) H2 Hr).
Qed.
Print Assumptions C05_pages_stable.

Theorem C05_pooled_unreferenced : forall ops s, run s0 ops = Some s ->
  forall p, p_pool (get_page s p) = true ->
  p_refc (get_page s p) = 0 /\
  (forall r rf, nth_error (s_refs s) r = Some rf -> r_live rf = true -> ~ In p (map fst (r_segs rf))) /\
  (forall b bf, nth_error (s_bufs s) b = Some bf -> b_live bf = true -> ~ In p (b_pages bf)).
Proof. intros ops s H. exact (pooled_unheld s (run_inv ops s0 s Inv_s0 H)). Qed.
Print Assumptions C05_pooled_unreferenced.

(* pageBuffer.ReadFrom (the loop of protocol/buffer.go: allocate when there is no page or the
   tail page is full, else copy min(free, remaining) bytes behind the bytes of the tail page,
   stop when a copy was shorter than the free space): a buffer holding k bytes (any fill of
   its tail page, in particular a PARTLY filled one) that reads n bytes ends up holding the
   same k bytes followed by exactly those n bytes — no bound on k and n — the invariant is
   kept and every live ref still reads the same bytes; and with fresh pages it always
   completes (two rounds consume at least one byte).
   buf_ok s b l: buffer b is live with the duplicate-free page list l. *)
Theorem C05_pages_read_from : forall fuel s b l data src s',
  Inv s -> buf_ok s b l -> pb_read_from fuel s b data src = Some s' ->
  Inv s' /\
  (exists l', buf_ok s' b (l ++ l')) /\
  buf_content s' b = buf_content s b ++ data /\
  (forall r bytes, read_ref s r = Some bytes -> read_ref s' r = Some bytes).
Proof. exact pb_read_from_spec. Qed.
Print Assumptions C05_pages_read_from.

Theorem C05_pages_read_from_total : forall fuel s b l data,
  Inv s -> buf_ok s b l -> 2 * length data + 3 <= fuel ->
  exists s', pb_read_from fuel s b data [] = Some s'.
Proof. exact pb_read_from_total. Qed.
Print Assumptions C05_pages_read_from_total.

(* pageBuffer.WriteAt (the back-patching of placeholders: contiguousPages.WriteAt walking the
   pages of the range, every page taking the bytes that fall into it): for EVERY offset and
   length inside the buffer — within one page, ending on or starting on a page boundary,
   spanning two, three or more pages — the content afterwards is the content with exactly the
   range [off, off+len) replaced by the data; page lengths, reference counts, pool flags, the
   buffers' page lists and every page of other buffers are unchanged, and the invariant holds.
   (A range reaching beyond the end of the buffer is outside the model: pb_write_at = None.) *)
Theorem C05_pages_write_at : forall s b l off data s',
  Inv s -> buf_ok s b l -> pb_write_at s b off data = Some s' ->
  Inv s' /\ buf_ok s' b l /\
  buf_content s' b = firstn off (buf_content s b) ++ data ++ skipn (off + length data) (buf_content s b) /\
  (forall q, length (p_data (get_page s' q)) = length (p_data (get_page s q)) /\
             p_refc (get_page s' q) = p_refc (get_page s q) /\ p_pool (get_page s' q) = p_pool (get_page s q)) /\
  (forall q, ~ In q l -> get_page s' q = get_page s q) /\
  s_bufs s' = s_bufs s /\ s_refs s' = s_refs s.
Proof. exact pb_write_at_spec. Qed.
Print Assumptions C05_pages_write_at.
Open Scope Z_scope.

(* ---- non-vacuity: concrete instances meeting the hypotheses ---- *)
Example C05_nonvacuous_proto_v2 :
  f4_witness <> [] /\ Forall wf_in f4_witness /\ ptimes_ok 0 f4_witness /\ small f4_witness /\
  v2_fits idc (pbatch 0 0 f4_witness) /\
  (exists bytes, proto_v2 idc 0 0 f4_witness = Some bytes /\
     option_map (fun its => map o_ts (raw_records its)) (dec_set idc bytes) = Some [1600000000000; 1600000000001]).
Proof.
  split; [discriminate|]. split; [repeat constructor; vm_compute; reflexivity|].
  split; [intros m [<-|[<-|[]]]; vm_compute; split; congruence|].
  split; [vm_compute; reflexivity|]. split; [split; vm_compute; reflexivity|].
  eexists. split; [vm_compute; reflexivity|]. vm_compute. reflexivity.
Qed.
(* the witness of finding F4 (0.9 ms and 1.1 ms into consecutive milliseconds) meets the
   hypotheses and decodes to its own millisecond timestamps *)
Example C05_nonvacuous_legacy_v2 :
  f4_witness <> [] /\ Forall wf_in f4_witness /\ ltimes_ok f4_witness /\ small f4_witness /\
  v2_fits idc (lbatch 0 f4_witness) /\
  (exists bytes, legacy_v2 idc 0 f4_witness = Some bytes /\
     option_map (fun its => map o_ts (raw_records its)) (dec_set idc bytes) = Some [1600000000000; 1600000000001]).
Proof.
  split; [discriminate|]. split; [repeat constructor; vm_compute; reflexivity|].
  split; [intros m [<-|[<-|[]]]; vm_compute; split; congruence|].
  split; [vm_compute; reflexivity|]. split; [split; vm_compute; reflexivity|].
  eexists. split; [vm_compute; reflexivity|]. vm_compute. reflexivity.
Qed.

(* a page goes back to the pool and is reused by another buffer while an older ref is open *)
Open Scope nat_scope.
Example C05_nonvacuous_pages :
  let ops1 := [ONewBuf; ONewPage 0 None; OAppend 0 [1%N; 2%N; 3%N]; ONewPage 0 None; OAppend 0 [4%N; 5%N];
               ORef 0 [(0%nat, (1%nat, 3%nat))]; ORef 0 [(1%nat, (0%nat, 2%nat))]; OUnrefBuf 0] in
  let ops2 := [OUnrefRef 1; ONewBuf; ONewPage 1 (Some 1%nat); OAppend 1 [9%N; 9%N; 9%N]] in
  exists s1 s2, run s0 ops1 = Some s1 /\ run s1 ops2 = Some s2 /\
    read_ref s1 0 = Some [2%N; 3%N] /\ read_ref s2 0 = Some [2%N; 3%N] /\ read_ref s2 1 = None /\
    p_data (get_page s2 1) = [9%N; 9%N; 9%N].
Proof. cbn zeta. eexists. eexists. split; [vm_compute; reflexivity|]. split; [vm_compute; reflexivity|]. vm_compute. repeat split. Qed.

(* ReadFrom into a buffer whose tail page holds all but 5 bytes of a page: 12 more bytes cross
   the page boundary at a non-aligned position and all arrive, in order, on two pages *)
Example C05_nonvacuous_read_from :
  let k := 256 * 256 - 5 in
  let ops := [ONewBuf; ONewPage 0 None; OAppend 0 (repeat 7%N k)] in
  let data := [1; 2; 3; 4; 5; 6; 7; 8; 9; 10; 11; 12]%N in
  match run s0 ops with
  | Some s1 =>
    match pb_read_from 40 s1 0 data [] with
    | Some s2 =>
      (if list_eq_dec N.eq_dec (skipn k (buf_content s2 0)) data then true else false) &&
      (if list_eq_dec Nat.eq_dec (map (fun p => length (p_data p)) (s_pages s2)) [256 * 256; 7] then true else false)
    | None => false
    end
  | None => false
  end = true.
Proof. vm_compute. reflexivity. Qed.

(* a 4-byte field written across the boundary between the first and the second page *)
Example C05_nonvacuous_write_at :
  let ops := [ONewBuf; ONewPage 0 None; OAppend 0 (repeat 7%N (256 * 256)); ONewPage 0 None; OAppend 0 (repeat 8%N 10)] in
  match run s0 ops with
  | Some s1 =>
    match pb_write_at s1 0 (256 * 256 - 3) [1; 2; 3; 4]%N with
    | Some s2 =>
      (if list_eq_dec N.eq_dec (firstn 8 (skipn (256 * 256 - 5) (buf_content s2 0))) [7; 7; 1; 2; 3; 4; 8; 8]%N then true else false) &&
      (if list_eq_dec Nat.eq_dec (map (fun p => length (p_data p)) (s_pages s2)) [256 * 256; 10] then true else false)
    | None => false
    end
  | None => false
  end = true.
Proof. vm_compute. reflexivity. Qed.
