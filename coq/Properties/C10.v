(* Properties/C10.v — Types documented as goroutine-safe are free of data races.
   Statements; each is proved in a few lines from the lemmas of Proofs/DRF*.v.

   Structure of the argument.
   (1) C10_lockset_sound (generic, Model/DRF.v): in every trace that respects lock
       semantics and in which every access to a location is performed under the protection
       its (instance-level) policy demands, no location with a GuardedBy / RGuardedBy /
       AtomicOnly policy has a data race.
   (2) C10_discipline_sound: the type-level check [discipline_ok facts pol] on extracted
       access facts establishes that semantic condition for every trace that CONFORMS to the
       facts (each access event executes an extracted site with at least the site's
       must-hold lockset, on the lock instance belonging to the accessed object).
       Conformance is the translator's soundness: assumed, exercised by the -race runs.
   (3) C10_current_discipline: the check holds of the facts extracted from /repo's current
       source (Gen/Skeleton.v, regenerated on every run) and the policy Model/Policy.v,
       minus exactly the access sites named in Policy.exempt (known_exceptions: recorded
       defects, reported by the check, currently none; reviewed_sites: argued in Policy.v).
   (4) C10_exported_closed: no exported method of the listed types escapes the analysis. *)
From Coq Require Import List String Bool.
From KV Require Import Model.DRF Model.Policy Gen.Skeleton Proofs.DRFSound Proofs.DRFBridge Proofs.DRFPublish Proofs.DRFCurrent.
Import ListNotations.
Open Scope string_scope.

Theorem C10_lockset_sound : forall (pol : loc -> iprot) (tr : trace),
  wf_locks tr -> respects pol tr ->
  forall x, pol x <> IOther -> ~ race_on tr x.
Proof. exact lockset_sound. Qed.
Print Assumptions C10_lockset_sound.

Theorem C10_discipline_sound : forall facts pol field_of lock_inst tr,
  discipline_ok facts pol = true -> wf_locks tr -> conforms facts field_of lock_inst tr ->
  forall x, ipol pol field_of lock_inst x <> IOther -> ~ race_on tr x.
Proof. exact discipline_sound. Qed.
Print Assumptions C10_discipline_sound.

(* THE obligation a source change breaks: a Lock removed, a field read outside its mutex,
   an atomic counter turned plain, a new field without a policy entry, a new construct the
   translator cannot classify. *)
(* current_ok :=  discipline_ok checked_facts kafka          (checked_facts := without exempt accesses)
                 && fields_covered fields kafka
                 && unknowns_reviewed unknowns reviewed_unknowns
                 && handoffs_present kafka chans                        (Proofs/DRFCurrent.v) *)
Theorem C10_current_discipline : current_ok = true.
Proof. unfold current_ok. rewrite current_discipline_ok. vm_compute. reflexivity. Qed.
Print Assumptions C10_current_discipline.

Theorem C10_exported_closed :
  exported_closed listed_types types_seen exported_methods functions = true.
Proof. vm_compute. reflexivity. Qed.
Print Assumptions C10_exported_closed.

(* (1)+(2)+(3) combined for the current source *)
Theorem C10_current_no_race : forall field_of lock_inst tr,
  wf_locks tr -> conforms checked_facts field_of lock_inst tr ->
  forall x, ipol kafka field_of lock_inst x <> IOther -> ~ race_on tr x.
Proof.
  intros field_of lock_inst tr.
  exact (discipline_sound checked_facts kafka field_of lock_inst tr current_discipline_ok).
Qed.
Print Assumptions C10_current_no_race.

(* The ownership-phase arguments behind WriteOnceBeforePublish and HandedOff.  Their
   hypotheses (a publication / hand-off event that happens-before every later access) are
   what these policy kinds MEAN; the syntactic check only establishes the "written on fresh
   objects only" / "a channel with a send or close and a receive exists" halves. *)
Theorem C10_publish_sound : forall tr x t0 p,
  (exists e, ev tr p = Some (t0, e)) ->
  (forall i t a, ev tr i = Some (t, a) -> acc_loc a = Some x ->
     (t = t0 /\ i < p) \/ (is_rd a = true /\ hb tr p i)) ->
  ~ race_on tr x.
Proof. intros tr x t0 p H1 H2. exact (publish_no_race tr x t0 p (conj H1 H2)). Qed.
Print Assumptions C10_publish_sound.

Theorem C10_handoff_sound : forall tr x ts t1 p,
  (exists e, ev tr p = Some (ts, e)) ->
  (forall i t a, ev tr i = Some (t, a) -> acc_loc a = Some x ->
     (t = ts /\ i < p) \/ (t = t1 /\ hb tr p i)) ->
  ~ race_on tr x.
Proof. intros tr x ts t1 p H1 H2. exact (handoff_no_race tr x ts t1 p (conj H1 H2)). Qed.
Print Assumptions C10_handoff_sound.

(* The full statement, of which the theorems above prove the part for the checked kinds:
   every location of every listed type is race free in every trace of every client program.
   Not proved: for WriteOnceBeforePublish and HandedOff only the phase arguments
   C10_publish_sound / C10_handoff_sound are proved (their publication hypotheses are not
   derived from the extracted facts); nothing is proved for the trusted kinds Confined /
   SelfSynchronised / LockTransferred. *)
Definition C10_full_statement : Prop :=
  forall field_of lock_inst tr,
    wf_locks tr -> conforms accesses field_of lock_inst tr ->
    forall x, ~ race_on tr x.

(* ---- non-vacuity *)
Example C10_nonvacuous_trace : wf_locks tr_ok /\ respects pol_ok tr_ok /\ ~ race_on tr_ok 5.
Proof. exact (conj tr_ok_wf (conj tr_ok_respects tr_ok_no_race)). Qed.
Example C10_nonvacuous_handoff : handed_off tr_handoff 7 0 1 2.
Proof. exact tr_handoff_ok. Qed.
Example C10_race_definable : race_on tr_racy 5.
Proof. exact tr_racy_race. Qed.
(* the shape of the F7 races fixed in /repo (a read of a mutex-guarded field with an empty
   lockset, e.g. the former Batch.Err) is rejected by the CURRENT policy *)
Example C10_unlocked_read_rejected :
  discipline_ok (mkAcc "Batch" "err" KRead "Batch.Err" [] false "batch.go:128" :: nil) kafka = false /\
  discipline_ok (mkAcc "Conn" "offset" KRead "Batch.ReadMessage" [("Batch.mutex", MW)] false "batch.go:212" :: nil) kafka = false /\
  discipline_ok (mkAcc "Reader" "version" KRead "Reader.start$1" [] false "reader.go:1211" :: nil) kafka = false /\
  discipline_ok (mkAcc "Batch" "err" KRead "Batch.Err" [("Batch.mutex", MW)] false "batch.go:128" :: nil) kafka = true.
Proof. vm_compute. repeat split; reflexivity. Qed.
Example C10_discipline_discriminates :
  discipline_ok demo_good demo_pol = true /\
  discipline_ok (mkAcc "T" "a" KRead "T.Peek" [] false "t.go:6" :: demo_good) demo_pol = false.
Proof. exact (conj demo_accepts (proj1 demo_rejects)). Qed.
