(* Properties/C14.v — Group balancers (Range, RoundRobin, RackAffinity) assign every
   partition to exactly one subscriber, evenly.  A sheet of statements: each proof is
   the last step from the lemmas of Proofs/GroupBalancers*.v.

   Vocabulary (Model/GroupBalancers.v): a balancer's result is a list of
   (member id, topic, partitions) — the Go map groupAssignments[id][topic];
   [assigned a id t] is groupAssignments[id][t] (nil when absent).
   Proofs/*: [wf_group ms] = distinct member ids and duplicate-free topic lists;
   [subscribes t m] = t in m.Topics; [tkeys a] = the (id, topic) keys of the result;
   [topic_parts a t] = concatenation of everything assigned for topic t;
   [subscribers t ms] = the subscribers of t sorted by id (see C14_subscribers_spec);
   [slice lo hi l] = l[lo:hi]. *)
From Coq Require Import List NArith ZArith Bool Arith Permutation Sorted.
From KV Require Import Model.GroupBalancers Proofs.GroupBalancersBase Proofs.GroupBalancersRange
  Proofs.GroupBalancersRR Proofs.GroupBalancersProofs Proofs.GroupBalancersRackGlobal
  Proofs.GroupBalancersLeader Proofs.GroupBalancersSync.
Import ListNotations.

(* ---- exactly once, to a subscriber, nothing else ----
   The result is a map (no key twice); every key is (a listed member, a topic it
   subscribes to); and for every topic the partitions assigned over all members are, as a
   multiset, exactly the listed partitions of that topic when it has a subscriber, and
   none otherwise.  (With distinct partition ids: each partition is held by exactly one
   member.) *)
Theorem C14_range_partition : forall ms ps, wf_group ms ->
  let a := range_assign ms ps in
  NoDup (tkeys a) /\
  (forall tr, In tr a ->
     exists m, In m ms /\ m_id m = fst (fst tr) /\ In (snd (fst tr)) (m_topics m)) /\
  (forall t, Permutation (topic_parts a t)
                         (if existsb (subscribes t) ms then find_partitions t ps else [])).
Proof. exact range_partition. Qed.
Print Assumptions C14_range_partition.

Theorem C14_rr_partition : forall ms ps, wf_group ms ->
  let a := rr_assign ms ps in
  NoDup (tkeys a) /\
  (forall tr, In tr a ->
     exists m, In m ms /\ m_id m = fst (fst tr) /\ In (snd (fst tr)) (m_topics m)) /\
  (forall t, Permutation (topic_parts a t)
                         (if existsb (subscribes t) ms then find_partitions t ps else [])).
Proof. exact rr_partition. Qed.
Print Assumptions C14_rr_partition.

(* RackAffinity ranges over two Go maps; [zo t] / [ro t] are the orders in which the two
   loops of assignTopic visit the racks (zones) of topic t: any permutations.  It never
   panics (no slice bound or index is exceeded, no division by zero), for every order. *)
Theorem C14_rack_no_panic : forall zo ro ms ps, wf_group ms ->
  (forall t, Permutation (zo t) (zones_of (aget t (partitions_by_topic ps))) /\
             Permutation (ro t) (zones_of (aget t (partitions_by_topic ps)))) ->
  exists a, rack_assign zo ro ms ps = Some a.
Proof. exact rack_no_panic. Qed.
Print Assumptions C14_rack_no_panic.

Theorem C14_rack_partition : forall zo ro ms ps a, wf_group ms ->
  (forall t, Permutation (zo t) (zones_of (aget t (partitions_by_topic ps))) /\
             Permutation (ro t) (zones_of (aget t (partitions_by_topic ps)))) ->
  rack_assign zo ro ms ps = Some a ->
  NoDup (tkeys a) /\
  (forall tr, In tr a ->
     exists m, In m ms /\ m_id m = fst (fst tr) /\ In (snd (fst tr)) (m_topics m)) /\
  (forall t, Permutation (topic_parts a t)
                         (if existsb (subscribes t) ms then find_partitions t ps else [])).
Proof. exact rack_partition. Qed.
Print Assumptions C14_rack_partition.

(* with distinct partition ids in a topic, "exactly one member" literally: for any result
   satisfying the three clauses above (so for all three balancers), every listed
   partition of a subscribed topic is held by one and only one listed member, a
   subscriber of the topic *)
Theorem C14_exactly_one_holder : forall ms ps a t p, wf_group ms ->
  (NoDup (tkeys a) /\
   (forall tr, In tr a ->
      exists m, In m ms /\ m_id m = fst (fst tr) /\ In (snd (fst tr)) (m_topics m)) /\
   (forall t, Permutation (topic_parts a t)
                          (if existsb (subscribes t) ms then find_partitions t ps else []))) ->
  NoDup (find_partitions t ps) -> In p (find_partitions t ps) ->
  existsb (subscribes t) ms = true ->
  exists m, In m ms /\ In t (m_topics m) /\ In p (assigned a (m_id m) t) /\
    forall m', In m' ms -> In p (assigned a (m_id m') t) -> m' = m.
Proof. exact exactly_one_holder. Qed.
Print Assumptions C14_exactly_one_holder.

(* ---- evenness: per topic, with P listed partitions and M subscribers, every subscriber
   holds floor(P/M) or floor(P/M)+1 of them; any two differ by at most one ---- *)
Theorem C14_range_even : forall ms ps, wf_group ms ->
  forall t m1 m2, In m1 ms -> In m2 ms -> In t (m_topics m1) -> In t (m_topics m2) ->
    let a := range_assign ms ps in
    let P := length (find_partitions t ps) in
    let M := length (filter (subscribes t) ms) in
    length (assigned a (m_id m1) t) <= length (assigned a (m_id m2) t) + 1 /\
    P / M <= length (assigned a (m_id m1) t) <= P / M + 1.
Proof. exact range_even. Qed.
Print Assumptions C14_range_even.

Theorem C14_rr_even : forall ms ps, wf_group ms ->
  forall t m1 m2, In m1 ms -> In m2 ms -> In t (m_topics m1) -> In t (m_topics m2) ->
    let a := rr_assign ms ps in
    let P := length (find_partitions t ps) in
    let M := length (filter (subscribes t) ms) in
    length (assigned a (m_id m1) t) <= length (assigned a (m_id m2) t) + 1 /\
    P / M <= length (assigned a (m_id m1) t) <= P / M + 1.
Proof. exact rr_even. Qed.
Print Assumptions C14_rr_even.

Theorem C14_rack_even : forall zo ro ms ps a, wf_group ms ->
  (forall t, Permutation (zo t) (zones_of (aget t (partitions_by_topic ps))) /\
             Permutation (ro t) (zones_of (aget t (partitions_by_topic ps)))) ->
  rack_assign zo ro ms ps = Some a ->
  forall t m1 m2, In m1 ms -> In m2 ms -> In t (m_topics m1) -> In t (m_topics m2) ->
    let P := length (find_partitions t ps) in
    let M := length (filter (subscribes t) ms) in
    length (assigned a (m_id m1) t) <= length (assigned a (m_id m2) t) + 1 /\
    P / M <= length (assigned a (m_id m1) t) <= P / M + 1.
Proof. exact rack_even. Qed.
Print Assumptions C14_rack_even.

(* ---- Range and RoundRobin depend on the set of members, not on the listing order ---- *)
Theorem C14_range_order_independent : forall ms ms' ps, wf_group ms -> Permutation ms ms' ->
  forall id t, assigned (range_assign ms ps) id t = assigned (range_assign ms' ps) id t.
Proof. intros ms ms' ps H Hp id t. rewrite !range_assign_ib. apply ib_order_independent; assumption. Qed.
Print Assumptions C14_range_order_independent.

Theorem C14_rr_order_independent : forall ms ms' ps, wf_group ms -> Permutation ms ms' ->
  forall id t, assigned (rr_assign ms ps) id t = assigned (rr_assign ms' ps) id t.
Proof. intros ms ms' ps H Hp id t. rewrite !rr_assign_ib. apply ib_order_independent; assumption. Qed.
Print Assumptions C14_rr_order_independent.

(* [subscribers t ms]: the subscribers of t, strictly sorted by id (Go string order) *)
Theorem C14_subscribers_spec : forall t ms, NoDup (map m_id ms) ->
  Permutation (subscribers t ms) (filter (subscribes t) ms) /\
  StronglySorted (fun a b => bytes_ltb (m_id a) (m_id b) = true) (subscribers t ms).
Proof.
  intros t ms H. split; [apply sort_members_perm|].
  apply sort_members_sorted, NoDup_map_filter, H.
Qed.
Print Assumptions C14_subscribers_spec.

(* ---- Range: the i-th subscriber (by id) holds the contiguous run
   parts[i*P/M : (i+1)*P/M] of the listed partition order ---- *)
Theorem C14_range_contiguous : forall ms ps t m, wf_group ms -> In m ms -> In t (m_topics m) ->
  let parts := find_partitions t ps in
  let P := length parts in
  let M := length (subscribers t ms) in
  exists i, i < M /\ nth_error (subscribers t ms) i = Some m /\
    assigned (range_assign ms ps) (m_id m) t = slice (i * P / M) (S i * P / M) parts.
Proof.
  intros ms ps t m H Hm Ht parts P M. destruct (subscriber_index ms t m Hm Ht) as [i [Hi Hn]].
  exists i. split; [exact Hi|]. split; [exact Hn|].
  rewrite range_assign_ib. apply (ib_assigned_nth range_sel ms ps t i m H Hn).
Qed.
Print Assumptions C14_range_contiguous.

(* ---- RoundRobin: the i-th subscriber holds parts[i], parts[i+M], parts[i+2M], ...
   (all n with i + n*M < P: there are (P + M - 1 - i) / M of them) ---- *)
Theorem C14_rr_every_kth : forall ms ps t m, wf_group ms -> In m ms -> In t (m_topics m) ->
  let parts := find_partitions t ps in
  let M := length (subscribers t ms) in
  exists i, i < M /\ nth_error (subscribers t ms) i = Some m /\
    assigned (rr_assign ms ps) (m_id m) t =
    map (fun n => nth (i + n * M) parts 0%Z) (seq 0 ((length parts + M - 1 - i) / M)).
Proof.
  intros ms ps t m H Hm Ht parts M. destruct (subscriber_index ms t m Hm Ht) as [i [Hi Hn]].
  exists i. split; [exact Hi|]. split; [exact Hn|].
  rewrite rr_assign_ib, (ib_assigned_nth rr_sel ms ps t i m H Hn). apply rr_sel_kth, Hi.
Qed.
Print Assumptions C14_rr_every_kth.

(* ---- RackAffinity: for every topic t and rack z, with [cs] the subscribers of t in
   rack z, [pz] the listed partitions of t led in z, T = floor(P/M): the members of cs
   together hold (for t) the first n partitions of pz for some
   n >= min(|pz|, |cs| * T), possibly among others; hence at least that many of the
   partitions they hold are led in z.  For every iteration order. ---- *)
Theorem C14_rack_affinity : forall zo ro ms ps a, wf_group ms ->
  (forall t, Permutation (zo t) (zones_of (aget t (partitions_by_topic ps))) /\
             Permutation (ro t) (zones_of (aget t (partitions_by_topic ps)))) ->
  rack_assign zo ro ms ps = Some a ->
  forall t z, existsb (subscribes t) ms = true ->
  let mems := filter (subscribes t) ms in
  let parts := filter (fun p => bytes_eqb (p_topic p) t) ps in
  let cs := map m_id (filter (fun m => bytes_eqb (m_userdata m) z) mems) in
  let pz := map p_id (filter (fun p => bytes_eqb (p_rack p) z) parts) in
  let T := length parts / length mems in
  let held := flat_map (fun c => assigned a c t) cs in
  (exists n other, Nat.min (length pz) (length cs * T) <= n /\
                   Permutation held (firstn n pz ++ other)) /\
  Nat.min (length pz) (length cs * T) <= length (filter (fun x => existsb (Z.eqb x) pz) held).
Proof.
  intros zo ro ms ps a H1 H2 E. rewrite (rack_assign_some zo ro ms ps H1 H2) in E.
  injection E as <-. intros t z Es. apply rack_lift_affinity; assumption.
Qed.
Print Assumptions C14_rack_affinity.

(* ---- the group leader (reader.go extractTopics + consumergroup.go assignTopicPartitions):
   [extract_topics ms] are the topics the leader asks the broker for; the broker
   ([broker_read cluster topics]) answers with the partitions of exactly those topics, or
   fails as a whole (UnknownTopicOrPartition) when it does not have one of them
   ([topic_exists cluster t] = the cluster lists a partition of t); after such a failure
   with more than one topic the leader asks for each topic on its own and skips the unknown
   ones; [leader_partitions ms cluster] is what the balancer is then handed and
   [leader_range/leader_rr/leader_rack] the balancer applied to it.
   The leader asks for exactly the subscribed topics, each once, in sorted order. ---- *)
Theorem C14_extract_topics : forall ms,
  (forall t, In t (extract_topics ms) <-> exists m, In m ms /\ In t (m_topics m)) /\
  NoDup (extract_topics ms) /\
  StronglySorted (fun a b => bytes_ltb a b = true) (extract_topics ms).
Proof. exact extract_topics_spec. Qed.
Print Assumptions C14_extract_topics.

(* the metadata requests, in order: the sorted union of the subscriptions; after an
   unknown-topic failure with more than one topic, one request per topic *)
Theorem C14_leader_requests : forall ms cluster,
  let topics := extract_topics ms in
  leader_requests ms cluster =
  if forallb (topic_exists cluster) topics then [topics]
  else if 1 <? length topics then topics :: map (fun t => [t]) topics else [topics].
Proof.
  intros ms cluster. cbv zeta. unfold leader_requests, broker_read.
  destruct (forallb (topic_exists cluster) (extract_topics ms)); [reflexivity|].
  destruct (1 <? length (extract_topics ms)); reflexivity.
Qed.
Print Assumptions C14_leader_requests.

(* what the balancer is handed for a topic — whether or not some subscribed topic is missing
   from the cluster: all the cluster has of it, iff somebody subscribes to it *)
Theorem C14_leader_partitions : forall ms cluster t,
  find_partitions t (leader_partitions ms cluster) =
  if existsb (subscribes t) ms then find_partitions t cluster else [].
Proof. exact find_partitions_leader. Qed.
Print Assumptions C14_leader_partitions.

(* end to end, judged against the CLUSTER: no key twice, keys are subscriptions of listed
   members, and per topic the assigned partitions are exactly (multiset) the partitions the
   cluster has of it when it has a subscriber, none otherwise; loads floor/ceil *)
Theorem C14_leader_partition : forall ms cluster, wf_group ms ->
  forall a,
    (a = leader_range ms cluster \/ a = leader_rr ms cluster \/
     (exists zo ro,
        (forall t, Permutation (zo t) (zones_of (aget t (partitions_by_topic (leader_partitions ms cluster)))) /\
                   Permutation (ro t) (zones_of (aget t (partitions_by_topic (leader_partitions ms cluster))))) /\
        leader_rack zo ro ms cluster = Some a)) ->
    NoDup (tkeys a) /\
    (forall tr, In tr a ->
       exists m, In m ms /\ m_id m = fst (fst tr) /\ In (snd (fst tr)) (m_topics m)) /\
    (forall t, Permutation (topic_parts a t)
                           (if existsb (subscribes t) ms then find_partitions t cluster else [])).
Proof. exact leader_result_partition. Qed.
Print Assumptions C14_leader_partition.

(* topics the cluster lacks get nothing (a consequence of the three clauses above) *)
Theorem C14_leader_missing_topic : forall ms cluster a t,
  (NoDup (tkeys a) /\
   (forall tr, In tr a ->
      exists m, In m ms /\ m_id m = fst (fst tr) /\ In (snd (fst tr)) (m_topics m)) /\
   (forall t, Permutation (topic_parts a t)
                          (if existsb (subscribes t) ms then find_partitions t cluster else []))) ->
  topic_exists cluster t = false -> topic_parts a t = [].
Proof.
  intros ms cluster a t [_ [_ H]] Hm. specialize (H t). rewrite (topic_missing_nil _ _ Hm) in H.
  destruct (existsb (subscribes t) ms); apply Permutation_sym, Permutation_nil in H; exact H.
Qed.
Print Assumptions C14_leader_missing_topic.

Theorem C14_leader_rack_no_panic : forall zo ro ms cluster, wf_group ms ->
  (forall t, Permutation (zo t) (zones_of (aget t (partitions_by_topic (leader_partitions ms cluster)))) /\
             Permutation (ro t) (zones_of (aget t (partitions_by_topic (leader_partitions ms cluster))))) ->
  exists a, leader_rack zo ro ms cluster = Some a.
Proof. intros zo ro ms cluster H Ho. apply rack_no_panic; assumption. Qed.
Print Assumptions C14_leader_rack_no_panic.

(* with distinct partition ids per topic in the cluster: every partition the cluster has
   of a subscribed topic is held by exactly one listed member, a subscriber of the topic —
   for Range, RoundRobin and (every iteration order) RackAffinity *)
Theorem C14_leader_exactly_one : forall ms cluster t p, wf_group ms ->
  NoDup (find_partitions t cluster) -> In p (find_partitions t cluster) ->
  (exists m, In m ms /\ In t (m_topics m)) ->
  let one_holder a :=
    exists m, In m ms /\ In t (m_topics m) /\ In p (assigned a (m_id m) t) /\
      forall m', In m' ms -> In p (assigned a (m_id m') t) -> m' = m in
  one_holder (leader_range ms cluster) /\
  one_holder (leader_rr ms cluster) /\
  forall zo ro a,
    (forall t, Permutation (zo t) (zones_of (aget t (partitions_by_topic (leader_partitions ms cluster)))) /\
               Permutation (ro t) (zones_of (aget t (partitions_by_topic (leader_partitions ms cluster))))) ->
    leader_rack zo ro ms cluster = Some a -> one_holder a.
Proof.
  intros ms cluster t p H Hnd Hp Hs one_holder.
  assert (G : forall a, leader_result ms cluster a -> one_holder a)
    by (intros a Ha; apply (leader_one_holder ms cluster a t p); assumption).
  split; [apply G; left; reflexivity|]. split; [apply G; right; left; reflexivity|].
  intros zo ro a Ho E. apply G. right. right. exists zo, ro. split; assumption.
Qed.
Print Assumptions C14_leader_exactly_one.

Theorem C14_leader_even : forall ms cluster, wf_group ms ->
  forall a,
    (a = leader_range ms cluster \/ a = leader_rr ms cluster \/
     (exists zo ro,
        (forall t, Permutation (zo t) (zones_of (aget t (partitions_by_topic (leader_partitions ms cluster)))) /\
                   Permutation (ro t) (zones_of (aget t (partitions_by_topic (leader_partitions ms cluster))))) /\
        leader_rack zo ro ms cluster = Some a)) ->
  forall t m1 m2, In m1 ms -> In m2 ms -> In t (m_topics m1) -> In t (m_topics m2) ->
    let P := length (find_partitions t cluster) in
    let M := length (filter (subscribes t) ms) in
    length (assigned a (m_id m1) t) <= length (assigned a (m_id m2) t) + 1 /\
    P / M <= length (assigned a (m_id m1) t) <= P / M + 1.
Proof. exact leader_result_even. Qed.
Print Assumptions C14_leader_even.

(* ---- what the coordinator RECEIVES: the leader's SyncGroup request
   (consumergroup.go makeSyncGroupRequestV0).  [sync_request a] is the decoded request built
   from the assignment a: one entry per member of a, holding (topic, int32 partitions);
   [wire_triples] reads it back as (member, topic, partitions).
   The request names every member of the assignment exactly once and the entry of member
   id carries, for every topic, exactly assignments[id][topic] (converted to int32). ---- *)
Theorem C14_sync_request_is_assignment : forall a,
  NoDup (map fst (sync_request a)) /\
  (forall id, In id (map fst (sync_request a)) <-> exists tr, In tr a /\ fst (fst tr) = id) /\
  (forall id t, assigned (wire_triples (sync_request a)) id t = map int32_of (assigned a id t)) /\
  (forall z, (-2147483648 <= z < 2147483648)%Z -> int32_of z = z).
Proof.
  intros a. destruct (sync_request_is_assignment a) as [_ [H1 [H2 H3]]].
  split; [exact H1|]. split; [exact H2|]. split; [exact H3|exact int32_of_small].
Qed.
Print Assumptions C14_sync_request_is_assignment.

(* end to end on the wire: for every group, every cluster with int32 partition ids (also
   one lacking subscribed topics), every balancer and iteration order, the SyncGroup request
   the coordinator receives gives every partition the cluster has of a subscribed topic to
   exactly one subscriber (the three clauses, to which C14_exactly_one_holder applies), with
   floor/ceil loads *)
Theorem C14_leader_wire_partition : forall ms cluster, wf_group ms ->
  (forall p, In p cluster -> (-2147483648 <= p_id p < 2147483648)%Z) ->
  forall a,
    (a = leader_range ms cluster \/ a = leader_rr ms cluster \/
     (exists zo ro,
        (forall t, Permutation (zo t) (zones_of (aget t (partitions_by_topic (leader_partitions ms cluster)))) /\
                   Permutation (ro t) (zones_of (aget t (partitions_by_topic (leader_partitions ms cluster))))) /\
        leader_rack zo ro ms cluster = Some a)) ->
    let w := wire_triples (sync_request a) in
    (NoDup (tkeys w) /\
     (forall tr, In tr w ->
        exists m, In m ms /\ m_id m = fst (fst tr) /\ In (snd (fst tr)) (m_topics m)) /\
     (forall t, Permutation (topic_parts w t)
                            (if existsb (subscribes t) ms then find_partitions t cluster else []))) /\
    (forall t m1 m2, In m1 ms -> In m2 ms -> In t (m_topics m1) -> In t (m_topics m2) ->
       let P := length (find_partitions t cluster) in
       let M := length (filter (subscribes t) ms) in
       length (assigned w (m_id m1) t) <= length (assigned w (m_id m2) t) + 1 /\
       P / M <= length (assigned w (m_id m1) t) <= P / M + 1).
Proof.
  intros ms cluster H Hc a Ha. split.
  - apply wire_exact_partition; [exact Hc|]. apply leader_result_partition; assumption.
  - apply wire_even_loads. apply leader_result_even; assumption.
Qed.
Print Assumptions C14_leader_wire_partition.

(* ---- non-vacuity: a concrete group meeting the hypotheses ---- *)
Definition ex_ms : list member :=
  [ mkMember [99]%N [[116]; [117]]%N [2]%N;      (* "c" subscribes t,u  rack 2 *)
    mkMember [97]%N [[116]]%N [1]%N;             (* "a" subscribes t    rack 1 *)
    mkMember [97; 49]%N [[117]; [116]]%N []%N ]. (* "a1" subscribes u,t no rack *)
Definition ex_ps : list partition :=
  [ mkPartition [116]%N 4 [2]%N; mkPartition [117]%N 0 [1]%N; mkPartition [116]%N 0 [1]%N;
    mkPartition [116]%N 7 [2]%N; mkPartition [116]%N 2 [1]%N; mkPartition [118]%N 0 [1]%N;
    mkPartition [116]%N 9 [3]%N ]%Z.

Example C14_example_wf : wf_group ex_ms.
Proof.
  split.
  - repeat (constructor; [cbn; intuition congruence|]). constructor.
  - intros m [<-|[<-|[<-|[]]]]; repeat (constructor; [cbn; intuition congruence|]); constructor.
Qed.

Example C14_example_range :
  range_assign ex_ms ex_ps =
  [ ([97]%N, [116]%N, [4]%Z); ([97; 49]%N, [116]%N, [0; 7]%Z); ([99]%N, [116]%N, [2; 9]%Z);
    ([97; 49]%N, [117]%N, []); ([99]%N, [117]%N, [0]%Z) ].
Proof. vm_compute. reflexivity. Qed.

Example C14_example_rr :
  rr_assign ex_ms ex_ps =
  [ ([97]%N, [116]%N, [4; 2]%Z); ([97; 49]%N, [116]%N, [0; 9]%Z); ([99]%N, [116]%N, [7]%Z);
    ([97; 49]%N, [117]%N, [0]%Z); ([99]%N, [117]%N, []) ].
Proof. vm_compute. reflexivity. Qed.

Example C14_example_rack_orders :
  rack_orders_ok (fun t => zones_of (aget t (partitions_by_topic ex_ps)))
                 (fun t => rev (zones_of (aget t (partitions_by_topic ex_ps)))) ex_ps.
Proof. exact (rack_orders_canonical ex_ps). Qed.

Example C14_example_rack :
  rack_assign (fun t => zones_of (aget t (partitions_by_topic ex_ps)))
              (fun t => rev (zones_of (aget t (partitions_by_topic ex_ps)))) ex_ms ex_ps =
  Some [ ([99]%N, [116]%N, [4; 7]%Z); ([97]%N, [116]%N, [0; 2]%Z); ([97; 49]%N, [116]%N, [9]%Z);
         ([99]%N, [117]%N, [0]%Z) ].
Proof. vm_compute. reflexivity. Qed.

(* the pattern that hides a topic from a leader that stops at the first seen topic:
   "a" lists t, "c" lists t then u *)
Example C14_example_leader :
  extract_topics ex_ms = [[116]; [117]]%N /\
  leader_range ex_ms ex_ps = range_assign ex_ms ex_ps /\
  extract_topics [mkMember [97]%N [[116]]%N []; mkMember [99]%N [[116]; [117]]%N []] = [[116]; [117]]%N.
Proof. vm_compute. repeat split; reflexivity. Qed.

(* a cluster lacking the subscribed topic u: the bulk request fails, the leader asks for t
   and u separately, and t's partitions are still all assigned *)
Definition ex_cluster_no_u : list partition :=
  filter (fun p => negb (bytes_eqb (p_topic p) [117]%N)) ex_ps.
Example C14_example_leader_fallback :
  leader_requests ex_ms ex_cluster_no_u = [[[116]; [117]]; [[116]]; [[117]]]%N /\
  leader_range ex_ms ex_cluster_no_u =
  [ ([97]%N, [116]%N, [4]%Z); ([97; 49]%N, [116]%N, [0; 7]%Z); ([99]%N, [116]%N, [2; 9]%Z);
    ([97; 49]%N, [117]%N, []); ([99]%N, [117]%N, []) ].
Proof. vm_compute. split; reflexivity. Qed.

(* the SyncGroup request of the example: "c" carries t and u, "a" only t *)
Example C14_example_sync :
  sync_request (range_assign ex_ms ex_ps) =
  [ ([97]%N, [([116]%N, [4]%Z)]);
    ([97; 49]%N, [([116]%N, [0; 7]%Z); ([117]%N, [])]);
    ([99]%N, [([116]%N, [2; 9]%Z); ([117]%N, [0]%Z)]) ].
Proof. vm_compute. reflexivity. Qed.
