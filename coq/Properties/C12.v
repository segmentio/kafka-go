(* Properties/C12.v — Transport routes requests to the right broker at a mutually supported
   version.  Statements with short proofs from the lemmas of Proofs/RoutingProofs.v and
   Proofs/RoutingSort.v. *)
From Coq Require Import List NArith ZArith Bool Sorted Permutation Lia.
From KV Require Import Model.Routing Proofs.RoutingProofs Proofs.RoutingSort.
From KV Require Model.RoutingSkeleton Gen.Skeleton Proofs.SkeletonRouting.
Import ListNotations.
Open Scope Z_scope.

(* ApiKey.SelectVersion(bmin, bmax) for a client supporting [cmin, cmax] *)
Theorem C12_select_highest_common : forall cmin cmax bmin bmax,
  cmin <= cmax -> bmin <= bmax ->
  Z.max cmin bmin <= Z.min cmax bmax ->
  select_version cmin cmax bmin bmax = Z.min cmax bmax
  /\ cmin <= select_version cmin cmax bmin bmax <= cmax
  /\ bmin <= select_version cmin cmax bmin bmax <= bmax.
Proof. intros cmin cmax bmin bmax _ _ H. rewrite select_version_clamp by lia. lia. Qed.
Print Assumptions C12_select_highest_common.

(* without overlap: the client's own bound nearest to the broker's range (the broker will
   answer UNSUPPORTED_VERSION); in every case a version the client can encode *)
Theorem C12_select_no_overlap : forall cmin cmax bmin bmax,
  cmin <= cmax -> bmin <= bmax ->
  (bmax < cmin -> select_version cmin cmax bmin bmax = cmin)
  /\ (cmax < bmin -> select_version cmin cmax bmin bmax = cmax).
Proof. intros. rewrite select_version_clamp by assumption. lia. Qed.
Print Assumptions C12_select_no_overlap.

Theorem C12_select_client_range : forall cmin cmax bmin bmax,
  cmin <= cmax -> cmin <= select_version cmin cmax bmin bmax <= cmax.
Proof. intros. rewrite select_version_clamp by assumption. lia. Qed.
Print Assumptions C12_select_client_range.

(* the version a connection uses for key k is SelectVersion applied to the (last) range the
   broker advertised for k in its ApiVersions response, and 0 for a key it did not advertise *)
Theorem C12_connection_version : forall client adv1 adv2 k bmin bmax,
  (forall e, In e adv2 -> fst e <> k) ->
  conn_version (negotiate client (adv1 ++ (k, (bmin, bmax)) :: adv2)) k =
  select_version (fst (lookup_range client k)) (snd (lookup_range client k)) bmin bmax.
Proof.
  intros client adv1 adv2 k bmin bmax H. unfold conn_version. rewrite negotiate_fold, fold_left_app.
  cbn [fold_left]. rewrite negotiate_fold_absent by assumption.
  unfold negotiate_step. cbn [fst snd]. rewrite mget_mset_same. reflexivity.
Qed.
Print Assumptions C12_connection_version.

Theorem C12_connection_version_unadvertised : forall client adv k,
  (forall e, In e adv -> fst e <> k) -> conn_version (negotiate client adv) k = 0.
Proof.
  intros client adv k H. unfold conn_version. rewrite negotiate_fold, negotiate_fold_absent by assumption.
  reflexivity.
Qed.
Print Assumptions C12_connection_version_unadvertised.

(* the payload of a Produce request is encoded in the record format of the negotiated version:
   record batches (magic 2) exactly from Produce v3 on, message sets (magic 1) exactly below *)
Theorem C12_produce_record_format : forall v,
  (produce_record_version v = 2 <-> 3 <= v) /\ (produce_record_version v = 1 <-> v < 3).
Proof. intro v. unfold produce_record_version. destruct (Z.ltb_spec v 3); lia. Qed.
Print Assumptions C12_produce_record_format.

(* the requests that set a connection up are negotiated like every other request: ApiVersions
   first (v0), then SaslHandshake at SelectVersion of the advertised range of key 17, then the
   raw token exchange exactly when that is 0, else SaslAuthenticate at the version negotiated
   for key 36 (C12_connection_version applies to it as to every key) *)
Theorem C12_setup_requests_negotiated : forall client adv1 adv2 bmin bmax,
  (forall e, In e adv2 -> fst e <> K_SaslHandshake) ->
  let neg := negotiate client (adv1 ++ (K_SaslHandshake, (bmin, bmax)) :: adv2) in
  let hv := select_version (fst (lookup_range client K_SaslHandshake)) (snd (lookup_range client K_SaslHandshake)) bmin bmax in
  connection_setup true neg =
  [SReq K_ApiVersions 0; SReq K_SaslHandshake hv;
   if hv =? 0 then SRawToken else SReq K_SaslAuthenticate (conn_version neg K_SaslAuthenticate)].
Proof.
  intros client adv1 adv2 bmin bmax H neg hv. unfold connection_setup, neg.
  rewrite (C12_connection_version client adv1 adv2 K_SaslHandshake bmin bmax H). reflexivity.
Qed.
Print Assumptions C12_setup_requests_negotiated.

(* produce / fetch / raw-produce are routed by partition leader.
   [brokers_wf]: the Brokers map is keyed by the ID field and ids are >= 0 (see C12_layout_wf).
   Ok b  : every named topic is known and b is the broker the layout designates for EVERY
           named partition (b = Broker{ID:-1} only when no partition is named);
   Err e : e says what is wrong ([route_problem]: unknown topic, unknown partition, leader not
           among the brokers, or two named partitions with different leaders);
   and whenever something is wrong the result is an error; never a panic. *)
Theorem C12_route_leader : forall c ts, brokers_wf c ->
  (forall b, route_leader c ts = Ok b ->
     (forall t, names_topic ts t -> get_topic c t <> None)
     /\ (forall t p, names_part ts t p -> leader_of c t p = Some b)
     /\ ((forall t p, ~ names_part ts t p) -> b = no_broker))
  /\ (forall e, route_leader c ts = Err e -> route_problem c ts e)
  /\ (forall e, route_problem c ts e -> exists e', route_leader c ts = Err e')
  /\ route_leader c ts <> Panic.
Proof.
  intros c ts W. pose proof (route_leader_outcome c ts W) as R.
  destruct (route_leader c ts) as [b|e|]; [| |contradiction].
  - split; [intros b' [= <-]; assumption|]. split; [discriminate|]. split; [|discriminate].
    intros e P. destruct R as [T [A _]]. destruct (led_by_one_no_problem c ts b e T A P).
  - split; [discriminate|]. split; [intros e' [= <-]; assumption|]. split; [|discriminate].
    intros e' _. exists e. reflexivity.
Qed.
Print Assumptions C12_route_leader.

Theorem C12_send_to_leader : forall c conns r fc b,
  route c r = Some (Ok b) -> 0 <= b_id b -> mhas Z.eqb conns (b_id b) = true ->
  send_request c conns r fc = Sent [WReq (TBroker (b_id b)) (api_of r)].
Proof.
  intros c conns r fc b H Hnn Hc. unfold send_request. rewrite H, send_to_broker, Hc by assumption.
  reflexivity.
Qed.
Print Assumptions C12_send_to_leader.

Theorem C12_send_route_error : forall c conns r fc e,
  route c r = Some (Err e) -> send_request c conns r fc = Rejected [] (RejRoute e).
Proof. intros c conns r fc e H. unfold send_request. rewrite H. reflexivity. Qed.
Print Assumptions C12_send_route_error.

(* list-offsets: Split makes exactly one single-partition message per named partition *)
Theorem C12_listoffsets_split : forall ts,
  (forall m, In m (split_listoffsets ts) -> exists t p, m = [(t, [p])] /\ names_part ts t p)
  /\ (forall t p, names_part ts t p -> In [(t, [p])] (split_listoffsets ts)).
Proof.
  intro ts. split; [intros m H; apply in_split_listoffsets; assumption|].
  intros t p H. apply in_split_listoffsets. exists t, p. auto.
Qed.
Print Assumptions C12_listoffsets_split.

(* On every well-formed layout: an unknown topic, an unknown partition or a leader that is not
   among the brokers is the same error produce/fetch give, and otherwise the message goes to
   the partition's leader -- so Ok b holds exactly when b is the designated leader. *)
Theorem C12_route_leader_listoffsets : forall c t p rest_p rest_t,
  parts_wf c ->
  route_listoffsets c ((t, p :: rest_p) :: rest_t) =
  match get_topic c t with
  | None => Err (ENoTopic t)
  | Some tp =>
      match mget Z.eqb (t_parts tp) p with
      | None => Err (ENoPartition t p)
      | Some part =>
          match get_broker c (p_leader part) with
          | Some b => Ok b
          | None => Err (ENoLeader t p)
          end
      end
  end.
Proof.
  intros c t p rp rt W. unfold route_listoffsets.
  destruct (get_topic c t) as [tp|] eqn:Et; [|reflexivity].
  rewrite <- (find_part_by_id (t_parts tp) p (fun k x => W t tp k x Et)).
  destruct (find _ (t_parts tp)) as [[k part]|]; reflexivity.
Qed.
Print Assumptions C12_route_leader_listoffsets.

Theorem C12_route_leader_listoffsets_iff : forall c t p rest_p rest_t b,
  parts_wf c ->
  (route_listoffsets c ((t, p :: rest_p) :: rest_t) = Ok b <-> leader_of c t p = Some b).
Proof.
  intros c t p rp rt b W. rewrite (C12_route_leader_listoffsets c t p rp rt W). unfold leader_of.
  destruct (get_topic c t) as [tp|]; [|split; discriminate].
  destruct (mget Z.eqb (t_parts tp) p) as [part|]; [|split; discriminate].
  destruct (get_broker c (p_leader part)) as [b'|]; split; intro H; inversion H; reflexivity.
Qed.
Print Assumptions C12_route_leader_listoffsets_iff.

(* a layout without controller and with a leaderless partition of topic "t" *)
Definition refute_md : metadata :=
  {| md_controller := -1;
     md_brokers := [ {| mb_id := 0; mb_addr := 1 |}; {| mb_id := 1; mb_addr := 2 |} ];
     md_topics := [ {| mt_name := [116%N]; mt_err := 0; mt_internal := false;
                       mt_parts := [ {| mp_idx := 0; mp_err := 5; mp_leader := -1; mp_replicas := [-1; 0]; mp_isr := [-1]; mp_offline := [] |};
                                     {| mp_idx := 1; mp_err := 0; mp_leader := 1; mp_replicas := [1; 0]; mp_isr := [1]; mp_offline := [] |} ] |} ] |}.

(* create-topics, delete-topics, create-partitions, ...: the controller *)
Theorem C12_route_controller : forall c conns api fc b,
  get_broker c (c_controller c) = Some b -> 0 <= b_id b -> mhas Z.eqb conns (b_id b) = true ->
  route_controller c = Ok b
  /\ send_request c conns (RController api) fc = Sent [WReq (TBroker (b_id b)) api].
Proof.
  intros c conns api fc b H Hn Hc.
  assert (R : route_controller c = Ok b) by (unfold route_controller, get_broker_or_zero; rewrite H; reflexivity).
  split; [exact R|]. exact (C12_send_to_leader c conns (RController api) fc b (f_equal Some R) Hn Hc).
Qed.
Print Assumptions C12_route_controller.

(* REFUTED when the layout has no controller (ControllerID -1, or an id that is not among the
   brokers): no error; the request is sent to broker 0 *)
Theorem C12_route_controller_unknown_refuted :
  exists m,
    let c := make_layout (normalize m) in
    brokers_wf c /\ get_broker c (c_controller c) = None
    /\ send_request c (c_brokers c) (RController K_CreateTopics) (fun _ _ => None) = Sent [WReq (TBroker 0) K_CreateTopics].
Proof.
  exists refute_md. cbv zeta.
  split; [apply make_layout_brokers_wf; vm_compute; intros b [<-|[<-|[]]]; discriminate|].
  split; vm_compute; reflexivity.
Qed.
Print Assumptions C12_route_controller_unknown_refuted.

(* group and transactional requests: a find-coordinator exchange first.  [coord ktype key]
   is how the cluster answers a lookup; group and transaction coordinator of the same
   string are in general different brokers.  A GroupMessage looks up (Group, m.Group()), a
   TransactionalMessage (Transaction, m.Transaction()): the lookup on the wire carries the
   matching key type, and the request goes to the node THAT lookup names.  An error code in
   the answer, a failed exchange, or a node without connection group fails the request
   and nothing is sent after the lookup. *)
Theorem C12_route_coordinator : forall c conns coord api key,
  send_request c conns (RGroup api key) coord = via_coordinator conns coord KT_Group key api
  /\ send_request c conns (RTxn api key) coord = via_coordinator conns coord KT_Txn key api
  /\ forall kt,
      (forall a, coord kt key = Some a -> fc_err a = 0 -> 0 <= fc_node a -> mhas Z.eqb conns (fc_node a) = true ->
         via_coordinator conns coord kt key api = Sent [WFind kt key; WReq (TBroker (fc_node a)) api])
      /\ (forall a, coord kt key = Some a -> fc_err a = 0 -> 0 <= fc_node a -> mhas Z.eqb conns (fc_node a) = false ->
         via_coordinator conns coord kt key api = Rejected [WFind kt key] RejBrokerNotAvailable)
      /\ (forall a, coord kt key = Some a -> fc_err a <> 0 ->
         via_coordinator conns coord kt key api = Rejected [WFind kt key] (RejCoordinatorError (fc_err a)))
      /\ (coord kt key = None ->
         via_coordinator conns coord kt key api = Rejected [WFind kt key] RejCoordinatorLookup).
Proof.
  intros c conns coord api key. split; [reflexivity|]. split; [reflexivity|]. intro kt.
  split; [|split; [|split]].
  - intros a Hk He Hn Hc.
    rewrite (via_coordinator_found _ _ _ _ _ a Hk He), send_to_broker, Hc by assumption. reflexivity.
  - intros a Hk He Hn Hc.
    rewrite (via_coordinator_found _ _ _ _ _ a Hk He), send_to_broker, Hc by assumption. reflexivity.
  - intros a Hk He. unfold via_coordinator. rewrite Hk.
    destruct (Z.eqb_spec (fc_err a) 0); [contradiction | reflexivity].
  - intro Hk. unfold via_coordinator. rewrite Hk. reflexivity.
Qed.
Print Assumptions C12_route_coordinator.

(* with distinct coordinators for the same string the two kinds of request go to different brokers *)
Example C12_coordinator_key_type_example :
  let coord := fun kt (_ : name) => Some {| fc_err := 0; fc_node := if kt =? KT_Txn then 2 else 1 |} in
  let conns := [(1, {| b_id := 1; b_addr := 1 |}); (2, {| b_id := 2; b_addr := 2 |})] in
  send_request empty_cluster conns (keyed_request 13 [120%N]) coord = Sent [WFind 0 [120%N]; WReq (TBroker 1) 13]
  /\ send_request empty_cluster conns (keyed_request 22 [120%N]) coord = Sent [WFind 1 [120%N]; WReq (TBroker 2) 22].
Proof. vm_compute. split; reflexivity. Qed.

(* split requests to coordinators (protocol.Splitter + GroupMessage): describe-groups.
   A part of a split request is routed by ONE key (Group() = its first group), so the split is
   only right when every part is homogeneous: every group it names has the coordinator the
   part is sent to.  DescribeGroups.Split makes singleton parts, each requested group exactly
   once and in order; so every part is routed by EVERY group it names, for every coordinator
   assignment, and the round trip is one coordinator exchange per requested group. *)
Theorem C12_split_describegroups : forall gs,
  concat (split_describegroups gs) = gs
  /\ (forall part, In part (split_describegroups gs) -> exists g, part = [g] /\ In g gs)
  /\ (forall part g, In part (split_describegroups gs) -> In g part ->
        describegroups_request part = Some (RGroup K_DescribeGroups g))
  /\ (forall coord part, In part (split_describegroups gs) -> part_homogeneous coord part).
Proof.
  intro gs. split; [exact (split_describegroups_concat gs)|]. split; [exact (split_describegroups_singletons gs)|].
  split; [intros part g Hp Hg | intros coord part Hp g g' Hg Hg'];
    destruct (split_describegroups_singletons gs part Hp) as [g0 [-> _]].
  - destruct Hg as [<-|[]]. reflexivity.
  - destruct Hg as [<-|[]], Hg' as [<-|[]]. reflexivity.
Qed.
Print Assumptions C12_split_describegroups.

Theorem C12_route_describegroups : forall p gs fc,
  ps_ready p = true ->
  round_trip p (QDescribeGroups gs) fc =
  RTSend (map (fun g => via_coordinator (ps_conns p) fc KT_Group g K_DescribeGroups) gs).
Proof.
  intros p gs fc H. unfold round_trip. rewrite H. cbn [negb]. f_equal.
  unfold split_describegroups. rewrite map_map. reflexivity.
Qed.
Print Assumptions C12_route_describegroups.

(* which API keys take the coordinator route: every request the Kafka protocol addresses to the
   group coordinator (Heartbeat included) is a GroupMessage, every one addressed to the
   transaction coordinator is a TransactionalMessage *)
Theorem C12_coordinator_apis_classified :
  Forall (fun api => message_class api = CGroup) kafka_group_coordinator_apis
  /\ Forall (fun api => message_class api = CTxn) kafka_txn_coordinator_apis.
Proof. split; repeat (constructor; [reflexivity|]); constructor. Qed.
Print Assumptions C12_coordinator_apis_classified.

Theorem C12_coordinator_apis_keyed : forall key,
  Forall (fun api => keyed_request api key = RGroup api key) kafka_group_coordinator_apis
  /\ Forall (fun api => keyed_request api key = RTxn api key) kafka_txn_coordinator_apis.
Proof. intro key. split; repeat (constructor; [reflexivity|]); constructor. Qed.
Print Assumptions C12_coordinator_apis_keyed.

Theorem C12_route_any : forall c conns api fc, send_request c conns (ROther api) fc = Sent [WReq TControl api].
Proof. reflexivity. Qed.
Print Assumptions C12_route_any.

(* the layout built by makeLayout is well-formed (what C12_route_leader assumes) *)
Theorem C12_layout_wf : forall m,
  (forall b, In b (md_brokers m) -> 0 <= mb_id b) ->
  brokers_wf (make_layout m) /\ parts_wf (make_layout m) /\ c_controller (make_layout m) = md_controller m.
Proof.
  intros m H. split; [exact (make_layout_brokers_wf m H)|]. split; [exact (make_layout_parts_wf m) | reflexivity].
Qed.
Print Assumptions C12_layout_wf.

(* [answered m n] = the entry for n in what the brokers answered (m, unsorted), with its
   partitions sorted, or an UnknownTopicOrPartition entry.  The cache is [normalize m]
   (update sorts before storing; C12_update_sorts).  Distinct topic names are needed: with
   duplicates, which of two entries a lookup returns is unspecified. *)
Theorem C12_filter_exact : forall (m : metadata) (names : list name),
  NoDup (map mt_name (md_topics m)) ->
  md_topics (filter_metadata (Some names) (normalize m)) = map (answered m) names
  /\ md_brokers (filter_metadata (Some names) (normalize m)) = isort broker_lt (md_brokers m)
  /\ md_controller (filter_metadata (Some names) (normalize m)) = md_controller m.
Proof.
  intros m names ND. split; [|split; reflexivity].
  apply map_ext. intro n. unfold answered. rewrite (find_metadata_topic_normalize m n ND).
  destruct (find _ (md_topics m)); reflexivity.
Qed.
Print Assumptions C12_filter_exact.

Theorem C12_filter_unfiltered : forall m, filter_metadata None m = m.
Proof. reflexivity. Qed.
Print Assumptions C12_filter_unfiltered.

(* update establishes the sortedness the binary search relies on ... *)
Theorem C12_update_sorts : forall m, NoDup (map mt_name (md_topics m)) ->
  StronglySorted (fun a b => name_ltb (mt_name a) (mt_name b) = true) (md_topics (normalize m))
  /\ Permutation (map mt_name (md_topics (normalize m))) (map mt_name (md_topics m)).
Proof.
  intros m ND. cbn [normalize md_topics]. split.
  - apply sorted_map_normalize, sort_topics_strict. exact ND.
  - rewrite map_name_normalize. apply Permutation_map, isort_perm.
Qed.
Print Assumptions C12_update_sorts.

(* ... and it does rely on it: on an unsorted list the lookup misses a present name *)
Theorem C12_filter_needs_sorted :
  exists topics n, In n (map mt_name topics) /\ find_metadata_topic topics n = None.
Proof.
  exists [unknown_topic [2%N]; unknown_topic [1%N]], [2%N].
  split; [left; reflexivity | vm_compute; reflexivity].
Qed.
Print Assumptions C12_filter_needs_sorted.

(* the cache hands every topic entry back untouched -- partitions with leader, replicas, ISR,
   offline replicas and error codes ride along -- or it is the Unknown entry *)
Theorem C12_filter_preserves_partition_fields : forall names m t,
  In t (md_topics (filter_metadata (Some names) m)) ->
  In t (md_topics m) \/ exists n, In n names /\ t = unknown_topic n.
Proof.
  intros names m t H. cbn [filter_metadata md_topics] in H. apply in_map_iff in H.
  destruct H as [n [E Hn]].
  destruct (find_metadata_topic (md_topics m) n) as [t0|] eqn:F; [|right; exists n; auto].
  left. subst t. exact (find_metadata_topic_in _ _ _ F).
Qed.
Print Assumptions C12_filter_preserves_partition_fields.

(* Client.Metadata's public view of a (cached, filtered) response, field by field: the brokers
   as listed; per topic name, internal flag and error; per partition id, error, and leader /
   replicas / ISR each looked up id by id in the broker list (ISR from IsrNodes, replicas from
   ReplicaNodes) *)
Theorem C12_client_metadata_fields : forall m,
  cm_brokers (client_metadata m) = md_brokers m
  /\ map ct_name (cm_topics (client_metadata m)) = map mt_name (md_topics m)
  /\ forall t, In t (md_topics m) ->
       In (client_topic (md_brokers m) t) (cm_topics (client_metadata m))
       /\ ct_internal (client_topic (md_brokers m) t) = mt_internal t
       /\ ct_err (client_topic (md_brokers m) t) = mt_err t
       /\ map cp_id (ct_parts (client_topic (md_brokers m) t)) = map mp_idx (mt_parts t)
       /\ forall p, In p (mt_parts t) ->
            In (client_partition (md_brokers m) p) (ct_parts (client_topic (md_brokers m) t))
            /\ cp_leader (client_partition (md_brokers m) p) = cm_lookup (md_brokers m) (mp_leader p)
            /\ cp_replicas (client_partition (md_brokers m) p) = map (cm_lookup (md_brokers m)) (mp_replicas p)
            /\ cp_isr (client_partition (md_brokers m) p) = map (cm_lookup (md_brokers m)) (mp_isr p)
            /\ cp_err (client_partition (md_brokers m) p) = mp_err p.
Proof.
  intro m. split; [reflexivity|]. split; [apply map_map|].
  intros t Ht. split; [apply (in_map (client_topic (md_brokers m))); assumption|].
  split; [reflexivity|]. split; [reflexivity|]. split; [apply map_map|].
  intros p Hp. split; [apply (in_map (client_partition (md_brokers m))); assumption|]. repeat split.
Qed.
Print Assumptions C12_client_metadata_fields.

Theorem C12_client_metadata_lookup : forall bs b,
  In b bs -> NoDup (map mb_id bs) -> cm_lookup bs (mb_id b) = b.
Proof.
  induction bs as [|x bs IH] using rev_ind; intros b Hin Hd; [destruct Hin|].
  rewrite cm_lookup_snoc. rewrite map_app in Hd. apply in_app_or in Hin.
  destruct (Z.eqb_spec (mb_id x) (mb_id b)) as [E|E]; destruct Hin as [Hin|[->|[]]]; try congruence.
  - (* b is listed before the last entry x, which has its id *)
    destruct (NoDup_remove_2 _ _ _ Hd). rewrite app_nil_r, E. apply in_map. assumption.
  - apply IH; [assumption|]. apply NoDup_remove_1 in Hd. rewrite app_nil_r in Hd. assumption.
Qed.
Print Assumptions C12_client_metadata_lookup.

(* After an update with metadata M completed, and until the next successful update (the
   labels in [mid] are requests and failed refreshes), the view is the one built from M and a
   round trip starting now is routed with make_layout (normalize M) / answered from the cached
   normalize M (stated for single messages and for metadata requests). *)
Theorem C12_follows_refresh : forall p0 pre m mid q fc,
  Forall keeps_view mid ->
  let history := pre ++ [LRefresh (Some m) None] ++ mid in
  let p := fst (pool_run p0 history) in
  view_of m p
  /\ snd (pool_run p0 (history ++ [LRequest q fc])) = snd (pool_run p0 history) ++ [round_trip p q fc]
  /\ (forall r, q = QOne r ->
        round_trip p q fc = RTSend [send_request (make_layout (normalize m)) (ps_conns p) r fc])
  /\ (forall names auto, q = QMetadata names auto ->
        round_trip p q fc =
          (if auto && has_unknown (filter_metadata names (normalize m))
           then RTSend [send_request (make_layout (normalize m)) (ps_conns p) (ROther K_Metadata) fc]
           else RTCache (filter_metadata names (normalize m)))).
Proof.
  intros p0 pre m mid q fc F history p. pose proof (view_after_refresh p0 pre m mid F) as V.
  split; [exact V|]. split; [apply pool_run_request|].
  split; [intros r -> | intros names auto ->]; [apply round_trip_one_view | apply round_trip_metadata_view]; exact V.
Qed.
Print Assumptions C12_follows_refresh.

Theorem C12_failed_refresh_keeps : forall p md m e,
  ps_meta p = Some md -> fst (pool_step p (LRefresh m (Some e))) = p.
Proof. intros p md m e H. exact (update_error_keeps p m e md H). Qed.
Print Assumptions C12_failed_refresh_keeps.

(* the connection groups are exactly those of the layout's brokers, after any history of
   refreshes and requests: so a leader / controller / coordinator that the layout lists has a
   connection group (the hypothesis [mhas conns ...] of C12_send_to_leader etc.) *)
Theorem C12_conns_follow_layout : forall ls,
  let p := fst (pool_run pool_init ls) in
  forall id, mget Z.eqb (ps_conns p) id = mget Z.eqb (c_brokers (ps_layout p)) id.
Proof. intro ls. exact (proj2 (pool_run_conns_ok ls)). Qed.
Print Assumptions C12_conns_follow_layout.

(* from the select both the timer (a random time below MetadataTTL) and a wake-up start a refresh *)
Theorem C12_refresh_enabled : forall s,
  d_phase s = DWaiting ->
  (exists s1, discover_step s DTimer = Some s1 /\ d_phase s1 = DFetching false /\ d_pool s1 = d_pool s)
  /\ (exists s2, discover_step s DWake = Some s2 /\ d_phase s2 = DFetching true /\ d_pool s2 = d_pool s).
Proof.
  intros s H. split; eexists; split;
    [exact (discover_wakes s false H) | split; reflexivity | exact (discover_wakes s true H) | split; reflexivity].
Qed.
Print Assumptions C12_refresh_enabled.

(* only the cancellation of the pool's context (pool closed) ends the loop: no answered, failed
   or timed-out exchange does *)
Theorem C12_refresh_stops_only_when_closed : forall s l s',
  discover_step s l = Some s' -> d_phase s' = DStopped -> d_ctx_err s <> None.
Proof.
  intros s l s' H Hs. destruct (d_ctx_err s) as [c|] eqn:Ec; [discriminate|]. exfalso.
  unfold discover_step in H. rewrite Ec in H. cbn [err_is] in H.
  destruct (d_phase s) as [n| |] eqn:Ep; [| |discriminate];
    destruct l as [| | | |[m|e|e]]; try discriminate;
    inversion H; subst s'; cbn [d_phase] in Hs; congruence.
Qed.
Print Assumptions C12_refresh_stops_only_when_closed.

(* after any number of turns of an uncancelled loop -- the hypothesis on [fs] is not needed:
   failed (i/o error), timed out (FFailed E_deadline), could not connect, or answered -- the loop
   is in the select again, the next turn sends another Metadata request and an answered one
   installs the brokers' layout *)
Theorem C12_refresh_survives_failures : forall (fs : list (bool * refresh_result)) s w m,
  d_phase s = DWaiting -> d_ctx_err s = None ->
  Forall (fun f => is_failure (snd f) = true) fs ->
  exists s', discover_run s (flat_map (fun f => refresh_turn (fst f) (snd f)) fs ++ refresh_turn w (FAnswered m)) = Some s'
             /\ d_phase s' = DWaiting /\ d_ctx_err s' = None /\ view_of m (d_pool s').
Proof.
  intros fs s w m Hp Hc _. destruct (refresh_turns_run fs s Hp Hc) as [s1 [R [Hp1 Hc1]]].
  rewrite (discover_run_app _ _ _ _ R), (refresh_turn_run s1 w (FAnswered m) Hp1 Hc1).
  eexists. split; [reflexivity|]. split; [reflexivity|]. split; [reflexivity | apply update_success].
Qed.
Print Assumptions C12_refresh_survives_failures.

(* the pool's reference count: what keeps the refresh loop running.
   discover stops only when the pool's context is cancelled (C12_refresh_stops_only_when_closed);
   the context is cancelled by the unref that brings p.refc to 0.  Over every history of
   grabPool (found under the read lock / found by the re-check under the write lock / created),
   RoundTrip returns and CloseIdleConnections: the count covers the RoundTrips in progress plus
   the registry, so the context is not cancelled while the pool is registered or in use. *)
Theorem C12_pool_refs_cover_users : forall ls s,
  rp_run rpool_init ls = Some s ->
  rp_users s + (if rp_registered s then 1 else 0) <= rp_refs s \/ rp_created s = false.
Proof.
  intros ls s H. destruct (rp_run_inv ls s H) as [_ I1].
  destruct (rp_created s); [left | right; reflexivity]. destruct (I1 eq_refl) as [A _]. lia.
Qed.
Print Assumptions C12_pool_refs_cover_users.

Theorem C12_pool_alive_while_registered_or_used : forall ls s,
  rp_run rpool_init ls = Some s ->
  (rp_registered s = true \/ 0 < rp_users s) -> rp_cancelled s = false.
Proof.
  intros ls s H Hu. destruct (rp_run_inv ls s H) as [I0 I1].
  destruct (rp_created s); [|exact (proj2 (proj2 (I0 eq_refl)))].
  destruct (I1 eq_refl) as [A [B C]]. rewrite C.
  destruct Hu as [Hu|Hu]; [rewrite Hu in A | destruct (rp_registered s)]; lia.
Qed.
Print Assumptions C12_pool_alive_while_registered_or_used.

(* update deletes, then adds: a broker that keeps its id but is re-registered at a new address
   (or rack) is in both sets, and the id ends up mapped to the NEW connection group.  The order
   matters: adding first and deleting afterwards leaves the id without a group. *)
Theorem C12_update_moved_broker : forall p m id b_new,
  conns_ok p ->
  mget Z.eqb (c_brokers (make_layout (normalize m))) id = Some b_new ->
  mget Z.eqb (ps_conns (update p (Some m) None)) id = Some b_new.
Proof.
  intros p m id b_new H Hn. rewrite (proj2 (update_conns_ok p (Some m) None H)).
  destruct (update_success p m) as [_ [_ [-> _]]]. assumption.
Qed.
Print Assumptions C12_update_moved_broker.

Theorem C12_update_order_matters : forall (conns : list (Z * broker)) id b,
  mget Z.eqb (mset Z.eqb (mdel Z.eqb conns id) id b) id = Some b
  /\ mget Z.eqb (mdel Z.eqb (mset Z.eqb conns id b) id) id = None.
Proof. intros. split; [apply mget_mset_same | apply mget_mdel_same]. Qed.
Print Assumptions C12_update_order_matters.

(* T13: the three grabPool steps of the model do take their reference in /repo's CURRENT source:
   every return statement of Transport.grabPool is preceded by p.ref() or constructs the pool
   (call facts of harness/cmd/vskel, regenerated on every run; Model/RoutingSkeleton.v) *)
Theorem C12_pool_reference_skeleton :
  KV.Model.RoutingSkeleton.pool_reference_assumption_holds KV.Gen.Skeleton.calls = true.
Proof. exact KV.Proofs.SkeletonRouting.pool_reference_skeleton_ok. Qed.
Print Assumptions C12_pool_reference_skeleton.

(* eight goroutines make the first use together (one creates, seven lose the race and find the
   pool by the re-check), all return: the pool is still registered and alive *)
Example C12_first_use_example :
  option_map (fun s => (rp_refs s, rp_users s, rp_registered s, rp_cancelled s))
             (rp_run rpool_init (RGrab GCreate :: repeat (RGrab GRecheck) 7 ++ repeat RDone 8))
  = Some (1, 0, true, false).
Proof. vm_compute. reflexivity. Qed.

Theorem C12_create_topics_forces_refresh : forall tr,
  forces_refresh (QOne (RController K_CreateTopics)) (RTSend [Sent tr]) = true.
Proof. reflexivity. Qed.
Print Assumptions C12_create_topics_forces_refresh.

Definition ex_md : metadata :=
  {| md_controller := 2;
     md_brokers := [ {| mb_id := 2; mb_addr := 3 |}; {| mb_id := 0; mb_addr := 1 |}; {| mb_id := 1; mb_addr := 2 |} ];
     md_topics := [ {| mt_name := [117%N]; mt_err := 0; mt_internal := false;
                       mt_parts := [ {| mp_idx := 1; mp_err := 0; mp_leader := 2; mp_replicas := [2; 0]; mp_isr := [2]; mp_offline := [] |};
                                     {| mp_idx := 0; mp_err := 0; mp_leader := 1; mp_replicas := [1; 0]; mp_isr := [1]; mp_offline := [] |} ] |};
                    {| mt_name := [116%N]; mt_err := 0; mt_internal := false;
                       mt_parts := [ {| mp_idx := 0; mp_err := 0; mp_leader := 1; mp_replicas := [1; 0]; mp_isr := [1]; mp_offline := [] |} ] |} ] |}.

Example C12_route_example :
  let c := make_layout (normalize ex_md) in
  route_leader c [([116%N], [0]); ([117%N], [0])] = Ok {| b_id := 1; b_addr := 2 |}
  /\ route_leader c [([116%N], [0]); ([117%N], [0; 1])] = Err (EMismatch 2 1)
  /\ route_leader c [([118%N], [0])] = Err (ENoTopic [118%N])
  /\ route_leader c [([116%N], [7])] = Err (ENoPartition [116%N] 7)
  /\ route_controller c = Ok {| b_id := 2; b_addr := 3 |}.
Proof. vm_compute. repeat split; reflexivity. Qed.

Example C12_select_example :
  select_version 0 11 4 13 = 11 /\ select_version 0 11 0 7 = 7 /\ select_version 1 5 0 0 = 1
  /\ select_version 0 2 3 4 = 2 /\ select_version 3 8 3 3 = 3.
Proof. vm_compute. repeat split; reflexivity. Qed.

Example C12_filter_example :
  NoDup (map mt_name (md_topics ex_md))
  /\ map mt_name (md_topics (filter_metadata (Some [[117%N]; [120%N]; [116%N]]) (normalize ex_md)))
     = [[117%N]; [120%N]; [116%N]]
  /\ map mt_err (md_topics (filter_metadata (Some [[117%N]; [120%N]; [116%N]]) (normalize ex_md))) = [0; 3; 0].
Proof.
  split; [repeat constructor; cbn; intuition discriminate|]. vm_compute. split; reflexivity.
Qed.

Example C12_follows_example :
  let ls := [LRefresh (Some refute_md) None; LRefresh None (Some 7%N); LRefresh (Some ex_md) None;
             LRefresh None (Some 8%N); LRequest (QOne (RProduce [([116%N], [0])])) (fun _ _ => None)] in
  snd (pool_run pool_init ls) = [RTSend [Sent [WReq (TBroker 1) K_Produce]]].
Proof. vm_compute. reflexivity. Qed.

(* list-offsets for a leaderless partition or an unknown topic is rejected, for a led partition
   it goes to the leader; a coordinator's answer is followed, its error code rejects the request *)
Example C12_regression_example :
  let c := make_layout (normalize refute_md) in
  let nocoord : coord_fn := fun _ _ => None in
  send_request c (c_brokers c) (RListOffsets [([116%N], [0])]) nocoord = Rejected [] (RejRoute (ENoLeader [116%N] 0))
  /\ send_request c (c_brokers c) (RListOffsets [([120%N], [0])]) nocoord = Rejected [] (RejRoute (ENoTopic [120%N]))
  /\ send_request c (c_brokers c) (RListOffsets [([116%N], [1])]) nocoord = Sent [WReq (TBroker 1) K_ListOffsets]
  /\ send_request c (c_brokers c) (keyed_request 12 [103%N]) (fun _ _ => Some {| fc_err := 0; fc_node := 1 |})
     = Sent [WFind 0 [103%N]; WReq (TBroker 1) 12]
  /\ send_request c (c_brokers c) (keyed_request 12 [103%N]) (fun _ _ => Some {| fc_err := 15; fc_node := -1 |})
     = Rejected [WFind 0 [103%N]] (RejCoordinatorError 15).
Proof. vm_compute. repeat split; reflexivity. Qed.

(* three timed-out refreshes and an i/o error, then the brokers answer: the loop is still running
   and the new layout is in force *)
Example C12_refresh_recovery_example :
  let s0 := {| d_phase := DWaiting; d_pool := update pool_init (Some refute_md) None; d_ctx_err := None |} in
  let ls := refresh_turn false (FFailed E_deadline) ++ refresh_turn false (FFailed E_deadline)
            ++ refresh_turn true (FFailed E_deadline) ++ refresh_turn false (FFailed 9%N)
            ++ refresh_turn false (FAnswered ex_md) in
  option_map (fun s => (d_phase s, ps_layout (d_pool s))) (discover_run s0 ls)
  = Some (DWaiting, make_layout (normalize ex_md)).
Proof. vm_compute. reflexivity. Qed.
