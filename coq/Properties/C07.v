(* Properties/C07.v — Writer preserves per-partition submission order, also across retries.
   Only statements; every proof is a lemma of Proofs/ or an instance of one (the two order
   theorems are attempt_order / attempt_internal_order of Proofs/WriterC07.v, stated there for
   produce requests instead of the log).  Model: Model/Writer.v; a run is
   [run (step cfg) init ls = Some s] for an arbitrary label sequence (every schedule, timer
   firing and sequence of produce failures / lost acknowledgements).

   [submitted_before cfg s g tp m1 m2]: goroutine g submitted m1 before m2 for partition tp —
   at an earlier position of one WriteMessages call or in an earlier call (sync or Async).
   The model's Call step requires g's previous call to have returned: successive calls.

   (batchMessages re-checks w.closed under w.mutex, so no partition writer
   is created after Close and a partition is served by one partition writer in every run.) *)
From Coq Require Import List NArith Bool Arith.
From KV Require Import Lib.LTS Model.Writer Proofs.WriterStmts Proofs.WriterC07 Proofs.WriterHolds7 Proofs.WriterInFlight Proofs.WriterHolds.
Import ListNotations.

(* Every copy of an earlier batch precedes every copy of a later one: if no produce request
   carries both m1 and m2 (they are in different batches) then every position of m1 in the
   partition log is before every position of m2.  (Messages of the SAME batch are re-sent
   together on a retry, so their copies interleave as blocks; their relative order inside
   each block is C07_batch_internal_order.) *)
Theorem C07_order :
  forall cfg ls s, cfg_ok cfg -> run (step cfg) init ls = Some s ->
  forall g tp m1 m2, submitted_before cfg s g tp m1 m2 ->
    (forall a, In a (s_journal s) -> ~ (In m1 (a_msgs a) /\ In m2 (a_msgs a))) ->
    forall i j, nth_error (log_of s tp) i = Some m1 -> nth_error (log_of s tp) j = Some m2 -> i < j.
Proof.
  intros cfg ls s _ Hr g tp m1 m2 Hsub Hno i j Hi Hj. rewrite (log_of_amsgs _ _ _ _ Hr) in Hi, Hj.
  eapply flat_map_order; eauto. intros p p' a b Hp Hp' Ha Hb.
  apply amsgs_in in Ha, Hb. destruct Ha as [Ta Ha], Hb as [Tb Hb].
  eapply (attempt_order cfg ls s g m1 m2); eauto using sub_before_of, nth_error_In. congruence.
Qed.
Print Assumptions C07_order.

(* The order inside a produce request is the submission order. *)
Theorem C07_batch_internal_order :
  forall cfg ls s, run (step cfg) init ls = Some s ->
  forall g tp m1 m2 a, submitted_before cfg s g tp m1 m2 -> In a (s_journal s) ->
    forall i j, nth_error (a_msgs a) i = Some m1 -> nth_error (a_msgs a) j = Some m2 -> i < j.
Proof.
  intros cfg ls s Hr g tp m1 m2 a Hsub Ha i j.
  exact (attempt_internal_order cfg ls s g m1 m2 a i j Hr (sub_before_of _ _ _ _ _ _ Hsub) Ha).
Qed.
Print Assumptions C07_batch_internal_order.

(* All attempts of batch k of a partition writer precede all attempts of batch k+1 in the
   broker's journal; the attempts of one batch carry identical records to the same partition;
   and a topic-partition is served by one partition writer. *)
Theorem C07_retries_contiguous :
  forall cfg ls s, run (step cfg) init ls = Some s ->
  forall i j a b, nth_error (s_journal s) i = Some a -> nth_error (s_journal s) j = Some b ->
    (a_pw a = a_pw b -> a_k a < a_k b -> i < j) /\
    (a_pw a = a_pw b -> a_k a = a_k b -> a_msgs a = a_msgs b /\ a_tp a = a_tp b) /\
    (a_tp a = a_tp b -> a_pw a = a_pw b).
Proof. exact C07_retries_contiguous_proof. Qed.
Print Assumptions C07_retries_contiguous.

(* batchMessages, under w.mutex, observes w.closed on EVERY call and in EVERY state — also on a
   Writer that has already written (w.writers non-nil but emptied by Close): a call admitted
   before Close that reaches batchMessages after it fails with ErrClosedPipe and registers no
   second partition writer (which would send concurrently with the first one still draining).
   (On the implementation: the close-race-used family — the fake holds the metadata lookup of
   a late call on a used Writer until Close has started.) *)
Theorem C07_late_assign_always_rejected : forall cfg s c cl,
  closed s = true -> nth_error (s_calls s) c = Some cl -> c_ph cl = CEntered ->
  step cfg s (Assign c) = Some (ret_call s c cl (RErr EClosed)).
Proof. exact late_assign_always_rejected. Qed.
Print Assumptions C07_late_assign_always_rejected.

(* One produce round trip per partition in flight: the sender goroutine starts attempt k+1 of a
   batch only after the round trip of attempt k has RETURNED (an attempt and its answer are one
   step of the transition system; Writer.produce calls Client.Produce synchronously — no
   goroutine, no select on ctx.Done()): the attempts started for the batch being sent are exactly
   its journalled round trips, and no batch still queued or open has any.  So an attempt can never
   land after a later attempt or a later batch.  (On the implementation: the late-landing family —
   a RoundTripper that ignores context expiry and holds one produce — and the fake's check that
   no two produce round trips of a partition overlap.) *)
Theorem C07_one_round_trip_in_flight :
  forall cfg ls s, run (step cfg) init ls = Some s ->
  forall p pw, nth_error (s_pws s) p = Some pw ->
    (forall sd, pw_snd pw = Some sd ->
       length (filter (fun a => Nat.eqb (a_pw a) p && Nat.eqb (a_k a) (b_k (sd_batch sd))) (s_journal s)) = sd_att sd) /\
    (forall b, In b (pw_queue pw ++ opt_list (pw_curr pw)) ->
       filter (fun a => Nat.eqb (a_pw a) p && Nat.eqb (a_k a) (b_k b)) (s_journal s) = []).
Proof. exact C07_one_round_trip_in_flight_proof. Qed.
Print Assumptions C07_one_round_trip_in_flight.

(* The extracted boolean predicate that the correspondence run evaluates on every recorded
   real history (per goroutine and partition: the applied produce requests, projected on the
   goroutine's submission ranks, are increasing blocks, each a copy of the previous one or
   entirely after it) is true on every run of the model. *)
Theorem C07_holds_for_on_runs :
  forall cfg ls s g tp, run (step cfg) init ls = Some s ->
    C07_holds_for cfg (s_calls s) (s_journal s) g tp = true.
Proof. exact C07_holds_for_runs. Qed.
Print Assumptions C07_holds_for_on_runs.

(* ---- non-vacuity: BatchSize 1, MaxAttempts 3; goroutine 1 submits m1, m2 (two batches) in one
   call; batch 0 loses its acknowledgement (applied, error 7 retriable) and is retried while
   batch 1 is already queued: the log is [m1; m1; m2]. *)
Definition ex_cfg : config := mkCfg 1 100 3 false (Some 0%N) (fun e => N.eqb e 7).
Definition ex_m (id : N) : msg := mkMsg id None 30 0.
Definition ex_run : list label :=
  [Call 1 [ex_m 1; ex_m 2] None; Assign 0; Get 0; Attempt 0 (AppliedLost 7%N); BackoffDone 0;
   Attempt 0 AppliedAcked; Finish 0; Get 0; Attempt 0 AppliedAcked; Finish 0].
Example C07_nonvacuous :
  exists s, run (step ex_cfg) init ex_run = Some s /\
            submitted_before ex_cfg s 1 (0%N, 0%N) (ex_m 1) (ex_m 2) /\
            map m_id (log_of s (0%N, 0%N)) = [1%N; 1%N; 2%N].
Proof.
  eexists. split; [vm_compute; reflexivity|]. split; [|vm_compute; reflexivity].
  exists [], [], []. vm_compute. reflexivity.
Qed.

(* a call that reaches batchMessages after Close (defect F3 if unchecked): Async, call 0 = [m1] is
   batched; call 1 = [m2] passes enter(); Close; call 1's batchMessages fails with
   ErrClosedPipe and m2 is never sent. *)
Definition ex_cfg2 : config := mkCfg 1 100 1 true (Some 0%N) (fun _ => false).
Definition ex_run2 : list label :=
  [Call 1 [ex_m 1] None; Assign 0; Return 0; Call 1 [ex_m 2] None; CloseMark; Assign 1;
   Get 0; Attempt 0 AppliedAcked; Finish 0; Timer 0 0; SenderExit 0; CloseWaitDone].
Example C07_late_call_rejected :
  exists s, run (step ex_cfg2) init ex_run2 = Some s /\
            map c_ph (s_calls s) = [CReturned RNil; CReturned (RErr EClosed)] /\
            map m_id (log_of s (0%N, 0%N)) = [1%N] /\ s_close s = ClReturned.
Proof.
  eexists. split; [vm_compute; reflexivity|]. split; [vm_compute; reflexivity|].
  split; vm_compute; reflexivity.
Qed.

(* ---- the synchronisation skeleton the Writer model assumes (which Go critical section each
   label of Model/Writer.v stands for: Model/SkeletonAssumptions.v, writer_assumptions) holds
   of /repo's CURRENT source: facts regenerated by harness/cmd/vskel on every run. *)
From KV Require Model.SkeletonAssumptions Gen.Skeleton Proofs.SkeletonWriter.
Theorem C07_skeleton_assumptions :
  KV.Model.SkeletonAssumptions.writer_assumptions_hold KV.Gen.Skeleton.calls KV.Gen.Skeleton.accesses = true.
Proof. exact KV.Proofs.SkeletonWriter.writer_skeleton_ok. Qed.
Print Assumptions C07_skeleton_assumptions.
