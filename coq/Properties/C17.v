(* Properties/C17.v — a response cut off at any byte yields an error (Transport half:
   protocol.ReadResponse; the Conn half is in Properties/C17conn.v).
   Statements; each proof is a lemma of Proofs/ or a few steps from one. *)
From Coq Require Import List NArith ZArith Bool Lia.
From KV Require Import Lib.Bits Lib.Bytes Lib.Varint Model.Schema Gen.Schemas
  Proofs.SchemaBase Proofs.SchemaDefs Proofs.SchemaPrims Proofs.SchemaTotal Proofs.SchemaAlloc Proofs.SchemaGen Proofs.SchemaC20.
Import ListNotations.

(* whatever bytes arrived: if fewer than the frame announces (4 + declared size), ReadResponse
   does not return a message — hence no fabricated or partially filled data — and does not
   panic or spin; in particular for every strict prefix of every well-formed frame *)
Theorem C17_transport_cut : forall c flex t input,
  schema_ok flex t = true -> bytes_ok input -> (4 <= length input)%nat ->
  (Z.of_nat (length input) < 4 + get_bes 4 (firstn 4 input))%Z ->
  match read_response c flex t input with
  | Ok _ _ => False | Panic => False | OutOfFuel => False
  | Err _ _ _ => True | Oom => True
  end.
Proof. intros c flex t input Hok Hb _. apply cut_never_ok; assumption. Qed.
Print Assumptions C17_transport_cut.

(* a cut inside the 4-byte size prefix *)
Theorem C17_transport_cut_in_size : forall c flex t input,
  schema_ok flex t = true -> bytes_ok input -> (length input < 4)%nat ->
  exists e ra al, read_response c flex t input = Err e ra al.
Proof.
  intros c flex t input Hok Hb Hl. rewrite read_response_eq.
  destruct (Z.ltb_spec (Z.of_nat (length input)) 4); [eauto|lia].
Qed.
Print Assumptions C17_transport_cut_in_size.

(* for every registered message type *)
Theorem C17_every_registered_type : forall c m input,
  In m schemas -> bytes_ok input ->
  match read_response c m.(ms_flex) m.(ms_ty) input with
  | Panic => False | OutOfFuel => False | _ => True
  end.
Proof. exact every_registered_type_total. Qed.
Print Assumptions C17_every_registered_type.

(* with the memory outcome excluded: for a registered type, as soon as the budget covers what the
   DECLARED frame size allows (2 * 217 * size bytes: C20's bound), a cut response is an error —
   in particular every strict prefix of a well-formed frame *)
Theorem C17_transport_cut_is_error : forall c m input,
  In m schemas -> bytes_ok input -> (4 <= length input)%nat ->
  (Z.of_nat (length input) < 4 + get_bes 4 (firstn 4 input))%Z ->
  (2 * KMAX * Z.max 0 (get_bes 4 (firstn 4 input)) <= Z.of_N (budget c))%Z ->
  exists e ra al, read_response c m.(ms_flex) m.(ms_ty) input = Err e ra al.
Proof.
  intros c m input Hin Hb Hl Hcut Hbud.
  pose proof (cut_never_ok c (ms_flex m) (ms_ty m) input (registered_schema_ok m Hin) Hb Hcut) as H1.
  pose proof (every_registered_type_alloc c m input Hin Hb) as H2. cbv zeta in H2.
  destruct (read_response c (ms_flex m) (ms_ty m) input) as [v s'|e ra al| | |]; try contradiction.
  - exists e, ra, al. reflexivity.
  - exfalso. lia.
Qed.
Print Assumptions C17_transport_cut_is_error.

Example C17_example :
  (* metadata-like response cut after 9 of its 16 bytes *)
  read_response {| budget := 1000 |} false (TStruct [TInt 4; TString false] [])
    [0; 0; 0; 12; 0; 0; 0; 7; 0]%N = Err EEof 7 0.
Proof. vm_compute. reflexivity. Qed.

(* ---- Conn half: the theorems live in Properties/C17conn.v (over Model/ConnOps.v) and are part
        of this property's proof cone; the central one is restated here ---- *)
From KV Require Model.Legacy Model.ConnOps Proofs.ConnOpsProofs Properties.C17conn.

Theorem C17_conn_cut_every_operation : forall st a v off w k,
  ConnOps.negotiated a v = true -> ConnOps.well_formed a v w ->
  ConnOpsProofs.fits (Legacy.enc (ConnOps.resp_ty a v) w) -> ConnOps.closed st = false ->
  (k < length (ConnOps.frame (wrap32 (ConnOps.corr st + 1)) (Legacy.enc (ConnOps.resp_ty a v) w)))%nat ->
  exists e st2 s2,
    ConnOps.conn_do st (ConnOps.mkOp a v off)
      (firstn k (ConnOps.frame (wrap32 (ConnOps.corr st + 1)) (Legacy.enc (ConnOps.resp_ty a v) w)))
      = (st2, ConnOps.RErr e, s2) /\ ConnOps.is_kafka e = false /\ ConnOps.closed st2 = true.
Proof. exact C17conn.C17_conn_cut. Qed.
Print Assumptions C17_conn_cut_every_operation.
