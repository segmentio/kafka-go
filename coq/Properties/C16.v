(* Properties/C16.v — Compression codecs are lossless, interoperable and history-independent:
   the part that is kafka-go's own logic (xerial snappy framing, Reset/pool discipline).
   Statements with short proofs: applications of the lemmas of Proofs/Xerial*Proofs.v, and for
   the snappy block decoder two direct case analyses of Spec/SnappyBlock.v.

   The snappy block codec is a parameter [enc]/[dec]/[declen] (snappy.Encode / Decode /
   DecodedLen) constrained by five laws, hypotheses of every theorem below that mentions it:
     dec (enc b) = Some b;  declen agrees with dec;  enc b <> [];
     enc b does not look like the xerial magic when it sits in the zeroed 16-byte header;
     |enc b| < 2^32 for |b| <= 2^31 (snappy.MaxEncodedLen n = 32 + n + n/6).
   [toy_enc]/[toy_dec] (Proofs/XerialProofs.v) satisfy them (non-vacuity, end of file). *)
From Coq Require Import List NArith Bool.
From KV Require Import Lib.Bits Model.Xerial Model.CodecPool Spec.Xerial Spec.SnappyBlock
  Proofs.XerialProofs Proofs.XerialPoolProofs Proofs.XerialSnappyProofs.
Import ListNotations.
Local Open Scope N_scope.

(* C16_xerial_roundtrip, framed.  The operations on the writer are any mix [ops] of
   Write(b) and ReadFrom(r) — r any source that ends with io.EOF: arbitrary chopping of its
   Reads, (0, nil) Reads, the last bytes returned together with io.EOF or not ([op_good]) —
   the payload is the concatenation of the bytes offered ([ops_payload]).
   For every pooled writer object [pw] (None = the pool was empty) whose input-buffer capacity
   is at most 2^31, every pooled reader object [pr] and every sequence [ks] of Read buffer sizes:
   all calls and Close succeed and report the full byte counts ([ops_results]); the bytes
   emitted are magic ++ versions ++ concat (len4 (enc block_i) ++ enc block_i) for non-empty
   blocks with concat block_i = payload (nothing at all for an empty payload) — so they depend
   on the mix only through the payload and where blocks are cut; that is what the reference
   encoder of Spec/Xerial.v produces for these blocks and its decoder returns the payload; the
   Reads on that stream are exactly those of a block-buffered reader (ref_reads): what they
   deliver is a prefix of the payload and, with buffers of length >= 1 and more Reads than
   bytes, all of it followed by io.EOF ([delivered]); after ANY number of successful Reads,
   WriteTo delivers exactly the rest and returns nil ([copy_delivers]); the writer goes back
   to the pool with input[:0] and nbytes = 0. *)
Theorem C16_xerial_roundtrip :
  forall (enc : list N -> list N) (dec : list N -> option (list N)) (declen : list N -> option N),
  (forall b, dec (enc b) = Some b) ->
  (forall c b, dec c = Some b -> declen c = Some (len_N b)) ->
  (forall b, enc b <> []) ->
  (forall b, is_xerial_header (take_N 16 (enc b) ++ drop_N (len_N (take_N 16 (enc b))) zeros16) = false) ->
  (forall b, len_N b <= M31 -> len_N (enc b) < M32) ->
  forall (pw : option xwriter) (pr : option xreader) (ops : list wop) (ks : list N),
  Forall op_good ops -> eff_cap (pooled_cap pw) <= M31 ->
  exists blocks released,
    xw_stream enc pw true None ops
    = (released, stream_of (map enc blocks), ops_results ops, true) /\
    concat blocks = ops_payload ops /\ Forall (fun b => b <> []) blocks /\
    (ops_payload ops <> [] ->
       stream_of (map enc blocks) = ref_encode enc blocks /\
       ref_decode dec (stream_of (map enc blocks)) = Some (ops_payload ops)) /\
    (ops_payload ops = [] -> stream_of (map enc blocks) = []) /\
    snd (xr_reads dec declen (xr_open pr (stream_of (map enc blocks))) ks)
    = map of_ref (ref_reads [] blocks ks) /\
    delivered blocks (ops_payload ops) ks /\
    copy_delivers dec declen (xr_open pr (stream_of (map enc blocks))) (ops_payload ops) ks /\
    w_input released = [] /\ w_nbytes released = 0.
Proof. exact roundtrip_framed_ops. Qed.
Print Assumptions C16_xerial_roundtrip.

(* the same without framing: any capacity; the stream is the single block enc payload *)
Theorem C16_xerial_roundtrip_unframed :
  forall (enc : list N -> list N) (dec : list N -> option (list N)) (declen : list N -> option N),
  (forall b, dec (enc b) = Some b) ->
  (forall c b, dec c = Some b -> declen c = Some (len_N b)) ->
  (forall b, enc b <> []) ->
  (forall b, is_xerial_header (take_N 16 (enc b) ++ drop_N (len_N (take_N 16 (enc b))) zeros16) = false) ->
  (forall b, len_N b <= M31 -> len_N (enc b) < M32) ->
  forall (pw : option xwriter) (pr : option xreader) (ops : list wop) (ks : list N),
  Forall op_good ops ->
  exists released,
    xw_stream enc pw false None ops
    = (released, match ops_payload ops with [] => [] | _ :: _ => enc (ops_payload ops) end,
       ops_results ops, true) /\
    snd (xr_reads dec declen
           (xr_open pr (match ops_payload ops with [] => [] | _ :: _ => enc (ops_payload ops) end)) ks)
    = map of_ref (ref_reads [] [ops_payload ops] ks) /\
    delivered [ops_payload ops] (ops_payload ops) ks /\
    copy_delivers dec declen
      (xr_open pr (match ops_payload ops with [] => [] | _ :: _ => enc (ops_payload ops) end))
      (ops_payload ops) ks /\
    w_input released = [] /\ w_nbytes released = 0.
Proof. exact roundtrip_unframed_ops. Qed.
Print Assumptions C16_xerial_roundtrip_unframed.

(* what [copy_delivers] says, spelled out (it is a definition of Proofs/XerialProofs.v) *)
Theorem C16_copy_delivers_meaning : forall dec declen x payload ks,
  copy_delivers dec declen x payload ks <->
  (forall x' rs, xr_reads dec declen x ks = (x', rs) -> forallb is_rdata rs = true ->
   exists x'' rest, xr_write_to dec declen x' = (x'', rest, Some None) /\ rdata rs ++ rest = payload).
Proof. exact (fun dec declen x payload ks => conj (fun H => H) (fun H => H)). Qed.
Print Assumptions C16_copy_delivers_meaning.

(* Reads then WriteTo on raw blocks and on reference streams *)
Theorem C16_unframed_copy :
  forall (enc : list N -> list N) (dec : list N -> option (list N)) (declen : list N -> option N),
  (forall b, dec (enc b) = Some b) ->
  (forall c b, dec c = Some b -> declen c = Some (len_N b)) ->
  (forall b, enc b <> []) ->
  (forall b, is_xerial_header (take_N 16 (enc b) ++ drop_N (len_N (take_N 16 (enc b))) zeros16) = false) ->
  (forall b, len_N b <= M31 -> len_N (enc b) < M32) ->
  forall (pr : option xreader) (b : list N) (ks : list N),
  copy_delivers dec declen (xr_open pr (enc b)) b ks.
Proof.
  intros enc dec declen H1 H2 H3 H4 _ pr b ks.
  exact (copy_delivers_inv enc dec declen H1 H2 H3 H4 _ [b] b ks (open_inv_raw enc pr b) (app_nil_r b)).
Qed.
Print Assumptions C16_unframed_copy.

Theorem C16_reference_streams_copy :
  forall (enc : list N -> list N) (dec : list N -> option (list N)) (declen : list N -> option N),
  (forall b, dec (enc b) = Some b) ->
  (forall c b, dec c = Some b -> declen c = Some (len_N b)) ->
  (forall b, enc b <> []) ->
  (forall b, is_xerial_header (take_N 16 (enc b) ++ drop_N (len_N (take_N 16 (enc b))) zeros16) = false) ->
  (forall b, len_N b <= M31 -> len_N (enc b) < M32) ->
  forall (pr : option xreader) (blocks : list (list N)) (ks : list N),
  Forall (fun b => len_N (enc b) < M32) blocks ->
  copy_delivers dec declen (xr_open pr (ref_encode enc blocks)) (concat blocks) ks.
Proof.
  intros enc dec declen H1 H2 H3 H4 _ pr blocks ks Hf.
  exact (copy_delivers_inv enc dec declen H1 H2 H3 H4 _ blocks _ ks (open_inv_reference enc pr blocks Hf) eq_refl).
Qed.
Print Assumptions C16_reference_streams_copy.

(* the reference decoder of the snappy BLOCK format (Spec/SnappyBlock.v), the oracle the
   interoperability clause is checked against in the differential run; what it accepts has the
   announced length; its element loop, started on the empty output as snappy_block_decode starts
   it, rejects a first element that is a copy — in particular S2's "repeat" *)
Theorem C16_snappy_strict_length : forall c b,
  snappy_block_decode c = Some b ->
  snappy_block_decoded_len c = Some (sb_length b) /\ sb_length b < 4294967296.
Proof.
  intros c b. unfold snappy_block_decode, snappy_block_decoded_len.
  destruct (sb_uvarint 10 c 0 0) as [[dlen rest]|]; [|discriminate].
  destruct (N.leb_spec 4294967296 dlen) as [H|H]; [discriminate|].
  destruct (sb_elements (length rest) rest [] 0 dlen) as [out|]; [|discriminate].
  destruct (N.eqb_spec (sb_length out) dlen) as [E|E]; [|discriminate].
  intros H0. injection H0 as <-. rewrite E. split; [reflexivity|exact H].
Qed.
Print Assumptions C16_snappy_strict_length.

Theorem C16_snappy_copy_first_rejected : forall dlen tag rest fuel,
  tag mod 4 <> 0 -> sb_elements fuel (tag :: rest) [] 0 dlen = None.
Proof.
  intros dlen tag rest fuel Hk. destruct fuel as [|fuel]; [reflexivity|]. cbn [sb_elements].
  replace (tag mod 4 =? 0) with false by (symmetry; apply N.eqb_neq; exact Hk).
  destruct (tag mod 4 =? 1).
  - destruct rest as [|b rest']; [reflexivity|]. cbv beta iota zeta.
    rewrite zero_or_beyond. reflexivity.
  - destruct (sb_le (if tag mod 4 =? 2 then 2%nat else 4%nat) rest) as [[off rest']|]; [|reflexivity].
    cbv beta iota zeta. rewrite zero_or_beyond. reflexivity.
Qed.
Print Assumptions C16_snappy_copy_first_rejected.

(* C16_unframed_readable: a raw block is read back as its content ... *)
Theorem C16_unframed_readable :
  forall (enc : list N -> list N) (dec : list N -> option (list N)) (declen : list N -> option N),
  (forall b, dec (enc b) = Some b) ->
  (forall c b, dec c = Some b -> declen c = Some (len_N b)) ->
  (forall b, enc b <> []) ->
  (forall b, is_xerial_header (take_N 16 (enc b) ++ drop_N (len_N (take_N 16 (enc b))) zeros16) = false) ->
  (forall b, len_N b <= M31 -> len_N (enc b) < M32) ->
  forall (pr : option xreader) (b : list N) (ks : list N),
  snd (xr_reads dec declen (xr_open pr (enc b)) ks) = map of_ref (ref_reads [] [b] ks).
Proof.
  intros enc dec declen H1 H2 H3 H4 _ pr b ks.
  exact (reads_spec enc dec declen H1 H2 H3 H4 ks _ [] [b] (open_inv_raw enc pr b)).
Qed.
Print Assumptions C16_unframed_readable.

(* ... and a stream of the reference xerial encoder with ANY chunking into blocks (empty
   blocks included) is accepted by the reference decoder and read correctly *)
Theorem C16_reference_streams_readable :
  forall (enc : list N -> list N) (dec : list N -> option (list N)) (declen : list N -> option N),
  (forall b, dec (enc b) = Some b) ->
  (forall c b, dec c = Some b -> declen c = Some (len_N b)) ->
  (forall b, enc b <> []) ->
  (forall b, is_xerial_header (take_N 16 (enc b) ++ drop_N (len_N (take_N 16 (enc b))) zeros16) = false) ->
  (forall b, len_N b <= M31 -> len_N (enc b) < M32) ->
  forall (pr : option xreader) (blocks : list (list N)) (ks : list N),
  Forall (fun b => len_N (enc b) < M32) blocks ->
  ref_decode dec (ref_encode enc blocks) = Some (concat blocks) /\
  snd (xr_reads dec declen (xr_open pr (ref_encode enc blocks)) ks) = map of_ref (ref_reads [] blocks ks) /\
  delivered blocks (concat blocks) ks.
Proof.
  intros enc dec declen H1 H2 H3 H4 _ pr blocks ks Hf.
  exact (conj (ref_decode_encode enc dec blocks H1 Hf)
        (conj (reads_spec enc dec declen H1 H2 H3 H4 ks _ [] blocks (open_inv_reference enc pr blocks Hf))
              (delivered_concat blocks _ ks eq_refl))).
Qed.
Print Assumptions C16_reference_streams_readable.

(* any 8 version bytes after the magic: isXerialHeader compares the magic only, whereas the
   reference decoder of Spec/Xerial.v also refuses a compatible version above its own *)
Theorem C16_reference_streams_any_version :
  forall (enc : list N -> list N) (dec : list N -> option (list N)) (declen : list N -> option N),
  (forall b, dec (enc b) = Some b) ->
  (forall c b, dec c = Some b -> declen c = Some (len_N b)) ->
  (forall b, enc b <> []) ->
  (forall b, is_xerial_header (take_N 16 (enc b) ++ drop_N (len_N (take_N 16 (enc b))) zeros16) = false) ->
  (forall b, len_N b <= M31 -> len_N (enc b) < M32) ->
  forall (pr : option xreader) (ver : list N) (blocks : list (list N)) (ks : list N),
  length ver = 8%nat -> Forall (fun b => len_N (enc b) < M32) blocks ->
  snd (xr_reads dec declen (xr_open pr (xerial_magic ++ ver ++ frames (map enc blocks))) ks)
  = map of_ref (ref_reads [] blocks ks).
Proof.
  intros enc dec declen H1 H2 H3 H4 _ pr ver blocks ks Hv Hf.
  exact (reads_spec enc dec declen H1 H2 H3 H4 ks _ [] blocks (open_inv_any_version enc pr ver blocks Hv Hf)).
Qed.
Print Assumptions C16_reference_streams_any_version.

(* what "the reads of a block-buffered reader" deliver, independently of the code *)
Theorem C16_reads_deliver_prefix : forall ks cur blocks,
  exists n, ref_read_data (ref_reads cur blocks ks) = firstn n (cur ++ concat blocks).
Proof. exact ref_reads_prefix. Qed.
Print Assumptions C16_reads_deliver_prefix.

Theorem C16_reads_deliver_all : forall ks cur blocks,
  Forall (fun k => 0 < k) ks -> (length (cur ++ concat blocks) < length ks)%nat ->
  ref_read_data (ref_reads cur blocks ks) = cur ++ concat blocks /\
  last (ref_reads cur blocks ks) (RefData []) = RefEOF.
Proof. exact ref_reads_complete. Qed.
Print Assumptions C16_reads_deliver_all.

(* C16_reset_forgets.  Reader: Reset of ANY state (e.g. left by a stream that ended in an
   error at any point) is the state of a newly built reader; Close leaves that state in the pool.
   Writer: a use of a pooled writer depends on the previous state only through the capacity of
   its input buffer (results, emitted bytes, released object: all equal), a capacity-0 object
   is a new one — and by C16_xerial_roundtrip the capacity does not change what the stream
   decodes to. *)
Theorem C16_reset_forgets_reader : forall (j1 j2 : xreader) s,
  xr_reset j1 s = xr_new s /\ xr_reset j1 s = xr_reset j2 s /\ xr_close j1 = xr_new [].
Proof. intros. repeat split. Qed.
Print Assumptions C16_reset_forgets_reader.

Theorem C16_reset_forgets_reader_open : forall (j : xreader) s, xr_open (Some j) s = xr_open None s.
Proof. reflexivity. Qed.
Print Assumptions C16_reset_forgets_reader_open.

Theorem C16_reset_forgets_writer : forall enc (j1 j2 : xwriter) framed room ops,
  w_cap j1 = w_cap j2 ->
  xw_stream enc (Some j1) framed room ops = xw_stream enc (Some j2) framed room ops.
Proof. intros enc j1 j2. exact (xw_stream_pooled_cap enc (Some j1) (Some j2)). Qed.
Print Assumptions C16_reset_forgets_writer.

Theorem C16_reset_forgets_writer_fresh : forall enc (j : xwriter) framed room ops,
  w_cap j = 0 -> xw_stream enc (Some j) framed room ops = xw_stream enc None framed room ops.
Proof. intros enc j. exact (xw_stream_pooled_cap enc (Some j) None). Qed.
Print Assumptions C16_reset_forgets_writer_fresh.

(* C16_pool_discipline: on every path of NewReader/NewWriter/Read/Write/Close, for every
   codec side (flags [pkind]) and every choice of sync.Pool, the event trace satisfies the
   monitor: Get only of pooled objects, Use/Finish only of an object Reset (or built) since it
   was acquired, Put only of an acquired object — hence never twice without a Get between *)
Theorem C16_pool_discipline : forall (k : pkind) (acts : list pact),
  disciplined (snd (p_run k p_init acts)) = true.
Proof. exact pool_disciplined. Qed.
Print Assumptions C16_pool_discipline.

Theorem C16_pool_use_after_reset : forall k acts pre o post,
  snd (p_run k p_init acts) = pre ++ EvUse o :: post ->
  exists p1 e p2, pre = p1 ++ e :: p2 /\ (e = EvNew o \/ e = EvReset o)
                  /\ forall e', In e' p2 -> e' <> EvGet o /\ e' <> EvPut o /\ e' <> EvResetFail o.
Proof.
  intros k acts pre o post.
  exact (disciplined_ready_after_reset _ (pool_disciplined k acts) pre _ o post (or_introl eq_refl)).
Qed.
Print Assumptions C16_pool_use_after_reset.

Theorem C16_pool_released_at_most_once : forall k acts pre o mid post,
  snd (p_run k p_init acts) = pre ++ EvPut o :: mid ++ EvPut o :: post -> In (EvGet o) mid.
Proof. intros k acts. exact (disciplined_no_double_put _ (pool_disciplined k acts)). Qed.
Print Assumptions C16_pool_released_at_most_once.

Theorem C16_pool_exclusive : forall k acts w w' o,
  p_wrapper (fst (p_run k p_init acts)) w = Some o ->
  p_wrapper (fst (p_run k p_init acts)) w' = Some o -> w = w'.
Proof. exact pool_exclusive. Qed.
Print Assumptions C16_pool_exclusive.

(* non-vacuity: the laws are satisfiable, and a concrete run *)
Example C16_laws_satisfiable :
  (forall b, toy_dec (toy_enc b) = Some b) /\
  (forall c b, toy_dec c = Some b -> toy_declen c = Some (len_N b)) /\
  (forall b, toy_enc b <> []) /\
  (forall b, is_xerial_header (take_N 16 (toy_enc b) ++ drop_N (len_N (take_N 16 (toy_enc b))) zeros16) = false) /\
  (forall b, len_N b <= M31 -> len_N (toy_enc b) < M32).
Proof. exact (conj toy_dec_enc (conj toy_declen_dec (conj toy_nonempty (conj toy_not_magic toy_len32)))). Qed.

(* a dirty pooled writer of capacity 1030 (blocks are cut once fewer than 1024 bytes are free),
   a Write, a ReadFrom whose source chops its Reads, has a (0, nil) Read and returns its last
   bytes together with io.EOF, another Write; framed: two blocks [1..7] and [8;9]; read back
   with two Reads and then WriteTo *)
Example C16_example_run :
  let pw := Some {| w_input := [9; 9]; w_cap := 1030; w_nbytes := 77; w_framed := false |} in
  let src := {| src_data := [4; 5; 6; 7]; src_steps := [1; 0; 2]; src_eof_with_data := true; src_fails := false |} in
  let '(released, data, rs, ok) := xw_stream toy_enc pw true None [OWrite [1; 2; 3]; OReadFrom src; OWrite [8; 9]] in
  data = xerial_header_bytes ++ [0; 0; 0; 8; 1; 1; 2; 3; 4; 5; 6; 7] ++ [0; 0; 0; 3; 1; 8; 9] /\
  rs = [WOk 3; WOk 4; WOk 2] /\ ok = true /\ released = {| w_input := []; w_cap := 1030; w_nbytes := 0; w_framed := true |} /\
  ref_decode toy_dec data = Some [1; 2; 3; 4; 5; 6; 7; 8; 9] /\
  let dirty := Some {| r_src := [5]; r_header := xerial_header_bytes; r_output := [1; 2]; r_offset := 1; r_nbytes := 40 |} in
  snd (xr_reads toy_dec toy_declen (xr_open dirty data) [4; 1; 100; 100; 100])
  = [RData [1; 2; 3; 4]; RData [5]; RData [6; 7]; RData [8; 9]; RErr EEOF] /\
  let '(x', rs2) := xr_reads toy_dec toy_declen (xr_open dirty data) [4; 1] in
  rs2 = [RData [1; 2; 3; 4]; RData [5]] /\
  let '(_, rest, st) := xr_write_to toy_dec toy_declen x' in rest = [6; 7; 8; 9] /\ st = Some None.
Proof. vm_compute. repeat split. Qed.

(* the strict snappy decoder: "abc" as a literal then a 9-byte copy at offset 3; the same with
   offset 0 (S2's repeat) is not snappy; neither is a cut block *)
Example C16_snappy_examples :
  snappy_block_decode [12; 8; 97; 98; 99; 21; 3] = Some [97; 98; 99; 97; 98; 99; 97; 98; 99; 97; 98; 99] /\
  snappy_block_decode [12; 8; 97; 98; 99; 21; 0] = None /\
  snappy_block_decode [12; 8; 97; 98; 99; 21] = None /\
  snappy_block_decode [12; 8; 97; 98; 99] = None /\
  snappy_block_decode [0] = Some [].
Proof. vm_compute. repeat split. Qed.
