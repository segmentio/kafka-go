(* Properties/C15.v — A consumer group has one live generation at a time and ends it
   promptly.  Statements; each proof is a few lines over the invariants and monitor readings of
   Proofs/ConsumerGroup*.v.

   All theorems quantify over every label sequence [ls] accepted by the atomic-step model of
   /repo/consumergroup.go ([run (init w) ls = Some s]; w = number of partition watchers), i.e.
   over every schedule of the goroutines, every user behaviour (Start, function exit, Next,
   Close) and every history of coordinator answers (success, RebalanceInProgress, other Kafka
   error, dropped connection at each call).  [hist s] is the ghost history, newest first:
   in [hist s = post ++ e :: pre], [pre] is what happened before [e]. *)
From Coq Require Import List ZArith Bool Arith Lia.
From KV Require Import Model.ConsumerGroup Proofs.ConsumerGroupBase Proofs.ConsumerGroupAcc
  Proofs.ConsumerGroupLive Proofs.ConsumerGroupRun Proofs.ConsumerGroupProofs.
Import ListNotations.

(* ---- accounting of Generation.Start / close (the interleaving-sensitive part) ----
   no channel is closed twice; closed = done; routines = number of accounted functions whose
   exit handler has not run; joined is closed exactly when the generation has ended, routines
   is 0 and an accounted function existed; gen.close() only waits when an accounted function
   exists, and while it waits with joined still open some accounted function has yet to run
   its exit handler (no lost wake-up). *)
Theorem C15_accounting : forall w ls s, run (init w) ls = Some s ->
  panicked s = false /\
  (forall k g, nth_error (gens s) k = Some g ->
     g_closed g = g_done g /\ g_routines g = Z.of_nat (count_live k (fns s)) /\
     (g_joined g = true <-> (g_closed g = true /\ g_routines g = 0%Z /\ has_acc k (fns s) = true))) /\
  (forall wy, pc s = PCloseWait wy ->
     exists g, nth_error (gens s) (cur s) = Some g /\ g_closed g = true /\
               has_acc (cur s) (fns s) = true /\
               (g_joined g = false -> 0 < count_live (cur s) (fns s))).
Proof.
  intros w ls s H. apply Inv_run in H.
  split; [exact (inv_pan _ H)|]. split; [exact (proj2 (inv_acct _ H))|]. exact (fun wy => closewait_live s wy H).
Qed.
Print Assumptions C15_accounting.

(* the exit handler of a returned accounted function is always enabled (it only needs the lock) *)
Theorem C15_exit_handler_enabled : forall w ls s, run (init w) ls = Some s ->
  forall k i f, nth_error (fns s) i = Some f -> live_of k f = true -> f_st f = FReturned ->
  exists s', step s (LFnHandler i) = Some s'.
Proof.
  intros w ls s H k i f Hf L Hs. apply Inv_run in H. destruct H as [P [H1 H2] B].
  unfold step. rewrite P, Hf, Hs.
  apply live_acc in L. unfold acc_of in L. apply andb_true_iff in L. destruct L as [_ L]. rewrite L.
  destruct (H1 _ _ Hf) as (g & Eg & _). unfold handler. rewrite Eg.
  destruct (end_gen (f_gen f) g s) as [g1 s1].
  destruct (g_routines g1 - 1 =? 0)%Z; eexists; reflexivity.
Qed.
Print Assumptions C15_exit_handler_enabled.

(* ---- cancel on end: gen.done is closed (every context of the generation is cancelled) in
   the very step in which an accounted function's exit handler runs or gen.close() (Close /
   end of generation) reaches it; if it was still open, HDone is recorded in that step ---- *)
Theorem C15_cancel_on_end : forall w ls s l s',
  run (init w) ls = Some s -> step s l = Some s' ->
  forall k, ends_gen s l = Some k ->
  exists g', nth_error (gens s') k = Some g' /\ g_done g' = true /\ g_closed g' = true /\
    (gen_done s k = false -> exists es, hist s' = es ++ hist s /\ In (HDone k) es).
Proof.
  intros nw ls s l s' R H e E. apply Inv_run in R. destruct R as [P [H1 H2] B].
  apply step_shape in H. rename H into Sh.
  destruct (ends_gen_not_other _ _ _ E) as (Nq & Ns & Nt).
  inv_shape Sh; try congruence; try (subst l; discriminate E); subst l; cbn [ends_gen] in E.
  2: rewrite Hi in E.
  all: inversion E; subst e; clear E; destruct (H2 _ _ Hk) as (A & _).
  all: unfold gen_done; rewrite Hg, Hk, (nth_upd_eq _ _ _ _ _ Hk).
  - apply ext_app in Hh. destruct Hh as (es & Ees & _). exists (closed_gen g).
    repeat split; [apply cg_gdone; exact A|apply cg_closed|exact (done_recorded g _ _ _ es A Ees)].
  - exists (dec_gen (closed_gen g)). cbn [dec_gen g_done g_closed].
    repeat split; [apply cg_gdone; exact A|apply cg_closed|exact (done_recorded g _ _ _ _ A Hh)].
Qed.
Print Assumptions C15_cancel_on_end.

(* a failed heartbeat, a watcher seeing a change / losing the connection / failing its first
   query, and any function return put the function into the state whose only next step is
   that exit handler (accounted) — or it was a late start ... *)
Theorem C15_cancel_on_end_triggers : forall s l s' i, step s l = Some s' -> triggers l = Some i ->
  exists f f', nth_error (fns s) i = Some f /\ f_st f = FRunning /\
    nth_error (fns s') i = Some f' /\
    f_st f' = (if f_acc f then FReturned else FExited) /\ f_gen f' = f_gen f /\ f_acc f' = f_acc f.
Proof.
  intros s l s' j H Ht. apply step_shape in H. rename H into Sh.
  destruct (triggers_not_other s _ _ Ht) as [Nq Ns].
  inv_shape Sh; try congruence; try (subst l; discriminate Ht).
  assert (i = j) by congruence. subst i.
  exists f, (f_set_st (if f_acc f then FReturned else FExited) f).
  rewrite Hf, (nth_upd_eq _ _ _ _ _ Hi). repeat split; assumption.
Qed.
Print Assumptions C15_cancel_on_end_triggers.

(* ... and a late (unaccounted) function only ever exists on a generation that has ended *)
Theorem C15_late_start_only_on_ended_generation : forall w ls s, run (init w) ls = Some s ->
  forall i f, nth_error (fns s) i = Some f -> f_acc f = false -> gen_done s (f_gen f) = true.
Proof.
  intros w ls s R i f Hf Ha. apply Inv_run in R. destruct R as [P [H1 H2] B].
  destruct (H1 _ _ Hf) as (g & Eg & C). unfold gen_done. rewrite Eg.
  destruct (H2 _ _ Eg) as (A & _). rewrite <- A. apply C. left. exact Ha.
Qed.
Print Assumptions C15_late_start_only_on_ended_generation.

(* ---- one live generation: when Next returns generation j, every function whose Start on
   an earlier generation k was accounted has already returned ---- *)
Theorem C15_one_live_generation : forall w ls s, run (init w) ls = Some s ->
  forall post n j pre, hist s = post ++ HNextRet n j :: pre ->
  forall k f, k < j -> In (HStart k f true) (hist s) -> In (HFnRet k f) pre.
Proof. intros w ls s R. apply mon_one_live_spec. eapply one_live_holds; eauto. Qed.
Print Assumptions C15_one_live_generation.

(* ---- heartbeats are sent only by the accounted, not yet returned heartbeat function of a
   created generation, with that generation's member id, and never after a later generation
   was created or handed out or after run exited (one request per tick label; the period
   itself is a clock claim outside the model) ---- *)
Theorem C15_heartbeat_only_while_live : forall w ls s, run (init w) ls = Some s ->
  forall post k f m pre, hist s = post ++ HHeartbeat k f m :: pre ->
    In (HStart k f true) pre /\ ~ In (HFnRet k f) pre /\ In (HGenNew k m) pre /\
    (forall j m', In (HGenNew j m') pre -> j <= k) /\
    (forall n j, In (HNextRet n j) pre -> j <= k) /\
    (forall x m', ~ In (HRunExit x m') pre).
Proof. intros w ls s R. apply mon_heartbeat_spec. eapply heartbeat_holds; eauto. Qed.
Print Assumptions C15_heartbeat_only_while_live.

(* ---- the heartbeat obligation does not depend on the member assignment of the SyncGroup answer
   (empty for a stand-by member, not covering every configured topic, or spanning several topics):
   (1) a label sequence and the same sequence with every assignment erased have the same run, so
   every theorem of this file holds for every assignment; (2) whatever was assigned, once the
   offset fetch succeeded the heartbeat function is started as an ACCOUNTED function of the new
   generation, and (3) as long as it has not returned, a heartbeat tick with any coordinator answer
   is enabled (a RebalanceInProgress answer makes it return, which ends the generation:
   C15_cancel_on_end_triggers, C15_cancel_on_end).  That ticks come at HeartbeatInterval is a clock
   claim outside the model. ---- *)
Theorem C15_heartbeats_independent_of_assignment :
  (forall ls s, run s (map erase_asg ls) = run s ls) /\
  (forall w ls s, run (init w) ls = Some s ->
    (pc s = PStartHB ->
       exists s' f, step s LStartHB = Some s' /\ nth_error (fns s') (length (fns s)) = Some f /\
                    is_hb f = true /\ f_acc f = true /\ f_gen f = cur s /\ f_st f = FRunning) /\
    (forall i f a, nth_error (fns s) i = Some f -> is_hb f = true -> running f = true ->
       exists s', step s (LHbTick i a) = Some s')).
Proof. exact (conj run_erase_asg heartbeat_started_and_enabled). Qed.
Print Assumptions C15_heartbeats_independent_of_assignment.

(* ---- re-join after back-off: between a failure of nextGeneration other than
   RebalanceInProgress and any later coordinator / JoinGroup request there is a Backoff ---- *)
Theorem C15_rejoin_after_backoff : forall w ls s, run (init w) ls = Some s ->
  forall post e pre, hist s = post ++ e :: pre -> (e = HCoordReq \/ exists m, e = HJoinReq m) ->
  forall pre1 c pre2, pre = pre1 ++ HFail c :: pre2 -> c <> ERebalance -> In HBackoff pre1.
Proof. intros w ls s R. apply mon_backoff_spec. eapply backoff_holds; eauto. Qed.
Print Assumptions C15_rejoin_after_backoff.

(* ---- leave on close.  "The current member id" is the memberID variable of
   ConsumerGroup.run: it is set from every successful JoinGroup response, kept across generations,
   across RebalanceInProgress results and across a failed JoinGroup request (joinGroup returns
   the id it was given), and cleared only right after a leave attempt for it
   (C15_member_id_cleared_only_after_leave).  [HRunExit x (Some m)] = run returns while that
   variable holds m.  Whenever run exits holding m, a LeaveGroup for m was attempted (request
   sent: HLeaveReq, or the coordinator could not be reached for it: HLeaveUnreach) since the
   last JoinGroup request; and Close returns only after run exited. ---- *)
Theorem C15_leave_on_close : forall w ls s, run (init w) ls = Some s ->
  (forall post x m pre, hist s = post ++ HRunExit x (Some m) :: pre ->
     exists pre1 e pre2, pre = pre1 ++ e :: pre2 /\ ev_is_leave m e = true /\ forall m', ~ In (HJoinReq m') pre1)
  /\ (forall post c pre, hist s = post ++ HCloseRet c :: pre -> exists x m, In (HRunExit x m) pre).
Proof. intros w ls s R. exact (conj (leave_exit w ls s R) (close_after_exit w ls s R)). Qed.
Print Assumptions C15_leave_on_close.

(* the same read at the Close return: run has exited before it, and if run held m the leave
   attempt for m precedes the Close return *)
Theorem C15_leave_before_close_returns : forall w ls s, run (init w) ls = Some s ->
  forall post c pre, hist s = post ++ HCloseRet c :: pre ->
  exists x om, In (HRunExit x om) pre /\
    (forall m, om = Some m -> exists e, In e pre /\ ev_is_leave m e = true).
Proof.
  intros w ls s R post c pre E.
  destruct (close_after_exit w ls s R post c pre E) as (x & om & I).
  exists x, om. split; [exact I|]. intros m Em. subst om.
  apply in_split in I. destruct I as (p1 & p2 & Ep).
  assert (E2 : hist s = (post ++ HCloseRet c :: p1) ++ HRunExit x (Some m) :: p2).
  { rewrite E, Ep, <- app_assoc. reflexivity. }
  destruct (leave_exit w ls s R _ x m p2 E2) as (q1 & e & q2 & Eq & Le & _).
  exists e. split; [|exact Le]. rewrite Ep, Eq.
  apply in_or_app. right. right. apply in_or_app. right. left. reflexivity.
Qed.
Print Assumptions C15_leave_before_close_returns.

(* a member id is held at exit only on the ErrGroupClosed path and on the exit from the error
   offer after RebalanceInProgress (the former defect F5, fixed in /repo: run now leaves there) *)
Theorem C15_member_id_held_at_exit_only_on : forall w ls s, run (init w) ls = Some s ->
  forall x m, In (HRunExit x (Some m)) (hist s) -> x = XOffer ERebalance \/ x = XClosed.
Proof.
  intros w ls s H x m I.
  pose proof (proj2 (proj2 (proj1 (RunInv_run w ls s H)))) as G.
  rewrite forallb_forall in G. specialize (G _ I).
  destruct x as [|e|]; [right; reflexivity|destruct e; [left; reflexivity|discriminate G|discriminate G]|discriminate G].
Qed.
Print Assumptions C15_member_id_held_at_exit_only_on.

(* run's member id variable goes from holding m to empty only in a step that has just recorded
   a leave attempt for m (before the fix of joinGroup a failed JoinGroup request cleared it
   silently); with C15_leave_on_close: a member id obtained from the coordinator is never
   abandoned without a LeaveGroup attempt, whether at Close or before a back-off *)
Theorem C15_member_id_cleared_only_after_leave : forall s l s' m,
  step s l = Some s' -> mid s = Some m -> mid s' = None -> left_since_join m (hist s') = true.
Proof. exact id_cleared_only_after_leave. Qed.
Print Assumptions C15_member_id_cleared_only_after_leave.

(* regression of the JoinGroup-error witness: generation 0 of member 1 ends (heartbeat answered
   RebalanceInProgress), the re-join with id 1 is lost: LeaveGroup for 1 follows that JoinGroup
   request, before Close returns *)
Theorem C15_joinerr_scenario_leaves : exists s, run (init 0) joinerr_scenario = Some s /\
  mon_leave_full (hist s) = true /\ In (HCloseRet 0) (hist s) /\
  (exists post pre, hist s = post ++ HLeaveReq 1 :: pre /\ In (HJoinReq (Some 1)) pre).
Proof.
  eexists. split; [vm_compute; reflexivity|]. split; [vm_compute; reflexivity|].
  split; [cbn; tauto|].
  exists [HCloseRet 0; HRunExit (XOffer EDropped) None; HCloseCall 0]. eexists. split; [reflexivity|].
  cbn. tauto.
Qed.
Print Assumptions C15_joinerr_scenario_leaves.

(* regression of the former F5 witness: join as member 1, SyncGroup answers RebalanceInProgress,
   nobody calls Next, Close: LeaveGroup for member 1 is sent before Close returns *)
Theorem C15_f5_scenario_leaves : exists s, run (init 0) f5_scenario = Some s /\
  mon_leave_full (hist s) = true /\ In (HLeaveReq 1) (hist s) /\ In (HCloseRet 0) (hist s).
Proof.
  eexists. split; [vm_compute; reflexivity|]. cbn [hist].
  split; [vm_compute; reflexivity|]. split; cbn; tauto.
Qed.
Print Assumptions C15_f5_scenario_leaves.

(* ---- the leader's metadata reads inside the JoinGroup step (assignTopicPartitions): one read for
   all topics; only when it answers UnknownTopicOrPartition and there are >= 2 topics, at most one
   more read per topic; the step fails with class e only if some read answered an error e other
   than UnknownTopicOrPartition.  (The generation theorems do not depend on the number of reads:
   the step is one LJoin label whose leadership outcome is [fst (leader_assign ...)]; the
   differential run compares the number of reads with the real code.) ---- *)
Theorem C15_leader_metadata_reads : forall nt first per ld n, leader_assign nt first per = (ld, n) ->
  1 <= n <= S nt /\ (1 < n -> first = MUnknown /\ 2 <= nt) /\
  (forall e, ld = LeaderFail e -> first = MErr e \/ (first = MUnknown /\ In (MErr e) (firstn nt per))) /\
  ld <> NotLeader.
Proof. exact leader_assign_spec. Qed.
Print Assumptions C15_leader_metadata_reads.

(* ---- the coordinator connection layer under the [coordinator] interface (makeConnect /
   timeoutCoordinator over a real Conn; tied to the code by the wire-level family `conn`).
   The deadline armed before a call is Timeout, except Timeout+RebalanceTimeout for JoinGroup and
   Timeout+SessionTimeout for SyncGroup: in particular an unanswered Heartbeat or LeaveGroup fails
   after Timeout whatever the session timeout is, so "the generation ends when a heartbeat fails"
   takes effect within HeartbeatInterval + Timeout.  (Measured times are clock observations: the
   harness compares the class of the failure time, with margins, not the theorem.) ---- *)
Theorem C15_deadline_of_call : forall t r s c,
  t <= deadline_ms t r s c /\
  (c <> CJoinGroup -> c <> CSyncGroup -> deadline_ms t r s c = t) /\
  deadline_ms t r s CHeartbeat = t /\ deadline_ms t r s CLeaveGroup = t /\
  deadline_ms t r s CJoinGroup = t + r /\ deadline_ms t r s CSyncGroup = t + s.
Proof.
  intros t r s c. split; [destruct c; cbn; lia|]. split; [|repeat split].
  intros H1 H2. destruct c; cbn; congruence.
Qed.
Print Assumptions C15_deadline_of_call.

(* connecting tries every bootstrap broker in order: it fails iff all are down, and otherwise uses
   the first reachable one — so a generation is reached, and LeaveGroup can be sent at Close,
   whenever some broker is up *)
Theorem C15_connect_tries_all : forall up,
  (connect up = None <-> forall b, In b up -> b = false) /\
  (forall i, connect up = Some i ->
     nth_error up i = Some true /\ forall j, j < i -> nth_error up j = Some false).
Proof. exact connect_tries_all. Qed.
Print Assumptions C15_connect_tries_all.

(* ---- the boolean monitors run on the implementation's recorded timelines are the ones the
   theorems above are read from ---- *)
Theorem C15_monitors_hold : forall w ls s, run (init w) ls = Some s ->
  mon_one_live (hist s) = true /\ mon_heartbeat (hist s) = true /\
  mon_backoff (hist s) = true /\ mon_leave_full (hist s) = true.
Proof.
  intros w ls s R. repeat split.
  - eapply one_live_holds; eauto.
  - eapply heartbeat_holds; eauto.
  - eapply backoff_holds; eauto.
  - eapply leave_full_holds; eauto.
Qed.
Print Assumptions C15_monitors_hold.

(* order of a generation's end: done is closed at most once per generation, before joined is
   closed, before any late Start on it, and before the next generation is created *)
Theorem C15_generation_end_order : forall w ls s, run (init w) ls = Some s -> mon_done (hist s) = true.
Proof. intros w ls s H. exact (full_done _ (Full_run w ls s H)). Qed.
Print Assumptions C15_generation_end_order.

(* ---- non-vacuity: a run with two generations, a watcher, accounted and late starts, a rebalance
   by function exit without a failed heartbeat, a failed join with back-off, Close during publish ---- *)
Definition C15_example_run : list label :=
  [LCoord AOk; LJoin (JOk 1 LeaderOk); LSync AOk [(0, [0; 1])]; LFetch AOk; LStartHB; LStartWatch;
   LNextCall 0; LNextGen 0; LStart 0; LStart 0; LHbTick 0 AOk; LWatchInit 1 AOk;
   LFnReturn 2; LFnHandler 2; LWaitGenDone; LGenCloseLock; LStart 0; LFnSeeDone 0; LFnSeeDone 1;
   LFnHandler 1; LFnReturn 3; LFnHandler 0; LFnHandler 3; LGenCloseJoined;
   LCoord AOk; LJoin (JErr EKafka); LLeaveCoord AOk; LLeaveReq AOk; LNextCall 1; LNextErr 1; LBackoffFire;
   LCoord AOk; LJoin (JOk 2 NotLeader); LSync AOk []; LFetch AOk; LStartHB; LStartWatch;
   LNextCall 2; LNextGen 2; LHbTick 5 (AErr ERebalance); LFnHandler 5;
   LWatchInit 6 (AErr EDropped); LFnHandler 6; LWaitGenDone; LGenCloseLock;
   LCoord AOk; LCloseCall 0; LJoin (JOk 2 NotLeader); LSync AOk [(0, [3]); (1, [0; 2])]; LFetch AOk; LStartHB; LStartWatch;
   LPublishAbort; LGenCloseLock; LFnSeeDone 7; LFnHandler 7; LWatchInit 8 AOk; LFnSeeDone 8; LFnHandler 8;
   LGenCloseJoined; LLeaveCoord AOk; LLeaveReq AOk; LCloseRet 0].

Example C15_example :
  option_map (fun s => (pc s, mid s, length (gens s), length (fns s), C15_holds (hist s), mon_leave_full (hist s),
                        existsb (fun e => match e with HNextRet _ 1 => true | _ => false end) (hist s),
                        existsb (fun e => match e with HBackoff => true | _ => false end) (hist s),
                        existsb (fun e => match e with HHeartbeat 1 5 2 => true | _ => false end) (hist s),
                        existsb (fun e => match e with HStart 0 4 false => true | _ => false end) (hist s)))
             (run (init 1) C15_example_run)
  = Some (PExited, Some 2, 3, 9, true, true, true, true, true, true).
Proof. vm_compute. reflexivity. Qed.

(* ---- the synchronisation skeleton the consumer-group model assumes (which Go critical
   section / channel operation each label of Model/ConsumerGroup.v stands for:
   Model/SkeletonAssumptions.v, consumergroup_assumptions) holds of /repo's CURRENT source:
   facts regenerated by harness/cmd/vskel on every run. *)
From KV Require Model.SkeletonAssumptions Gen.Skeleton Proofs.SkeletonConsumerGroup.
Theorem C15_skeleton_assumptions :
  KV.Model.SkeletonAssumptions.consumergroup_assumptions_hold KV.Gen.Skeleton.calls KV.Gen.Skeleton.accesses = true.
Proof. exact KV.Proofs.SkeletonConsumerGroup.consumergroup_skeleton_ok. Qed.
Print Assumptions C15_skeleton_assumptions.
