(* Properties/C06.v — a response is only ever delivered to the call that sent the request.
   Statements; the invariants and step lemmas behind them are in Proofs/ConnMux*.v,
   Proofs/TransportPool*.v and Proofs/BufferPoolProofs.v; the examples are closed computations. *)
From Coq Require Import List ZArith Bool Arith.
From KV Require Import Lib.LTS Model.ConnMux Model.TransportPool
  Proofs.ConnMuxBase Proofs.ConnMuxProofs Proofs.ConnMuxOwn
  Proofs.TransportPoolBase Proofs.TransportPoolProofs Proofs.TransportPoolOwn
  Model.BufferPool Proofs.BufferPoolProofs.
Import ListNotations.
Local Open Scope Z_scope.

(* In every reachable state of an aligned stream (C11) with fewer than 2^32 requests sent on
   the connection: a call that got past its response header holds exactly the frame whose id
   is its own request id, that frame was produced by the broker for that call's request
   ([fown f = t], [In t answered]) and is in the consumption log; no frame is consumed twice;
   the ids of any two requests that were sent are distinct. *)
Theorem C06_conn_own_response : forall ls s,
  run init ls = Some s -> aligned s -> nsend s < ID_BOUND ->
  (forall t, completed (ph (thr s t)) ->
     exists f, got (thr s t) = Some f /\ fid f = rid (thr s t) /\ fown f = t /\
               In f (consumed s) /\ In t (answered s)) /\
  NoDup (map fown (consumed s)) /\
  (forall t u, presend (ph (thr s t)) = false -> presend (ph (thr s u)) = false ->
     t <> u -> rid (thr s t) <> rid (thr s u)).
Proof.
  intros ls s H A B.
  destruct (Own_run ls s H (run_within_of_bound ls init s Inv_init H B)) as [I [O _]].
  destruct (own_response s I O A) as [X Y]. repeat split; auto.
  intros t u Pt Pu Ne E. apply Ne. eapply ids_distinct; eauto.
Qed.
Print Assumptions C06_conn_own_response.

(* Giving up on a response also releases the read lock handed over by waitResponse: after the
   abandoning step nobody holds rlock, so no other waiter stays parked on it (its LockR is
   enabled) and, the connection being closed, its peek fails (harness op muxcut, monitor
   mon_conn_cut). *)
Theorem C06_conn_fatal_releases_lock : forall s t s',
  (step s (ReadDone t RFatal) = Some s' \/ step s (BatchClose t RFatal) = Some s' \/
   step s (Deadline t) = Some s' \/ step s (PeekFail t) = Some s') ->
  rlock s' = None /\ closed s' = true.
Proof.
  intros s t s' H. unfold step in H.
  destruct (ph (thr s t)), (knd (thr s t)); repeat destruct H as [H|H]; try discriminate H;
    injection H as <-; unfold peek_fail, finish_read; try destruct (knd (thr s t)); split; reflexivity.
Qed.
Print Assumptions C06_conn_fatal_releases_lock.

(* The read lock handed to a Batch.  [holder_phase]: only a call that is peeking, reading its
   response or holding a Batch can hold rlock — in every reachable state. *)
Theorem C06_lock_held_only_by_reader : forall ls s t, run init ls = Some s ->
  rlock s = Some t -> holder_phase (ph (thr s t)) = true.
Proof. intros ls s t H. exact (LockInv_run ls s H t). Qed.
Print Assumptions C06_lock_held_only_by_reader.

(* Batch.Close releases the lock, the Batch's call no longer is a lock holder, and the
   connection is left either closed or exactly at the frame boundary it was at (no new
   misalignment) — for every outcome of discarding the rest of the fetch response except the
   one that stands for C11's hypothesis (a Kafka error returned with bytes left).
   Implementation side: harness op batchrd, byte accounting monitor mon_batch_acct. *)
Theorem C06_batch_close_at_boundary_or_closed : forall s t r s',
  step s (BatchClose t r) = Some s' -> r <> RKafkaLeft ->
  rlock s' = None /\ (closed s' = true \/ misaligned s' = misaligned s) /\
  holder_phase (ph (thr s' t)) = false.
Proof.
  intros s t r s' H N. unfold step in H. destruct (ph (thr s t)); try discriminate H.
  injection H as <-. rewrite finish_read_eq, thr_upd_same. destruct r; try contradiction; cbn; auto.
Qed.
Print Assumptions C06_batch_close_at_boundary_or_closed.

(* Close on a closed Batch changes nothing (batch.conn / batch.lock were reset), the closing step
   itself is enabled only once, and in every reachable state a call that holds no Batch (any
   more) does not hold the lock: the lock is released at most once per Batch. *)
Theorem C06_batch_close_idempotent :
  (forall s t s', step s (BatchCloseAgain t) = Some s' -> s' = s) /\
  (forall s t r s' r', step s (BatchClose t r) = Some s' -> step s' (BatchClose t r') = None) /\
  (forall ls s t, run init ls = Some s -> holder_phase (ph (thr s t)) = false -> rlock s <> Some t).
Proof.
  split; [|split].
  - intros s t s' H. unfold step in H.
    destruct (ph (thr s t)), (knd (thr s t)); try discriminate H; congruence.
  - intros s t r s' r' H. unfold step in H. destruct (ph (thr s t)); try discriminate H.
    injection H as <-. rewrite finish_read_eq. unfold step. rewrite thr_upd_same. destruct r; reflexivity.
  - intros ls s t H P E. rewrite (LockInv_run ls s H t E) in P. discriminate.
Qed.
Print Assumptions C06_batch_close_idempotent.

(* The same without any bound on the number of requests the connection carries: it is enough
   that, in every state the run visits, any two OUTSTANDING requests (waiting for their answer,
   or answered and not yet consumed) are fewer than 2^32 sends apart.  (A bound on the NUMBER of
   outstanding requests would not do: one request that is never answered stays outstanding
   while 2^32 later ones complete, and the id is reused.) *)
Theorem C06_conn_own_response_windowed : forall ls s,
  run init ls = Some s -> run_within window init ls -> aligned s ->
  (forall t, completed (ph (thr s t)) ->
     exists f, got (thr s t) = Some f /\ fid f = rid (thr s t) /\ fown f = t /\
               In f (consumed s) /\ In t (answered s)) /\
  NoDup (map fown (consumed s)) /\
  (forall t u, outstanding s t -> outstanding s u -> t <> u -> rid (thr s t) <> rid (thr s u)).
Proof.
  intros ls s H Hw A. destruct (Own_run ls s H Hw) as [I [O W]].
  destruct (own_response s I O A) as [X Y]. repeat split; auto.
  intros t u Ot Ou Ne E. apply Ne. eapply ids_distinct_window; eauto.
Qed.
Print Assumptions C06_conn_own_response_windowed.

(* its hypothesis holds for every run below the total bound (so it subsumes C06_conn_own_response) *)
Theorem C06_conn_window_of_bound : forall ls s,
  run init ls = Some s -> nsend s < ID_BOUND -> run_within window init ls.
Proof. intros ls s H B. exact (run_within_of_bound ls init s Inv_init H B). Qed.
Print Assumptions C06_conn_window_of_bound.

(* A call that gives up on ANY code path — write error, EOF / time-out while waiting for its
   header, non-Kafka error (time-out, EOF, parse error) while reading the body in Conn.do,
   Conn.ApiVersions (a Conn.do operation) or through a Batch —
   leaves the connection closed.  (io.ErrNoProgress is not an abandonment: it is the code's
   answer to a foreign frame when nobody else is in flight.) *)
Theorem C06_conn_abandon_closes : forall ls s, run init ls = Some s ->
  forall t e, ph (thr s t) = Failed e -> e <> ENoProgress -> closed s = true.
Proof. exact Abandon_run. Qed.
Print Assumptions C06_conn_abandon_closes.

(* ... so that a later response cannot reach anybody: once closed the connection stays
   closed, the broker's answers no longer arrive, and whatever is consumed afterwards had
   already arrived before the close (and goes to its owner by C06_conn_own_response). *)
Theorem C06_conn_closed_is_final : forall ls s s', closed s = true -> run s ls = Some s' ->
  closed s' = true /\
  (forall f, In f (wire s') -> In f (wire s)) /\
  (forall f, In f (consumed s') -> In f (consumed s) \/ In f (wire s)) /\
  answered s' = answered s.
Proof.
  intros ls s s' C. apply (inv_run _ _ step (fun x => closed x = true /\
     (forall f, In f (wire x) -> In f (wire s)) /\
     (forall f, In f (consumed x) -> In f (consumed s) \/ In f (wire s)) /\
     answered x = answered s)); [|auto].
  intros x l x' [Cx [W [K An]]] St. destruct (closed_step x l x' St Cx) as [Cx' [W' [K' An']]].
  split; [exact Cx'|]. repeat split; [auto| |congruence].
  intros f Hf. destruct (K' f Hf) as [Y|Y]; auto.
Qed.
Print Assumptions C06_conn_closed_is_final.

(* A pooled connection is held by at most one requester; a held connection is not in the idle
   stack and its run loop is waiting for a request; the idle stack has no duplicates and holds
   only connections whose run loop is waiting (no exchange pending) and whose last exchange
   ended without error. *)
Theorem C06_pool_exclusive : forall ls s, prun pinit ls = Some s ->
  (forall r r' c, qph (rq s r) = QHold c -> qph (rq s r') = QHold c -> r = r') /\
  (forall r c, qph (rq s r) = QHold c -> cst (cn s c) = CLoop /\ ~ In c (idle s)) /\
  NoDup (idle s) /\
  (forall c, In c (idle s) -> cst (cn s c) = CLoop /\ lastok (cn s c) = true).
Proof. exact pool_exclusive. Qed.
Print Assumptions C06_pool_exclusive.

(* The value delivered to a RoundTrip caller is a frame the broker produced for the request
   this caller enqueued (on some connection c, as its k-th request) — whatever the broker
   repeats or delays, whichever calls are cancelled — provided no single connection carried
   2^32 requests. *)
Theorem C06_transport_own_response : forall ls s, prun pinit ls = Some s ->
  (forall c, nex (cn s c) < ID_BOUND) ->
  forall r f, qph (rq s r) = QDone (RVal f) ->
    fown f = r /\ exists c k, fid f = wrap32 k /\ lookup_ord k (bsent (cn s c)) = Some r.
Proof.
  intros ls s H B r f D. destruct (OwnP_run ls s H) as [_ [_ O]].
  apply (O B r f). right. exact D.
Qed.
Print Assumptions C06_transport_own_response.

(* What the own-response theorem rests on, besides the correlation-id check: on one pooled
   connection the ordinals of the requests sent are strictly increasing (newest first in
   [bsent]) and lie in 1..nex — no id is ever used twice on a connection (the id on the wire
   of ordinal k is wrap32 k).  Implementation-side monitor: mon_ids (harness op trlate). *)
Theorem C06_pool_ids_increasing : forall ls s, prun pinit ls = Some s ->
  forall c, Sorted.StronglySorted Z.gt (map fst (bsent (cn s c))) /\
            Forall (fun k => 1 <= k <= nex (cn s c)) (map fst (bsent (cn s c))).
Proof.
  intros ls s H c. destruct (OwnP_run ls s H) as [_ [N _]].
  split; [apply (c_sorted _ (N c))|apply (c_range _ (N c))].
Qed.
Print Assumptions C06_pool_ids_increasing.

(* The mechanism named by the property's anchors: a connection whose exchange failed (write
   error, time-out / EOF / cut while reading, correlation-id mismatch) is CClosed at once
   (pstep: CWrite _ false, CReadFail, CRead with a foreign id), and CClosed is final — the
   connection never carries another request.  The own-response theorem does NOT need this
   (the model's broker may inject stale frames anyway); the implementation is nevertheless
   held to it by the monitor mon_fail (harness op trlate). *)
Theorem C06_pool_failed_conn_final : forall ls s s' c,
  PInv s -> (c < nconn s)%nat -> cst (cn s c) = CClosed -> prun s ls = Some s' ->
  cst (cn s' c) = CClosed /\ bsent (cn s' c) = bsent (cn s c).
Proof.
  intros ls s s' c _ Lt Cc H.
  apply (inv_run _ _ pstep (fun x => (c < nconn x)%nat /\ cst (cn x c) = CClosed /\
                            bsent (cn x c) = bsent (cn s c))) in H; [tauto| |auto].
  intros x l x' [A [B D]] St. destruct (closed_conn_step x l x' c St A B) as [A' [B' D']].
  repeat split; congruence.
Qed.
Print Assumptions C06_pool_failed_conn_final.

(* the three failing steps: the third conjunct only says that a CRead which leaves the
   connection open ended without error *)
Theorem C06_pool_failure_closes : forall s c,
  (forall s', pstep s (CWrite c false) = Some s' -> cst (cn s' c) = CClosed) /\
  (forall s', pstep s (CReadFail c) = Some s' -> cst (cn s' c) = CClosed) /\
  (forall s', pstep s (CRead c) = Some s' -> cst (cn s' c) = CClosed \/ lastok (cn s' c) = true).
Proof.
  intros s c. repeat split; intros s' H; unfold pstep in H;
    destruct (cst (cn s c)); try discriminate H;
    try (destruct (cwire (cn s c)); [discriminate H|]; destruct (fid f =? wrap32 k));
    injection H as <-; unfold resolve; pool_read; rewrite Nat.eqb_refl; auto.
Qed.
Print Assumptions C06_pool_failure_closes.

(* Split calls (protocol.Splitter: ListOffsets, ListGroups, DescribeGroups, DescribeConfigs).
   In the model the sub-requests of one call are ordinary requesters [subs] (in request order)
   and the slice handed to the merger is [split_results s subs] = map (outcome of) subs: result
   i is BY POSITION the outcome of the requester carrying sub-request i (transport.go:
   promises[i] = sendRequest(messages[i]); joined.await: results[i] = promises[i].await).
   Under that alignment every value at position i is a frame the broker produced for
   sub-request i — the single-exchange theorem applied pointwise.  The alignment itself is a
   fact about the implementation: harness op trsplit + monitor mon_split hold the code to it. *)
Theorem C06_transport_split_own_response : forall ls s, prun pinit ls = Some s ->
  (forall c, nex (cn s c) < ID_BOUND) ->
  forall subs i r f,
    nth_error subs i = Some r ->
    nth_error (split_results s subs) i = Some (Some (RVal f)) ->
    fown f = r /\ exists c k, fid f = wrap32 k /\ lookup_ord k (bsent (cn s c)) = Some r.
Proof.
  intros ls s H B subs i r f Hs Hr. unfold split_results in Hr.
  rewrite (map_nth_error _ _ _ Hs) in Hr. injection Hr as Hr.
  unfold sub_result in Hr. destruct (qph (rq s r)) eqn:E; try discriminate.
  injection Hr as ->. exact (C06_transport_own_response ls s H B r f E).
Qed.
Print Assumptions C06_transport_split_own_response.

Theorem C06_transport_split_aligned : forall s subs,
  length (split_results s subs) = length subs /\
  forall i r, nth_error subs i = Some r -> nth_error (split_results s subs) i = Some (sub_result s r).
Proof. intros s subs. split; [apply map_length|intros i r; apply map_nth_error]. Qed.
Print Assumptions C06_transport_split_aligned.

(* A connection handed back to the pool sits at a frame boundary: its run loop is waiting, its
   last exchange ended without error, and what is unread on it is a sequence of WHOLE frames, each
   the broker's answer to a request that connection carried (never the rest of a frame).  The
   model is frame-level, so the byte side of this — ReadResponse consumes exactly the frame, in
   particular the truncated tail of a fetch record set — is held on the implementation by harness
   op trtail (every follower on the re-used connection gets its own answer). *)
Theorem C06_released_at_frame_boundary : forall ls s c, prun pinit ls = Some s -> In c (idle s) ->
  cst (cn s c) = CLoop /\ lastok (cn s c) = true /\
  forall f, In f (cwire (cn s c)) ->
    exists k, fid f = wrap32 k /\ lookup_ord k (bsent (cn s c)) = Some (fown f).
Proof.
  intros ls s c H Hi. destruct (OwnP_run ls s H) as [P [N _]].
  destruct (p_idle s P c Hi) as [A _]. split; [exact A|split].
  - apply (p_ok s P). congruence.
  - exact (c_wire _ (N c)).
Qed.
Print Assumptions C06_released_at_frame_boundary.

(* As long as every acquired buffer is released exactly once (the run uses no ReleaseAgain), two
   live readers never hold the same pooled buffer — whatever the interleaving of acquires and
   releases of readers on any number of Conns.  Obligation on the code: releaseBuffer of
   messageSetReader.decompressed happens once per reader life (Batch.close resets the field);
   harness op poolx checks the consequence on the implementation. *)
Theorem C06_pool_buffer_exclusive : forall ls s,
  forallb disciplined ls = true -> brun binit ls = Some s ->
  forall o1 o2 b, In (o1, b) (bheld s) -> In (o2, b) (bheld s) -> o1 = o2.
Proof. intros ls s D H. exact (BInv_exclusive s (BInv_run ls binit s D BInv_init H)). Qed.
Print Assumptions C06_pool_buffer_exclusive.

(* ... and one extra release is enough to break it: reader 1 gives its buffer back twice, readers
   2 and 3 then decompress into the same buffer (the seeded change C06-13) *)
Example pool_double_release_shares_a_buffer :
  match brun binit [Acquire 1; Release 1; ReleaseAgain 1 0; Acquire 2; Acquire 3] with
  | Some s => match holds 2 (bheld s), holds 3 (bheld s) with
              | Some a, Some b => Nat.eqb a b
              | _, _ => false
              end
  | None => false
  end = true.
Proof. vm_compute. reflexivity. Qed.

(* two calls, answers in reverse order, one yields the read lock, both complete with their
   own frame *)
Example conn_nonvacuous :
  match run init [Enter 1 KDo; Enter 2 KDo; LockW 1; Send 1 true true; LockW 2; Send 2 true true;
                  Arrive 2; Arrive 1; LockR 1; PeekOther 1; LockR 2; PeekOwn 2; ReadDone 2 ROk;
                  LockR 1; PeekOwn 1; ReadDone 1 RKafka]%nat with
  | Some s => (negb (misaligned s) && (nsend s <? ID_BOUND) && all_own s [1; 2]%nat &&
               Nat.eqb (outcome_code (ph (thr s 1%nat))) 2 && Nat.eqb (outcome_code (ph (thr s 2%nat))) 1)%bool
  | None => false
  end = true.
Proof. vm_compute. reflexivity. Qed.

(* a Batch: read some, a short buffer, Close, Close again; a waiter is then served *)
Example batch_nonvacuous :
  match run init [Enter 1 KBatch; Enter 2 KDo; LockW 1; Send 1 true true; LockW 2; Send 2 true true;
                  Arrive 1; Arrive 2; LockR 1; PeekOwn 1; BatchOpen 1; BatchRead 1; BatchShort 1;
                  BatchClose 1 ROk; BatchCloseAgain 1; LockR 2; PeekOwn 2; BatchCloseAgain 1;
                  ReadDone 2 ROk]%nat with
  | Some s => (negb (misaligned s) && negb (closed s) && all_own s [1; 2]%nat &&
               Nat.eqb (outcome_code (ph (thr s 1%nat))) 1 && Nat.eqb (outcome_code (ph (thr s 2%nat))) 1)%bool
  | None => false
  end = true.
Proof. vm_compute. reflexivity. Qed.

(* a deadline while waiting closes; the other caller then fails too *)
Example conn_abandon_nonvacuous :
  match run init [Enter 1 KDo; Enter 2 KDo; LockW 1; Send 1 true true; LockW 2; Send 2 true true;
                  LockR 1; Deadline 1; LockR 2; PeekFail 2]%nat with
  | Some s => (closed s && Nat.eqb (outcome_code (ph (thr s 1%nat))) 4 &&
               Nat.eqb (outcome_code (ph (thr s 2%nat))) 4)%bool
  | None => false
  end = true.
Proof. vm_compute. reflexivity. Qed.

(* a deadline in the middle of the ApiVersions body closes the connection, and the following call fails instead of consuming left-over bytes *)
Example conn_apiversions_abandon_closes :
  match run init [Enter 1 KApiVersions; LockW 1; Send 1 true true; Arrive 1; LockR 1; PeekOwn 1;
                  Deadline 1; Enter 2 KDo; LockW 2; Send 2 false false]%nat with
  | Some s => (closed s && negb (misaligned s) && Nat.eqb (outcome_code (ph (thr s 1%nat))) 4 &&
               Nat.eqb (outcome_code (ph (thr s 2%nat))) 4)%bool
  | None => false
  end = true.
Proof. vm_compute. reflexivity. Qed.

Example conn_apiversions_no_garbage :
  run init [Enter 1 KApiVersions; LockW 1; Send 1 true true; Arrive 1; LockR 1; PeekOwn 1;
            Deadline 1; Enter 2 KDo; LockW 2; Send 2 true true]%nat = None.
Proof. vm_compute. reflexivity. Qed.

(* the monitors on the journal of the seeded two-site change (conn kept after a time-out, id
   reused): request 0 and request 1 both carry id 4 on conn 0, call 1 gets call 0's answer *)
Example monitors_reject_stale_reuse :
  let reqs := [mkJreq 0 3 None; mkJreq 0 4 (Some 0%nat); mkJreq 0 4 (Some 1%nat)] in
  let anss := [mkJans 0 4 0; mkJans 0 4 1] in
  let res := [mkJres 3 None; mkJres 1 (Some 0%nat)] in
  (mon_ids reqs, mon_fail res reqs, mon_delivery res anss) = (false, false, false).
Proof. vm_compute. reflexivity. Qed.

Example monitors_accept_clean_run :
  let reqs := [mkJreq 0 3 None; mkJreq 0 4 (Some 0%nat); mkJreq 2 2 (Some 1%nat); mkJreq 2 3 (Some 2%nat)] in
  let anss := [mkJans 2 2 1; mkJans 2 3 2] in
  let res := [mkJres 3 None; mkJres 1 (Some 1%nat); mkJres 1 (Some 2%nat)] in
  (mon_ids reqs, mon_fail res reqs, mon_delivery res anss) = (true, true, true).
Proof. vm_compute. reflexivity. Qed.

(* mon_split on the journal of the seeded "promises in completion order" change: the answer to
   (partition 2, first) is delivered under the question (partition 2, timestamp 0x2f0) *)
Example mon_split_rejects_misaligned_merge :
  mon_split [(2, -2); (2, 752)] [mkQa 2 (-2) 2001; mkQa 2 752 2852] [mkQa 2 752 2001; mkQa 2 752 2852] = false.
Proof. vm_compute. reflexivity. Qed.
Example mon_split_accepts_aligned_merge :
  mon_split [(2, -2); (2, 752)] [mkQa 2 (-2) 2001; mkQa 2 752 2852] [mkQa 2 752 2852; mkQa 2 (-2) 2001] = true.
Proof. vm_compute. reflexivity. Qed.

(* transport: a cancelled call's answer is consumed by the run loop before the connection is
   reused; a duplicate of it then fails the next exchange instead of being delivered *)
Example pool_nonvacuous :
  match prun pinit [Connect 0 0; HandOff 0; CWrite 0 true; Cancel 0; BAnswer 0 2; BAnswer 0 2;
                    CRead 0; CRelease 0; Grab 1 0; HandOff 1; CWrite 0 true; CRead 0; Await 1;
                    Connect 2 0; HandOff 2; CWrite 1 true; BAnswer 1 2; CRead 1; CRelease 1;
                    Await 2]%nat with
  | Some s => (Nat.eqb (q_outcome (rq s 0%nat)) 3 && Nat.eqb (q_outcome (rq s 1%nat)) 3 &&
               Nat.eqb (q_outcome (rq s 2%nat)) 1 && q_own 2%nat (rq s 2%nat) &&
               Nat.eqb (length (idle s)) 1%nat)%bool
  | None => false
  end = true.
Proof. vm_compute. reflexivity. Qed.

(* The synchronisation skeleton the model assumes (which Go critical section each label of
   Model/ConnMux.v / conn_do of Model/ConnOps.v stands for; conn_assumptions in
   Model/SkeletonAssumptions.v) holds of /repo's CURRENT source: call/access facts regenerated by
   harness/cmd/vskel on every run. *)
From KV Require Model.SkeletonAssumptions Gen.Skeleton Proofs.SkeletonConn.
Theorem C06_skeleton_assumptions :
  KV.Model.SkeletonAssumptions.conn_assumptions_hold KV.Gen.Skeleton.calls KV.Gen.Skeleton.accesses = true.
Proof. exact KV.Proofs.SkeletonConn.conn_skeleton_ok. Qed.
Print Assumptions C06_skeleton_assumptions.

(* The same for Model/TransportPool.v (critical sections and channel operations;
   transport_assumptions in Model/SkeletonAssumptions.v). *)
From KV Require Model.SkeletonAssumptions Gen.Skeleton Proofs.SkeletonTransport.
Theorem C06_transport_skeleton_assumptions :
  KV.Model.SkeletonAssumptions.transport_assumptions_hold KV.Gen.Skeleton.calls KV.Gen.Skeleton.accesses = true.
Proof. exact KV.Proofs.SkeletonTransport.transport_skeleton_ok. Qed.
Print Assumptions C06_transport_skeleton_assumptions.
