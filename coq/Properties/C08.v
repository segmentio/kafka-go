(* Properties/C08.v — Writer batches respect size limits and are flushed without further
   input.  The statements, each proved in a few lines from the lemmas of Proofs/Writer*.v.
   Model: Model/Writer.v (the
   mechanism of /repo/writer.go as an atomic-step transition system); a run is
   [run (step cfg) init ls = Some s] for an arbitrary label sequence ls (every schedule, every
   timer firing, every broker reaction). *)
From Coq Require Import List NArith ZArith Bool Arith Sorted Lia.
From KV Require Import Lib.LTS Model.Writer Proofs.WriterStmts Proofs.WriterBase Proofs.WriterSteps Proofs.WriterC08 Proofs.WriterHolds
  Proofs.WriterC01a Proofs.WriterHolds2 Proofs.WriterTrickle.
Import ListNotations.

(* Every produce request the broker ever sees carries at most BatchSize messages, at most
   BatchBytes bytes (the exact rule of writeBatch.add: an over-sized sum is admitted only into an
   empty batch, and validation has already rejected single messages above BatchBytes — so the
   bound holds without exception), is not empty, and holds records of one topic-partition. *)
Theorem C08_limits :
  forall cfg ls s, cfg_ok cfg -> run (step cfg) init ls = Some s ->
  forall a, In a (s_journal s) ->
    length (a_msgs a) <= batchSize cfg /\
    (sum_sizes (a_msgs a) <= batchBytes cfg)%N /\
    a_msgs a <> [] /\
    (forall m, In m (a_msgs a) -> tp_of cfg m = a_tp a).
Proof.
  intros cfg ls s [Hbs _] Hr a Hi.
  destruct (att_ok_runs cfg ls s a Hr Hi) as [A1 [A2 A3]].
  split; [lia|]. split; [exact A2|]. split; [exact A3|].
  intros m Hm. exact (journal_tp_runs cfg ls s a m Hr Hi Hm).
Qed.
Print Assumptions C08_limits.

(* A call that the validation rejects (a message larger than BatchBytes anywhere in the call,
   Writer.Topic and Message.Topic both set or both empty, or a failed metadata lookup) returns
   that error in the same step; the successor state differs from s only by the record of the
   returned call: no partition writer, batch, WaitGroup count, journal or log entry changes. *)
Theorem C08_rejected_sends_nothing :
  forall cfg s g msgs merr e s',
    msgs <> [] -> validate cfg merr msgs = Some e ->
    step cfg s (Call g msgs merr) = Some s' ->
    s' = add_call s (s_wg s) (mkCall g msgs [] (CReturned (RErr (if closed s then EClosed else e)))).
Proof.
  intros cfg s g msgs merr e s' Hne Hv H. cbn [step] in H.
  destruct (call_admissible s g msgs); [|discriminate].
  destruct (closed s); [inversion H; reflexivity|].
  destruct msgs as [|m r]; [congruence|]. rewrite Hv in H. inversion H; reflexivity.
Qed.
Print Assumptions C08_rejected_sends_nothing.

(* What the validation rejects: the first too-large message wins (wherever it stands, also
   last); with all sizes fine a message without exactly one topic is an error; acceptance
   means every message is within BatchBytes and has a topic. *)
Theorem C08_validate_spec :
  forall cfg merr msgs,
    (forall i m, nth_error msgs i = Some m -> (batchBytes cfg < m_size m)%N ->
       exists i', i' <= i /\ validate cfg merr msgs = Some (ETooLarge i')) /\
    (forall i, validate cfg merr msgs = Some (ETooLarge i) ->
       exists m, nth_error msgs i = Some m /\ (batchBytes cfg < m_size m)%N) /\
    ((forall m, In m msgs -> (m_size m <= batchBytes cfg)%N) ->
     forall i m, nth_error msgs i = Some m -> choose_topic cfg m = None ->
       exists e, validate cfg merr msgs = Some e) /\
    (validate cfg merr msgs = None ->
       forall m, In m msgs -> (m_size m <= batchBytes cfg)%N /\ choose_topic cfg m <> None).
Proof.
  intros cfg merr msgs. unfold validate. split; [|split; [|split]].
  - intros i m Hn Hs. destruct (ftl_complete cfg msgs 0 i m Hn Hs) as [i' [Hle Hf]].
    exists i'. rewrite Hf. auto.
  - intros i H. destruct (first_too_large cfg 0 msgs) as [j|] eqn:E.
    + inversion H; subst. destruct (ftl_sound cfg _ _ _ E) as [_ [m [Hn Hs]]].
      rewrite Nat.sub_0_r in Hn. eauto.
    + exfalso. eapply fte_not_toolarge; eauto.
  - intros Hall i m Hn Hc. rewrite (proj2 (ftl_none cfg msgs 0) Hall). eapply fte_some; eauto.
  - apply validate_none.
Qed.
Print Assumptions C08_validate_spec.

(* A batch is closed as soon as it is full: an open batch is never full (and never empty). *)
Theorem C08_open_batch_never_full :
  forall cfg ls s, run (step cfg) init ls = Some s ->
  forall p pw b, nth_error (s_pws s) p = Some pw -> pw_curr pw = Some b ->
    b_size b < batchSize cfg /\ (b_bytes b < batchBytes cfg)%N /\
    b_msgs b <> [] /\ b_bytes b = sum_sizes (b_msgs b).
Proof.
  intros cfg ls s Hr p pw b N Hcur.
  destruct (pw_ok_runs cfg ls s p pw Hr N) as [H1 _].
  destruct (H1 b Hcur) as [[B1 [B2 _]] [C1 C2]]. auto.
Qed.
Print Assumptions C08_open_batch_never_full.

(* ... or otherwise by its timer, without further writes: for every open batch the timer step
   is enabled and moves exactly that batch to the tail of the partition's queue. *)
Theorem C08_open_batch_has_timer :
  forall cfg ls s, run (step cfg) init ls = Some s ->
  forall p pw b, nth_error (s_pws s) p = Some pw -> pw_curr pw = Some b ->
    exists s' pw', step cfg s (Timer p (b_k b)) = Some s' /\
                   nth_error (s_pws s') p = Some pw' /\
                   pw_curr pw' = None /\ pw_queue pw' = pw_queue pw ++ [b].
Proof.
  intros cfg ls s Hr p pw b N Hcur.
  destruct (wf_curr _ (Forall_nth _ _ _ _ _ (proj1 (wf_runs cfg ls s Hr)) N) b Hcur) as [Hop Hin].
  exists (with_pw_done s p (timer_pw pw (b_k b))), (timer_pw pw (b_k b)).
  split; [apply step_Timer; auto|].
  split; [apply nth_error_upd_eq; apply nth_error_Some; congruence|].
  unfold timer_pw, put. rewrite Hcur, Nat.eqb_refl, Hop. simpl. auto.
Qed.
Print Assumptions C08_open_batch_has_timer.

(* ... and is produced as soon as the earlier batches of that partition have completed: a
   non-empty queue has a live sender goroutine whose next step (Get, or the next step of the
   batch it is sending, whatever the broker's reaction) is enabled. *)
Theorem C08_queued_batch_served :
  forall cfg ls s, run (step cfg) init ls = Some s ->
  forall p pw, nth_error (s_pws s) p = Some pw -> pw_queue pw <> [] ->
    pw_alive pw = true /\
    match pw_snd pw with
    | None => step cfg s (Get p) <> None
    | Some sd => match sd_ph sd with
                 | PAttempt => forall r, step cfg s (Attempt p r) <> None
                 | PBackoff => step cfg s (BackoffDone p) <> None
                 | PFinish _ => step cfg s (Finish p) <> None
                 end
    end.
Proof.
  intros cfg ls s Hr p pw N Hq.
  pose proof (wf_dead _ (Forall_nth _ _ _ _ _ (proj1 (wf_runs cfg ls s Hr)) N)) as H4.
  assert (Hal : pw_alive pw = true).
  { destruct (pw_alive pw); [reflexivity|]. destruct (H4 eq_refl) as [E _]. congruence. }
  split; [exact Hal|].
  destruct (pw_snd pw) as [[b n ph]|] eqn:Sn.
  - destruct ph; cbn [sd_ph step]; [intros r| |]; rewrite N, Sn; discriminate.
  - cbn [step]. rewrite N, Hal, Sn. destruct (pw_queue pw); [congruence|discriminate].
Qed.
Print Assumptions C08_queued_batch_served.

(* The extracted boolean predicate that the correspondence run evaluates on the journal of
   every recorded real history is true on every run of the model. *)
Theorem C08_limits_holds_on_runs :
  forall cfg ls s, cfg_ok cfg -> run (step cfg) init ls = Some s ->
    C08_limits_holds cfg (s_journal s) = true.
Proof.
  intros cfg ls s Hok Hr. apply forallb_forall. intros a Ha.
  destruct (C08_limits cfg ls s Hok Hr a Ha) as (H1 & H2 & _ & H4).
  rewrite !andb_true_iff. repeat split.
  - apply Nat.leb_le; exact H1.
  - apply N.leb_le; exact H2.
  - apply forallb_forall. intros m Hm. apply tp_eqb_eq. apply H4; exact Hm.
Qed.
Print Assumptions C08_limits_holds_on_runs.

(* ... and nothing of a rejected call (too large, topic conflict, metadata failure, closed —
   at enter() or, when Close ran in between, at batchMessages) is ever sent, in any later state. *)
Theorem C08_rejected_never_sent :
  forall cfg ls s, run (step cfg) init ls = Some s ->
  forall c cl, nth_error (s_calls s) c = Some cl -> rejected cl = true ->
  forall m a, In m (c_msgs cl) -> In a (s_journal s) -> ~ In m (a_msgs a).
Proof. exact C08_rejected_never_sent_proof. Qed.
Print Assumptions C08_rejected_never_sent.

Theorem C08_rejected_sends_nothing_holds_on_runs :
  forall cfg ls s, run (step cfg) init ls = Some s ->
    rejected_sends_nothing_holds (s_calls s) (s_journal s) = true.
Proof. exact rejected_sends_nothing_holds_runs. Qed.
Print Assumptions C08_rejected_sends_nothing_holds_on_runs.

(* The limits are the EFFECTIVE ones: an option field that is not positive stands for its
   documented default (accessors batchSize()/batchBytes()/maxAttempts(): 100 / 1048576 / 10),
   never for "unlimited"; the configuration built from any option values satisfies cfg_ok, so
   C08_limits applies to it.  (The accessor mapping is compared by op cfgd; every end-to-end
   scenario's cfg is read through the accessors of the very Writer it runs.) *)
Theorem C08_defaulted_config_ok :
  forall o asy wt retr, cfg_ok (cfg_of_options o asy wt retr).
Proof. exact cfg_of_options_ok. Qed.
Print Assumptions C08_defaulted_config_ok.

(* BatchTimeout counts from the batch's OPENING.  In the transition system the awaitBatch goroutine
   is spawned with the batch and its Timer step stays enabled whatever is added later
   (C08_open_batch_has_timer).  Timed reading (batches_by_deadline of Model/Writer.v: a batch opens
   with its first message at t0 and takes the following ones while they arrive before t0 + timeout
   and there is room): every batch spans less than BatchTimeout from its FIRST message, however
   densely later messages keep arriving, and respects BatchSize — so every produce request passes
   span_ok, the check the trickle family (op trk) applies to the real Writer's requests with the
   accept times of their messages.  (The effective BatchTimeout is positive: dflt.) *)
Theorem C08_timeout_counts_from_opening :
  forall fuel timeout bsize ts b, (0 < timeout)%Z -> 1 <= bsize -> StronglySorted Z.le ts ->
    In b (batches_by_deadline fuel timeout bsize ts) ->
    exists t0 rest, b = t0 :: rest /\ (forall t, In t b -> (t0 <= t < t0 + timeout)%Z) /\
                    length b <= bsize /\ span_ok timeout 0 bsize b = true.
Proof.
  intros fuel timeout bsize ts b Ht Hb Hs Hi.
  destruct (C08_timeout_counts_from_opening_nonneg_proof fuel timeout bsize ts b)
    as [t0 [rest [E [H1 [H2 [H3 H4]]]]]]; auto; [lia|].
  exists t0, rest. split; [exact E|]. split; [|split; assumption].
  subst b. intros t [<-|Hin]; [lia|apply H1; exact Hin].
Qed.
Print Assumptions C08_timeout_counts_from_opening.

(* BatchTimeout 300, one message every 100 ms, 14 messages: requests of 3 (arrivals at
   t0, t0+100, t0+200; the one at t0+300 is not before the deadline), never one of 14 *)
Example C08_trickle_example :
  map (@length Z) (batches_by_deadline 20 300 100 (map (fun i => Z.of_nat i * 100)%Z (seq 0 14)))
  = [3; 3; 3; 3; 2].
Proof. vm_compute. reflexivity. Qed.

(* The deprecated constructor kafka.NewWriter(WriterConfig): the effective configuration is that
   of the mapped fields — the configured BatchBytes / BatchSize / MaxAttempts ARE the limits
   (zero = documented default).  op nwc compares the real constructor field by field. *)
Theorem C08_newwriter_config_carried : forall c wt retr,
  cfg_of_writer_config c wt retr = cfg_of_options (options_of_writer_config c) (wc_async c) wt retr /\
  batchBytes (cfg_of_writer_config c wt retr) = Z.to_N (dflt (wc_batchBytes c) 1048576) /\
  batchSize (cfg_of_writer_config c wt retr) = Z.to_nat (dflt (wc_batchSize c) 100) /\
  maxAttempts (cfg_of_writer_config c wt retr) = Z.to_nat (dflt (wc_maxAttempts c) 10) /\
  cfg_ok (cfg_of_writer_config c wt retr).
Proof. intros. repeat split; apply cfg_of_options_ok. Qed.
Print Assumptions C08_newwriter_config_carried.

(* ... and the Transport it builds takes SASL, TLS and ClientID from WriterConfig.Dialer
   independently of each other (it authenticates exactly when the dialer has a SASL mechanism,
   with or without TLS); op nwt compares the real constructor (hosted by C18's check). *)
Theorem C08_newwriter_transport : forall d idle ttl,
  t_sasl (transport_of_writer_config (Some d) idle ttl) = d_sasl d /\
  t_tls (transport_of_writer_config (Some d) idle ttl) = d_tls d /\
  t_clientID (transport_of_writer_config (Some d) idle ttl) = d_clientID d /\
  t_dial (transport_of_writer_config (Some d) idle ttl) = true /\
  (0 < t_idleMs (transport_of_writer_config (Some d) idle ttl) \/ idle < 0)%Z /\
  (0 < t_ttlMs (transport_of_writer_config (Some d) idle ttl) \/ ttl < 0)%Z.
Proof.
  intros d idle ttl. unfold transport_of_writer_config; simpl. repeat split.
  - destruct (Z.eqb idle 0) eqn:E; [left; reflexivity|]. apply Z.eqb_neq in E. lia.
  - destruct (Z.eqb ttl 0) eqn:E; [left; reflexivity|]. apply Z.eqb_neq in E. lia.
Qed.
Print Assumptions C08_newwriter_transport.

Example C08_zero_means_default :
  let c := cfg_of_options (mkOpt 0 0 0 0 0 0 0 0)%Z false None (fun _ => false) in
  batchSize c = 100 /\ batchBytes c = 1048576%N /\ maxAttempts c = 10 /\
  validate c None [mkMsg 1 (Some 0%N) 1048577 0] = Some (ETooLarge 0) /\
  validate c None [mkMsg 1 (Some 0%N) 1048576 0] = None.
Proof. vm_compute. repeat split; reflexivity. Qed.

(* ---- non-vacuity: BatchSize 2, BatchBytes 100; a call of three 40-byte messages: the first
   two fill a batch exactly by count, the third is flushed by its timer; a 50+50 pair hits
   BatchBytes exactly.  Both limits are met with equality in the journal. *)
Definition ex_cfg : config := mkCfg 2 100 2 false (Some 0%N) (fun e => N.eqb e 7).
Definition ex_m (id sz : N) : msg := mkMsg id None sz 0.
Definition ex_run : list label :=
  [Call 1 [ex_m 1 40; ex_m 2 40; ex_m 3 40] None; Assign 0; Get 0; Attempt 0 AppliedAcked; Finish 0;
   Timer 0 1; Get 0; Attempt 0 AppliedAcked; Finish 0; Timer 0 0; Return 0;
   Call 1 [ex_m 4 50; ex_m 5 50] None; Assign 1; Get 0; Attempt 0 AppliedAcked].
Example C08_nonvacuous :
  cfg_ok ex_cfg /\
  exists s, run (step ex_cfg) init ex_run = Some s /\
            map (fun a => (length (a_msgs a), sum_sizes (a_msgs a))) (s_journal s)
            = [(2, 80%N); (1, 40%N); (2, 100%N)].
Proof. split; [unfold cfg_ok; simpl; auto|]. eexists; split; vm_compute; reflexivity. Qed.

(* a rejected call: the too-large message is the last one *)
Example C08_rejected_nonvacuous :
  validate ex_cfg None [ex_m 1 40; ex_m 2 101] = Some (ETooLarge 1) /\
  validate ex_cfg None [mkMsg 1 (Some 3%N) 40 0] = Some (ETopic 0).
Proof. split; vm_compute; reflexivity. Qed.

(* ---- the synchronisation skeleton the Writer model assumes (which Go critical section each
   label of Model/Writer.v stands for: Model/SkeletonAssumptions.v, writer_assumptions) holds
   of /repo's CURRENT source: facts regenerated by harness/cmd/vskel on every run. *)
From KV Require Model.SkeletonAssumptions Gen.Skeleton Proofs.SkeletonWriter.
Theorem C08_skeleton_assumptions :
  KV.Model.SkeletonAssumptions.writer_assumptions_hold KV.Gen.Skeleton.calls KV.Gen.Skeleton.accesses = true.
Proof. exact KV.Proofs.SkeletonWriter.writer_skeleton_ok. Qed.
Print Assumptions C08_skeleton_assumptions.
