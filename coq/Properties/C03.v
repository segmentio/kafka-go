(* Properties/C03.v — Consumer group: commits never pass undelivered records; resume at the
   commit.  Statements; each proof is a few lines over the invariants of Proofs/GroupReader*.v
   (refutations: a concrete run).
   Model: Model/GroupReader.v (atomic-step LTS of kafka.Reader in group mode + coordinator
   spec + ghost history, newest event first).  "h = h1 ++ e :: h2": h2 is the history
   strictly before event e. *)
From Coq Require Import List NArith ZArith Bool.
From KV Require Import Lib.LTS Model.GroupReader Proofs.GroupReaderBase Proofs.GroupReaderCommit
  Proofs.GroupReaderCover Proofs.GroupReaderStart.
Import ListNotations.
Open Scope Z_scope.

(* Every OffsetCommit REQUEST (accepted or not) carries, per partition, exactly 1 + the offset
   of a message this member's application passed to CommitMessages earlier (ReadMessage =
   FetchMessage; CommitMessages) — hence <= 1 + the highest such offset. *)
Theorem C03_commit_bound : forall cfg ls s, run (step cfg) init ls = Some s ->
  forall h1 r mid g offs code ap h2, st_hist s = h1 ++ EvOffsetCommit r mid g offs code ap :: h2 ->
  forall t c, In (t, c) offs ->
    exists id msgs, In (EvCommitCall r id msgs) h2 /\ In (t, c - 1) msgs.
Proof.
  intros cfg ls s Hrun h1 r mid g offs code ap h2 Hs.
  exact (hist_ok_split (P_sent bounded) _ _ _ _ (proj2 (bound_run cfg ls s Hrun)) Hs).
Qed.
Print Assumptions C03_commit_bound.

(* CommitInterval = 0: when CommitMessages (call id) returns nil, then for every message
   (t,o) of the call there is, after the call and before the return, an OffsetCommit that the
   coordinator applied and acknowledged, right after which its committed offset of t
   (= the newest applied commit of the history) is >= o+1. *)
Theorem C03_sync_commit_recorded : forall cfg ls s, cfg_sync cfg = true ->
  run (step cfg) init ls = Some s ->
  forall h1 r id h2, st_hist s = h1 ++ EvCommitRet r id RNil :: h2 ->
  exists msgs, In (EvCommitCall r id msgs) h2 /\
    forall t o, In (t, o) msgs ->
      exists ha r' mid g offs hb c',
        h2 = ha ++ EvOffsetCommit r' mid g offs 0 true :: hb /\
        hist_committed (EvOffsetCommit r' mid g offs 0 true :: hb) t = Some c' /\ o + 1 <= c' /\
        exists msgs', In (EvCommitCall r id msgs') hb.
Proof.
  intros cfg ls s Hsync Hrun h1 r id h2 Hs.
  exact (hist_ok_split (P_sync cfg) _ _ _ _ (proj2 (sync_run cfg ls s Hsync Hrun)) Hs Hsync).
Qed.
Print Assumptions C03_sync_commit_recorded.

(* Each generation's OffsetFetch answers the coordinator's committed offset at that moment
   (-1 when none), the assignment starts there or at StartOffset when there is none, and every
   partition reader is initialised from the offset its member fetched (FirstOffset -> log
   start, LastOffset -> the high watermark at that moment). *)
Theorem C03_assignment_start : forall cfg ls s, run (step cfg) init ls = Some s ->
  (forall h1 r g t raw start h2, st_hist s = h1 ++ EvOffsetFetch r g t raw start :: h2 ->
     raw = match hist_committed h2 t with Some c => c | None => -1 end /\
     start = (if raw <? 0 then cfg_start cfg else raw)) /\
  (forall h1 r v t given resolved h2, st_hist s = h1 ++ EvReaderInit r v t given resolved :: h2 ->
     resolved = resolve_start given (hist_hw h2 t) /\
     exists g raw, In (EvOffsetFetch r g t raw given) h2).
Proof.
  intros cfg ls s Hrun. pose proof (proj2 (start_run cfg ls s Hrun)) as J.
  split; intros; exact (hist_ok_split (P_start cfg) _ _ _ _ J H).
Qed.
Print Assumptions C03_assignment_start.

Theorem C03_committed_is_history : forall cfg ls s, run (step cfg) init ls = Some s ->
  forall t, lookup (co_committed (st_co s)) t = hist_committed (st_hist s) t.
Proof. intros cfg ls s Hrun. exact (proj1 (proj1 (proj1 (start_run cfg ls s Hrun)))). Qed.
Print Assumptions C03_committed_is_history.

(* StartOffset = FirstOffset: every OffsetCommit request (a fortiori every acknowledged one)
   for (t, c) is preceded by a delivery (FetchMessage return, to some member) of every record
   0 <= x < c of t.  Holds for arbitrary assignments (even overlapping ones), rebalances,
   evictions, coordinator faults, stale queued messages and stale commits. *)
Theorem C03_delivered_before_covered : forall cfg ls s, cfg_start cfg = FirstOffset ->
  run (step cfg) init ls = Some s ->
  forall h1 r mid g offs code ap h2, st_hist s = h1 ++ EvOffsetCommit r mid g offs code ap :: h2 ->
  forall t c, In (t, c) offs -> forall x, 0 <= x < c -> exists r' v, In (EvDeliver r' v t x) h2.
Proof.
  intros cfg ls s Hf Hrun h1 r mid g offs code ap h2 Hs.
  exact (hist_ok_split P_cov _ _ _ _ (proj2 (proj1 (cov_run cfg ls s Hf Hrun))) Hs).
Qed.
Print Assumptions C03_delivered_before_covered.

Theorem C03_committed_covered : forall cfg ls s, cfg_start cfg = FirstOffset ->
  run (step cfg) init ls = Some s ->
  forall t c, lookup (co_committed (st_co s)) t = Some c ->
  forall x, 0 <= x < c -> exists r' v, In (EvDeliver r' v t x) (st_hist s).
Proof. intros cfg ls s Hf Hrun. exact (proj1 (proj1 (proj2 (cov_run cfg ls s Hf Hrun)))). Qed.
Print Assumptions C03_committed_covered.


(* Generation end with requests still queued in Reader.commits (sync mode): the ctx.Done branch
   FIRST drains the queue into the stash and THEN commits; every drained request waits for that
   final commit and the commit carries an offset >= each of its commits.  Together with
   C03_sync_commit_recorded (which covers every nil answer, including those of the final
   commit): a request answered nil after the generation ended is covered by a recorded
   OffsetCommit. *)
Theorem C03_final_commit_drains_first : forall cfg s r s', cfg_sync cfg = true ->
  step cfg s (LLoopFinal r) = Some s' ->
  exists ws,
    rd_loop (st_rd s' r) = CLBusy ws commitRetries true 0 /\
    rd_commits (st_rd s' r) = [] /\
    forall rq, In rq (rd_commits (st_rd s r)) ->
      In (cq_id rq) ws /\
      forall t c, In (t, c) (cq_commits rq) ->
        exists c', lookup (rd_stash (st_rd s' r)) t = Some c' /\ c <= c'.
Proof.
  intros cfg s r s' Hsync H. cbn [step] in H. destr_step H.
  cbn [set_rd st_rd]. rewrite upd_same. cbn. rewrite Hsync.
  eexists; split; [reflexivity|]. split; [reflexivity|].
  intros rq Hin. split; [apply in_map; exact Hin|].
  intros t c Hc. eapply foldmerge_covers; eauto.
Qed.
Print Assumptions C03_final_commit_drains_first.

(* ---- StartOffset = LastOffset: REFUTED.  A generation that ends without a commit leaves
   no committed offset, the next generation restarts at the THEN-latest offset: the records
   appended in between (>= the first start offset) are skipped, and the next acknowledged
   commit covers them. *)
Definition cfg_last : config := {| cfg_sync := true; cfg_start := LastOffset |}.
Definition tp0 : tp := (0%N, 0%N).
Definition witness_last : list label :=
  [LAppend tp0; LJoinSync 0 true [tp0]; LOffsetFetch 0; LSubscribe 0; LReaderInit 0 tp0;
   LGenEnd 0; LUnsubscribe 0; LLoopFinal 0; LLoopAttempt 0 NoFault; LGenClose 0;
   LAppend tp0; LAppend tp0;
   LJoinSync 0 true [tp0]; LOffsetFetch 0; LSubscribe 0; LReaderInit 0 tp0; LAppend tp0;
   LReaderEmit 0 tp0; LFetchSnap 0; LFetchRecv 0;
   LCommitCall 0 [(tp0, 3)]; LLoopRecv 0; LLoopAttempt 0 NoFault].

Theorem C03_delivered_before_covered_lastoffset_refuted :
  exists ls s h1 r mid g offs h2 t c f x,
    run (step cfg_last) init ls = Some s /\
    st_hist s = h1 ++ EvOffsetCommit r mid g offs 0 true :: h2 /\ In (t, c) offs /\
    first_start h2 t = Some f /\ f <= x < c /\
    forall r' v, ~ In (EvDeliver r' v t x) h2.
Proof.
  destruct (run (step cfg_last) init witness_last) as [s|] eqn:E; [|vm_compute in E; discriminate E].
  exists witness_last, s.
  vm_compute in E. inversion E; subst; clear E. cbn [st_hist].
  eexists [_], _, _, _, _, _, tp0, 4, 1, 1.
  split; [reflexivity|]. split; [reflexivity|]. split; [left; reflexivity|].
  split; [vm_compute; reflexivity|]. split; [split; [apply Z.le_refl|reflexivity]|].
  intros r' v H. cbn in H. repeat (destruct H as [H|H]; [discriminate H|]). exact H.
Qed.
Print Assumptions C03_delivered_before_covered_lastoffset_refuted.

(* ---- not proved: kept as full statements *)
(* gap-free delivery per (member, version, partition): each delivery is the resolved start
   of that partition reader or the successor of an earlier delivery of the same stream
   (the model's queue/version-filter invariant of Proofs/GroupReaderCover.v implies it; the
   boolean form is evaluated on every recorded and every model history) *)
Definition C03_delivery_gap_free_full_statement : Prop :=
  forall cfg ls s, run (step cfg) init ls = Some s ->
  forall h1 r v t o h2, st_hist s = h1 ++ EvDeliver r v t o :: h2 ->
    (exists given, In (EvReaderInit r v t given o) h2) \/ In (EvDeliver r v t (o - 1)) h2.

(* ---- quiescence.  The assignment of a generation is an environment label of the model, so
   the needed fact about it is an explicit hypothesis: [assignment_covers_existing existing g h]
   = every partition of the EXISTING subscribed topics appears in an assignment distributed in
   generation g (the history checker evaluates its boolean form on what the real group leader
   computed).  If moreover every member of generation g has drained the partitions assigned to
   it (reader at the high watermark, nothing queued), every stored record of those partitions
   has been delivered to some member.  Whether the members eventually drain (fairness, wall
   clock) is outside the model and is exercised by the recorded histories under watchdogs. *)
Theorem C03_quiescent_all_delivered : forall cfg ls s existing g, cfg_start cfg = FirstOffset ->
  run (step cfg) init ls = Some s ->
  assignment_covers_existing existing g (st_hist s) ->
  (forall r mid asg t, In (EvAssign r mid g asg) (st_hist s) -> In t asg -> drained s r t) ->
  forall t, In t existing -> forall x, 0 <= x < hw_of (st_hw s) t ->
    exists r' v, In (EvDeliver r' v t x) (st_hist s).
Proof.
  intros cfg ls s existing g Hf Hrun Hcov Hdr t Ht x Hx.
  destruct (Hcov t Ht) as [r [mid [asg [Ha Hin]]]].
  destruct (Hdr r mid asg t Ha Hin) as [p [Hp [Htp [Hn Hq]]]].
  rewrite <- Htp. eapply drained_reader_delivered; eauto.
Qed.
Print Assumptions C03_quiescent_all_delivered.

(* ---- non-vacuity: a run with two members, a rebalance moving the partition, a stale
   queued message delivered after the rebalance and committed through the new generation,
   a rejected commit (IllegalGeneration) and an accepted one; the boolean C03 predicate
   (the one the harness evaluates on recorded histories) holds on it *)
Definition cfg_first : config := {| cfg_sync := true; cfg_start := FirstOffset |}.
Definition demo : list label :=
  [LAppend tp0; LAppend tp0; LAppend tp0;
   LJoinSync 0 true [tp0]; LOffsetFetch 0; LSubscribe 0; LReaderInit 0 tp0;
   LReaderEmit 0 tp0; LReaderEmit 0 tp0; LFetchSnap 0; LFetchRecv 0;
   LCommitCall 0 [(tp0, 0)]; LLoopRecv 0; LLoopAttempt 0 NoFault;
   LFetchSnap 0;                                   (* blocked in FetchMessage with version 2 *)
   LJoinSync 1 true [tp0];                          (* member 1 joins: generation 2 *)
   LCommitCall 0 [(tp0, 0)]; LLoopRecv 0;
   LLoopAttempt 0 NoFault; LLoopAttempt 0 NoFault; LLoopAttempt 0 NoFault;  (* 3 x IllegalGeneration *)
   LGenEnd 0; LUnsubscribe 0; LLoopFinal 0; LLoopAttempt 0 NoFault; LGenClose 0;
   LOffsetFetch 1; LSubscribe 1; LReaderInit 1 tp0; LReaderEmit 1 tp0; LFetchSnap 1; LFetchRecv 1;
   LJoinSync 0 false []; LOffsetFetch 0; LSubscribe 0;
   LFetchRecv 0;                                    (* stale message (version 2, offset 1) passes the filter *)
   LCommitCall 0 [(tp0, 1)]; LLoopRecv 0; LLoopAttempt 0 NoFault].
Example C03_demo_run :
  match run (step cfg_first) init demo with
  | Some s => (C03_holds cfg_first (st_hist s) && negb (lost_b (st_hist s))
               && (Nat.leb 24 (length (st_hist s))))%bool = true
  | None => False
  end.
Proof. vm_compute. reflexivity. Qed.

Example C03_witness_last_lost :
  match run (step cfg_last) init witness_last with
  | Some s => lost_b (st_hist s) = true
  | None => False
  end.
Proof. vm_compute. reflexivity. Qed.

(* ---- the synchronisation skeleton the model assumes (which Go critical section / channel operation each step of Model/Lifecycle.v, Model/GroupReader.v, Model/ReaderModel.v stands for, reader_assumptions: Model/SkeletonAssumptions.v)
   holds of /repo's CURRENT source: call/access facts regenerated by harness/cmd/vskel on every run. *)
From KV Require Model.SkeletonAssumptions Gen.Skeleton Proofs.SkeletonReader.
Theorem C03_skeleton_assumptions :
  KV.Model.SkeletonAssumptions.reader_assumptions_hold KV.Gen.Skeleton.calls KV.Gen.Skeleton.accesses = true.
Proof. exact KV.Proofs.SkeletonReader.reader_skeleton_ok. Qed.
Print Assumptions C03_skeleton_assumptions.

(* non-vacuity of the queued-at-generation-end case: three calls on distinct partitions:
   while the loop is busy with a failing commit of the first, the other two are queued and
   the generation ends; they are drained into ONE final commit that answers both *)
Definition tp1 : tp := (0%N, 1%N).
Definition tp2 : tp := (0%N, 2%N).
Definition demo_end : list label :=
  [LAppend tp0; LAppend tp1; LAppend tp2;
   LJoinSync 0 true [tp0; tp1; tp2]; LOffsetFetch 0; LSubscribe 0;
   LReaderInit 0 tp0; LReaderInit 0 tp1; LReaderInit 0 tp2;
   LReaderEmit 0 tp0; LReaderEmit 0 tp1; LReaderEmit 0 tp2;
   LFetchSnap 0; LFetchRecv 0; LFetchSnap 0; LFetchRecv 0; LFetchSnap 0; LFetchRecv 0;
   LCommitCall 0 [(tp0, 0)]; LLoopRecv 0; LLoopAttempt 0 (FCode 16);
   LCommitCall 0 [(tp1, 0)]; LCommitCall 0 [(tp2, 0)];
   LGenEnd 0; LLoopAttempt 0 NoFault;
   LLoopFinal 0; LLoopAttempt 0 NoFault].
Example C03_demo_queued_at_generation_end :
  match run (step cfg_first) init demo_end with
  | Some s =>
    match st_hist s with
    | EvCommitRet 0 1 RNil :: EvCommitRet 0 2 RNil :: EvOffsetCommit 0 _ _ offs 0 true :: _ =>
      (C03_holds cfg_first (st_hist s) && Nat.eqb (length offs) 2)%bool = true
    | _ => False
    end
  | None => False
  end.
Proof. vm_compute. reflexivity. Qed.
