(* Properties/C09.v — Close, use-after-close and termination: the kafka.Writer half, then the Reader half.
   Proofs are a few lines from the lemmas of Proofs/.  Writer model: Model/Writer.v; a run is
   [run (step cfg) init ls = Some s] for an arbitrary label sequence (every interleaving of
   Close with in-flight and newly arriving calls, batch timers, retries and back-off sleeps,
   and every sequence of broker reactions).

   stuck cfg s : Close waits (s_close s = ClWaiting) and no step other than an environment
   decision (a new call, a context ending) is enabled — Close can never return.
   is_env      : Call, CtxDone, CloseMark.  Every other label is a step some goroutine of
   the Writer, the broker or a timer takes on its own.

   Former defect F3 (fixed in /repo by re-checking w.closed under w.mutex in batchMessages):
   a WriteMessages call that passed enter() before Close marked the writer closed, and whose
   batchMessages ran after Close emptied w.writers, created a partition writer nobody closes
   and Close never returned.  With the re-check that call fails with io.ErrClosedPipe (label Assign in a
   closed state), and the theorems below hold for EVERY run.  The regression scenario is run
   on the implementation by op f3 of harness/cmd/writer. *)
From Coq Require Import List NArith Bool Arith Lia.
From KV Require Import Lib.LTS Model.Writer Proofs.WriterStmts Proofs.WriterC09.
Import ListNotations.

(* After Close has marked the writer closed, WriteMessages fails with io.ErrClosedPipe in the
   same step and changes nothing but the record of that call. *)
Theorem C09_w_after_close :
  forall cfg s g msgs merr s',
    closed s = true -> step cfg s (Call g msgs merr) = Some s' ->
    s' = add_call s (s_wg s) (mkCall g msgs [] (CReturned (RErr EClosed))).
Proof. exact C09_w_after_close_proof. Qed.
Print Assumptions C09_w_after_close.

(* Close is never stuck, in every schedule: in every reachable state in which Close waits,
   some non-environment step is enabled (a timer, a sender step, a pending batchMessages — which
   returns ErrClosedPipe —, a waiting call's return, or — WaitGroup at 0 — Close's return). *)
Theorem C09_w_close_no_stuck :
  forall cfg ls s, run (step cfg) init ls = Some s -> s_close s = ClWaiting ->
    exists l, is_env l = false /\ step cfg s l <> None.
Proof. exact C09_w_close_no_stuck_proof. Qed.
Print Assumptions C09_w_close_no_stuck.

Theorem C09_w_close_never_stuck :
  forall cfg ls s, run (step cfg) init ls = Some s -> ~ stuck cfg s.
Proof. exact C09_w_close_never_stuck_proof. Qed.
Print Assumptions C09_w_close_never_stuck.

(* The WaitGroup counter is exactly the number of live accounted activities (calls between
   enter and leave, sender goroutines, awaitBatch goroutines): it never underflows and Close's
   Wait returns exactly when all of them are gone. *)
Theorem C09_w_waitgroup_exact :
  forall cfg ls s, run (step cfg) init ls = Some s ->
    s_wg s = active_calls s + alive_senders s + awaiters s.
Proof. exact C09_w_waitgroup_exact_proof. Qed.
Print Assumptions C09_w_waitgroup_exact.

(* The decision procedure used by the correspondence driver for "stuck" is sound. *)
Theorem C09_w_stuckb_sound : forall cfg s, stuckb cfg s = true -> stuck cfg s.
Proof. exact stuckb_sound_proof. Qed.
Print Assumptions C09_w_stuckb_sound.

(* Termination variant: the measure [mu] (Proofs/WriterC09.v: per call not yet assigned
   2 + #messages * (2*MaxAttempts + 5); per waiting call 1; per partition writer its live sender,
   its awaitBatch goroutines, 2*MaxAttempts + 3 per batch not yet sent, the remaining attempts
   of the batch being sent; 1 while Close waits) strictly decreases on EVERY non-environment
   step.  Hence between two environment decisions only finitely many steps happen, and with
   C09_w_close_no_stuck every fair run lets Close return.  (Wall-clock bounds are outside the
   model.) *)
Theorem C09_w_close_variant :
  forall cfg ls s l s', run (step cfg) init ls = Some s -> is_env l = false ->
    step cfg s l = Some s' -> mu cfg s' < mu cfg s.
Proof. exact C09_w_variant_proof. Qed.
Print Assumptions C09_w_close_variant.

(* When Close has returned: nothing is pending anywhere (no open or queued batch, no batch
   being sent, no live sender or timer goroutine), every call has returned, and every message
   of every accepted call has been handed to the Completion callback — i.e. it was
   acknowledged or exhausted its attempts (C01_completion_once gives the outcome). *)
Theorem C09_w_close_post :
  forall cfg ls s, run (step cfg) init ls = Some s -> s_close s = ClReturned ->
    (forall p pw, nth_error (s_pws s) p = Some pw ->
       pw_curr pw = None /\ pw_queue pw = [] /\ pw_snd pw = None /\ pw_alive pw = false /\ pw_await pw = []) /\
    (forall c cl, nth_error (s_calls s) c = Some cl -> returned cl = true) /\
    (forall c cl m, nth_error (s_calls s) c = Some cl -> rejected cl = false -> In m (c_msgs cl) ->
       exists ms o, In (ms, o) (s_compl s) /\ In m ms).
Proof. exact C09_w_close_post_proof. Qed.
Print Assumptions C09_w_close_post.

(* ---- non-vacuity: Close racing a waiting call with an open batch AND a call that passed
   enter() but not yet batchMessages: the open batch is flushed by CloseMark and sent (one retry),
   the first call returns nil, the late call returns ErrClosedPipe, the sender exits, Close
   returns; a call after that is refused. *)
Definition ex_cfg : config := mkCfg 5 100 2 false (Some 0%N) (fun e => N.eqb e 7).
Definition ex_run : list label :=
  [Call 1 [mkMsg 1 None 30 0] None; Assign 0; Call 2 [mkMsg 2 None 30 0] None; CloseMark; Assign 1;
   Get 0; Attempt 0 (NotApplied 7%N); BackoffDone 0; Attempt 0 AppliedAcked; Finish 0; Timer 0 0;
   Return 0; SenderExit 0; CloseWaitDone; Call 1 [mkMsg 3 None 30 0] None].
Example C09_nonvacuous :
  exists s, run (step ex_cfg) init ex_run = Some s /\ s_close s = ClReturned /\
            map c_ph (s_calls s) = [CReturned RNil; CReturned (RErr EClosed); CReturned (RErr EClosed)] /\
            s_wg s = 0 /\ length (s_pws s) = 1.
Proof.
  eexists. split; [vm_compute; reflexivity|]. split; [vm_compute; reflexivity|].
  split; [vm_compute; reflexivity|]. split; vm_compute; reflexivity.
Qed.

(* Reader / ConsumerGroup / Transport half of C09.
   Model: Model/Lifecycle.v — the kafka.Reader shell of /repo/reader.go (closed, stctx/stop, done,
   join, msgs, commits, runError, the run(cg) loop, subscribe/unsubscribe, commitLoop, the partition
   reader goroutines of start, readLag), the ConsumerGroup.run goroutine and the functions started on
   its generations (/repo/consumergroup.go), and the two context-aware waits of a Transport round
   trip (/repo/transport.go connPool.roundTrip, async.await).  A run is
   [run step (init c) ls = Some s] for an arbitrary label sequence: every interleaving of any
   number of Close calls with in-flight and newly arriving FetchMessage / ReadMessage /
   CommitMessages calls, rebalances in progress, and every outcome (answer, error, time-out,
   refused dial) of every network exchange.  From here on the names step, init, state, label, …
   are those of Model/Lifecycle.v.

   Classes of labels:
     is_env l     a user decision: a new call, a context ending, a new Close call, SetOffset
     is_clock l   the firing of a PERIODIC ticker (heartbeat, CommitInterval, ReadLagInterval)
     is_race s l  a select takes another ready branch although its cancellation branch
                  (<-ctx.Done(), <-r.stctx.Done(), <-cg.done, <-gen.done) is ready too
     progress s l = none of the three: a step a goroutine, the broker or a one-shot timer takes

   Three former defects of this half are fixed in /repo and the model mirrors the fixed code
   (their schedules are kept as regressions, C09_r_regressions, and replayed on the implementation
   by ops det / cac / nlv of harness/cmd/c09r):
     43be141  FetchMessage returns io.EOF as soon as r.closed is set (buffered messages are dropped)
     0aeb2fd  CommitMessages checks r.stctx first (non-blocking) and also while waiting for the result
     da142dd  joinGroup keeps the member id on every error, so run leaves the group with it *)
From KV Require Import Model.Lifecycle Proofs.LifecycleBase Proofs.LifecycleSafe Proofs.LifecycleGen
  Proofs.LifecyclePost Proofs.LifecycleCalls Proofs.LifecycleLive Proofs.LifecycleVariant.

(* ---- C09_ctx: FetchMessage / ReadMessage (in the select on r.msgs, and in the two selects of the
   commit that ReadMessage performs), CommitMessages (both selects) and a Transport round trip
   (waiting for the pool to be ready, awaiting the promise): in EVERY state — reachable or not, no
   other precondition — the context may end (LCtx c) and the step after it, the return of the call
   with the context's error (LRetCtx c: result RCtx), is enabled. ---- *)
Theorem C09_ctx : forall s c k, panicked s = false ->
  nth_error (calls s) c = Some k -> blocked (k_ph k) = true -> k_ctx k = false ->
  exists s1 s2, step s (LCtx c) = Some s1 /\ step s1 (LRetCtx c) = Some s2 /\
    nth_error (calls s2) c = Some (mkCall (k_kind k) true (PDone RCtx)) /\
    hist s2 = ERet c RCtx :: ECtx c :: hist s.
Proof.
  intros s c k Hp Hc Hb Hx.
  set (k1 := mkCall (k_kind k) true (k_ph k)). set (s1 := ev (ECtx c) (set_calls (upd c k1 (calls s)) s)).
  assert (Hc1 : nth_error (calls s1) c = Some k1) by (cbn; eapply nth_upd_eq; eauto).
  exists s1, (ret c k1 RCtx s1). split; [|split; [|split; [|reflexivity]]].
  - unfold step. rewrite Hp, Hc, Hx. destruct (k_ph k) eqn:E; try discriminate; reflexivity.
  - unfold step. replace (panicked s1) with false by (symmetry; exact Hp). rewrite Hc1. cbn [k_ph k_ctx k1].
    rewrite Hb. reflexivity.
  - unfold ret, set_call, ev. cbn [calls set_calls set_hist]. erewrite nth_upd_eq; [reflexivity|exact Hc1].
Qed.
Print Assumptions C09_ctx.

Theorem C09_ctx_already_ended : forall s c k, panicked s = false ->
  nth_error (calls s) c = Some k -> blocked (k_ph k) = true -> k_ctx k = true ->
  step s (LRetCtx c) = Some (ret c k RCtx s).
Proof. intros s c k Hp Hc Hb Hx. unfold step. rewrite Hp, Hc, Hb, Hx. reflexivity. Qed.
Print Assumptions C09_ctx_already_ended.

(* ---- C09_r_after_close, full strength.  In every run, every call that BEGAN after some Close
   call had returned ([call_info i (hist s)] = (kind, true, _)):
   * its return event is io.EOF for FetchMessage, for ReadMessage the error
     fmt.Errorf("fetching message: %w", io.EOF) (result class REOF = errors.Is(err, io.EOF)), and
     io.ErrClosedPipe for CommitMessages of a group Reader (without a GroupID CommitMessages returns
     errOnlyAvailableWithGroup before and after Close: class ROther) — first conjunct, the monitor
     [mon_after_close] that is also run on the implementation's timelines;
   * while it exists it is never blocked in a select, never at the select that enqueues into
     r.commits (so nothing is enqueued), never delivers a message: it is at the head of
     FetchMessage's loop, at CommitMessages' non-blocking closed check, or has returned; and from
     those two points the ONLY step of the call is the return with io.EOF / io.ErrClosedPipe, which
     is enabled (no wait, not even for its context). ---- *)
Theorem C09_r_after_close : forall c ls s, run step (init c) ls = Some s ->
  mon_after_close (c_group c) (hist s) = true /\
  (forall i k late pre, nth_error (calls s) i = Some k -> call_info i (hist s) = Some (k_kind k, late, pre) ->
     late = true -> k_kind k <> KTrip ->
     blocked (k_ph k) = false /\ k_ph k <> PCSelect /\
     (k_ph k = PFLock \/ k_ph k = PCCheck \/ exists r, k_ph k = PDone r) /\
     (k_ph k = PFLock -> step s (LFLock i) = Some (ret i k REOF s)) /\
     (k_ph k = PCCheck -> step s (LCCheck i) = Some (ret i k RClosedPipe s))).
Proof.
  intros c ls s R. destruct (inv6_after_close_reach _ _ _ R) as [I6 M]. split; [exact M|].
  intros i k late pre Hk Hi Hl Hn. destruct (I6 i k Hk) as (late' & pre' & Hi' & Hl').
  rewrite Hi in Hi'. inversion Hi'; subst late' pre'. destruct (Hl' Hl) as [L1 L2].
  pose proof (rinv_reach _ _ _ R) as I. pose proof (r_nopanic _ _ I) as Hp.
  destruct (rinv_returned _ _ I (r_inv_h1 _ _ I L1)) as (Hc & Hs & _).
  unfold late_ok in L2.
  destruct (k_kind k) eqn:K; try congruence;
    destruct (k_ph k) as [| | | |rp| | |r] eqn:P; try discriminate; try (destruct r; try discriminate);
    (split; [reflexivity|]); (split; [discriminate|]);
    (split; [eauto|]); split; intros X; try discriminate;
    unfold step; rewrite Hp, Hk, P, ?Hc, ?Hs; reflexivity.
Qed.
Print Assumptions C09_r_after_close.

(* the state once a Close call has returned, also for the calls that were already in flight: the
   Reader is marked closed, r.stctx is cancelled, every partition reader has exited (r.msgs never
   grows again), r.runError can no longer fire; a FetchMessage still in its select returns io.EOF
   once the queue is empty and closed; for a CommitMessages in a select the io.ErrClosedPipe
   branch is ready *)
Theorem C09_r_after_close_state : forall c ls s, run step (init c) ls = Some s -> close_returned s = true ->
  closed s = true /\ stctx s = true /\ all_exited s = true /\
  (forall l s', step s l = Some s' -> length (msgs s') <= length (msgs s)) /\
  (forall i, step s (LFRunErr i) = None) /\
  (forall i k v, nth_error (calls s) i = Some k -> k_ph k = PFSelect v -> msgs s = [] -> mclosed s = true ->
     step s (LFEof i) = Some (ret i k REOF s)) /\
  (forall i k, nth_error (calls s) i = Some k -> k_ph k = PCSelect ->
     step s (LCClosed i) = Some (ret i k RClosedPipe s) /\ (croom s = false -> step s (LCEnq i) = None)).
Proof.
  intros c ls s R H. pose proof (rinv_reach _ _ _ R) as I. pose proof (r_nopanic _ _ I) as Hp.
  destruct (rinv_returned _ _ I (close_returned_at _ H)) as (Hc & Hs & Ha & [_ _ _ Q4 _]).
  repeat (split; [assumption|]). split; [intros l s'; apply no_push, Ha|].
  split. { intros i. unfold step. rewrite Hp. destruct (nth_error (calls s) i); auto. destruct Q4 as [E|E]; rewrite E; reflexivity. }
  split. { intros i k v Hk Hph Hm Hmc. unfold step. rewrite Hp, Hk, Hm, Hph, Hmc. reflexivity. }
  intros i k Hk Hph. split; [|intros Hr]; unfold step; rewrite Hp, Hk, Hph, ?Hs, ?Hr; reflexivity.
Qed.
Print Assumptions C09_r_after_close_state.

(* ---- C09_r_close_no_stuck: in every reachable state in which a Close call waits (r.join.Wait()
   or <-r.done) some goroutine has an enabled PROGRESS step: the Close call itself, a partition
   reader (its context is cancelled), Reader.run, ConsumerGroup.run, or a function of the
   generation being closed. ---- *)
Theorem C09_r_close_no_stuck : forall c ls s, run step (init c) ls = Some s -> close_waits s = true ->
  exists l, progress s l = true /\ step s l <> None.
Proof. exact close_no_stuck_proof. Qed.
Print Assumptions C09_r_close_no_stuck.

(* Close's first three statements (mark closed, r.cancel(), r.stop()) are always enabled, and from
   r.join.Wait() on the state is [stopping] *)
Theorem C09_r_close_begins : forall c ls s, run step (init c) ls = Some s ->
  (forall k p, nth_error (closers s) k = Some p -> crank p <= 2 ->
     progress s (LCloseStep k) = true /\ step s (LCloseStep k) <> None) /\
  (cl_at 3 s -> stopping s = true).
Proof.
  intros c ls s R. pose proof (rinv_reach _ _ _ R) as I. pose proof (r_nopanic _ _ I) as Hp. pose proof (r_inv1 _ _ I) as I1. split.
  - intros k p Hk Hr. split; [reflexivity|]. unfold step. rewrite Hp, Hk.
    destruct p; cbn in Hr; try lia; discriminate.
  - intros C3. unfold stopping.
    rewrite (inv1_at s 3 1 I1 C3 ltac:(lia) : closed s = true), (inv1_at s 3 2 I1 C3 ltac:(lia) : curcan s = true),
      (I1 3 ltac:(lia) C3 : stctx s = true).
    reflexivity.
Qed.
Print Assumptions C09_r_close_begins.

(* ---- C09_r_close_variant.  A measure that strictly decreases on EVERY non-environment step after
   Close started (the Definition below) is NOT a property of this (or any reasonable)
   implementation: a heartbeat tick answered OK leaves the control state unchanged for as long
   as the generation lives (periodic tickers are meant to recur), and Go's select chooses
   uniformly among ready branches, so e.g. cg.Next may hand out one more generation although
   r.stctx is already cancelled (probability 1/2 each time, never forever).  Proved, for EVERY state
   (reachable or not) in which r.stop() has been executed: every PROGRESS step strictly decreases
   the measure [mu] (Proofs/LifecycleVariant.v: weighted sum of the remaining control points of
   every Close call, partition reader, caller, Reader.run, ConsumerGroup.run, generation function,
   readLag goroutine, plus 2 per queued message and 9 per queued commit request), and [stopping]
   is stable.  With C09_r_close_no_stuck / C09_r_close_begins: in every run in which progress steps
   are taken whenever enabled (weak fairness), ticks are finite per unit of time (clock driven)
   and a select with a ready cancellation branch eventually takes it, every Close call returns.
   Wall-clock bounds are outside the model. ---- *)
Definition C09_r_close_variant_full_statement : Prop :=
  exists m : state -> nat, forall c ls s l s', run step (init c) ls = Some s -> closed s = true ->
    is_env l = false -> step s l = Some s' -> m s' < m s.

Theorem C09_r_close_variant_partial : forall s l s', stopping s = true -> step s l = Some s' ->
  stopping s' = true /\ (progress s l = true -> mu s' < mu s).
Proof. intros s l s' H St. split; [exact (stopping_step s l s' H St)|exact (variant_proof s l s' H St)]. Qed.
Print Assumptions C09_r_close_variant_partial.

(* ---- C09_r_close_post.  After a Close call has returned ((1), (2): EClosed in the history; (3), (4): [close_returned]):
   (1) silence: no Heartbeat, OffsetCommit, Fetch, JoinGroup or SyncGroup request reaches a broker
       any more (mon_silent judges every request event against its past); ---- *)
Theorem C09_r_close_post_silent : forall c ls s, run step (init c) ls = Some s -> mon_silent (hist s) = true.
Proof.
  intros c ls s R. exact (r_silent _ _ (rinv_reach _ _ _ R)).
Qed.
Print Assumptions C09_r_close_post_silent.

(* (2) leave, strict: at every Close return, the member id the coordinator handed out last
       ([EJoined m], however many JoinGroup requests — successful or failed — followed) has been the
       subject of a LeaveGroup attempt since: the request was sent ([EReq ALeave m]) or the
       coordinator could not be reached for it ([ELeaveUnreach m]).  [mstat h] = that member id if
       no such attempt followed it, else 0. *)
Theorem C09_r_close_post_leave : forall c ls s, run step (init c) ls = Some s -> mon_leave (hist s) = true.
Proof.
  intros c ls s R. exact (r_leave _ _ (rinv_reach _ _ _ R)).
Qed.
Print Assumptions C09_r_close_post_leave.

(* (3) registry: every goroutine Close accounts for (partition readers, Reader.run,
       ConsumerGroup.run, every ACCOUNTED generation function: heartbeat, commitLoop, unsubscribe
       waiter) has ended and every connection they held is closed.  What may still run are
       functions Generation.Start launched on an already closed generation (unaccounted by the
       code), the readLag goroutines (never joined by Close) and the helper goroutine of a leader
       lookup (Dialer.LookupPartition) that was abandoned because its context ended — but no lookup
       CONNECTION is open any more (no ILookup): LookupPartition closes it on every way out of the
       FUNCTION, which is also what lets the orphaned helper end (LInExit); without ReadLagInterval no
       connection at all is open. *)
Theorem C09_r_close_post_registry : forall c ls s, run step (init c) ls = Some s -> close_returned s = true ->
  live_acc s = 0 /\
  live s = unacc_live s + lag_live (lag s) + count (fun i => negb (idone i)) (inners s) /\
  conns s = count iconn (inners s) /\
  (forall j, nth_error (inners s) j <> Some ILookup) /\
  (c_lag c = false -> live s = unacc_live s + count (fun i => negb (idone i)) (inners s) /\ conns s = 0).
Proof.
  intros c ls s R H. pose proof (rinv_reach _ _ _ R) as I.
  destruct (rinv_returned _ _ I (close_returned_at _ H)) as (_ & _ & _ & Q).
  destruct (quiet_registry s Q (r_inv8 _ _ I)) as (A & L & K & NoL).
  repeat (split; [assumption|]). intros NL. destruct (r_nolag _ _ I) as [E B]; [rewrite (r_cfg _ _ I); exact NL|].
  rewrite L, K, E, (nolag_no_conn s B NoL). split; [cbn; lia|reflexivity].
Qed.
Print Assumptions C09_r_close_post_registry.

(*     and those stragglers are finite (C09_r_close_variant_partial) and leave nothing behind:
       when no goroutine has a step of its own left, the live-goroutine set and the
       open-connection set are empty *)
Theorem C09_r_close_post_quiescent : forall c ls s, run step (init c) ls = Some s -> close_returned s = true ->
  (forall l, is_env l = false -> step s l = None) -> live s = 0 /\ conns s = 0.
Proof.
  intros c ls s R H Q. pose proof (rinv_reach _ _ _ R) as I.
  destruct (rinv_returned _ _ I (close_returned_at _ H)) as (_ & Hs & Ha & Qt).
  destruct (quiet_registry s Qt (r_inv8 _ _ I)) as (_ & L & K & NoL).
  destruct (stragglers_gone s (r_inv2 _ _ I) (r_nopanic _ _ I) Hs Ha NoL Q) as (U & Lg & C1 & C2).
  rewrite L, K, U, Lg, C1, C2. split; reflexivity.
Qed.
Print Assumptions C09_r_close_post_quiescent.

(* (4) r.msgs is closed at most once in every run (any number of concurrent Close calls), closing
       it never panics, and exactly once when every Close call has returned *)
Theorem C09_r_close_post_msgs_once : forall c ls s, run step (init c) ls = Some s ->
  panicked s = false /\ msgs_closes (hist s) <= 1 /\
  (mclosed s = true <-> msgs_closes (hist s) = 1) /\
  (close_returned s = true -> (forall k p, nth_error (closers s) k = Some p -> p = CLRet) -> msgs_closes (hist s) = 1).
Proof.
  intros c ls s R. pose proof (rinv_reach _ _ _ R) as I. destruct (r_inv4 _ _ I) as [M1 M2 M3]. pose proof (r_inv1 _ _ I) as I1.
  split; auto. rewrite M3. split; [destruct (mclosed s); cbn; lia|]. split; [destruct (mclosed s); cbn; split; auto; discriminate|].
  intros H All.
  assert (Hc : closed s = true) by exact (inv1_at s 6 1 I1 (close_returned_at _ H) ltac:(lia)).
  assert (Z : count is_first (closers s) = 0).
  { apply count_false. intros x Hx. apply In_nth_error in Hx as (k & Hk). rewrite (All _ _ Hk). reflexivity. }
  rewrite Z, Hc in M1. cbn in M1. lia.
Qed.
Print Assumptions C09_r_close_post_msgs_once.

(* (5) a generation is joined before the group moves on — ALSO when it ended on its own.  The
       self-termination path is in the model: a failed heartbeat (LHbTick f false) or any returning
       function puts the function into NRet, its exit handler (LFnHandler) closes gen.done, run
       takes <-gen.done (LGWaitDone, why = WEnded) and calls gen.close() (LGClose: closing done is
       then a no-op) which still waits for every ACCOUNTED function (GCloseWait until acc_exited).
       Hence: the generation's coordinator connection is closed (nextGeneration's deferred
       conn.Close(): g_conn = false), and a new JoinGroup can be sent (no current generation), only
       when every accounted function of it has run its exit handler; while one has not,
       gen.close() cannot return.  With C09_r_close_post_registry: nothing accounted outlives
       Close.  The abstraction "gen.close() waits" is C15_accounting over Model/ConsumerGroup.v; that
       Generation.close has ONE way out (a single section of g.lock followed by <-g.joined) is
       skeleton assumption R19 (reader_assumptions, checked against /repo's current source by
       C09_reader_skeleton_assumptions below). *)
Theorem C09_r_generation_joined : forall c ls s, run step (init c) ls = Some s ->
  (forall k g, nth_error (gens s) k = Some g -> g_conn g = false ->
     acc_exited k s = true /\ g_done g = true /\ cur_gen (gph s) <> Some k) /\
  (cur_gen (gph s) = None -> forall k g, nth_error (gens s) k = Some g ->
     acc_exited k s = true /\ g_conn g = false /\ g_done g = true) /\
  (forall k w, gph s = GCloseWait k w -> acc_exited k s = false -> step s LGJoined = None).
Proof.
  intros c ls s R. pose proof (rinv_reach _ _ _ R) as I. pose proof (r_inv2 _ _ I) as I2. pose proof (r_inv7 _ _ I) as I7.
  split; [|split].
  - intros k g Hk Hc. destruct (j_past _ I2 k g Hk) as [A|(A & B & C)].
    + rewrite (I7 k g A Hk) in Hc. discriminate.
    + split; [exact A|]. split; [exact C|]. intros E. rewrite (I7 k g E Hk) in Hc. discriminate.
  - intros N k g Hk. destruct (j_past _ I2 k g Hk) as [A|(A & B & C)]; [congruence|]. split; [exact A|]. split; assumption.
  - intros k w E Ha. unfold step. destruct (panicked s); [reflexivity|]. rewrite E, Ha. reflexivity.
Qed.
Print Assumptions C09_r_generation_joined.

(* (6) the dial path of a partition reader (reader.initialize -> Dialer.DialLeader -> LookupPartition):
       LFDial opens the lookup connection and starts the helper goroutine that reads the partitions
       on it WITHOUT a deadline (ILookup); the function leaves through the answer / an error
       (LFLookup) or through <-ctx.Done() (LFSeeCancel) and closes the connection on each of these
       ways out.  Invariant: an open lookup connection always belongs to a partition reader that is
       still inside LookupPartition — so none survives the function, whatever the broker does
       (silent after accept, after ApiVersions, after the request, mid-response). *)
Theorem C09_r_lookup_conn_owned : forall c ls s, run step (init c) ls = Some s ->
  forall j, nth_error (inners s) j = Some ILookup ->
    exists i f, nth_error (fetchers s) i = Some f /\ f_ph f = FLookup j.
Proof. intros c ls s R. exact (r_inv8 _ _ (rinv_reach _ _ _ R)). Qed.
Print Assumptions C09_r_lookup_conn_owned.

(* ---- regressions of the three former defects (schedules in Model/Lifecycle.v): a FetchMessage
   after Close with a message still buffered returns io.EOF and leaves the buffer alone; a
   CommitMessages after Close returns io.ErrClosedPipe and r.commits stays empty; after a failed
   re-join the member id is kept, LeaveGroup is sent for it and only then is it cleared. ---- *)
Theorem C09_r_regressions :
  (exists s, run step (init (cfg_p 4)) wit_fetch_buffered = Some s /\ close_returned s = true /\
     map k_ph (calls s) = [PDone RMsg; PDone REOF] /\ msgs s = [1] /\ C09R_holds false (hist s) = true) /\
  (exists s, run step (init (cfg_g true 4)) wit_commit_enqueued = Some s /\ close_returned s = true /\
     map k_ph (calls s) = [PDone RClosedPipe] /\ commits s = [] /\ live s = 0 /\ C09R_holds true (hist s) = true) /\
  (exists s, run step (init (cfg_g true 4)) wit_no_leave = Some s /\ close_returned s = true /\ live s = 0 /\
     C09R_holds true (hist s) = true /\ In (EJoined 1) (hist s) /\ In (EReq ALeave 1) (hist s) /\ mid s = None).
Proof.
  split; [|split]; eexists; (split; [vm_compute; reflexivity|]); repeat split; vm_compute; try reflexivity; tauto.
Qed.
Print Assumptions C09_r_regressions.

(* ---- non-vacuity: group Reader, synchronous commits, ReadLag off: join, generation handed to
   Reader.run, one partition reader with a batch of 1, ReadMessage (fetch + commit acknowledged),
   a FetchMessage blocked on the empty queue, a heartbeat, TWO concurrent Close calls; the blocked
   call gets io.EOF, LeaveGroup is sent, everything is gone, a late FetchMessage gets io.EOF. ---- *)
Definition exr_run : list label :=
  join_ok ++ [LRNextCall; LRNextGen; LRSub 1; LRStartC; LRStartU;
   LFDial 0 DOk; LFLookup 0 DOk; LFOffsets 0 DOk; LFFetch 0; LFResp 0 (FData 1); LFPush 0; LFBatchEnd 0 false;
   LCall KRead; LFLock 0; LFRecv 0; LCCheck 0; LCEnq 0; LClTake 1; LClCommit 1 true; LCReply 0;
   LCall KFetch; LFLock 1; LHbTick 0 true;
   LCloseCall; LCloseCall; LCloseStep 0; LCloseStep 1; LCloseStep 0; LCloseStep 0; LCloseStep 1; LCloseStep 1;
   LFSeeCancel 0; LCloseStep 0; LCloseStep 1;
   LRNextCall; LRNextCtx; LRCgClose; LGWaitClosed; LGClose;
   LFnSeeDone 0; LFnHandler 0; LFnSeeDone 1; LFnHandler 1; LFnSeeDone 2; LUnCancel 2; LUnJoin 2; LFnHandler 2;
   LGJoined; LGLeaveCoord true; LGLeaveReq; LRCgWait; LRDone;
   LCloseStep 1; LCloseStep 1; LCloseStep 0; LCloseStep 0; LFEof 1;
   LCall KFetch; LFLock 2].
Example C09_r_nonvacuous :
  option_map (fun s => (map k_ph (calls s), closers s, live s, conns s, msgs_closes (hist s),
                        C09R_holds true (hist s),
                        existsb (fun e => match e with EReq ALeave 1 => true | _ => false end) (hist s),
                        existsb (fun e => match e with EReq AHb 1 => true | _ => false end) (hist s),
                        existsb (fun e => match e with EReq ACommit 1 => true | _ => false end) (hist s)))
             (run step (init (cfg_g true 4)) exr_run)
  = Some ([PDone RMsg; PDone REOF; PDone REOF], [CLRet; CLRet], 0, 0, 1, true, true, true, true).
Proof. vm_compute. reflexivity. Qed.

(* ---- the synchronisation skeleton the Writer model assumes (which Go critical section each
   label of Model/Writer.v stands for: Model/SkeletonAssumptions.v, writer_assumptions) holds
   of /repo's CURRENT source: facts regenerated by harness/cmd/vskel on every run. *)
From KV Require Model.SkeletonAssumptions Gen.Skeleton Proofs.SkeletonWriter.
Theorem C09_skeleton_assumptions :
  KV.Model.SkeletonAssumptions.writer_assumptions_hold KV.Gen.Skeleton.calls KV.Gen.Skeleton.accesses = true.
Proof. exact KV.Proofs.SkeletonWriter.writer_skeleton_ok. Qed.
Print Assumptions C09_skeleton_assumptions.

(* ---- Transport half, connection life cycle of a connGroup (Model/TransportConnect.v: grabConnOrConnect
   and its connect helper, grabConn, releaseConn, idle timer, closeIdleConns, the release in conn.run).
   A connection is in set-up, in use, pooled, closed — nowhere else: in a closed group
   (CloseIdleConnections / Writer.Close of an owned Transport) nothing is pooled, and once no set-up
   and no request is in progress any more every connection that was ever set up is closed; in
   particular a set-up that completes after its requester left is pooled while the group is open and
   closed when it is not (the helper's  if !g.releaseConn(c) { c.close() }). ---- *)
From KV Require Model.TransportConnect Proofs.TransportConnectProofs.
Theorem C09_t_closed_group_holds_nothing : forall ls s,
  run KV.Model.TransportConnect.tc_step KV.Model.TransportConnect.tc_init ls = Some s ->
  (KV.Model.TransportConnect.tc_closed s = true ->
     forall i, nth_error (KV.Model.TransportConnect.tc_conns s) i <> Some KV.Model.TransportConnect.TPooled) /\
  (KV.Model.TransportConnect.tc_closed s = true ->
     forallb (fun c => negb (KV.Model.TransportConnect.tc_active c)) (KV.Model.TransportConnect.tc_conns s) = true ->
     forallb (fun c => negb (KV.Model.TransportConnect.tc_open c)) (KV.Model.TransportConnect.tc_conns s) = true).
Proof. exact KV.Proofs.TransportConnectProofs.tc_closed_pool_proof. Qed.
Print Assumptions C09_t_closed_group_holds_nothing.

Theorem C09_t_late_setup_pooled_or_closed : forall ls s i,
  run KV.Model.TransportConnect.tc_step KV.Model.TransportConnect.tc_init ls = Some s ->
  nth_error (KV.Model.TransportConnect.tc_conns s) i = Some (KV.Model.TransportConnect.TSetup false) ->
  KV.Model.TransportConnect.tc_step s (KV.Model.TransportConnect.TSetupOk i) =
    Some (KV.Model.TransportConnect.tc_set i
            (if KV.Model.TransportConnect.tc_closed s then KV.Model.TransportConnect.TClosed
             else KV.Model.TransportConnect.TPooled) s).
Proof. exact KV.Proofs.TransportConnectProofs.tc_late_setup_proof. Qed.
Print Assumptions C09_t_late_setup_pooled_or_closed.

(* a connection that serves a request is bounded by that request's deadline (TDeadline), whether or not its
   requester is still waiting and whether or not the group has been closed meanwhile; the obligation behind
   the label — the connRequest carries the context whose deadline bounds the request: the caller's in
   sendRequest, the per-refresh WithTimeout context (not the pool context) in connPool.discover — is
   stated at the step in Model/TransportConnect.v and replayed by the refresh-silent scenarios *)
Theorem C09_t_busy_connection_bounded : forall ls s i,
  run KV.Model.TransportConnect.tc_step KV.Model.TransportConnect.tc_init ls = Some s ->
  nth_error (KV.Model.TransportConnect.tc_conns s) i = Some KV.Model.TransportConnect.TBusy ->
  KV.Model.TransportConnect.tc_step s (KV.Model.TransportConnect.TDeadline i) =
    Some (KV.Model.TransportConnect.tc_set i KV.Model.TransportConnect.TClosed s) /\
  (KV.Model.TransportConnect.tc_closed s = true ->
   KV.Model.TransportConnect.tc_step s (KV.Model.TransportConnect.TRelease i) =
     Some (KV.Model.TransportConnect.tc_set i KV.Model.TransportConnect.TClosed s)).
Proof. exact KV.Proofs.TransportConnectProofs.tc_busy_bounded_proof. Qed.
Print Assumptions C09_t_busy_connection_bounded.

(* ---- the synchronisation skeleton the model assumes (which Go critical section / channel operation each step of Model/Lifecycle.v, Model/GroupReader.v, Model/ReaderModel.v stands for, reader_assumptions: Model/SkeletonAssumptions.v)
   holds of /repo's CURRENT source: call/access facts regenerated by harness/cmd/vskel on every run. *)
From KV Require Model.SkeletonAssumptions Gen.Skeleton Proofs.SkeletonReader.
Theorem C09_reader_skeleton_assumptions :
  KV.Model.SkeletonAssumptions.reader_assumptions_hold KV.Gen.Skeleton.calls KV.Gen.Skeleton.accesses = true.
Proof. exact KV.Proofs.SkeletonReader.reader_skeleton_ok. Qed.
Print Assumptions C09_reader_skeleton_assumptions.

(* ---- who closes a connection (lifecycle_assumptions L1, L2 of Model/SkeletonAssumptions.v): the lookup
   connection of Dialer.LookupPartition(s) is closed by a defer of the function itself; the connect helper of
   grabConnOrConnect closes a connection it can neither hand over nor pool — of /repo's CURRENT source. *)
From KV Require Proofs.SkeletonLifecycle.
Theorem C09_lifecycle_skeleton_assumptions :
  KV.Model.SkeletonAssumptions.lifecycle_assumptions_hold KV.Gen.Skeleton.calls KV.Gen.Skeleton.accesses = true.
Proof. exact KV.Proofs.SkeletonLifecycle.lifecycle_skeleton_ok. Qed.
Print Assumptions C09_lifecycle_skeleton_assumptions.
