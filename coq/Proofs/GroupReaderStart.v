(* Proofs/GroupReaderStart.v — C03_assignment_start: OffsetFetch answers the coordinator's
   committed offset (a function of the history), offset < 0 => StartOffset, and every
   partition reader is initialised from the offset its generation fetched. *)
From Coq Require Import List NArith ZArith Bool Lia.
From Coq Require Import ZifyN ZifyNat ZifyBool.
From KV Require Import Lib.LTS Model.GroupReader Proofs.GroupReaderBase Proofs.GroupReaderCommit Proofs.GroupReaderCover.
Import ListNotations.
Open Scope Z_scope.

Definition fetched (h : list event) (r : nat) (t : tp) (st : Z) : Prop :=
  exists g raw, In (EvOffsetFetch r g t raw st) h.

Definition P_start (cfg : config) (e : event) (h : list event) : Prop :=
  match e with
  | EvOffsetFetch r g t raw start =>
    raw = match hist_committed h t with Some c => c | None => -1 end /\
    start = start_of_raw (cfg_start cfg) raw
  | EvReaderInit r v t given resolved =>
    resolved = resolve_start given (hist_hw h t) /\ fetched h r t given
  | _ => True
  end.

Definition silent (es : list event) : Prop :=
  forall e, In e es -> match e with EvAppend _ => False | EvOffsetCommit _ _ _ _ _ true => False | _ => True end.

Lemma hist_committed_silent : forall es h t, silent es -> hist_committed (es ++ h) t = hist_committed h t.
Proof.
  induction es as [|e es IH]; intros h t Hn; [reflexivity|].
  assert (He := Hn e (or_introl eq_refl)).
  assert (Hn' : silent es) by (intros e' H'; apply Hn; right; exact H').
  destruct e; cbn [app hist_committed]; try (apply IH; exact Hn').
  destruct applied; [contradiction|apply IH; exact Hn'].
Qed.
Lemma hist_hw_silent : forall es h t, silent es -> hist_hw (es ++ h) t = hist_hw h t.
Proof.
  induction es as [|e es IH]; intros h t Hn; [reflexivity|].
  assert (He := Hn e (or_introl eq_refl)).
  assert (Hn' : silent es) by (intros e' H'; apply Hn; right; exact H').
  destruct e; cbn [app hist_hw]; try (apply IH; exact Hn'). contradiction.
Qed.

(* sg: committed offsets and high watermarks are what the history says; sr: every offset a member holds
   for starting a partition reader was fetched by it *)
Definition sg (h : list event) (cm hw : amap) : Prop :=
  (forall t, lookup cm t = hist_committed h t) /\ (forall t, hw_of hw t = hist_hw h t).
Definition sr (h : list event) (r : nat) (x : rstate) : Prop :=
  (match rd_phase x with PFetched _ _ offs => forall t st, In (t, st) offs -> fetched h r t st | _ => True end) /\
  (forall p, In p (rd_readers x) -> fetched h r (pr_tp p) (pr_start p)).
Definition inv_start (s : state) : Prop :=
  sg (st_hist s) (co_committed (st_co s)) (st_hw s) /\ forall r, sr (st_hist s) r (st_rd s r).

Lemma fetched_mono : forall es h r t st, fetched h r t st -> fetched (es ++ h) r t st.
Proof. intros es h r t st [g [raw H]]; exists g, raw; apply in_or_app; right; exact H. Qed.
Lemma sr_mono : forall es h r x, sr h r x -> sr (es ++ h) r x.
Proof.
  intros es h r x [A B]; split.
  - destruct (rd_phase x); auto. intros t st Hin; apply fetched_mono; eapply A; eauto.
  - intros p Hin; apply fetched_mono; apply B; exact Hin.
Qed.
Lemma sg_silent : forall es h cm hw, silent es -> sg h cm hw -> sg (es ++ h) cm hw.
Proof.
  intros es h cm hw Hn [A B]; split; intros t;
    [rewrite hist_committed_silent by exact Hn; apply A|rewrite hist_hw_silent by exact Hn; apply B].
Qed.

Lemma not_fetch_init : forall cfg e,
  match e with EvOffsetFetch _ _ _ _ _ => False | EvReaderInit _ _ _ _ _ => False | _ => True end ->
  forall h, P_start cfg e h.
Proof. intros cfg [] H h; try exact I; contradiction. Qed.

Lemma sg_commit : forall h cm cm' hw r mid g offs z (b : bool),
  sg h cm hw -> cm' = (if b then store cm offs else cm) ->
  sg ([EvOffsetCommit r mid g offs z b] ++ h) cm' hw.
Proof.
  intros h cm cm' hw r mid g offs z b [A B] ->; split; intros t.
  - cbn [app hist_committed]. destruct b; [rewrite lookup_store; destruct (lookup offs t); [reflexivity|apply A]|apply A].
  - cbn [app hist_hw]. apply B.
Qed.

Lemma sg_replies : forall h cm hw r ws w res es w' pre,
  replies r ws w res = (es, w') -> sg (pre ++ h) cm hw -> sg ((es ++ pre) ++ h) cm hw.
Proof.
  intros h cm hw r ws w res es w' pre Hrep H. rewrite <- app_assoc. apply sg_silent; [|exact H].
  intros e He. destruct (replies_events _ _ _ _ _ _ Hrep e He) as [id [_ ->]]. exact I.
Qed.

Lemma step_start : forall cfg s l s',
  inv_start s /\ hist_ok (P_start cfg) (st_hist s) -> step cfg s l = Some s' ->
  inv_start s' /\ hist_ok (P_start cfg) (st_hist s').
Proof.
  intros cfg s l s' [[Hg Hr] Ho] H.
  destruct (step_kind _ _ _ _ H) as (r & x' & c' & hw' & es & K & Hrd & Hco & Hhw & Hh). clear H.
  assert (M : sg (es ++ st_hist s) (co_committed c') hw' /\ sr (es ++ st_hist s) r x' /\
              hist_ok (P_start cfg) (es ++ st_hist s)).
  { pose proof (Hr r) as Hx. revert Hx K. generalize (st_rd s r) as x. intros x Hx K.
    pose proof (sr_mono es _ _ _ Hx) as Hx'.
    destruct K;
      (split; [try (match goal with E : co_committed _ = co_committed _ |- _ => rewrite E end);
               try solve [apply sg_silent; [each_event|exact Hg]]
              |split; [try exact Hx'
                      |try solve [apply hist_ok_app_triv; [exact Ho|]; intros e He; apply not_fetch_init; revert e He; each_event]]]).
    - destruct Hg as [A B]. split; intros t0.
      + cbn [app hist_committed]. apply A.
      + cbn [app hist_hw]. unfold hw_of at 1. rewrite lookup_aset, <- B.
        destruct (tp_eqb t0 t) eqn:Et; [apply tp_eqb_eq in Et; subst; reflexivity|reflexivity].
    - split; [exact I|exact (proj2 Hx')].
    - split; [exact I|exact (proj2 Hx')].
    - (* LOffsetFetch: what was fetched, and the answers *)
      split; [|exact (proj2 Hx')].
      intros t0 st Hin. apply in_map_iff in Hin. destruct Hin as [t1 [Heq Hin]]. inversion Heq; subst.
      exists g, (fetch_raw (co_committed (st_co s)) t0). apply in_or_app; left. apply -> in_rev.
      apply in_map_iff. exists t0. split; [reflexivity|exact Hin].
    - apply hist_ok_app; [exact Ho|]. intros e1 esa esb Eq.
      assert (Hev : forall e, In e (esa ++ e1 :: esb) -> exists t0, e = EvOffsetFetch r g t0
                (fetch_raw (co_committed (st_co s)) t0)
                (start_of_raw (cfg_start cfg) (fetch_raw (co_committed (st_co s)) t0))).
      { rewrite <- Eq. intros e He. apply in_rev in He. apply in_map_iff in He.
        destruct He as [t0 [<- _]]. eauto. }
      destruct (Hev e1) as [t0 ->]; [apply in_or_app; right; left; reflexivity|]. cbn. split; [|reflexivity].
      rewrite hist_committed_silent.
      + unfold fetch_raw. rewrite (proj1 Hg). reflexivity.
      + intros e He. destruct (Hev e) as [? ->]; [apply in_or_app; right; right; exact He|exact I].
    - split; [exact I|]. intros p0 Hin. apply in_map_iff in Hin. destruct Hin as [[t0 st] [<- Hin]]. cbn.
      destruct Hx' as [Sa _]. rewrite H in Sa. eapply Sa; eauto.
    - destruct H as [(_ & -> & ->)|(_ & -> & ->)]; [exact Hx'|split; [exact (proj1 Hx')|intros ? []]].
    - split; [exact (proj1 Hx')|]. intros p0 Hin. apply set_reader_In in Hin.
      destruct Hin as [Hin|[p1 [Hf ->]]]; [apply (proj2 Hx'); exact Hin|]. cbn.
      apply (proj2 Hx'). exact (proj1 (find_reader_In _ _ _ Hf)).
    - cbn [app]. split; [|exact Ho]. cbn. destruct (find_reader_In _ _ _ H) as [Hp Ht]. split.
      + rewrite <- (proj2 Hg). reflexivity.
      + rewrite <- Ht. apply (proj2 Hx). exact Hp.
    - split; [exact (proj1 Hx')|]. intros p0 Hin. apply set_reader_In in Hin.
      destruct Hin as [Hin|[p1 [Hf ->]]]; [apply (proj2 Hx'); exact Hin|]. cbn.
      apply (proj2 Hx'). exact (proj1 (find_reader_In _ _ _ Hf)).
    - apply sg_silent; [|exact Hg]. destruct (snap <=? v)%N; each_event.
    - destruct (snap <=? v)%N; (split; [exact I|exact Ho]).
    - apply sg_silent; [|exact Hg]. destruct H0 as [(_ & _ & ->)|(_ & _ & ->)]; each_event.
    - destruct H0 as [(_ & _ & ->)|(_ & _ & ->)]; cbn; repeat split; exact Ho.
    - (* the commit is over / retry *)
      destruct H2 as [(-> & -> & _)|(mid & g & z & b & -> & -> & _)]; (eapply sg_replies; [exact H0|]);
        [exact Hg|eapply sg_commit; [exact Hg|destruct b; reflexivity]].
    - eapply hist_ok_replies; [exact H0|intros; exact I|].
      destruct H2 as [(-> & _)|(mid & g & z & b & -> & _)]; [exact Ho|split; [exact I|exact Ho]].
    - eapply sg_commit; [exact Hg|destruct b; reflexivity]. }
  destruct M as (Mg & Mr & Mh). unfold inv_start. rewrite Hco, Hhw, Hh. split; [|exact Mh].
  split; [exact Mg|]. intros r0. rewrite Hrd. unfold upd.
  destruct (Nat.eqb r0 r) eqn:Er; [apply Nat.eqb_eq in Er; subst r0; exact Mr|apply sr_mono, Hr].
Qed.


Lemma init_start : forall cfg, inv_start init /\ hist_ok (P_start cfg) (st_hist init).
Proof.
  intros; split; [|exact I]. split.
  - split; intros t; reflexivity.
  - intros r; split; cbn; [exact I|intros ? []].
Qed.

Lemma start_run : forall cfg ls s, run (step cfg) init ls = Some s ->
  inv_start s /\ hist_ok (P_start cfg) (st_hist s).
Proof.
  intros cfg ls s.
  apply (@inv_run _ _ (step cfg) (fun y => inv_start y /\ hist_ok (P_start cfg) (st_hist y)));
    [apply step_start|apply init_start].
Qed.
