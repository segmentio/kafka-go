(* Proofs/GroupBalancersProofs.v — Range and RoundRobin as index-selecting balancers; and, for any
   result with the three clauses of [exact_partition], the single holder of a partition *)
From Coq Require Import List NArith ZArith Bool Arith Lia Permutation.
From KV Require Import Model.GroupBalancers Proofs.GroupBalancersBase
  Proofs.GroupBalancersRange Proofs.GroupBalancersRR.
Import ListNotations.

Lemma range_partition ms ps : wf_group ms -> exact_partition ms ps (range_assign ms ps).
Proof.
  rewrite range_assign_ib. apply ib_partition. intros parts mc H.
  rewrite range_sel_all by exact H. reflexivity.
Qed.

Lemma rr_partition ms ps : wf_group ms -> exact_partition ms ps (rr_assign ms ps).
Proof. rewrite rr_assign_ib. apply ib_partition, rr_sel_all. Qed.

Lemma range_even ms ps : wf_group ms -> even_loads ms ps (range_assign ms ps).
Proof. rewrite range_assign_ib. apply ib_even, range_sel_length. Qed.

Lemma rr_even ms ps : wf_group ms -> even_loads ms ps (rr_assign ms ps).
Proof. rewrite rr_assign_ib. apply ib_even, rr_sel_len. Qed.

Lemma NoDup_app_disjoint {A} (l1 l2 : list A) x : NoDup (l1 ++ l2) -> In x l1 -> In x l2 -> False.
Proof.
  induction l1 as [|a l1 IH]; cbn [app In]; [tauto|]. intros H [->|H1] H2.
  - inversion H; subst. apply H3. apply in_or_app. right. exact H2.
  - inversion H; subst. apply IH; assumption.
Qed.

Lemma NoDup_flat_map_unique {A B} (f : A -> list B) l a1 a2 x :
  NoDup (flat_map f l) -> In a1 l -> In a2 l -> In x (f a1) -> In x (f a2) -> a1 = a2.
Proof.
  induction l as [|b l IH]; cbn [flat_map In]; [tauto|]. intros Hnd [->|H1] [->|H2] X1 X2.
  - reflexivity.
  - exfalso. eapply NoDup_app_disjoint; [exact Hnd|exact X1|]. apply in_flat_map. exists a2. tauto.
  - exfalso. eapply NoDup_app_disjoint; [exact Hnd|exact X2|]. apply in_flat_map. exists a1. tauto.
  - apply IH; try assumption. clear - Hnd. induction (f b) as [|y l0 IH0]; [exact Hnd|].
    inversion Hnd; subst. apply IH0. assumption.
Qed.

Lemma in_assigned a id t p :
  In p (assigned a id t) <-> exists tr, In tr a /\ fst (fst tr) = id /\ snd (fst tr) = t /\ In p (snd tr).
Proof.
  unfold assigned. rewrite in_flat_map. split.
  - intros [tr [H1 H2]]. exists tr.
    destruct (bytes_eqb_spec (fst (fst tr)) id), (bytes_eqb_spec (snd (fst tr)) t); cbn [andb] in H2;
      try contradiction. tauto.
  - intros [tr [H1 [H2 [H3 H4]]]]. exists tr. split; [exact H1|].
    rewrite H2, H3, !bytes_eqb_refl. exact H4.
Qed.

Lemma exactly_one_holder ms ps a t p : wf_group ms -> exact_partition ms ps a ->
  NoDup (find_partitions t ps) -> In p (find_partitions t ps) ->
  existsb (subscribes t) ms = true ->
  exists m, In m ms /\ In t (m_topics m) /\ In p (assigned a (m_id m) t) /\
    forall m', In m' ms -> In p (assigned a (m_id m') t) -> m' = m.
Proof.
  intros [Hids _] [Hk [Hmem Hperm]] Hnd Hp Es. specialize (Hperm t). rewrite Es in Hperm.
  assert (Hnd' : NoDup (topic_parts a t))
    by (eapply Permutation_NoDup; [apply Permutation_sym; exact Hperm|exact Hnd]).
  assert (Hin : In p (topic_parts a t))
    by (eapply Permutation_in; [apply Permutation_sym; exact Hperm|exact Hp]).
  unfold topic_parts in Hin. apply in_flat_map in Hin. destruct Hin as [tr [Htr Hptr]].
  destruct (bytes_eqb_spec (snd (fst tr)) t) as [Et|]; [|contradiction].
  destruct (Hmem tr Htr) as [m [Hm [Eid Hsub]]]. exists m.
  split; [exact Hm|]. split; [rewrite <- Et; exact Hsub|].
  split. { apply in_assigned. exists tr. auto. }
  intros m' Hm' Hp'. apply in_assigned in Hp'. destruct Hp' as [tr' [Htr' [Eid' [Et' Hptr']]]].
  assert (tr' = tr).
  { apply (NoDup_flat_map_unique _ a tr' tr p Hnd' Htr' Htr).
    - rewrite Et', bytes_eqb_refl. exact Hptr'.
    - rewrite Et, bytes_eqb_refl. exact Hptr. }
  subst tr'. eapply NoDup_map_inj; [exact Hids|exact Hm'|exact Hm|congruence].
Qed.
