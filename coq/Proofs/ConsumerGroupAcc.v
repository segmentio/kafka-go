(* Proofs/ConsumerGroupAcc.v — state invariants of the ConsumerGroup model: routine accounting
   (Generation.Start / exit handler / close), no double close, no lost wake-up in gen.close. *)
From Coq Require Import List ZArith Bool Arith Lia ZifyNat ZifyBool.
From KV Require Import Model.ConsumerGroup Proofs.ConsumerGroupBase.
Import ListNotations.

(* accounted to generation k (Start took the routines++ branch); live: exit handler not yet run *)
Definition acc_of (k : nat) (f : fn) : bool := Nat.eqb (f_gen f) k && f_acc f.
Definition live_of (k : nat) (f : fn) : bool :=
  acc_of k f && match f_st f with FExited => false | _ => true end.
Definition count_live (k : nat) (l : list fn) : nat := length (filter (live_of k) l).
Definition has_acc (k : nat) (l : list fn) : bool := existsb (acc_of k) l.
Definition quiescent (p : pcs) : bool :=
  match p with
  | PStartHB | PStartWatch _ | PPublish | PWait | PCloseLock _ | PCloseWait _ => false
  | _ => true end.

Definition b2n (b : bool) : nat := if b then 1 else 0.

Lemma nth_lt : forall A (l : list A) i x, nth_error l i = Some x -> i < length l.
Proof. intros A l i x H. apply nth_error_Some. congruence. Qed.

Lemma nth_snoc : forall A (l : list A) x j y,
  nth_error (l ++ [x]) j = Some y -> nth_error l j = Some y \/ (j = length l /\ y = x).
Proof.
  intros A l x j y H. destruct (Nat.lt_ge_cases j (length l)) as [L|L].
  - rewrite nth_error_app1 in H by exact L. left; exact H.
  - rewrite nth_error_app2 in H by exact L. right.
    destruct (j - length l) as [|n] eqn:E.
    + cbn in H. inversion H. split; [lia|reflexivity].
    + cbn in H. destruct n; discriminate.
Qed.

Lemma nth_snoc_old : forall A (l : list A) x j y,
  nth_error l j = Some y -> nth_error (l ++ [x]) j = Some y.
Proof. intros. rewrite nth_error_app1; [assumption|eapply nth_lt; eauto]. Qed.

Lemma nth_snoc_new : forall A (l : list A) x, nth_error (l ++ [x]) (length l) = Some x.
Proof. intros. rewrite nth_error_app2 by lia. rewrite Nat.sub_diag. reflexivity. Qed.

Lemma nth_upd_eq : forall A (l : list A) k x y, nth_error l k = Some x -> nth_error (upd k y l) k = Some y.
Proof. intros. apply nth_error_upd_same. eapply nth_lt; eauto. Qed.

Lemma nth_upd_cases : forall A (l : list A) i x y j z,
  nth_error l i = Some x -> nth_error (upd i y l) j = Some z ->
  (j = i /\ z = y) \/ (j <> i /\ nth_error l j = Some z).
Proof.
  intros A l i x y j z Hi Hj. destruct (Nat.eq_dec i j) as [e|e].
  - subst j. rewrite (nth_upd_eq _ _ _ _ _ Hi) in Hj. inversion Hj. left; auto.
  - rewrite nth_error_upd_other in Hj by exact e. right; auto.
Qed.

Lemma upd_last_below : forall A (l : list A) x k, k < pred (length l) ->
  nth_error (upd (pred (length l)) x l) k = nth_error l k.
Proof. intros A l x k L. apply nth_error_upd_other, not_eq_sym, Nat.lt_neq, L. Qed.

Lemma In_upd : forall A i (y : A) l x, In x (upd i y l) -> x = y \/ In x l.
Proof.
  induction i; destruct l; cbn; intros x H; auto.
  - destruct H; auto.
  - destruct H as [H|H]; auto. apply IHi in H. tauto.
Qed.

Lemma count_live_app : forall k l f, count_live k (l ++ [f]) = count_live k l + b2n (live_of k f).
Proof.
  intros. unfold count_live. rewrite filter_app, app_length. cbn [filter].
  destruct (live_of k f); reflexivity.
Qed.

Lemma has_acc_app : forall k l f, has_acc k (l ++ [f]) = has_acc k l || acc_of k f.
Proof. intros. unfold has_acc. rewrite existsb_app. cbn [existsb]. rewrite orb_false_r. reflexivity. Qed.

Lemma count_live_upd : forall k l i f f', nth_error l i = Some f ->
  count_live k (upd i f' l) + b2n (live_of k f) = count_live k l + b2n (live_of k f').
Proof.
  intros k l. induction l as [|h t IH]; intros [|i] f f' H; cbn in H; try discriminate.
  - inversion H; subst. unfold count_live. cbn [upd filter].
    destruct (live_of k f), (live_of k f'); cbn; lia.
  - specialize (IH _ _ f' H). unfold count_live in *. cbn [upd filter].
    destruct (live_of k h); cbn [length]; lia.
Qed.

Lemma count_live_upd_same : forall k l i f f', nth_error l i = Some f -> live_of k f' = live_of k f ->
  count_live k (upd i f' l) = count_live k l.
Proof.
  intros k l i f f' H E. pose proof (count_live_upd k l i f f' H) as Q. rewrite E in Q.
  apply Nat.add_cancel_r in Q. exact Q.
Qed.

Lemma count_live_upd_exit : forall k l i f f', nth_error l i = Some f ->
  live_of k f = true -> live_of k f' = false -> count_live k l = S (count_live k (upd i f' l)).
Proof.
  intros k l i f f' H E E'. pose proof (count_live_upd k l i f f' H) as Q. rewrite E, E' in Q.
  cbn [b2n] in Q. rewrite Nat.add_0_r, Nat.add_1_r in Q. symmetry. exact Q.
Qed.

Lemma has_acc_upd : forall k l i f f', nth_error l i = Some f -> acc_of k f' = acc_of k f ->
  has_acc k (upd i f' l) = has_acc k l.
Proof.
  intros k l. induction l as [|h t IH]; intros [|i] f f' H E; cbn in H; try discriminate;
    unfold has_acc in *; cbn [upd existsb].
  - inversion H; subst. rewrite E. reflexivity.
  - f_equal. eapply IH; eauto.
Qed.

Lemma count_live_pos : forall k l i f, nth_error l i = Some f -> live_of k f = true -> 0 < count_live k l.
Proof.
  intros k l. induction l as [|h t IH]; intros [|i] f H E; cbn in H; try discriminate;
    unfold count_live in *; cbn [filter].
  - inversion H; subst. rewrite E. cbn; lia.
  - specialize (IH _ _ H E). destruct (live_of k h); cbn [length]; lia.
Qed.

Lemma live_acc : forall k f, live_of k f = true -> acc_of k f = true.
Proof. unfold live_of. intros k f H. apply andb_true_iff in H. tauto. Qed.

Lemma live_self : forall f, f_acc f = true -> f_st f <> FExited -> live_of (f_gen f) f = true.
Proof.
  intros f A N. unfold live_of, acc_of. rewrite Nat.eqb_refl, A. destruct (f_st f); try reflexivity. destruct N; reflexivity.
Qed.

Lemma has_acc_nth : forall k l i f, nth_error l i = Some f -> acc_of k f = true -> has_acc k l = true.
Proof.
  intros. unfold has_acc. apply existsb_exists. exists f. split; [eapply nth_error_In; eauto|assumption].
Qed.

Lemma count_live_has_acc : forall k l, 0 < count_live k l -> has_acc k l = true.
Proof.
  intros k l. unfold count_live, has_acc. induction l as [|h t IH]; cbn [filter existsb]; intro H.
  - inversion H.
  - destruct (live_of k h) eqn:E; [rewrite (live_acc _ _ E); reflexivity|]. rewrite (IH H). apply orb_true_r.
Qed.

Lemma no_gen : forall k l, (forall f, In f l -> f_gen f <> k) -> count_live k l = 0 /\ has_acc k l = false.
Proof.
  intros k l. induction l as [|h t IH]; intro H; [split; reflexivity|].
  destruct IH as [A B]; [intros; apply H; right; assumption|].
  assert (E : acc_of k h = false).
  { unfold acc_of. destruct (Nat.eqb_spec (f_gen h) k) as [e|e]; [|reflexivity].
    exfalso. eapply H; [left; reflexivity|exact e]. }
  unfold count_live, has_acc, live_of in *. cbn [filter existsb]. rewrite E. cbn [andb orb]. tauto.
Qed.

(* An inert step records only boring events, and the exit of run only on reaching PExited ([evP], hence
   indexed by the post-state).  [pcrel]: the control point stays, moves between quiescent points, or
   leaves a select for gen.close() (LPublishAbort, LWaitClosed, LWaitGenDone). *)
Definition boring (e : event) : bool :=
  match e with
  | HGenNew _ _ | HStart _ _ _ | HFnRet _ _ | HDone _ | HJoined _ | HHeartbeat _ _ _ | HNextRet _ _ => false
  | _ => true end.

Definition evP (s' : state) (e : event) : Prop :=
  boring e = true /\ (ev_is_runexit e = true -> pc s' = PExited).

Definition pcrel (p p' : pcs) : Prop :=
  p' = p \/ (quiescent p = true /\ quiescent p' = true) \/ (quiescent p = false /\ exists w, p' = PCloseLock w).

Definition closed_gen (g : gen) : gen :=
  if g_closed g then g else mkgen (g_mid g) true true (g_routines g) (g_joined g) (g_pub g).
Definition dec_gen (g : gen) : gen :=
  mkgen (g_mid g) (g_closed g) (g_done g) (g_routines g - 1)
        (if (g_routines g - 1 =? 0)%Z then true else g_joined g) (g_pub g).

Lemma cg_closed : forall g, g_closed (closed_gen g) = true.
Proof. intro g. unfold closed_gen. destruct (g_closed g) eqn:E; [exact E|reflexivity]. Qed.
Lemma cg_routines : forall g, g_routines (closed_gen g) = g_routines g.
Proof. intro g. unfold closed_gen. destruct (g_closed g); reflexivity. Qed.
Lemma cg_joined : forall g, g_joined (closed_gen g) = g_joined g.
Proof. intro g. unfold closed_gen. destruct (g_closed g); reflexivity. Qed.
Lemma cg_mid : forall g, g_mid (closed_gen g) = g_mid g.
Proof. intro g. unfold closed_gen. destruct (g_closed g); reflexivity. Qed.
Lemma cg_pub : forall g, g_pub (closed_gen g) = g_pub g.
Proof. intro g. unfold closed_gen. destruct (g_closed g); reflexivity. Qed.
Lemma cg_gdone : forall g, g_closed g = g_done g -> g_done (closed_gen g) = true.
Proof. intros g H. unfold closed_gen. destruct (g_closed g) eqn:E; [congruence|reflexivity]. Qed.

Definition start_ctx (s s' : state) (k : nat) (kd : fkind) (g : gen) : Prop :=
  (kd = KUser /\ g_pub g = true /\ pc s' = pc s) \/
  (kd = KHeartbeat /\ k = cur s /\ pc s = PStartHB /\ pc s' = after_start (nwatch s)) \/
  (kd = KWatcher /\ k = cur s /\ exists n, pc s = PStartWatch (S n) /\ pc s' = after_start n).

Definition is_inert (l : label) : bool :=
  match l with
  | LCoord _ | LJoin _ | LSync _ _ | LFetch (AErr _) | LPublishAbort | LWaitClosed | LWaitGenDone
  | LLeaveCoord _ | LLeaveReq _ | LOfferAbort | LNextErr _ | LBackoffAbort | LBackoffFire
  | LNextCall _ | LNextClosed _ | LNextCtx _ | LCloseCall _ | LCloseRet _
  | LWatchTick _ WSame | LWatchTick _ WKafkaErr => true
  | _ => false end.

Definition start_of (s : state) (l : label) : option (nat * fkind) :=
  match l with
  | LStart k => Some (k, KUser)
  | LStartHB => Some (cur s, KHeartbeat)
  | LStartWatch => Some (cur s, KWatcher)
  | _ => None end.

Definition triggers (l : label) : option nat :=
  match l with
  | LFnReturn i | LFnSeeDone i | LHbTick i (AErr _) | LWatchInit i (AErr _)
  | LWatchTick i WChanged | LWatchTick i WDropped => Some i
  | _ => None end.

(* one step, by kind of label; the first premise of each case says which labels it stands for *)
Inductive shape (s : state) (l : label) (s' : state) : Prop :=
| ShInert :
    is_inert l = true ->
    gens s' = gens s -> fns s' = fns s -> panicked s' = false ->
    pcrel (pc s) (pc s') -> (pc s = PExited -> pc s' = PExited) ->
    ext (evP s') (hist s) (hist s') -> shape s l s'
| ShNewGen m :
    l = LFetch AOk -> pc s = PFetch -> gens s' = gens s ++ [new_gen m] -> fns s' = fns s -> panicked s' = false ->
    pc s' = PStartHB -> hist s' = HGenNew (length (gens s)) m :: HFetchReq :: hist s -> shape s l s'
| ShStart k kd g :
    start_of s l = Some (k, kd) -> nth_error (gens s) k = Some g ->
    gens s' = (if g_closed g then gens s else upd k (g_inc g) (gens s)) ->
    fns s' = fns s ++ [mkfn k kd (negb (g_closed g)) FRunning false] ->
    panicked s' = false ->
    hist s' = HStart k (length (fns s)) (negb (g_closed g)) :: hist s ->
    start_ctx s s' k kd g -> shape s l s'
| ShPub n g :
    l = LNextGen n -> pc s = PPublish -> nth_error (gens s) (cur s) = Some g ->
    gens s' = upd (cur s) (g_set_pub g) (gens s) -> fns s' = fns s -> panicked s' = false ->
    pc s' = PWait -> hist s' = HNextRet n (cur s) :: hist s -> shape s l s'
| ShClose w g :
    l = LGenCloseLock -> pc s = PCloseLock w -> nth_error (gens s) (cur s) = Some g ->
    gens s' = upd (cur s) (closed_gen g) (gens s) -> fns s' = fns s ->
    panicked s' = negb (g_closed g) && g_done g ->
    (if (0 <? g_routines g)%Z then pc s' = PCloseWait w else quiescent (pc s') = true) ->
    ext (evP s') (if g_closed g then hist s else HDone (cur s) :: hist s) (hist s') -> shape s l s'
| ShJoined w g :
    l = LGenCloseJoined -> pc s = PCloseWait w -> nth_error (gens s) (cur s) = Some g -> g_joined g = true ->
    gens s' = gens s -> fns s' = fns s -> panicked s' = false ->
    quiescent (pc s') = true -> ext (evP s') (hist s) (hist s') -> shape s l s'
| ShFnRet i f :
    triggers l = Some i -> nth_error (fns s) i = Some f -> f_st f = FRunning ->
    gens s' = gens s ->
    fns s' = upd i (f_set_st (if f_acc f then FReturned else FExited) f) (fns s) ->
    panicked s' = false -> pc s' = pc s ->
    (hist s' = HFnRet (f_gen f) i :: hist s \/
     (is_hb f = true /\ exists g, nth_error (gens s) (f_gen f) = Some g /\
        hist s' = HFnRet (f_gen f) i :: HHeartbeat (f_gen f) i (g_mid g) :: hist s)) ->
    shape s l s'
| ShHb i f g :
    l = LHbTick i AOk -> nth_error (fns s) i = Some f -> f_st f = FRunning -> is_hb f = true ->
    nth_error (gens s) (f_gen f) = Some g ->
    gens s' = gens s -> fns s' = fns s -> panicked s' = false -> pc s' = pc s ->
    hist s' = HHeartbeat (f_gen f) i (g_mid g) :: hist s -> shape s l s'
| ShInit i f :
    l = LWatchInit i AOk -> nth_error (fns s) i = Some f -> f_st f = FRunning ->
    gens s' = gens s -> fns s' = upd i (f_set_init f) (fns s) ->
    panicked s' = false -> pc s' = pc s -> hist s' = hist s -> shape s l s'
| ShHandler i f g :
    l = LFnHandler i -> nth_error (fns s) i = Some f -> f_st f = FReturned -> f_acc f = true ->
    nth_error (gens s) (f_gen f) = Some g ->
    gens s' = upd (f_gen f) (dec_gen (closed_gen g)) (gens s) ->
    fns s' = upd i (f_set_st FExited f) (fns s) ->
    panicked s' = (negb (g_closed g) && g_done g) || ((g_routines g - 1 =? 0)%Z && g_joined g) ->
    pc s' = pc s ->
    hist s' = (if (g_routines g - 1 =? 0)%Z then [HJoined (f_gen f)] else []) ++
              (if g_closed g then hist s else HDone (f_gen f) :: hist s) ->
    shape s l s'.

Ltac ext_tac :=
  repeat first [ apply ext_nil
               | apply ext_cons; [split; [reflexivity | cbn; intros; try discriminate; reflexivity] |] ].

Ltac pcrel_tac :=
  repeat match goal with H : pc ?s = _ |- _ => rewrite H end;
  first [ left; reflexivity
        | right; left; split; reflexivity
        | right; right; split; [reflexivity | eexists; reflexivity] ].

Lemma inert_step : forall s l s', panicked s = false -> is_inert l = true -> step s l = Some s' -> shape s l s'.
Proof.
  intros s l s' Hp Hq H. unfold step in H. rewrite Hp in H.
  destruct l; cbn in Hq; repeat bm Hq; try discriminate Hq; clear Hq.
  all: unfold fail_ng, enter_leave, finish_leave, exit_run in H.
  all: repeat (cbn in H; bm H); try discriminate H.
  all: cbn in H; inversion H; subst s'; clear H.
  all: apply ShInert; cbn;
    [ reflexivity | reflexivity | reflexivity | assumption | pcrel_tac
    | intros; first [reflexivity | congruence] | ext_tac ].
Qed.

Lemma running_st : forall f, running f = true -> f_st f = FRunning.
Proof. unfold running. intros f. destruct (f_st f); intro; try discriminate; reflexivity. Qed.

Lemma fn_return_shape : forall s l i f s0 s',
  triggers l = Some i -> nth_error (fns s) i = Some f -> running f = true ->
  gens s0 = gens s -> fns s0 = fns s -> panicked s0 = false -> pc s0 = pc s ->
  (hist s0 = hist s \/
   (is_hb f = true /\ exists g, nth_error (gens s) (f_gen f) = Some g /\
      hist s0 = HHeartbeat (f_gen f) i (g_mid g) :: hist s)) ->
  s' = fn_return i f s0 -> shape s l s'.
Proof.
  intros s l i f s0 s' Hl Hf Hr Hg Hfs Hp Hpc Hh ->.
  apply (ShFnRet s l _ i f); cbn; try assumption; try congruence.
  - apply running_st; assumption.
  - destruct Hh as [Hh|(Hb & g & Eg & Hh)].
    + left. congruence.
    + right. split; [assumption|]. exists g. split; [assumption|]. congruence.
Qed.

Lemma end_gen_spec : forall k g s, exists s1, end_gen k g s = (closed_gen g, s1) /\
  gens s1 = gens s /\ fns s1 = fns s /\ pc s1 = pc s /\
  panicked s1 = panicked s || (negb (g_closed g) && g_done g) /\
  hist s1 = (if g_closed g then hist s else HDone k :: hist s).
Proof.
  intros k g s. unfold end_gen, closed_gen.
  destruct (g_closed g), (g_done g); eexists; (split; [reflexivity|]); cbn;
    rewrite ?orb_false_r, ?orb_true_r; repeat split; reflexivity.
Qed.

Lemma after_close_shape : forall w s,
  gens (after_close w s) = gens s /\ fns (after_close w s) = fns s /\
  panicked (after_close w s) = panicked s /\ quiescent (pc (after_close w s)) = true /\
  ext (evP (after_close w s)) (hist s) (hist (after_close w s)).
Proof.
  intros [] s; unfold after_close, enter_leave, finish_leave, exit_run; destruct (mid s); cbn;
    repeat split; ext_tac.
Qed.

(* the guard of a function label: the function exists and each conjunct holds *)
Ltac fn_guard H :=
  match type of H with match nth_error (fns ?s) ?i with _ => _ end = _ =>
    destruct (nth_error (fns s) i) as [fn|] eqn:Ef; [|discriminate H] end;
  match type of H with (if ?c then _ else _) = _ => destruct c eqn:Ec end; [|discriminate H];
  repeat match goal with X : _ && _ = true |- _ => apply andb_true_iff in X; destruct X end.

Lemma step_shape : forall s l s', step s l = Some s' -> shape s l s'.
Proof.
  intros s l s' H.
  assert (Hp : panicked s = false).
  { unfold step in H. destruct (panicked s); [discriminate|reflexivity]. }
  destruct (is_inert l) eqn:Hq; [eapply inert_step; eauto|].
  unfold step in H; rewrite Hp in H.
  destruct l; cbn in Hq; repeat bm Hq; try discriminate Hq; clear Hq.
  - destruct (pc s) eqn:Epc; try discriminate H. destruct (mid s) as [m|] eqn:Em; try discriminate H.
    inversion H; subst s'; clear H. apply (ShNewGen s _ _ m); cbn; auto.
  - destruct (pc s) eqn:Epc; try discriminate H.
    destruct (do_start (cur s) KHeartbeat s) as [s1|] eqn:E; [|discriminate H].
    cbn in H. inversion H; subst s'; clear H.
    apply do_start_shape in E. destruct E as (g & Eg & A & B & C & D & _ & F).
    apply (ShStart s _ _ (cur s) KHeartbeat g); cbn; try assumption; try congruence.
    right; left. repeat split; auto.
  - destruct (pc s) eqn:Epc; try discriminate H. destruct n as [|n]; [discriminate H|].
    destruct (do_start (cur s) KWatcher s) as [s1|] eqn:E; [|discriminate H].
    cbn in H. inversion H; subst s'; clear H.
    apply do_start_shape in E. destruct E as (g & Eg & A & B & C & D & _ & F).
    apply (ShStart s _ _ (cur s) KWatcher g); cbn; try assumption; try congruence.
    right; right. repeat split; auto. exists n. split; auto.
  - destruct (pc s) eqn:Epc; try discriminate H.
    destruct (nth_error (gens s) (cur s)) as [g|] eqn:Eg; [|discriminate H].
    destruct (end_gen_spec (cur s) g s) as (s1 & E1 & Ag & Af & _ & Ap & Ah). rewrite E1 in H.
    cbv beta iota zeta in H. rewrite cg_routines, Ag in H. rewrite Hp in Ap. inversion H; subst s'; clear H.
    destruct (after_close_shape w (set_gens (upd (cur s) (closed_gen g) (gens s)) s1)) as (Bg & Bf & Bp & Bq & Bh).
    apply (ShClose s _ _ w g); try reflexivity; try assumption;
      destruct (0 <? g_routines g)%Z; rewrite ?Bg, ?Bf, ?Bp; cbn; rewrite ?Af, ?Ap; try reflexivity; try assumption.
    + rewrite Ah. apply ext_nil.
    + cbn in Bh. rewrite Ah in Bh. exact Bh.
  - destruct (pc s) eqn:Epc; try discriminate H.
    destruct (nth_error (gens s) (cur s)) as [g|] eqn:Eg; [|discriminate H].
    destruct (g_joined g) eqn:Ej; [|discriminate H]. inversion H; subst s'; clear H.
    destruct (after_close_shape w s) as (Bg & Bf & Bp & Bq & Bh).
    apply (ShJoined s _ _ w g); try reflexivity; try assumption; congruence.
  - destruct (pc s) eqn:Epc; try discriminate H.
    destruct (nth_error (gens s) (cur s)) as [g|] eqn:Eg; [|discriminate H].
    destruct (mem n (nexts s)); [|discriminate H].
    inversion H; subst s'; clear H. apply (ShPub s _ _ n g); cbn; auto.
  - destruct (nth_error (gens s) k) as [g0|] eqn:Eg0; [|discriminate H].
    destruct (g_pub g0) eqn:Epub; [|discriminate H].
    apply do_start_shape in H. destruct H as (g & Eg & A & B & C & D & _ & F).
    assert (g = g0) by congruence. subst g0.
    apply (ShStart s _ _ k KUser g); try assumption; try congruence; try reflexivity.
    left. auto.
  - fn_guard H. inversion H. eapply fn_return_shape; [reflexivity|eauto..].
  - fn_guard H. inversion H. eapply fn_return_shape; [reflexivity|eauto..].
  - fn_guard H. destruct (nth_error (gens s) (f_gen fn)) as [g|] eqn:Eg; [|discriminate H].
    destruct a as [|e]; inversion H.
    + apply (ShHb s _ _ f fn g); cbn; auto using running_st.
    + eapply (fn_return_shape s _ f fn (ev (HHeartbeat (f_gen fn) f (g_mid g)) s)); [reflexivity|eauto..].
  - fn_guard H. destruct a as [|e]; inversion H.
    + apply (ShInit s _ _ f fn); cbn; auto using running_st.
    + eapply fn_return_shape; [reflexivity|eauto..].
  - fn_guard H. inversion H. eapply fn_return_shape; [reflexivity|eauto..].
  - fn_guard H. inversion H. eapply fn_return_shape; [reflexivity|eauto..].
  - destruct (nth_error (fns s) f) as [fn|] eqn:Ef; [|discriminate H].
    destruct (f_st fn) eqn:Est; try discriminate H.
    destruct (f_acc fn) eqn:Ea; [|discriminate H].
    unfold handler in H.
    destruct (nth_error (gens s) (f_gen fn)) as [g|] eqn:Eg; [|discriminate H].
    destruct (end_gen_spec (f_gen fn) g s) as (s1 & E1 & Ag & Af & Apc & Ap & Ah). rewrite E1 in H.
    cbv beta iota zeta in H. rewrite Hp in Ap.
    destruct (g_routines (closed_gen g) - 1 =? 0)%Z eqn:Er; inversion H; subst s'; clear H;
      rewrite cg_routines in Er.
    all: apply (ShHandler s _ _ f fn g); try reflexivity; try assumption; rewrite ?Er, ?cg_joined.
    all: destruct (g_joined g) eqn:Ej; cbn; unfold dec_gen;
      rewrite ?cg_routines, ?cg_joined, ?Er, ?Ej, ?Ag, ?Af, ?Apc, ?Ap, ?Ah;
      cbn; rewrite ?orb_true_r, ?orb_false_r; reflexivity.
Qed.

Definition fns_ok (gs : list gen) (fs : list fn) : Prop :=
  forall i f, nth_error fs i = Some f ->
    exists g, nth_error gs (f_gen f) = Some g /\
      (f_acc f = false \/ f_st f = FExited -> g_closed g = true).
Definition gen_ok (fs : list fn) (k : nat) (g : gen) : Prop :=
  g_closed g = g_done g /\ g_routines g = Z.of_nat (count_live k fs) /\
  (g_joined g = true <-> (g_closed g = true /\ g_routines g = 0%Z /\ has_acc k fs = true)).
Definition gens_ok (gs : list gen) (fs : list fn) : Prop :=
  forall k g, nth_error gs k = Some g -> gen_ok fs k g.
Definition Acct (gs : list gen) (fs : list fn) : Prop := fns_ok gs fs /\ gens_ok gs fs.

Lemma fns_ok_upd_gen : forall gs fs k g g',
  nth_error gs k = Some g -> (g_closed g = true -> g_closed g' = true) ->
  fns_ok gs fs -> fns_ok (upd k g' gs) fs.
Proof.
  intros gs fs k g g' Hk Hc H i f Hf. destruct (H i f Hf) as (g0 & E & C).
  destruct (Nat.eq_dec k (f_gen f)) as [e|e].
  - subst k. exists g'. split; [eapply nth_upd_eq; eauto|]. intro X. apply Hc.
    assert (g0 = g) by congruence. subst g0. auto.
  - exists g0. rewrite nth_error_upd_other by exact e. auto.
Qed.

Lemma live_routines : forall gs fs i f g, Acct gs fs -> nth_error fs i = Some f ->
  live_of (f_gen f) f = true -> nth_error gs (f_gen f) = Some g -> (0 < g_routines g)%Z.
Proof.
  intros gs fs i f g [_ H2] Hf L Hk. destruct (H2 _ _ Hk) as (_ & B & _).
  pose proof (count_live_pos _ _ _ _ Hf L) as Pos. lia.
Qed.

Lemma Acct_upd_gen : forall gs fs k g g', Acct gs fs -> nth_error gs k = Some g ->
  (g_closed g = true -> g_closed g' = true) -> gen_ok fs k g' -> Acct (upd k g' gs) fs.
Proof.
  intros gs fs k g g' [H1 H2] Hk Hc Ok. split; [eapply fns_ok_upd_gen; eauto|].
  intros k' g0 H0. destruct (nth_upd_cases _ _ _ _ _ _ _ Hk H0) as [[-> ->]|[N H0']]; [exact Ok|apply H2; exact H0'].
Qed.

Lemma fns_ok_gen_lt : forall gs fs f, fns_ok gs fs -> In f fs -> f_gen f < length gs.
Proof.
  intros gs fs f H1 I. apply In_nth_error in I. destruct I as [i I].
  destruct (H1 i f I) as (g & E & _). eapply nth_lt; eauto.
Qed.

Lemma Acct_newgen : forall gs fs m, Acct gs fs -> Acct (gs ++ [new_gen m]) fs.
Proof.
  intros gs fs m [H1 H2]. split.
  - intros i f Hf. destruct (H1 i f Hf) as (g & E & C). exists g. split; [apply nth_snoc_old; exact E|exact C].
  - intros k g Hk. apply nth_snoc in Hk. destruct Hk as [Hk|[-> ->]]; [apply H2; exact Hk|].
    destruct (no_gen (length gs) fs) as [A B].
    { intros f I e. apply (fns_ok_gen_lt _ _ _ H1) in I. lia. }
    unfold gen_ok. cbn [new_gen g_closed g_done g_routines g_joined]. rewrite A, B.
    split; [reflexivity|]. split; [reflexivity|]. split; [discriminate|intros (X & _); discriminate].
Qed.

Lemma acc_of_other : forall k k' f, f_gen f = k -> k <> k' -> acc_of k' f = false.
Proof. intros k k' f E N. unfold acc_of. destruct (Nat.eqb_spec (f_gen f) k'); [congruence|reflexivity]. Qed.
Lemma live_of_other : forall k k' f, f_gen f = k -> k <> k' -> live_of k' f = false.
Proof. intros. unfold live_of. erewrite acc_of_other; eauto. Qed.

Lemma Acct_start : forall gs fs k kd g, Acct gs fs -> nth_error gs k = Some g ->
  Acct (if g_closed g then gs else upd k (g_inc g) gs)
     (fs ++ [mkfn k kd (negb (g_closed g)) FRunning false]).
Proof.
  intros gs fs k kd g [H1 H2] Hk. destruct (g_closed g) eqn:Ec; cbn [negb].
  - split.
    + intros i f Hf. apply nth_snoc in Hf. destruct Hf as [Hf|[-> ->]]; [apply H1 in Hf; exact Hf|].
      cbn [f_gen f_acc f_st]. exists g. auto.
    + intros k' g' Hk'. unfold gen_ok. rewrite count_live_app, has_acc_app.
      unfold live_of, acc_of. cbn [f_gen f_acc f_st]. rewrite !andb_false_r. cbn [b2n andb].
      rewrite Nat.add_0_r, orb_false_r. apply H2; exact Hk'.
  - split.
    + intros i f Hf. apply nth_snoc in Hf. destruct Hf as [Hf|[-> ->]].
      * eapply fns_ok_upd_gen; [exact Hk|intro X; exact X|exact H1|exact Hf].
      * cbn [f_gen f_acc f_st]. exists (g_inc g). split; [eapply nth_upd_eq; eauto|].
        intros [X|X]; discriminate.
    + intros k' g' Hk'. unfold gen_ok. rewrite count_live_app, has_acc_app.
      destruct (nth_upd_cases _ _ _ _ _ _ _ Hk Hk') as [[-> ->]|[N Hk'']].
      * destruct (H2 k g Hk) as (A & B & C).
        unfold live_of, acc_of. cbn [f_gen f_acc f_st g_inc g_closed g_done g_routines g_joined].
        rewrite Nat.eqb_refl. cbn [andb b2n]. rewrite orb_true_r.
        split; [exact A|]. split; [rewrite B; symmetry; apply (Nat2Z.inj_add _ 1)|].
        split; [intro J; apply C in J; destruct J as (X & _); congruence|intros (X & _); congruence].
      * rewrite (live_of_other k k'), (acc_of_other k k') by (auto; reflexivity).
        cbn [b2n]. rewrite Nat.add_0_r, orb_false_r. apply H2; exact Hk''.
Qed.

Lemma Acct_close : forall gs fs k g, Acct gs fs -> nth_error gs k = Some g ->
  Acct (upd k (closed_gen g) gs) fs /\ negb (g_closed g) && g_done g = false.
Proof.
  intros gs fs k g [H1 H2] Hk. destruct (H2 k g Hk) as (A & B & C).
  split; [|rewrite <- A; destruct (g_closed g); reflexivity].
  apply (Acct_upd_gen gs fs k g); [split; assumption|exact Hk|intros _; apply cg_closed|].
  unfold gen_ok. rewrite cg_closed, cg_gdone, cg_routines, cg_joined by exact A.
  split; [reflexivity|]. split; [exact B|].
  destruct (g_closed g) eqn:Ec; [exact C|]. split.
  - intro J. apply C in J. destruct J as (X & _); discriminate.
  - (* an accounted function of an open generation is live *)
    intros (_ & R & Hacc). exfalso.
    apply existsb_exists in Hacc. destruct Hacc as (f & Hf & Ha).
    apply In_nth_error in Hf. destruct Hf as [i Hf].
    destruct (H1 i f Hf) as (g0 & E0 & C0).
    unfold acc_of in Ha. apply andb_true_iff in Ha. destruct Ha as [Hg Hacc].
    apply Nat.eqb_eq in Hg. rewrite Hg in E0. assert (g0 = g) by congruence. subst g0.
    assert (L : live_of k f = true).
    { unfold live_of, acc_of. rewrite Hg, Nat.eqb_refl, Hacc. cbn [andb].
      destruct (f_st f) eqn:Es; try reflexivity. rewrite C0 in Ec by (right; reflexivity). discriminate. }
    pose proof (count_live_pos _ _ _ _ Hf L) as Pos. clear - B R Pos. lia.
Qed.

Lemma Acct_fn_upd : forall gs fs i f f',
  nth_error fs i = Some f -> f_gen f' = f_gen f -> f_acc f' = f_acc f ->
  (forall k, live_of k f' = live_of k f) ->
  (f_st f' = FExited -> f_acc f = false \/ f_st f = FExited) ->
  Acct gs fs -> Acct gs (upd i f' fs).
Proof.
  intros gs fs i f f' Hf Eg Ea El Est [H1 H2]. split.
  - intros j fj Hj. destruct (nth_upd_cases _ _ _ _ _ _ _ Hf Hj) as [[-> ->]|[N Hj']]; [|apply H1 in Hj'; exact Hj'].
    destruct (H1 i f Hf) as (g & E & C). exists g. rewrite Eg, Ea. split; [exact E|].
    intros [X|X]; apply C; auto.
  - intros k g Hk. unfold gen_ok. rewrite (count_live_upd_same k fs i f f' Hf (El k)).
    rewrite (has_acc_upd k fs i f f' Hf); [apply H2; exact Hk|].
    unfold acc_of. rewrite Eg, Ea. reflexivity.
Qed.

Lemma Acct_handler : forall gs fs i f g, Acct gs fs ->
  nth_error fs i = Some f -> f_st f = FReturned -> f_acc f = true -> nth_error gs (f_gen f) = Some g ->
  Acct (upd (f_gen f) (dec_gen (closed_gen g)) gs) (upd i (f_set_st FExited f) fs) /\
  (negb (g_closed g) && g_done g) || ((g_routines g - 1 =? 0)%Z && g_joined g) = false.
Proof.
  intros gs fs i f g H Hf Hs Ha Hk.
  assert (L : live_of (f_gen f) f = true) by (apply live_self; [exact Ha|rewrite Hs; discriminate]).
  pose proof (live_routines _ _ _ _ _ H Hf L Hk) as Pos. destruct H as [H1 H2].
  destruct (H2 _ g Hk) as (A & B & C).
  assert (J : g_joined g = false).
  { destruct (g_joined g); [|reflexivity]. destruct C as [C _]. destruct (C eq_refl) as (_ & R & _).
    clear - R Pos. lia. }
  assert (L' : forall k, live_of k (f_set_st FExited f) = false).
  { intro k. unfold live_of. cbn [f_set_st f_st]. apply andb_false_r. }
  assert (A' : forall k, acc_of k (f_set_st FExited f) = acc_of k f) by reflexivity.
  split.
  - split.
    + intros j fj Hj. destruct (nth_upd_cases _ _ _ _ _ _ _ Hf Hj) as [[-> ->]|[N Hj']].
      * cbn [f_set_st f_gen]. exists (dec_gen (closed_gen g)).
        split; [eapply nth_upd_eq; eauto|]. intros _. cbn [dec_gen g_closed]. apply cg_closed.
      * eapply fns_ok_upd_gen; [exact Hk|intros _; cbn [dec_gen g_closed]; apply cg_closed|exact H1|exact Hj'].
    + intros k g' Hk'. unfold gen_ok. rewrite (has_acc_upd k fs i f _ Hf) by apply A'.
      destruct (nth_upd_cases _ _ _ _ _ _ _ Hk Hk') as [[-> ->]|[N Hk'']].
      * pose proof (count_live_upd_exit _ fs i f _ Hf L (L' _)) as Q.
        cbn [dec_gen g_closed g_done g_routines g_joined].
        rewrite cg_closed, cg_gdone, cg_routines, cg_joined, J by exact A.
        split; [reflexivity|]. split; [clear - B Q; lia|].
        destruct (Z.eqb_spec (g_routines g - 1) 0) as [e|e].
        -- split; [intros _|reflexivity]. split; [reflexivity|]. split; [exact e|].
           exact (has_acc_nth _ _ _ _ Hf (live_acc _ _ L)).
        -- split; [discriminate|]. intros (_ & R & _). destruct (e R).
      * rewrite (count_live_upd_same k fs i f _ Hf); [apply H2; exact Hk''|].
        rewrite L'. symmetry. apply live_of_other with (k := f_gen f); auto.
  - rewrite J, andb_false_r, orb_false_r, <- A. destruct (g_closed g); reflexivity.
Qed.

Ltac inv_shape Sh :=
  destruct Sh as [ Hl Hg Hf Hp Hpc Hex Hh
                 | m Hl Hpc Hg Hf Hp Hpc' Hh
                 | k kd g Hl Hk Hg Hf Hp Hh Hctx
                 | n g Hl Hpc Hk Hg Hf Hp Hpc' Hh
                 | w g Hl Hpc Hk Hg Hf Hp Hpc' Hh
                 | w g Hl Hpc Hk Hj Hg Hf Hp Hpc' Hh
                 | i f Hl Hi Hst Hg Hf Hp Hpc Hh
                 | i f g Hl Hi Hst Hhb Hk Hg Hf Hp Hpc Hh
                 | i f Hl Hi Hst Hg Hf Hp Hpc Hh
                 | i f g Hl Hi Hst Hacc Hk Hg Hf Hp Hpc Hh ].

Lemma Acct_shape : forall s l s', shape s l s' -> Acct (gens s) (fns s) ->
  Acct (gens s') (fns s') /\ panicked s' = false.
Proof.
  intros s l s' Sh H. inv_shape Sh; rewrite ?Hg, ?Hf, ?Hp.
  - (* inert *) auto.
  - (* newgen *) split; [apply Acct_newgen; exact H|reflexivity].
  - (* Start *) split; [apply Acct_start; assumption|reflexivity].
  - (* publish *) split; [|reflexivity]. apply (Acct_upd_gen _ _ _ g); [exact H|exact Hk|auto|exact (proj2 H _ _ Hk)].
  - (* close *) apply Acct_close; assumption.
  - (* joined *) auto.
  - (* return *) split; [|reflexivity]. apply (Acct_fn_upd _ _ i f _ Hi); [reflexivity|reflexivity| | |exact H].
    + intro k. unfold live_of, acc_of. cbn [f_set_st f_gen f_acc f_st]. rewrite Hst.
      destruct (f_acc f); [reflexivity|]. rewrite !andb_false_r. reflexivity.
    + cbn [f_set_st f_st]. destruct (f_acc f); [discriminate|auto].
  - (* heartbeat *) auto.
  - (* init *) split; [apply (Acct_fn_upd _ _ i f _ Hi); auto|reflexivity].
  - (* handler *) apply Acct_handler; assumption.
Qed.

(* Ctl: every generation is closed without routines, except the current one while run is not quiescent
   (ctl_q, ctl_nq); while gen.close() waits it is closed and had an accounted function (ctl_cw); before
   the heartbeat starts it is open, unpublished, without functions (ctl_hb) *)
Definition spent (g : gen) : Prop := g_closed g = true /\ g_routines g = 0%Z.

Record Ctl (gs : list gen) (fs : list fn) (p : pcs) : Prop := {
  ctl_q : quiescent p = true -> forall k g, nth_error gs k = Some g -> spent g;
  ctl_nq : quiescent p = false ->
          0 < length gs /\ forall k g, nth_error gs k = Some g -> k < pred (length gs) -> spent g;
  ctl_cw : forall w, p = PCloseWait w ->
          exists g, nth_error gs (pred (length gs)) = Some g /\ g_closed g = true /\
                    has_acc (pred (length gs)) fs = true;
  ctl_hb : p = PStartHB ->
          exists g, nth_error gs (pred (length gs)) = Some g /\ g_closed g = false /\ g_pub g = false /\
                    forall f, In f fs -> f_gen f <> pred (length gs);
  ctl_acc : forall f, In f fs -> is_hb f = true -> f_acc f = true }.

Lemma Ctl_inert : forall gs fs p p', pcrel p p' -> Ctl gs fs p -> Ctl gs fs p'.
Proof.
  intros gs fs p p' R H. destruct R as [E | [[Q Q'] | [Q [w E]]]].
  - subst p'. exact H.
  - constructor.
    + intros _. apply (ctl_q _ _ _ H Q).
    + intro X. congruence.
    + intros w E. rewrite E in Q'. discriminate.
    + intros E. rewrite E in Q'. discriminate.
    + apply (ctl_acc _ _ _ H).
  - subst p'. constructor.
    + discriminate.
    + intros _. apply (ctl_nq _ _ _ H Q).
    + discriminate.
    + discriminate.
    + apply (ctl_acc _ _ _ H).
Qed.

Lemma Ctl_newgen : forall gs fs m, Acct gs fs -> Ctl gs fs PFetch -> Ctl (gs ++ [new_gen m]) fs PStartHB.
Proof.
  intros gs fs m [H1 _] H.
  assert (L : pred (length (gs ++ [new_gen m])) = length gs) by (rewrite app_length; cbn [length]; lia).
  constructor; rewrite ?L.
  - discriminate.
  - intros _. split; [rewrite app_length; cbn [length]; lia|].
    intros k g Hk Hlt. apply nth_snoc in Hk. destruct Hk as [Hk|[-> _]]; [|lia].
    eapply (ctl_q _ _ _ H); [reflexivity|exact Hk].
  - discriminate.
  - intros _. exists (new_gen m). split; [apply nth_snoc_new|]. split; [reflexivity|]. split; [reflexivity|].
    intros f I e. apply (fns_ok_gen_lt _ _ _ H1) in I. lia.
  - apply (ctl_acc _ _ _ H).
Qed.

Definition start_gens (k : nat) (g : gen) (gs : list gen) : list gen :=
  if g_closed g then gs else upd k (g_inc g) gs.

Lemma sg_length : forall k g gs, length (start_gens k g gs) = length gs.
Proof. intros. unfold start_gens. destruct (g_closed g); [reflexivity|apply upd_length]. Qed.

Lemma sg_nth : forall k g gs k' g', nth_error gs k = Some g ->
  nth_error (start_gens k g gs) k' = Some g' ->
  nth_error gs k' = Some g' \/ (k' = k /\ g_closed g = false /\ g' = g_inc g).
Proof.
  intros k g gs k' g' Hk H. unfold start_gens in H. destruct (g_closed g) eqn:Ec; [left; exact H|].
  destruct (nth_upd_cases _ _ _ _ _ _ _ Hk H) as [[-> ->]|[N H']]; auto.
Qed.

Lemma sg_other : forall k g gs k', k' <> k -> nth_error (start_gens k g gs) k' = nth_error gs k'.
Proof.
  intros. unfold start_gens. destruct (g_closed g); [reflexivity|]. apply nth_error_upd_other. auto.
Qed.

Lemma Ctl_start_user : forall gs fs p k g, Ctl gs fs p -> nth_error gs k = Some g -> g_pub g = true ->
  Ctl (start_gens k g gs) (fs ++ [mkfn k KUser (negb (g_closed g)) FRunning false]) p.
Proof.
  intros gs fs p k g H Hk Hpub. constructor; rewrite ?sg_length.
  - intros Q k' g' Hk'. destruct (sg_nth _ _ _ _ _ Hk Hk') as [O|(-> & C & ->)].
    + eapply (ctl_q _ _ _ H); eauto.
    + destruct (ctl_q _ _ _ H Q _ _ Hk) as [X _]. congruence.
  - intros Q. destruct (ctl_nq _ _ _ H Q) as [NE Hlt]. split; [exact NE|].
    intros k' g' Hk' L. destruct (sg_nth _ _ _ _ _ Hk Hk') as [O|(-> & C & ->)].
    + eapply Hlt; eauto.
    + destruct (Hlt _ _ Hk L) as [X _]. congruence.
  - intros w E. destruct (ctl_cw _ _ _ H w E) as (gc & Egc & Cc & Ha). exists gc.
    split; [|split; [exact Cc|rewrite has_acc_app, Ha; reflexivity]].
    destruct (Nat.eq_dec (pred (length gs)) k) as [e|e]; [|rewrite sg_other by exact e; exact Egc].
    subst k. assert (gc = g) by congruence. subst gc. unfold start_gens. rewrite Cc. exact Hk.
  - intros E. destruct (ctl_hb _ _ _ H E) as (gc & Egc & Cc & Pc & Hno).
    assert (N : k <> pred (length gs)) by (intro e; subst k; congruence).
    exists gc. split; [rewrite sg_other by auto; exact Egc|]. split; [exact Cc|]. split; [exact Pc|].
    intros f I. apply in_app_iff in I. destruct I as [I|[<-|[]]]; [apply Hno; exact I|exact N].
  - intros f I. apply in_app_iff in I. destruct I as [I|[<-|[]]]; [apply (ctl_acc _ _ _ H); exact I|discriminate].
Qed.

Lemma Ctl_nq_step : forall gs fs p gs' fs' p', Ctl gs fs p ->
  quiescent p = false -> quiescent p' = false -> p' <> PStartHB -> (forall w, p' <> PCloseWait w) ->
  length gs' = length gs ->
  (forall k, k < pred (length gs) -> nth_error gs' k = nth_error gs k) ->
  (forall f, In f fs' -> is_hb f = true -> f_acc f = true) ->
  Ctl gs' fs' p'.
Proof.
  intros gs fs p gs' fs' p' H Q Q' N1 N2 L Same Acc. constructor; rewrite ?L.
  - congruence.
  - intros _. destruct (ctl_nq _ _ _ H Q) as [NE Hlt]. split; [exact NE|].
    intros k g Hk Lk. rewrite Same in Hk by exact Lk. eapply Hlt; eauto.
  - intros w E. destruct (N2 w E).
  - intros E. destruct (N1 E).
  - exact Acc.
Qed.

Lemma after_start_nq : forall n, quiescent (after_start n) = false /\ after_start n <> PStartHB /\
  forall w, after_start n <> PCloseWait w.
Proof. intros [|n]; cbn; repeat split; try discriminate; intros; discriminate. Qed.

Lemma Ctl_start_cur : forall gs fs p kd g n, Ctl gs fs p -> quiescent p = false ->
  nth_error gs (pred (length gs)) = Some g ->
  (kd = KHeartbeat -> g_closed g = false) ->
  Ctl (start_gens (pred (length gs)) g gs)
     (fs ++ [mkfn (pred (length gs)) kd (negb (g_closed g)) FRunning false]) (after_start n).
Proof.
  intros gs fs p kd g n H Q Hk Hkd. destruct (after_start_nq n) as (A & B & C).
  apply (Ctl_nq_step _ _ _ _ _ _ H Q A B C).
  - apply sg_length.
  - intros k L. apply sg_other, Nat.lt_neq, L.
  - intros f I. apply in_app_iff in I. destruct I as [I|[<-|[]]]; [apply (ctl_acc _ _ _ H); exact I|].
    unfold is_hb. cbn [f_kind f_acc]. destruct kd; try discriminate. intros _. rewrite Hkd; reflexivity.
Qed.

Lemma Ctl_to_q : forall gs fs p gs' p' g', Ctl gs fs p ->
  quiescent p = false -> quiescent p' = true -> length gs' = length gs ->
  (forall k, k < pred (length gs) -> nth_error gs' k = nth_error gs k) ->
  nth_error gs' (pred (length gs)) = Some g' -> spent g' ->
  Ctl gs' fs p'.
Proof.
  intros gs fs p gs' p' g' H Q Q' L Same Hc Cd. constructor; rewrite ?L.
  - intros _ k g Hk. destruct (ctl_nq _ _ _ H Q) as [NE Hlt].
    destruct (lt_dec k (pred (length gs))) as [Lk|Lk].
    + rewrite Same in Hk by exact Lk. eapply Hlt; eauto.
    + apply nth_lt in Hk as Hk'. assert (k = pred (length gs)) by lia. subst k.
      assert (g = g') by congruence. subst g. exact Cd.
  - congruence.
  - intros w E. rewrite E in Q'. discriminate.
  - intros E. rewrite E in Q'. discriminate.
  - apply (ctl_acc _ _ _ H).
Qed.

Lemma Ctl_fn_upd : forall gs fs p i f f', Ctl gs fs p -> nth_error fs i = Some f ->
  f_gen f' = f_gen f -> f_acc f' = f_acc f -> f_kind f' = f_kind f ->
  Ctl gs (upd i f' fs) p.
Proof.
  intros gs fs p i f f' H Hf Eg Ea Ek. constructor.
  - apply (ctl_q _ _ _ H).
  - apply (ctl_nq _ _ _ H).
  - intros w E. destruct (ctl_cw _ _ _ H w E) as (gc & Egc & Cc & Ha). exists gc.
    split; [exact Egc|]. split; [exact Cc|]. rewrite (has_acc_upd _ _ _ f _ Hf); [exact Ha|].
    unfold acc_of. rewrite Eg, Ea. reflexivity.
  - intros E. destruct (ctl_hb _ _ _ H E) as (gc & Egc & Cc & Pc & Hno). exists gc.
    split; [exact Egc|]. split; [exact Cc|]. split; [exact Pc|].
    intros x I. apply In_upd in I. destruct I as [->|I]; [|apply Hno; exact I].
    rewrite Eg. apply Hno. eapply nth_error_In; eauto.
  - intros x I. apply In_upd in I. destruct I as [->|I]; [|apply (ctl_acc _ _ _ H); exact I].
    unfold is_hb. rewrite Ek, Ea. apply (ctl_acc _ _ _ H f). eapply nth_error_In; eauto.
Qed.

Lemma Ctl_handler_gens : forall gs fs p k g g', Ctl gs fs p -> nth_error gs k = Some g ->
  (0 < g_routines g)%Z -> g_closed g' = true -> (exists f, In f fs /\ f_gen f = k) ->
  Ctl (upd k g' gs) fs p.
Proof.
  intros gs fs p k g g' H Hk R C (f & I & Ef). constructor; rewrite ?upd_length.
  - intros Q. destruct (ctl_q _ _ _ H Q _ _ Hk) as [_ X]. lia.
  - intros Q. destruct (ctl_nq _ _ _ H Q) as [NE Hlt]. split; [exact NE|].
    intros k' g0 Hk' L.
    destruct (nth_upd_cases _ _ _ _ _ _ _ Hk Hk') as [[-> ->]|[N Hk'']].
    + destruct (Hlt _ _ Hk L) as [_ X]. lia.
    + eapply Hlt; eauto.
  - intros w E. destruct (ctl_cw _ _ _ H w E) as (gc & Egc & Cc & Ha).
    destruct (Nat.eq_dec k (pred (length gs))) as [e|e].
    + exists g'. rewrite <- e. split; [eapply nth_upd_eq; eauto|]. split; [exact C|]. rewrite e. exact Ha.
    + exists gc. rewrite nth_error_upd_other by exact e. auto.
  - intros E. destruct (ctl_hb _ _ _ H E) as (gc & Egc & Cc & Pc & Hno).
    assert (N : k <> pred (length gs)) by (rewrite <- Ef; apply Hno; exact I).
    exists gc. rewrite nth_error_upd_other by exact N. auto.
  - apply (ctl_acc _ _ _ H).
Qed.

Lemma Ctl_shape : forall s l s', shape s l s' -> Acct (gens s) (fns s) ->
  Ctl (gens s) (fns s) (pc s) -> Ctl (gens s') (fns s') (pc s').
Proof.
  intros s l s' Sh [H1 H2] H. inv_shape Sh; rewrite ?Hg, ?Hf.
  - (* inert *) eapply Ctl_inert; eauto.
  - (* newgen *) rewrite Hpc'. rewrite Hpc in H. apply Ctl_newgen; [split; assumption|exact H].
  - (* Start *) fold (start_gens k g (gens s)).
    destruct Hctx as [(-> & Hpub & E) | [(-> & -> & E & E') | (-> & -> & n & E & E')]].
    + rewrite E. apply Ctl_start_user; assumption.
    + rewrite E'. apply (Ctl_start_cur _ _ _ _ _ _ H); [rewrite E; reflexivity|exact Hk|].
      intros _. rewrite E in H. destruct (ctl_hb _ _ _ H eq_refl) as (gc & Egc & Cc & _).
        unfold cur in Hk. congruence.
    + rewrite E'. apply (Ctl_start_cur _ _ _ _ _ _ H); [rewrite E; reflexivity|exact Hk|discriminate].
  - (* publish *) rewrite Hpc'. apply (Ctl_nq_step _ _ _ _ _ _ H);
      [rewrite Hpc; reflexivity|reflexivity|discriminate|discriminate|apply upd_length| |apply (ctl_acc _ _ _ H)].
    intros k L. apply upd_last_below, L.
  - (* close *) destruct (H2 _ _ Hk) as (A & B & C).
    destruct (0 <? g_routines g)%Z eqn:Er.
    + rewrite Hpc'. constructor; rewrite ?upd_length.
      * discriminate.
      * intros _. rewrite Hpc in H. destruct (ctl_nq _ _ _ H eq_refl) as [NE Hlt]. split; [exact NE|].
        intros k g0 Hk0 L. unfold cur in Hk0. rewrite upd_last_below in Hk0 by exact L. eapply Hlt; eauto.
      * intros w0 _. exists (closed_gen g). split; [eapply nth_upd_eq; exact Hk|].
        split; [apply cg_closed|]. apply count_live_has_acc. fold (cur s). clear - B Er. lia.
      * discriminate.
      * apply (ctl_acc _ _ _ H).
    + apply (Ctl_to_q _ _ _ _ _ (closed_gen g) H);
        [rewrite Hpc; reflexivity|exact Hpc'|apply upd_length| |eapply nth_upd_eq; exact Hk|].
      * intros k L. apply upd_last_below, L.
      * split; [apply cg_closed|]. rewrite cg_routines. clear - B Er. lia.
  - (* joined *) destruct (H2 _ _ Hk) as (A & B & C). apply C in Hj. destruct Hj as (X & Y & _).
    apply (Ctl_to_q _ _ _ _ _ g H);
      [rewrite Hpc; reflexivity|exact Hpc'|reflexivity|reflexivity|exact Hk|split; assumption].
  - (* return *) rewrite Hpc. eapply Ctl_fn_upd; eauto.
  - (* heartbeat *) rewrite Hpc. exact H.
  - (* init *) rewrite Hpc. eapply Ctl_fn_upd; eauto.
  - (* handler *) rewrite Hpc. eapply Ctl_fn_upd; eauto.
    apply (Ctl_handler_gens _ _ _ _ g _ H Hk).
    + apply (live_routines _ _ i f g (conj H1 H2) Hi); [|exact Hk].
      apply live_self; [exact Hacc|rewrite Hst; discriminate].
    + cbn [dec_gen g_closed]. apply cg_closed.
    + exists f. split; [eapply nth_error_In; eauto|reflexivity].
Qed.

Record Inv (s : state) : Prop := {
  inv_pan : panicked s = false;
  inv_acct : Acct (gens s) (fns s);
  inv_ctl : Ctl (gens s) (fns s) (pc s) }.

Lemma open_gen_is_cur : forall s k g, Inv s -> nth_error (gens s) k = Some g ->
  g_closed g = false \/ (0 < g_routines g)%Z -> quiescent (pc s) = false /\ k = cur s.
Proof.
  intros s k g [_ _ B] Hk N.
  assert (C : ~ spent g) by (intros [X Y]; destruct N as [N|N]; [congruence|lia]).
  destruct (quiescent (pc s)) eqn:Q; [destruct C; eapply (ctl_q _ _ _ B); eauto|]. split; [reflexivity|].
  destruct (ctl_nq _ _ _ B Q) as [_ Hlt]. apply nth_lt in Hk as L. unfold cur.
  destruct (lt_dec k (pred (length (gens s)))) as [X|X]; [destruct C; eapply Hlt; eauto|lia].
Qed.

Lemma live_fn_is_cur : forall s i f, Inv s -> nth_error (fns s) i = Some f ->
  live_of (f_gen f) f = true -> quiescent (pc s) = false /\ f_gen f = cur s.
Proof.
  intros s i f Iv Hf Lv. destruct (proj1 (inv_acct _ Iv) _ _ Hf) as (g & Eg & _).
  apply (open_gen_is_cur s _ g Iv Eg). right. exact (live_routines _ _ _ _ _ (inv_acct _ Iv) Hf Lv Eg).
Qed.

Lemma Inv_init : forall w, Inv (init w).
Proof.
  intro w. constructor; cbn.
  - reflexivity.
  - split; intros [|i] x H; discriminate H.
  - constructor; cbn; try discriminate.
    + intros _ [|k] g H; discriminate H.
    + intros f [].
Qed.

Lemma Inv_step : forall s l s', Inv s -> step s l = Some s' -> Inv s'.
Proof.
  intros s l s' [P A B] H. apply step_shape in H. rename H into Sh.
  destruct (Acct_shape _ _ _ Sh A) as [A' P']. constructor; [exact P'|exact A'|].
  eapply Ctl_shape; eauto.
Qed.

Lemma Inv_run : forall w ls s, run (init w) ls = Some s -> Inv s.
Proof. intros w ls s H. eapply (inv_run Inv); eauto using Inv_init, Inv_step. Qed.

(* no lost wake-up: while gen.close() waits with joined open, some accounted function has yet to run
   its exit handler *)
Lemma closewait_live : forall s wy, Inv s -> pc s = PCloseWait wy ->
  exists g, nth_error (gens s) (cur s) = Some g /\ g_closed g = true /\
            has_acc (cur s) (fns s) = true /\
            (g_joined g = false -> 0 < count_live (cur s) (fns s)).
Proof.
  intros s wy [P [H1 H2] B] E. destruct (ctl_cw _ _ _ B wy E) as (g & Eg & C & Ha).
  exists g. fold (cur s) in Eg, Ha. split; [exact Eg|]. split; [exact C|]. split; [exact Ha|].
  intro J. destruct (H2 _ _ Eg) as (_ & R & I).
  destruct (count_live (cur s) (fns s)) eqn:Ecl; [|apply Nat.lt_0_succ].
  rewrite (proj2 I) in J; [discriminate J|]. repeat split; assumption.
Qed.

Definition ends_gen (s : state) (l : label) : option nat :=
  match l with
  | LFnHandler i => option_map f_gen (nth_error (fns s) i)
  | LGenCloseLock => Some (cur s)
  | _ => None end.

Lemma ends_gen_not_other : forall s l k, ends_gen s l = Some k ->
  is_inert l = false /\ start_of s l = None /\ triggers l = None.
Proof. intros s l e H. destruct l; try discriminate H; repeat split; reflexivity. Qed.

Lemma triggers_not_other : forall s l i, triggers l = Some i -> is_inert l = false /\ start_of s l = None.
Proof.
  intros s l e H. destruct l; try discriminate H; try destruct a; try destruct r; try discriminate H;
    split; reflexivity.
Qed.

Lemma done_recorded : forall (g : gen) k h h' es, g_closed g = g_done g ->
  h' = es ++ (if g_closed g then h else HDone k :: h) -> g_done g = false ->
  exists es', h' = es' ++ h /\ In (HDone k) es'.
Proof.
  intros g k h h' es A -> D. rewrite A, D. exists (es ++ [HDone k]). rewrite <- app_assoc.
  split; [reflexivity|apply in_or_app; right; left; reflexivity].
Qed.
