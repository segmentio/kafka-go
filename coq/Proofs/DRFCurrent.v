(* Proofs/DRFCurrent.v — C10: the obligations about the CURRENT source, by computation on
   the translator's output (Gen/Skeleton.v) and the policy (Model/Policy.v). *)
From Coq Require Import List String Bool.
From KV Require Import Model.DRF Model.Policy Gen.Skeleton.
Import ListNotations.
Open Scope string_scope.

(* every policy entry HandedOff c names a channel field with a send/close and a receive *)
Definition handoffs_present (pol : policy) (cs : list chan_fact) : bool :=
  forallb (fun e => match snd e with
                    | HandedOff c =>
                        existsb (fun f => String.eqb c (c_type f ++ "." ++ c_field f)
                                          && match c_kind f with CRecv => false | _ => true end) cs
                        && existsb (fun f => String.eqb c (c_type f ++ "." ++ c_field f)
                                             && match c_kind f with CRecv => true | _ => false end) cs
                    | _ => true
                    end) pol.

(* the facts the discipline is claimed for: everything but the named exempt sites *)
Definition checked_facts : list access_fact := without exempt accesses.

Definition current_ok : bool :=
  discipline_ok checked_facts kafka
  && fields_covered fields kafka
  && unknowns_reviewed unknowns reviewed_unknowns
  && handoffs_present kafka chans.

(* The conjunct that DRFBridge.discipline_sound needs (Properties/C10.v, C10_current_no_race), on its
   own: projecting it out of [current_ok = true] makes the kernel evaluate [current_ok] again. *)
Lemma current_discipline_ok : discipline_ok checked_facts kafka = true.
Proof. vm_compute. reflexivity. Qed.

(* a synthetic non-vacuity check of discipline_ok: a site without the lock or with only the read
   lock, a plain read of an atomic, a late write of a write-once field, an unlisted field, and an
   address escaping are each rejected *)
Definition demo_pol : policy := [("T", "a", GuardedBy "T.mu"); ("T", "n", AtomicOnly); ("T", "c", WriteOnceBeforePublish)].
Definition demo_good : list access_fact :=
  [ mkAcc "T" "a" KWrite "T.Set" [("T.mu", MW)] false "t.go:1";
    mkAcc "T" "a" KRead "T.Get" [("T.mu", MW)] false "t.go:2";
    mkAcc "T" "n" KAtomic "T.Inc" [] false "t.go:3";
    mkAcc "T" "c" KWrite "NewT" [] true "t.go:4";
    mkAcc "T" "c" KRead "T.C" [] false "t.go:5" ].
Lemma demo_accepts : discipline_ok demo_good demo_pol = true.
Proof. vm_compute. reflexivity. Qed.
Lemma demo_rejects :
  discipline_ok (mkAcc "T" "a" KRead "T.Peek" [] false "t.go:6" :: demo_good) demo_pol = false /\
  discipline_ok (mkAcc "T" "a" KRead "T.Peek" [("T.mu", MR)] false "t.go:6" :: demo_good) demo_pol = false /\
  discipline_ok (mkAcc "T" "n" KRead "T.N" [] false "t.go:7" :: demo_good) demo_pol = false /\
  discipline_ok (mkAcc "T" "c" KWrite "T.SetC" [] false "t.go:8" :: demo_good) demo_pol = false /\
  discipline_ok (mkAcc "T" "z" KRead "T.Z" [("T.mu", MW)] false "t.go:9" :: demo_good) demo_pol = false /\
  discipline_ok (mkAcc "T" "a" KUnknown "T.Leak" [("T.mu", MW)] false "t.go:10" :: demo_good) demo_pol = false.
Proof. vm_compute. repeat split; reflexivity. Qed.
