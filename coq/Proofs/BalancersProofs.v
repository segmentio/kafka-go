(* Proofs/BalancersProofs.v — the producer balancers of balancer.go against their references
   (Java murmur2, Sarama FNV, librdkafka CRC32) and LeastBytes against its specification *)
From Coq Require Import List NArith ZArith Bool Lia.
From Coq Require Import ZifyN ZifyNat ZifyBool.
From KV Require Import Lib.Bits Lib.Crc Model.Balancers Spec.RefPartitioners Proofs.BitsLemmas.
Import ListNotations.

Section Murmur.
Open Scope Z_scope.

Lemma sbyte_and b : (b < 256)%N -> jand (sbyte b) 255 = Z.of_N b.
Proof.
  intros Hb. unfold jand, sbyte. change 255 with (Z.ones 8).
  rewrite Z.land_ones by lia. change (2 ^ 8) with 256.
  destruct (N.ltb_spec b 128).
  - apply Z.mod_small. lia.
  - replace (Z.of_N b - 256) with (Z.of_N b + (-1) * 256) by lia.
    rewrite Z.mod_add by lia. apply Z.mod_small. lia.
Qed.

Lemma nland_255 b : (b < 256)%N -> N.land b 255 = b.
Proof.
  intros Hb. change 255%N with (N.ones 8). rewrite N.land_ones.
  apply N.mod_small. exact Hb.
Qed.

Lemma u32_byte b : (b < 256)%N -> u32 (jand (sbyte b) 255) = N.land b 255.
Proof.
  intros Hb. rewrite sbyte_and, nland_255 by exact Hb.
  apply u32_of_N. unfold M32. lia.
Qed.

Lemma u32_jm : u32 j_m = mm_m. Proof. reflexivity. Qed.
Lemma u32_jseed : u32 j_seed = mm_seed. Proof. vm_compute. reflexivity. Qed.

Lemma u32_mixk k : u32 (j_mixk k) = mm_mixk (u32 k).
Proof.
  unfold j_mixk, mm_mixk, jmul, jxor, jushr.
  rewrite u32_mul, u32_lxor, u32_ushr, u32_mul, u32_jm by lia. reflexivity.
Qed.

Lemma u32_chunk h b0 b1 b2 b3 :
  (b0 < 256)%N -> (b1 < 256)%N -> (b2 < 256)%N -> (b3 < 256)%N ->
  u32 (j_chunk h b0 b1 b2 b3) = mm_chunk (u32 h) b0 b1 b2 b3.
Proof.
  intros H0 H1 H2 H3. unfold j_chunk, mm_chunk, jmul, jadd, jxor, jshl.
  rewrite u32_lxor, u32_mul, u32_mixk, u32_jm.
  rewrite !u32_add, !u32_shl, !u32_byte by (assumption || lia).
  reflexivity.
Qed.

Lemma u32_tail h data : bytes_ok data -> (length data < 4)%nat ->
  u32 (j_tail h data) = mm_tail (u32 h) data.
Proof.
  intros Hok Hlen.
  destruct data as [|b0 [|b1 [|b2 [|b3 rest]]]]; cbn [length] in Hlen; try lia;
    unfold j_tail, mm_tail, jmul, jxor, jshl; try reflexivity;
    repeat (apply Forall_cons_iff in Hok as [? Hok]); unfold is_byte in *;
    rewrite ?u32_mul, ?u32_lxor, ?u32_shl, ?u32_byte, ?u32_jm by (assumption || lia);
    reflexivity.
Qed.

Lemma list_ind4 (A : Type) (P : list A -> Prop) :
  (forall l, (length l < 4)%nat -> P l) ->
  (forall a b c d l, P l -> P (a :: b :: c :: d :: l)) ->
  forall l, P l.
Proof.
  intros Hs Hc.
  fix IH 1. intros l.
  destruct l as [|a [|b [|c [|d l']]]].
  - apply Hs. cbn. lia.
  - apply Hs. cbn. lia.
  - apply Hs. cbn. lia.
  - apply Hs. cbn. lia.
  - apply Hc. apply IH.
Qed.

Lemma j_loop_short h l : (length l < 4)%nat -> j_loop h l = j_tail h l.
Proof. destruct l as [|a [|b [|c [|d l']]]]; cbn [length]; intros; try lia; reflexivity. Qed.
Lemma mm_loop_short h l : (length l < 4)%nat -> mm_loop h l = mm_tail h l.
Proof. destruct l as [|a [|b [|c [|d l']]]]; cbn [length]; intros; try lia; reflexivity. Qed.

Lemma u32_loop data : bytes_ok data -> forall h, u32 (j_loop h data) = mm_loop (u32 h) data.
Proof.
  induction data as [l Hl | a b c d l IH] using list_ind4; intros Hok h.
  - rewrite j_loop_short, mm_loop_short by exact Hl. apply u32_tail; assumption.
  - do 4 (apply Forall_cons_iff in Hok as [? Hok]).
    cbn [j_loop mm_loop]. rewrite IH by exact Hok.
    rewrite u32_chunk by assumption. reflexivity.
Qed.

Lemma u32_final h : u32 (j_final h) = mm_final (u32 h).
Proof.
  unfold j_final, mm_final, jmul, jxor, jushr.
  rewrite u32_lxor, u32_ushr, u32_mul, u32_lxor, u32_ushr, u32_jm by lia. reflexivity.
Qed.

Lemma u32_of_nat n : u32 (Z.of_nat n) = w32 (N.of_nat n).
Proof.
  unfold u32, w32, ZM32, M32. apply N2Z.inj.
  rewrite Z2N.id by (apply Z.mod_pos_bound; lia).
  rewrite N2Z.inj_mod. f_equal. lia.
Qed.

Lemma murmur2_is_java data : bytes_ok data -> u32 (java_murmur2 data) = murmur2 data.
Proof.
  intros Hok. unfold java_murmur2, murmur2.
  rewrite u32_final, u32_loop by exact Hok. unfold jxor.
  rewrite u32_lxor, u32_jseed, u32_wrap32, u32_of_nat. reflexivity.
Qed.

End Murmur.

Lemma nthZ_In ps i : (i < lenN ps)%N -> In (nthZ ps i) ps.
Proof. unfold nthZ, lenN. intros H. apply nth_In. lia. Qed.

Lemma lenN_pos {A} (ps : list A) : ps <> [] -> (0 < lenN ps)%N.
Proof. destruct ps; [congruence|]. unfold lenN. cbn [length]. lia. Qed.

Lemma offered_length n : length (offered n) = n.
Proof. unfold offered. rewrite map_length, seq_length. reflexivity. Qed.

Lemma In_offered n p : In p (offered n) <-> (0 <= p < Z.of_nat n)%Z.
Proof.
  unfold offered. rewrite in_map_iff. split.
  - intros [x [<- Hx]]. apply in_seq in Hx. lia.
  - intros Hp. exists (Z.to_nat p). split; [lia|]. apply in_seq. lia.
Qed.

Lemma nth_offered n i d : (i < n)%nat -> nth i (offered n) d = Z.of_nat i.
Proof.
  intros Hi. unfold offered.
  rewrite nth_indep with (d' := Z.of_nat 0) by (rewrite map_length, seq_length; exact Hi).
  rewrite map_nth, seq_nth by exact Hi. reflexivity.
Qed.

Lemma nthZ_offered n i : (i < N.of_nat n)%N -> nthZ (offered n) i = Z.of_N i.
Proof. intros Hi. unfold nthZ. rewrite nth_offered by lia. lia. Qed.

Lemma fnv_spec_gen key : forall h,
  fnv1a_spec (Z.of_N h) key = Z.of_N (fold_left fnv_step key h).
Proof.
  induction key as [|b t IH]; intros h; cbn [fnv1a_spec fold_left]; [reflexivity|].
  rewrite <- IH. f_equal.
  unfold fnv_step, mul32, fnv_prime. rewrite N2Z.inj_mod, N2Z.inj_mul, N2Z_inj_lxor. reflexivity.
Qed.

Lemma fnv_is_spec key : fnv1a32_spec key = Z.of_N (fnv1a32 key).
Proof. apply (fnv_spec_gen key fnv_offset). Qed.

Lemma fnv_fold_lt key : forall h, (h < M32)%N -> (fold_left fnv_step key h < M32)%N.
Proof.
  induction key as [|b t IH]; intros h Hh; cbn [fold_left]; [exact Hh|].
  apply IH. unfold fnv_step, mul32. apply N.mod_lt. discriminate.
Qed.

Lemma fnv_lt key : (fnv1a32 key < M32)%N.
Proof. apply fnv_fold_lt. reflexivity. Qed.

Lemma rem_abs a n : (0 < n)%Z ->
  (let p := Z.rem a n in if (p <? 0)%Z then (- p)%Z else p) = (Z.abs a mod n)%Z.
Proof.
  intros Hn. cbv zeta.
  destruct (Z_lt_le_dec a 0) as [Ha|Ha].
  - rewrite Z.abs_neq by lia.
    assert (Hr : Z.rem a n = (- ((- a) mod n))%Z).
    { replace a with (- (- a))%Z at 1 by lia.
      rewrite Z.rem_opp_l by lia. rewrite Z.rem_mod_nonneg by lia. reflexivity. }
    rewrite Hr.
    pose proof (Z.mod_pos_bound (- a) n Hn).
    destruct (Z.ltb_spec (- ((- a) mod n)) 0); lia.
  - rewrite Z.abs_eq by lia. rewrite Z.rem_mod_nonneg by lia.
    pose proof (Z.mod_pos_bound a n Hn).
    destruct (Z.ltb_spec (a mod n) 0); lia.
Qed.

Lemma hash_is_sarama key n : (0 < n)%Z ->
  hash_index (fnv1a32 key) n = sarama_hash key n.
Proof.
  intros Hn. unfold hash_index, sarama_hash, to_i32.
  rewrite fnv_is_spec.
  rewrite <- s32_wrap32 by apply fnv_lt.
  apply rem_abs. exact Hn.
Qed.

Lemma hash_index_range s n : (0 < n)%Z -> (0 <= hash_index s n < n)%Z.
Proof.
  intros Hn. unfold hash_index. rewrite rem_abs by exact Hn.
  apply Z.mod_pos_bound. exact Hn.
Qed.

Lemma land_i31 z : Z.land z 2147483647 = (z mod ZM31)%Z.
Proof. change 2147483647%Z with (Z.ones 31). rewrite Z.land_ones by lia. reflexivity. Qed.

Lemma mod31_of_mod32 z : ((z mod ZM32) mod ZM31 = z mod ZM31)%Z.
Proof.
  unfold ZM32, ZM31.
  rewrite (Z.div_mod z 4294967296) at 2 by lia.
  replace (4294967296 * (z / 4294967296) + z mod 4294967296)%Z
    with (z mod 4294967296 + (2 * (z / 4294967296)) * 2147483648)%Z by lia.
  rewrite Z.mod_add by lia. reflexivity.
Qed.

Lemma refhash_is_sarama key n : (0 < n)%Z ->
  refhash_index (fnv1a32 key) n = sarama_refhash key n.
Proof.
  intros Hn. unfold refhash_index, sarama_refhash.
  rewrite land_i31, fnv_is_spec.
  rewrite s32_wrap32 by apply fnv_lt.
  rewrite <- (mod31_of_mod32 (wrap32 _)), wrap32_mod, mod31_of_mod32.
  apply Z.rem_mod_nonneg; [|exact Hn].
  apply Z.mod_pos_bound. unfold ZM31. lia.
Qed.

Lemma refhash_index_range s n : (0 < n)%Z -> (0 <= refhash_index s n < n)%Z.
Proof.
  intros Hn. unfold refhash_index. rewrite land_i31.
  pose proof (Z.mod_pos_bound (s32 s) ZM31 ltac:(unfold ZM31; lia)).
  rewrite Z.rem_mod_nonneg by lia. apply Z.mod_pos_bound. exact Hn.
Qed.

(* int32(len ps) for the lists a Writer can supply *)
Lemma len32_small (ps : list Z) : (Z.of_nat (length ps) < ZM31)%Z -> len32 ps = Z.of_nat (length ps).
Proof.
  unfold ZM31. intros H. unfold len32, lenN, s32, M32, M31.
  rewrite N.mod_small by lia.
  destruct (N.ltb_spec (N.of_nat (length ps)) 2147483648); lia.
Qed.

Lemma len32_offered n : (Z.of_nat n < ZM31)%Z -> len32 (offered n) = Z.of_nat n.
Proof. intros H. rewrite len32_small; rewrite offered_length; [reflexivity|exact H]. Qed.

Lemma hash_step_keyed s k n : (0 < n)%nat -> (Z.of_nat n < ZM31)%Z ->
  hash_step s (Some k) (offered n) = Some (hash_index (fnv1a32 k) (Z.of_nat n), s).
Proof.
  intros Hn Hlt. unfold hash_step. rewrite len32_offered by exact Hlt.
  destruct (Z.eqb_spec (Z.of_nat n) 0); [lia|reflexivity].
Qed.

Lemma refhash_keyed r k n : (0 < n)%nat -> (Z.of_nat n < ZM31)%Z ->
  refhash_balance r (Some k) (offered n) = Some (refhash_index (fnv1a32 k) (Z.of_nat n)).
Proof.
  intros Hn Hlt. unfold refhash_balance. rewrite len32_offered by exact Hlt.
  destruct (Z.eqb_spec (Z.of_nat n) 0); [lia|reflexivity].
Qed.

Lemma w32_len_small (ps : list Z) : (Z.of_nat (length ps) < ZM31)%Z -> w32 (lenN ps) = lenN ps.
Proof. unfold ZM31, w32, lenN, M32. intros H. apply N.mod_small. lia. Qed.

Lemma random_pick_in r ps p : random_pick 0 r ps = Some p -> In p ps.
Proof.
  unfold random_pick. cbn. destruct ps as [|q t]; [discriminate|].
  intros [= <-]. apply nthZ_In. apply N.mod_lt.
  unfold lenN. cbn [length]. lia.
Qed.

(* CRC32Balancer and Murmur2Balancer have one body: a random partition when the key counts
   as absent, else partitions[h % uint32(len(partitions))] for the balancer's hash h *)
Definition hashed_pick (random : bool) (r h : N) (ps : list Z) : option Z :=
  if random then random_pick 0 r ps
  else let n32 := w32 (lenN ps) in if (n32 =? 0)%N then None else Some (nthZ ps (h mod n32)).

Lemma crc32_balance_pick cons r key ps :
  crc32_balance cons r key ps =
  hashed_pick ((match key_bytes key with [] => true | _ => false end) && negb cons) r
              (crc32_ieee (key_bytes key)) ps.
Proof. reflexivity. Qed.

Lemma murmur2_balance_pick cons r key ps :
  murmur2_balance cons r key ps =
  hashed_pick ((match key with None => true | _ => false end) && negb cons) r
              (N.land (murmur2 (key_bytes key)) 2147483647) ps.
Proof. reflexivity. Qed.

Lemma hashed_pick_in random r h ps p :
  (Z.of_nat (length ps) < ZM31)%Z -> hashed_pick random r h ps = Some p -> In p ps.
Proof.
  intros Hlen. unfold hashed_pick. destruct random; [apply random_pick_in|].
  rewrite w32_len_small by exact Hlen.
  destruct (N.eqb_spec (lenN ps) 0) as [|Hnz]; [discriminate|].
  intros [= <-]. apply nthZ_In. apply N.mod_lt. exact Hnz.
Qed.

Lemma hashed_pick_hash r h ps : ps <> [] -> (Z.of_nat (length ps) < ZM31)%Z ->
  hashed_pick false r h ps = Some (nthZ ps (h mod lenN ps)).
Proof.
  intros Hne Hlen. unfold hashed_pick. rewrite w32_len_small by exact Hlen.
  pose proof (lenN_pos ps Hne). destruct (N.eqb_spec (lenN ps) 0); [lia|reflexivity].
Qed.

(* Java: toPositive(murmur2(key)) % n on ints; Go: (murmur2(key) & 0x7fffffff) % uint32(n) *)
Lemma java_partition_index key n : bytes_ok key -> (0 < n)%N ->
  (N.land (murmur2 key) 2147483647 mod n)%N = Z.to_N (java_partition key (Z.of_N n)).
Proof.
  intros Hok Hn. unfold java_partition, jand. rewrite land_i31, <- (murmur2_is_java _ Hok).
  change 2147483647%N with (N.ones 31). rewrite N.land_ones, <- mod31_of_mod32.
  assert (Hm : (0 <= (java_murmur2 key mod ZM32) mod ZM31 < ZM31)%Z)
    by (apply Z.mod_pos_bound; unfold ZM31; lia).
  rewrite Z.rem_mod_nonneg by lia.
  apply N2Z.inj. rewrite N2Z.inj_mod, N2Z.inj_mod, of_N_u32, Z2N.id; [reflexivity|].
  apply Z.mod_pos_bound. lia.
Qed.

Definition rr_eff_chunk (chunk : Z) : Z := if (chunk <? 1)%Z then 1%Z else chunk.

(* outputs of [m] successive calls with the same partition list *)
Fixpoint rr_run (m : nat) (s : rr_state) (ps : list Z) : option (list Z * rr_state) :=
  match m with
  | O => Some ([], s)
  | S m' => match rr_step s ps with
            | None => None
            | Some (p, s') => match rr_run m' s' ps with
                              | None => None
                              | Some (l, s'') => Some (p :: l, s'')
                              end
            end
  end.

Lemma rr_step_in s ps p s' : rr_step s ps = Some (p, s') -> In p ps.
Proof.
  unfold rr_step. destruct (N.eqb _ 0); [discriminate|].
  destruct ps as [|q t]; [discriminate|]. intros [= <- _].
  apply nthZ_In. apply N.mod_lt. unfold lenN. cbn [length]. lia.
Qed.

Lemma rr_eff_chunk_idem c : rr_eff_chunk (rr_eff_chunk c) = rr_eff_chunk c.
Proof. unfold rr_eff_chunk. destruct (Z.ltb_spec c 1); [reflexivity|]. destruct (Z.ltb_spec c 1); [lia|reflexivity]. Qed.

Lemma rr_step_spec s ps :
  ps <> [] -> (rr_eff_chunk (rr_chunk s) < ZM64)%Z -> (rr_counter s + 1 < M64)%N ->
  rr_step s ps =
  Some (nthZ ps ((rr_counter s / Z.to_N (rr_eff_chunk (rr_chunk s))) mod lenN ps),
        {| rr_chunk := rr_eff_chunk (rr_chunk s); rr_counter := rr_counter s + 1 |}).
Proof.
  intros Hne Hc Hk. unfold rr_step. fold (rr_eff_chunk (rr_chunk s)).
  assert (Hc1 : (1 <= rr_eff_chunk (rr_chunk s))%Z)
    by (unfold rr_eff_chunk; destruct (Z.ltb_spec (rr_chunk s) 1); lia).
  assert (Hu : u64 (rr_eff_chunk (rr_chunk s)) = Z.to_N (rr_eff_chunk (rr_chunk s))).
  { unfold u64. rewrite Z.mod_small by lia. reflexivity. }
  rewrite Hu.
  destruct (N.eqb_spec (Z.to_N (rr_eff_chunk (rr_chunk s))) 0) as [Hz|_]; [lia|].
  destruct ps as [|p0 t]; [congruence|].
  unfold add64. rewrite (N.mod_small (rr_counter s + 1) M64) by exact Hk. reflexivity.
Qed.

Lemma rr_run_spec m : forall s ps,
  ps <> [] -> (rr_eff_chunk (rr_chunk s) < ZM64)%Z -> (rr_counter s + N.of_nat m < M64)%N ->
  rr_run m s ps =
  Some (map (fun i => nthZ ps (((rr_counter s + N.of_nat i) / Z.to_N (rr_eff_chunk (rr_chunk s))) mod lenN ps))
            (seq 0 m),
        {| rr_chunk := (if Nat.eqb m 0 then rr_chunk s else rr_eff_chunk (rr_chunk s));
           rr_counter := rr_counter s + N.of_nat m |}).
Proof.
  induction m as [|m IH]; intros s ps Hne Hc Hk.
  - cbn [rr_run seq map Nat.eqb]. rewrite N.add_0_r. destruct s; reflexivity.
  - cbn [rr_run]. rewrite rr_step_spec by (assumption || lia).
    rewrite IH; cbn [rr_chunk rr_counter]; rewrite ?rr_eff_chunk_idem; try assumption; try lia.
    cbn [seq map Nat.eqb]. rewrite N.add_0_r. f_equal. f_equal.
    + f_equal. rewrite <- seq_shift, map_map. apply map_ext. intros i.
      do 3 f_equal. lia.
    + f_equal; [destruct (Nat.eqb m 0); reflexivity | lia].
Qed.

(* Abstract specification: one unbounded byte counter per partition index; a call
   with [n] partitions resets the counters when [n] differs from their number,
   picks ANY index whose counter is minimal, and adds the message size to it. *)
Definition is_min (f : list N) (i : nat) : Prop :=
  (i < length f)%nat /\ forall j, (j < length f)%nat -> (nth i f 0 <= nth j f 0)%N.

Fixpoint upd_add (f : list N) (i : nat) (sz : N) : list N :=
  match f, i with
  | [], _ => []
  | b :: t, O => (b + sz)%N :: t
  | b :: t, S j => b :: upd_add t j sz
  end.

Definition lb_spec_step (f : list N) (n : nat) (sz : N) (i : nat) (f' : list N) : Prop :=
  (0 < n)%nat /\
  let f0 := if Nat.eqb n (length f) then f else repeat 0%N n in
  is_min f0 i /\ f' = upd_add f0 i sz.

Inductive lb_admissible : list N -> list (nat * N) -> list Z -> Prop :=
| lb_adm_nil f : lb_admissible f [] []
| lb_adm_cons f n sz i f' calls outs :
    lb_spec_step f n sz i f' -> lb_admissible f' calls outs ->
    lb_admissible f ((n, sz) :: calls) (Z.of_nat i :: outs).

Fixpoint lb_run (cs : list lb_counter) (calls : list (nat * N)) : option (list Z * list lb_counter) :=
  match calls with
  | [] => Some ([], cs)
  | (n, sz) :: rest =>
      match lb_step cs sz (offered n) with
      | None => None
      | Some (p, cs') => match lb_run cs' rest with
                         | None => None
                         | Some (outs, cs'') => Some (p :: outs, cs'')
                         end
      end
  end.

Definition lb_inv (cs : list lb_counter) : Prop := map fst cs = offered (length cs).

Lemma sortZ_offered_gen n : forall a, sortZ (map Z.of_nat (seq a n)) = map Z.of_nat (seq a n).
Proof.
  induction n as [|n IH]; intros a; [reflexivity|].
  cbn [seq map sortZ fold_right]. fold (sortZ (map Z.of_nat (seq (S a) n))). rewrite IH.
  destruct n as [|n']; [reflexivity|].
  cbn [seq map insertZ]. destruct (Z.leb_spec (Z.of_nat a) (Z.of_nat (S a))); [reflexivity|lia].
Qed.

Lemma lb_make_offered n : lb_make (offered n) = map (fun p => (p, 0%N)) (offered n).
Proof. unfold lb_make, offered. rewrite sortZ_offered_gen. reflexivity. Qed.

Lemma nth_snoc {A} (l : list A) x d j :
  nth j (l ++ [x]) d = if (j <? length l)%nat then nth j l d else if (j =? length l)%nat then x else d.
Proof.
  destruct (Nat.ltb_spec j (length l)); [apply app_nth1; assumption|]. rewrite app_nth2 by assumption.
  destruct (Nat.eqb_spec j (length l)) as [->|]; [rewrite Nat.sub_diag; reflexivity|].
  destruct (j - length l)%nat as [|[|k]] eqn:E; [lia|reflexivity|reflexivity].
Qed.

(* the scan, with [pre] the counters already seen and (minI, minB) the first minimum among them *)
Lemma lb_min_from_spec t : forall (pre : list lb_counter) minI minB,
  (minI < length pre)%nat -> nth minI (map snd pre) 0%N = minB ->
  (forall j, (j < length pre)%nat -> (minB <= nth j (map snd pre) 0)%N) ->
  let r := lb_min_from t (length pre) minI minB in
  is_min (map snd (pre ++ t)) r.
Proof.
  induction t as [|[p b] t IH]; intros pre minI minB HI Hnth Hmin; cbn [lb_min_from].
  - rewrite app_nil_r. split; [rewrite map_length; exact HI|].
    intros j Hj. rewrite map_length in Hj. rewrite Hnth. apply Hmin. exact Hj.
  - assert (E1 : pre ++ ((p, b) : lb_counter) :: t = (pre ++ [((p, b) : lb_counter)]) ++ t)
      by (rewrite <- app_assoc; reflexivity).
    assert (E2 : S (length pre) = length (pre ++ [((p, b) : lb_counter)])) by (rewrite app_length; cbn; lia).
    assert (Hn : forall j, nth j (map snd (pre ++ [((p, b) : lb_counter)])) 0%N =
                 if (j <? length pre)%nat then nth j (map snd pre) 0%N
                 else if (j =? length pre)%nat then b else 0%N)
      by (intros j; rewrite map_app; cbn [map snd]; rewrite nth_snoc, map_length; reflexivity).
    rewrite E1, E2.
    destruct (N.ltb_spec b minB) as [Hlt|Hge]; apply IH; rewrite <- ?E2; try lia.
    + rewrite Hn, Nat.ltb_irrefl, Nat.eqb_refl. reflexivity.
    + intros j Hj. rewrite Hn. destruct (Nat.ltb_spec j (length pre)) as [Hj'|];
        [specialize (Hmin j Hj'); lia|]. destruct (Nat.eqb_spec j (length pre)); lia.
    + rewrite Hn, (proj2 (Nat.ltb_lt _ _) HI). exact Hnth.
    + intros j Hj. rewrite Hn. destruct (Nat.ltb_spec j (length pre)) as [Hj'|];
        [exact (Hmin j Hj')|]. destruct (Nat.eqb_spec j (length pre)); lia.
Qed.

Lemma lb_min_index_spec cs : cs <> [] -> is_min (map snd cs) (lb_min_index cs).
Proof.
  destruct cs as [|[p b] t]; [congruence|]. intros _. unfold lb_min_index.
  apply (lb_min_from_spec t [(p, b)] 0%nat b).
  - cbn. lia.
  - reflexivity.
  - intros j Hj. cbn in Hj. assert (j = 0)%nat as -> by lia. cbn. lia.
Qed.

Lemma lb_bump_fst cs : forall i sz, map fst (lb_bump cs i sz) = map fst cs.
Proof.
  induction cs as [|[p b] t IH]; intros [|j] sz; cbn [lb_bump map fst]; try reflexivity.
  rewrite IH. reflexivity.
Qed.

Lemma lb_bump_length cs i sz : length (lb_bump cs i sz) = length cs.
Proof.
  transitivity (length (map fst (lb_bump cs i sz))); [symmetry; apply map_length|].
  rewrite lb_bump_fst. apply map_length.
Qed.

Lemma lb_bump_snd cs : forall i sz,
  (forall b, In b (map snd cs) -> (b + sz < M64)%N) ->
  map snd (lb_bump cs i sz) = upd_add (map snd cs) i sz.
Proof.
  induction cs as [|[p b] t IH]; intros [|j] sz Hno; cbn [lb_bump map snd upd_add]; try reflexivity.
  - unfold add64. rewrite N.mod_small; [reflexivity|]. apply Hno. cbn. left. reflexivity.
  - rewrite IH; [reflexivity|]. intros b' Hb'. apply Hno. cbn. right. exact Hb'.
Qed.

Lemma nth_fst_offered cs i : lb_inv cs -> (i < length cs)%nat ->
  fst (nth i cs ((-1)%Z, 0%N)) = Z.of_nat i.
Proof.
  intros Hinv Hi.
  transitivity (nth i (map fst cs) (fst ((-1)%Z, 0%N))); [symmetry; apply map_nth|].
  rewrite Hinv. apply nth_offered, Hi.
Qed.

Lemma upd_add_length f : forall i sz, length (upd_add f i sz) = length f.
Proof. induction f as [|b t IH]; intros [|j] sz; cbn [upd_add length]; try reflexivity. rewrite IH. reflexivity. Qed.

Lemma lb_step_pick cs sz n : (0 < n)%nat -> lb_inv cs ->
  let cs0 := if Nat.eqb n (length cs) then cs else lb_make (offered n) in
  let i := lb_min_index cs0 in
  lb_step cs sz (offered n) = Some (Z.of_nat i, lb_bump cs0 i sz) /\
  (i < n)%nat /\ lb_inv cs0 /\ length cs0 = n /\ is_min (map snd cs0) i /\
  map snd cs0 = if Nat.eqb n (length cs) then map snd cs else repeat 0%N n.
Proof.
  intros Hn Hinv cs0 i. unfold lb_step. cbv zeta. rewrite offered_length. fold cs0. fold i.
  assert (Hlen0 : length cs0 = n).
  { unfold cs0. destruct (Nat.eqb_spec n (length cs)) as [->|]; [reflexivity|].
    rewrite lb_make_offered, map_length, offered_length. reflexivity. }
  assert (Hinv0 : lb_inv cs0).
  { unfold cs0. destruct (Nat.eqb_spec n (length cs)); [exact Hinv|].
    unfold lb_inv. rewrite lb_make_offered, map_map, map_length, offered_length. apply map_id. }
  assert (Hsnd0 : map snd cs0 = if Nat.eqb n (length cs) then map snd cs else repeat 0%N n).
  { unfold cs0. destruct (Nat.eqb n (length cs)); [reflexivity|].
    rewrite lb_make_offered, map_map. cbn [snd].
    rewrite <- (offered_length n) at 2. generalize (offered n). intros l.
    induction l as [|x l IHl]; cbn; [reflexivity|]. rewrite IHl. reflexivity. }
  assert (Hne0 : cs0 <> []) by (destruct cs0; [cbn in Hlen0; lia|congruence]).
  pose proof (lb_min_index_spec cs0 Hne0) as Hmin. fold i in Hmin. clearbody i cs0.
  assert (Hi : (i < length cs0)%nat) by (destruct Hmin as [Hi _]; rewrite map_length in Hi; exact Hi).
  split; [|split; [rewrite <- Hlen0; exact Hi|auto]].
  destruct cs0 as [|c0 t0]; [congruence|]. cbv beta iota.
  rewrite (nth_fst_offered _ i Hinv0 Hi). reflexivity.
Qed.

Lemma lb_step_refines cs sz n :
  (0 < n)%nat -> lb_inv cs -> (sz < M64)%N ->
  (forall b, In b (map snd cs) -> (b + sz < M64)%N) ->
  exists i cs',
    lb_step cs sz (offered n) = Some (Z.of_nat i, cs') /\
    lb_spec_step (map snd cs) n sz i (map snd cs') /\ lb_inv cs' /\ length cs' = n.
Proof.
  intros Hn Hinv Hsz Hno.
  destruct (lb_step_pick cs sz n Hn Hinv) as [E [_ [Hinv0 [Hlen0 [Hmin Hsnd0]]]]]. cbv zeta in *.
  set (cs0 := if Nat.eqb n (length cs) then cs else lb_make (offered n)) in *.
  set (i := lb_min_index cs0) in *.
  exists i, (lb_bump cs0 i sz). split; [exact E|]. split; [|split].
  - split; [exact Hn|]. cbv zeta. rewrite map_length.
    (* [apply], not [rewrite]: the two sides agree only up to unfolding [lb_counter] *)
    assert (G : forall f0, map snd cs0 = f0 ->
                is_min f0 i /\ map snd (lb_bump cs0 i sz) = upd_add f0 i sz); [|apply G, Hsnd0].
    intros f0 <-. split; [exact Hmin|]. apply lb_bump_snd.
    rewrite Hsnd0. destruct (Nat.eqb n (length cs)); [exact Hno|].
    intros b Hb. apply repeat_spec in Hb. subst b. exact Hsz.
  - unfold lb_inv. rewrite lb_bump_fst, lb_bump_length. exact Hinv0.
  - rewrite lb_bump_length. exact Hlen0.
Qed.

Definition sum_sizes (calls : list (nat * N)) : N := fold_right (fun c acc => (snd c + acc)%N) 0%N calls.

Lemma upd_add_bound f : forall i sz B,
  (forall b, In b f -> (b + sz <= B)%N) -> forall b, In b (upd_add f i sz) -> (b <= B)%N.
Proof.
  induction f as [|x t IH]; intros [|j] sz B Hb b Hin; cbn [upd_add] in Hin.
  - destruct Hin.
  - destruct Hin.
  - destruct Hin as [E|Hin].
    + subst b. apply Hb. left. reflexivity.
    + pose proof (Hb b (or_intror Hin)). lia.
  - destruct Hin as [E|Hin].
    + subst b. pose proof (Hb x (or_introl eq_refl)). lia.
    + eapply IH; [|exact Hin]. intros b' Hb'. apply Hb. right. exact Hb'.
Qed.

Theorem lb_run_admissible calls : forall cs,
  lb_inv cs -> Forall (fun c => (0 < fst c)%nat) calls ->
  (forall b, In b (map snd cs) -> (b + sum_sizes calls < M64)%N) ->
  (sum_sizes calls < M64)%N ->
  exists outs cs', lb_run cs calls = Some (outs, cs') /\ lb_admissible (map snd cs) calls outs.
Proof.
  induction calls as [|[n sz] rest IH]; intros cs Hinv Hpos Hno Hsum.
  - exists [], cs. split; [reflexivity|constructor].
  - apply Forall_cons_iff in Hpos as [Hn Hpos]. cbn [fst] in Hn.
    cbn [sum_sizes fold_right snd] in Hno, Hsum. fold (sum_sizes rest) in Hno, Hsum.
    destruct (lb_step_refines cs sz n Hn Hinv) as [i [cs1 [Hstep [Hspec [Hinv1 Hlen1]]]]].
    + lia.
    + intros b Hb. specialize (Hno b Hb). lia.
    + destruct (IH cs1 Hinv1 Hpos) as [outs [cs2 [Hrun Hadm]]].
      * destruct Hspec as [_ [_ Hf']]. rewrite Hf'.
        intros b Hb.
        assert (b <= M64 - 1 - sum_sizes rest)%N; [|lia].
        eapply upd_add_bound; [|exact Hb].
        intros b' Hb'.
        destruct (Nat.eqb n (length (map snd cs))).
        -- specialize (Hno b' Hb'). lia.
        -- apply repeat_spec in Hb'. subst b'. lia.
      * lia.
      * exists (Z.of_nat i :: outs), cs2. split.
        -- cbn [lb_run]. rewrite Hstep, Hrun. reflexivity.
        -- econstructor; eassumption.
Qed.
