(* Proofs/ReaderWrap.v — C02, L1: a compressed v0 / v1 wrapper message: its header, the
   decompression of its value into a new frame on the reader stack, the base offset computed by
   extractOffset from the (relative or absolute) offsets of the inner messages. *)
From Coq Require Import List NArith ZArith Bool Lia.
From Coq Require Import ZifyN ZifyNat ZifyBool.
From KV Require Import Lib.Bits Lib.Bytes Lib.Varint Model.MsgSetReader Model.ReaderModel Spec.FetchSpec
  Proofs.ReaderPrim Proofs.ReaderV2 Proofs.ReaderV1 Proofs.ReaderV1Run.
Import ListNotations.
Open Scope Z_scope.

(* the inner messages carry offsets relative to d *)
Definition shiftr (d : Z) (r : record) : record :=
  mkRec (r_off r - d) (r_ts r) (r_key r) (r_val r) (r_hdrs r).
Definition wire (d : Z) (it : item) : item := (fst it, shiftr d (snd it)).

Definition mbody (fmt : Z) (r : record) : list N :=
  i32 0 ++ i8 fmt ++ i8 0 ++ (if fmt =? 1 then i64 (r_ts r) else []) ++ b32 (r_key r) ++ b32 (r_val r).

Lemma enc_item_split (it : item) :
  enc_item it = i64 (r_off (snd it)) ++ i32 (msize (fst it) (snd it)) ++ mbody (fst it) (snd it)
  /\ len (mbody (fst it) (snd it)) = msize (fst it) (snd it).
Proof.
  unfold enc_item, mh, mb, mbody, msize. split; [|reflexivity].
  destruct (fst it =? 1); rewrite <- ?app_assoc, ?app_nil_r; reflexivity.
Qed.

Lemma stream_nonempty it t : 0 < len (stream (it :: t)).
Proof.
  unfold stream. cbn [flat_map]. destruct (enc_item_split it) as [E _]. rewrite E, !len_app.
  unfold i64. rewrite put_bes_len. pose proof (len_nonneg (i32 (msize (fst it) (snd it)) ++ mbody (fst it) (snd it))).
  pose proof (len_nonneg (flat_map enc_item t)). rewrite len_app in H. lia.
Qed.

Lemma extract_last_stream : forall witems fuel last,
  Forall item_ok witems -> (length witems < fuel)%nat ->
  extract_last fuel (ex (stream witems)) last = inl (Some (last_off (recs_of witems) last)).
Proof.
  induction witems as [|it t IH]; intros fuel last Hok Hf.
  - destruct fuel as [|f]; [lia|]. reflexivity.
  - destruct fuel as [|f]; [cbn [length] in Hf; lia|]. apply Forall_cons_iff in Hok as [Hit Hok].
    cbn [extract_last]. pose proof (stream_nonempty it t). unfold ex at 1. cbn [snd].
    replace (len (stream (it :: t)) <=? 0) with false by lia.
    pose proof (msize_bound (fst it) (snd it) Hit) as Hs. destruct Hit as (_ & Ho & _). unfold small in Ho.
    destruct (enc_item_split it) as [E El].
    change (stream (it :: t)) with (enc_item it ++ stream t). rewrite E, <- !app_assoc.
    fold (ex (i64 (r_off (snd it)) ++ i32 (msize (fst it) (snd it)) ++ mbody (fst it) (snd it) ++ stream t)).
    rewrite (pspec_int 8 (r_off (snd it))) by (try lia; apply sg8; lia).
    rewrite (pspec_int 4 (msize (fst it) (snd it))) by (try lia; apply sg4; lia).
    rewrite <- El, (pspec_discard (mbody (fst it) (snd it)) (stream t)).
    rewrite (IH f (r_off (snd it)) Hok) by (cbn [length] in Hf; lia). reflexivity.
Qed.

(* the wrapper's header is [lh fmt codec Wo ts size]: attributes = the codec, offset = that of
   the last inner message *)
Definition whdr (fmt codec W ts size : Z) : hdr :=
  mkHdr W size fmt codec (if fmt =? 1 then ts else 0) 0 0.

Definition wh_fits (fmt codec Wo ts size : Z) : Prop :=
  (fmt = 0 \/ fmt = 1) /\ 1 <= codec <= 4 /\ small Wo /\ small ts /\ 0 <= size < 2 ^ 31.

Lemma wh_lh_fits fmt codec Wo ts size : wh_fits fmt codec Wo ts size -> lh_fits fmt codec Wo ts size.
Proof. intros (H1 & H2 & H3). split; [exact H1|]. split; [lia|exact H3]. Qed.

Lemma pspec_discard4 z : pspec (p_discard 4) (i32 z) tt.
Proof. rewrite <- (i32_len z). apply pspec_discard. Qed.

Lemma pshort_discard4 z : pshort (p_discard 4) (i32 z).
Proof. rewrite <- (i32_len z). apply pshort_discard. Qed.

Lemma stream_length_ge witems : (length witems <= length (stream witems))%nat.
Proof.
  induction witems as [|it t IH]; [cbn; lia|].
  pose proof (stream_nonempty it []) as H. change (stream (it :: t)) with (enc_item it ++ stream t).
  change (stream [it]) with (enc_item it ++ []) in H. rewrite app_nil_r in H. unfold len in H.
  rewrite app_length. cbn [length]. lia.
Qed.

Section Enter.
Variable compress : Z -> list N -> list N.
Variable decomp : Z -> list N -> option (list N).
Hypothesis decomp_law : forall c x, decomp c (compress c x) = Some x.

(* the bytes after the wrapper's header: the null key, the value length, the compressed set *)
Definition wtail (codec : Z) (witems : list item) : list N :=
  i32 (-1) ++ i32 (len (compress codec (stream witems))) ++ compress codec (stream witems) ++ [].

Definition pushed (fmt codec Wo ts size : Z) (witems : list item) (R : list N) (el : Z) : msr :=
  mkMsr [mkFrame (stream witems) (len (stream witems)) (wrap64 (Wo - last_off (recs_of witems) 0)) 0 hdr0;
         mkFrame R (len R) 0 0 (whdr fmt codec Wo ts size)] false 1 el.

Lemma codec_whdr fmt codec Wo ts size m :
  (fmt = 0 \/ fmt = 1) -> 1 <= codec <= 4 -> codec_of (whdr fmt codec Wo ts size) m = MOk (Some codec) m.
Proof.
  intros Hf Hc. unfold codec_of, whdr. cbn [h_magic h_attr]. rewrite land7 by exact Hc.
  replace (codec =? 0) with false by lia. replace ((1 <=? codec) && (codec <=? 4)) with true by lia.
  destruct Hf as [-> | ->]; reflexivity.
Qed.

Lemma wrapper_enter again mn fmt codec Wo ts size witems R el :
  wh_fits fmt codec Wo ts size -> Forall item_ok witems ->
  len (compress codec (stream witems)) < 2 ^ 30 ->
  v1_body decomp again mn (st (wtail codec witems ++ R) 1 (whdr fmt codec Wo ts size) 1 el)
  = again (pushed fmt codec Wo ts size witems R el).
Proof.
  intros (Hfmt & Hc & Ho & Ht & Hs) Hok Hlen. pose proof (len_nonneg (compress codec (stream witems))) as HC0.
  unfold v1_body. rewrite top_st. cbv zeta. cbn [f_hdr].
  unfold bind at 1. rewrite codec_whdr by assumption.
  unfold wtail. rewrite <- !app_assoc.
  rewrite (step_st _ _ (i32 (-1)) tt) by (apply mspec_lift, pspec_discard4).
  rewrite (step_st _ _ (i32 (len (compress codec (stream witems)))) (len (compress codec (stream witems))))
    by (apply mspec_lift, pspec_int; [lia|apply sg4; lia]).
  rewrite top_st. cbn [f_remain app]. rewrite len_app. pose proof (len_nonneg R).
  replace (len (compress codec (stream witems)) + len R <? len (compress codec (stream witems))) with false by lia.
  unfold bind at 1, ret at 1.
  unfold bind at 1. unfold lift at 1. cbn [m_stack st f_in f_remain]. unfold p_decompress.
  replace (len (compress codec (stream witems)) <? 0) with false by lia. rewrite len_app.
  replace (len (compress codec (stream witems)) + len R <? len (compress codec (stream witems))) with false by lia.
  rewrite ztake_app, zdrop_app, decomp_law.
  unfold bind at 1. unfold extract_offset.
  change (stream witems, len (stream witems)) with (ex (stream witems)).
  rewrite (extract_last_stream witems (S (length (stream witems))) 0 Hok)
    by (pose proof (stream_length_ge witems); lia).
  unfold ret at 1. unfold bind at 1, mark_read.
  cbn [m_stack set_stack set_rd fst snd f_count f_in f_remain f_base f_hdr unwind m_empty m_lrem m_elast st]. cbn [Z.eqb].
  unfold bind at 1. cbn [m_stack set_stack m_empty m_lrem m_elast whdr h_first].
  unfold pushed. f_equal. unfold set_stack, st. cbn [m_stack m_empty m_lrem m_elast].
  repeat f_equal; lia.
Qed.

Lemma wrapper_short again mn fmt codec Wo ts size witems q q' el :
  wh_fits fmt codec Wo ts size -> len (compress codec (stream witems)) < 2 ^ 30 ->
  wtail codec witems = q ++ q' -> q' <> [] ->
  ended el (v1_body decomp again mn (st q 1 (whdr fmt codec Wo ts size) 1 el)).
Proof.
  intros (Hfmt & Hc & Ho & Ht & Hs) Hlen He Hq. pose proof (len_nonneg (compress codec (stream witems))) as HC0.
  unfold v1_body. rewrite top_st. cbv zeta. cbn [f_hdr].
  unfold bind at 1. rewrite codec_whdr by assumption.
  set (C := compress codec (stream witems)) in *.
  unfold wtail in He. fold C in He.
  destruct (prefix_split _ _ _ _ He) as [(r & H1 & H2 & H3)|(q2 & H1 & H2)].
  - apply ended_bind, (ended_short _ (i32 (-1)) q r _ el (mshort_lift _ _ (pshort_discard4 (-1))) H1 H2).
  - subst q. rewrite (step_st _ _ (i32 (-1)) tt) by (apply mspec_lift, pspec_discard4).
    destruct (prefix_split _ _ _ _ H2) as [(r & H3 & H4 & H5)|(q3 & H3 & H4)].
    + apply ended_bind, (ended_short _ (i32 (len C)) q2 r _ el (mshort_lift _ _ (pshort_int 4 _ (i32_len _))) H3 H4).
    + subst q2. rewrite (step_st _ _ (i32 (len C)) (len C)) by (apply mspec_lift, pspec_int; [lia|apply sg4; lia]).
      rewrite top_st. cbn [f_remain].
      assert (Hl : len q3 < len C).
      { apply (f_equal len) in H4. rewrite app_nil_r, len_app in H4. pose proof (len_pos q' Hq). lia. }
      replace (len q3 <? len C) with true by lia. unfold bind at 1, fail. apply ended_st.
Qed.

End Enter.
