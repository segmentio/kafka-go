(* Proofs/ConnOpsInflight.v — Conn.inflight threaded through a call (conn_do_i): at 0 the
   desynchronisation detector of waitResponse is enabled and the call is conn_do. *)
From Coq Require Import List NArith ZArith Bool Lia.
From KV Require Import Lib.Bits Lib.Bytes Model.Legacy Model.ConnOps.
Import ListNotations.
Open Scope Z_scope.

Theorem detector_enabled st o s :
  conn_do_i (st, 0) o s =
    let '(st', r, s') := conn_do st o s in ((st', 0), Returns r, s').
Proof.
  unfold conn_do_i. change (0 + 1 =? 1) with true. cbn [negb]. rewrite andb_false_r.
  destruct (closed st); destruct (conn_do st o s) as [[a b] c]; reflexivity.
Qed.
