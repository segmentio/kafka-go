(* Proofs/WriterHolds2.v — the extracted boolean history predicates of Model/Writer.v
   (Section Hist) about the journal are true on every run of the model. *)
From Coq Require Import List NArith Bool Arith Lia.
From KV Require Import Lib.LTS Model.Writer Proofs.WriterStmts Proofs.WriterBase Proofs.WriterC08
  Proofs.WriterC01a.
Import ListNotations.

Lemma rejected_sends_nothing_holds_runs : forall cfg ls s, runs cfg ls s ->
  rejected_sends_nothing_holds (s_calls s) (s_journal s) = true.
Proof.
  intros cfg ls s Hr.
  destruct (full_inv _ _ _ Hr) as [_ _ (A & _ & _) (N & P) _ _ _].
  unfold rejected_sends_nothing_holds. apply forallb_forall. intros cl Hcl.
  destruct (rejected cl) eqn:R; simpl; auto.
  apply forallb_forall. intros m Hm. apply negb_true_iff.
  destruct (existsb (fun a => mem_id m (a_msgs a)) (s_journal s)) eqn:E; auto. exfalso.
  apply existsb_exists in E. destruct E as (a & Ha & Hma).
  destruct (mem_id_ex _ _ Hma) as (x & Hx & Hid).
  destruct (A a Ha) as (pw & b & Np & Hb & _ & M & _). rewrite <- M in Hx.
  destruct (P _ _ _ _ Np (pw_done_all _ _ Hb) Hx) as (c' & cl' & i' & C1 & _ & C3 & C4 & _).
  apply In_nth_error in Hcl. destruct Hcl as [c Hc].
  apply In_nth_error in Hm. destruct Hm as [i Hi].
  destruct (ids_unique _ _ _ _ _ _ _ _ _ N C1 Hc C4 Hi Hid) as [<- _].
  congruence.
Qed.

Lemma journal_id_eq : forall cfg ls s, runs cfg ls s ->
  forall a a' m x, In a (s_journal s) -> In a' (s_journal s) ->
    In m (a_msgs a) -> In x (a_msgs a') -> m_id x = m_id m -> x = m.
Proof.
  intros cfg ls s Hr a a' m x Ha Ha' Hm Hx Hid. pose proof (full_inv _ _ _ Hr) as F.
  destruct (Full_journal_batches _ _ F a Ha) as (pw & b & Np & Hb & _ & M & _). rewrite <- M in Hm.
  destruct (attempt_batch _ _ _ _ _ _ _ _ F Ha' Hx Np (pw_done_all _ _ Hb) Hm (eq_sym Hid)) as (_ & _ & E & _).
  congruence.
Qed.

Lemma ids_eqb_refl : forall l, ids_eqb l l = true.
Proof.
  intros l. unfold ids_eqb. rewrite Nat.eqb_refl. simpl.
  induction l as [|x l IH]; simpl; auto. rewrite N.eqb_refl. exact IH.
Qed.

Definition retry_pair_ok (cfg : config) (a' a : attempt) : bool :=
  negb (existsb (fun m => mem_id m (a_msgs a')) (a_msgs a))
  || (ids_eqb (a_msgs a') (a_msgs a) && tp_eqb (a_tp a') (a_tp a)
      && match a_seen a' with Some e => retriable cfg e | None => false end).

Lemma retries_ok_gen : forall cfg j seen,
  (forall a' a, In a' seen -> In a j -> retry_pair_ok cfg a' a = true) ->
  (forall j1 a' j2 a j3, j = j1 ++ a' :: j2 ++ a :: j3 -> retry_pair_ok cfg a' a = true) ->
  retries_ok cfg seen j = true.
Proof.
  induction j as [|a r IH]; intros seen H1 H2; simpl; auto.
  apply andb_true_iff. split.
  - apply forallb_forall. intros a' Ha'. apply (H1 a' a Ha'). simpl; auto.
  - apply IH.
    + intros a' a2 [Ea|Ha'] Ha2.
      * subst a'. apply in_split in Ha2. destruct Ha2 as (l1 & l2 & ->).
        apply (H2 [] a l1 a2 l2). reflexivity.
      * apply H1; simpl; auto.
    + intros j1 a' j2 a2 j3 E. apply (H2 (a :: j1) a' j2 a2 j3). rewrite E. reflexivity.
Qed.

Lemma retries_ok_runs : forall cfg ls s, runs cfg ls s -> retries_ok cfg [] (s_journal s) = true.
Proof.
  intros cfg ls s Hr. apply retries_ok_gen; [intros a' a []|].
  intros j1 a' j2 a j3 E. unfold retry_pair_ok.
  destruct (existsb (fun m => mem_id m (a_msgs a')) (a_msgs a)) eqn:X; simpl; auto.
  apply existsb_exists in X. destruct X as (m & Hm & Hx).
  destruct (mem_id_ex _ _ Hx) as (x & Hx' & Hid).
  assert (Ha' : In a' (s_journal s)) by (rewrite E; apply in_elt).
  assert (Ha : In a (s_journal s)).
  { rewrite E. apply in_or_app. right. right. apply in_elt. }
  assert (x = m) by exact (journal_id_eq _ _ _ Hr a a' m x Ha Ha' Hm Hx' Hid). subst x.
  destruct (C01_duplicates_only_by_retry_proof _ _ _ Hr) as (_ & D & _).
  destruct (D _ _ _ _ _ E (ex_intro _ m (conj Hx' Hm))) as (M & T & e & Se & Re).
  rewrite M, T, Se, Re, ids_eqb_refl, tp_eqb_refl. reflexivity.
Qed.

Lemma filter_id_none : forall i l, ~ In i (map m_id l) -> length (filter (fun x => N.eqb (m_id x) i) l) = 0.
Proof.
  induction l as [|x l IH]; simpl; intros H; auto.
  destruct (N.eqb (m_id x) i) eqn:E; [apply N.eqb_eq in E; exfalso; auto|]. apply IH. auto.
Qed.

Lemma filter_id_one : forall m l, NoDup (map m_id l) ->
  length (filter (fun x => N.eqb (m_id x) (m_id m)) l) = if mem_id m l then 1 else 0.
Proof.
  induction l as [|x l IH]; simpl; intros N; auto. inversion N; subst.
  destruct (N.eqb (m_id x) (m_id m)) eqn:E; simpl.
  - apply N.eqb_eq in E. rewrite filter_id_none; auto. rewrite <- E. exact H1.
  - apply IH. exact H2.
Qed.

Lemma filter_pair : forall t tp m l,
  length (filter (fun e : tpart * msg => tp_eqb (fst e) tp && N.eqb (m_id (snd e)) (m_id m)) (map (pair t) l))
  = if tp_eqb t tp then length (filter (fun x => N.eqb (m_id x) (m_id m)) l) else 0.
Proof.
  induction l as [|x l IH]; simpl; [destruct (tp_eqb t tp); reflexivity|].
  destruct (tp_eqb t tp); simpl in *; [destruct (N.eqb (m_id x) (m_id m)); simpl; rewrite IH; reflexivity|exact IH].
Qed.

Lemma count_log_journal : forall j tp m,
  (forall a, In a j -> NoDup (map m_id (a_msgs a))) ->
  count_log (log_of_journal j) tp m = count_applied j tp m.
Proof.
  induction j as [|a j IH]; intros tp m H; [reflexivity|].
  unfold count_log, count_applied in *. unfold log_of_journal in *. simpl.
  rewrite filter_app, app_length, IH by (intros; apply H; simpl; auto).
  assert (Na : NoDup (map m_id (a_msgs a))) by (apply H; simpl; auto).
  destruct (a_applied a); simpl; [|reflexivity].
  rewrite filter_pair. destruct (tp_eqb (a_tp a) tp); simpl; [|reflexivity].
  rewrite filter_id_one by exact Na. destruct (mem_id m (a_msgs a)); reflexivity.
Qed.

Lemma count_log_applied_runs : forall cfg ls s, runs cfg ls s ->
  forallb (fun e => count_log (s_log s) (fst e) (snd e) =? count_applied (s_journal s) (fst e) (snd e))
          (s_log s) = true.
Proof.
  intros cfg ls s Hr. apply forallb_forall. intros e _. apply Nat.eqb_eq.
  destruct (full_inv _ _ _ Hr) as [_ J1 (A & _ & _) _ B _ _].
  rewrite J1. apply count_log_journal.
  intros a Ha. destruct (A a Ha) as (pw & b & Np & Hb & _ & M & _). rewrite <- M.
  eapply B; eauto. apply pw_done_all; auto.
Qed.

Lemma filter_length_mono : forall A (f g : A -> bool) l,
  (forall x, In x l -> f x = true -> g x = true) -> length (filter f l) <= length (filter g l).
Proof.
  induction l as [|x l IH]; simpl; intros H; auto.
  assert (IH' := IH (fun y Hy => H y (or_intror Hy))).
  destruct (f x) eqn:F; [rewrite (H x (or_introl eq_refl) F); simpl; lia|].
  destruct (g x); simpl; lia.
Qed.

(* attempts with the same ids belong to the same batch (batches are never empty) *)
Lemma attempts_per_ids_runs : forall cfg ls s, runs cfg ls s ->
  forallb (fun a => length (filter (fun a' => ids_eqb (a_msgs a') (a_msgs a)) (s_journal s)) <=? maxAttempts cfg)
          (s_journal s) = true.
Proof.
  intros cfg ls s Hr. apply forallb_forall. intros a Ha. apply Nat.leb_le.
  destruct (full_inv _ _ _ Hr) as [_ _ (A & _ & C) (N & P) _ _ _].
  eapply Nat.le_trans; [|apply (C (a_pw a) (a_k a))].
  apply filter_length_mono. intros a' Ha' I.
  destruct (att_ok_runs _ _ _ _ Hr Ha) as (_ & _ & Hne).
  destruct (A a Ha) as (pw & b & Np & Hb & K & M & _).
  unfold ids_eqb in I. apply andb_true_iff in I. destruct I as [L I]. apply Nat.eqb_eq in L.
  destruct (a_msgs a) as [|m r] eqn:Ea; [congruence|].
  destruct (a_msgs a') as [|x r'] eqn:Ea'; [discriminate|].
  simpl in I. apply andb_true_iff in I. destruct I as [I _]. apply N.eqb_eq in I.
  assert (Hm : In m (b_msgs b)) by (rewrite M; simpl; auto).
  assert (Hx : In x (a_msgs a')) by (rewrite Ea'; simpl; auto).
  destruct (attempt_batch _ _ _ _ _ _ _ _ (full_inv _ _ _ Hr) Ha' Hx Np (pw_done_all _ _ Hb) Hm (eq_sym I))
    as (Ep & Ek & _).
  apply andb_true_iff. split; apply Nat.eqb_eq; congruence.
Qed.

Lemma C01_dups_holds_runs : forall cfg ls s, runs cfg ls s ->
  C01_dups_holds cfg (s_journal s) (s_log s) = true.
Proof.
  intros cfg ls s Hr. unfold C01_dups_holds.
  rewrite (count_log_applied_runs _ _ _ Hr), (retries_ok_runs _ _ _ Hr), (attempts_per_ids_runs _ _ _ Hr).
  reflexivity.
Qed.

Print Assumptions rejected_sends_nothing_holds_runs.
Print Assumptions retries_ok_runs.
Print Assumptions count_log_applied_runs.
Print Assumptions C01_dups_holds_runs.
