(* Proofs/XerialPoolProofs.v — the pool model of Model/CodecPool.v only produces disciplined
   traces; on such a trace a Use / Finish of o happens in status Ready (entered by EvNew / EvReset,
   left by EvGet / EvPut / EvResetFail), and between two Puts of an object there is a Get of it. *)
From Coq Require Import List Arith Bool Lia.
From KV Require Import Model.CodecPool.
Import ListNotations.

Lemma upd_same : forall A (f : nat -> A) i v, upd f i v i = v.
Proof. intros. unfold upd. rewrite Nat.eqb_refl. reflexivity. Qed.

Lemma upd_other : forall A (f : nat -> A) i v j, j <> i -> upd f i v j = f j.
Proof. intros. unfold upd. destruct (Nat.eqb_spec j i); congruence. Qed.

(* case analysis on every index comparison an [upd] brings in *)
Ltac upds :=
  unfold upd in *;
  repeat match goal with
         | |- context [Nat.eqb ?a ?b] => destruct (Nat.eqb_spec a b)
         | H : context [Nat.eqb ?a ?b] |- _ => destruct (Nat.eqb_spec a b)
         end;
  subst; try congruence; try lia.

Fixpoint mon_state (m : oid -> ostatus) (evs : list pev) {struct evs} : option (oid -> ostatus) :=
  match evs with
  | [] => Some m
  | e :: rest => match mon_step m e with Some m' => mon_state m' rest | None => None end
  end.

Lemma mon_run_state : forall evs m,
  mon_run m evs = true <-> exists m', mon_state m evs = Some m'.
Proof.
  induction evs as [|e evs IH]; simpl; intros m.
  - split; eauto.
  - destruct (mon_step m e) as [m1|]; auto.
    split; [discriminate | intros [m' H]; discriminate].
Qed.

Lemma mon_state_app : forall e1 e2 m,
  mon_state m (e1 ++ e2) =
  match mon_state m e1 with Some m' => mon_state m' e2 | None => None end.
Proof.
  induction e1 as [|e e1 IH]; simpl; intros; auto.
  destruct (mon_step m e); auto.
Qed.

Lemma mon_run_app : forall e1 e2 m,
  mon_run m (e1 ++ e2) = true <->
  exists m', mon_state m e1 = Some m' /\ mon_run m' e2 = true.
Proof.
  induction e1 as [|e e1 IH]; simpl; intros e2 m.
  - split; [eauto | intros [m' [H1 H2]]; inversion H1; subst; auto].
  - destruct (mon_step m e) as [m1|]; auto.
    split; [discriminate | intros [m' [H _]]; discriminate].
Qed.

Record Inv (s : pstate) (m : oid -> ostatus) : Prop := {
  inv_pool  : forall o, p_inpool s o = true -> m o = Pooled;
  inv_wrap  : forall w o, p_wrapper s w = Some o -> m o = Ready;
  inv_excl  : forall w w' o, p_wrapper s w = Some o -> p_wrapper s w' = Some o -> w = w';
  inv_fresh : forall o, p_next s <= o -> m o = Unknown
}.

Lemma Inv_init : Inv p_init (fun _ => Unknown).
Proof. constructor; simpl; intros; try discriminate; auto. Qed.

(* The three ways a step changes the state.  The new pool and monitor are given by their value
   at the object concerned and as unchanged elsewhere, so that the [upd] chains of model and
   monitor need not be compared as functions. *)
Lemma Inv_none : forall s m pool' m',
  Inv s m -> (forall o, pool' o = p_inpool s o) -> (forall o, m' o = m o) ->
  Inv {| p_inpool := pool'; p_next := p_next s;
         p_wrapper := upd (p_wrapper s) (p_nwrappers s) None; p_nwrappers := S (p_nwrappers s) |} m'.
Proof.
  intros s m pool' m' [Ipool Iwrap Iexcl Ifresh] Hp Hm.
  constructor; cbn [p_inpool p_next p_wrapper p_nwrappers].
  - intros o H. rewrite Hm. apply Ipool. rewrite <- Hp. exact H.
  - intros w o H. rewrite Hm. upds. eauto.
  - intros w w' o H H'. upds. eauto.
  - intros o H. rewrite Hm. auto.
Qed.

Lemma Inv_bind : forall s m o pool' next' m',
  Inv s m -> (forall w, p_wrapper s w <> Some o) -> o < next' -> p_next s <= next' ->
  pool' o = false -> (forall o', o' <> o -> pool' o' = p_inpool s o') ->
  m' o = Ready -> (forall o', o' <> o -> m' o' = m o') ->
  Inv {| p_inpool := pool'; p_next := next';
         p_wrapper := upd (p_wrapper s) (p_nwrappers s) (Some o); p_nwrappers := S (p_nwrappers s) |} m'.
Proof.
  intros s m o pool' next' m' [Ipool Iwrap Iexcl Ifresh] Hfree Ho Hnext Hpo Hp Hmo Hm.
  constructor; cbn [p_inpool p_next p_wrapper p_nwrappers].
  - intros o' H. destruct (Nat.eq_dec o' o) as [->|N]; [congruence|].
    rewrite Hm by exact N. apply Ipool. rewrite <- Hp; auto.
  - intros w o' H. upds.
    rewrite Hm; [eauto|]. intros ->. exact (Hfree _ H).
  - intros w w' o' H H'. unfold upd in H, H'.
    destruct (Nat.eqb_spec w (p_nwrappers s)), (Nat.eqb_spec w' (p_nwrappers s)); subst.
    + reflexivity.
    + injection H as <-. destruct (Hfree _ H').
    + injection H' as <-. destruct (Hfree _ H).
    + exact (Iexcl _ _ _ H H').
  - intros o' H. rewrite Hm by lia. apply Ifresh. lia.
Qed.

Lemma Inv_release : forall s m w o pool' m',
  Inv s m -> p_wrapper s w = Some o ->
  pool' o = true -> (forall o', o' <> o -> pool' o' = p_inpool s o') ->
  m' o = Pooled -> (forall o', o' <> o -> m' o' = m o') ->
  Inv {| p_inpool := pool'; p_next := p_next s;
         p_wrapper := upd (p_wrapper s) w None; p_nwrappers := p_nwrappers s |} m'.
Proof.
  intros s m w o pool' m' [Ipool Iwrap Iexcl Ifresh] Hw Hpo Hp Hmo Hm.
  constructor; cbn [p_inpool p_next p_wrapper p_nwrappers].
  - intros o' H. destruct (Nat.eq_dec o' o) as [->|N]; [exact Hmo|].
    rewrite Hm by exact N. apply Ipool. rewrite <- Hp; auto.
  - intros w1 o1 H. unfold upd in H. destruct (Nat.eqb_spec w1 w) as [->|N]; [discriminate|].
    (* another wrapper's object is not o: o is held by w alone *)
    rewrite Hm; [exact (Iwrap _ _ H)|]. intros ->. exact (N (Iexcl _ _ _ H Hw)).
  - intros w1 w2 o1 H1 H2. unfold upd in H1, H2.
    destruct (Nat.eqb_spec w1 w), (Nat.eqb_spec w2 w); try discriminate. exact (Iexcl _ _ _ H1 H2).
  - intros o' H. rewrite Hm; [auto|]. intros E. subst o'.
    pose proof (Ifresh _ H) as U. rewrite (Iwrap _ _ Hw) in U. discriminate.
Qed.

Lemma p_step_inv : forall k s m a, Inv s m ->
  exists m', mon_state m (snd (p_step k s a)) = Some m' /\ Inv (fst (p_step k s a)) m'.
Proof.
  intros k s m a I. pose proof I as [Ipool Iwrap Iexcl Ifresh].
  destruct a as [pick fail | w | w]; cbn [p_step].
  - destruct (p_inpool s pick) eqn:Hp.
    + (* Get returns [pick]: Pooled, so below p_next and held by no wrapper *)
      pose proof (Ipool _ Hp) as Hm.
      destruct (fail && pk_reset_fails k); cbn [fst snd mon_state mon_step].
      all: rewrite Hm; cbn [ostatus_eqb]; rewrite ?upd_same.
      all: eexists; split; [reflexivity|].
      * apply (Inv_none s m _ _ I); intros o; upds.
      * apply (Inv_bind s m pick _ _ _ I).
        -- intros w H. rewrite (Iwrap _ _ H) in Hm. discriminate.
        -- destruct (le_lt_dec (p_next s) pick) as [H|H]; [|exact H]. rewrite (Ifresh _ H) in Hm. discriminate.
        -- apply le_n.
        -- apply upd_same.
        -- intros o' N. apply upd_other, N.
        -- apply upd_same.
        -- intros o' N. rewrite !upd_other by exact N. reflexivity.
    + destruct (fail && pk_new_fails k); cbn [fst snd mon_state mon_step].
      * eexists; split; [reflexivity|]. apply (Inv_none s m _ _ I); reflexivity.
      * (* a new object, number p_next: Unknown, so neither pooled nor held *)
        pose proof (Ifresh _ (le_n _)) as Hm. rewrite Hm. cbn [ostatus_eqb].
        eexists; split; [reflexivity|]. apply (Inv_bind s m (p_next s) _ _ _ I).
        -- intros w H. rewrite (Iwrap _ _ H) in Hm. discriminate.
        -- apply le_n.
        -- apply le_S, le_n.
        -- destruct (p_inpool s (p_next s)) eqn:H; [|reflexivity]. rewrite (Ipool _ H) in Hm. discriminate.
        -- reflexivity.
        -- apply upd_same.
        -- intros o' N. apply upd_other, N.
  - destruct (p_wrapper s w) as [o|] eqn:Hw; cbn [fst snd mon_state mon_step].
    + rewrite (Iwrap _ _ Hw). cbn [ostatus_eqb]. eauto.
    + eauto.
  - destruct (p_wrapper s w) as [o|] eqn:Hw; cbn [fst snd]; [|cbn [mon_state]; eauto].
    pose proof (Iwrap _ _ Hw) as Hm.
    assert (Hev : mon_state m ((if pk_finish k then [EvFinish o] else []) ++ [EvReset o; EvPut o])
                  = Some (upd (upd m o Ready) o Pooled)).
    { destruct (pk_finish k); cbn [app mon_state mon_step];
        repeat (first [rewrite Hm | rewrite upd_same]; cbn [ostatus_eqb]); reflexivity. }
    rewrite Hev. eexists; split; [reflexivity|]. apply (Inv_release s m w o _ _ I Hw).
    + apply upd_same.
    + intros o' N. apply upd_other, N.
    + apply upd_same.
    + intros o' N. rewrite !upd_other by exact N. reflexivity.
Qed.

Lemma p_run_inv : forall k acts s m, Inv s m ->
  exists m', mon_state m (snd (p_run k s acts)) = Some m' /\ Inv (fst (p_run k s acts)) m'.
Proof.
  induction acts as [|a acts IH]; intros s m I; cbn [p_run].
  - exists m. split; auto.
  - destruct (p_step_inv k s m a I) as [m1 [H1 I1]].
    destruct (p_step k s a) as [s1 ev] eqn:Hs. cbn [fst snd] in *.
    destruct (IH s1 m1 I1) as [m2 [H2 I2]].
    destruct (p_run k s1 acts) as [s2 evs] eqn:Hr. cbn [fst snd] in *.
    exists m2. split; auto.
    rewrite mon_state_app, H1. exact H2.
Qed.

Theorem pool_run_inv : forall (k : pkind) (acts : list pact),
  exists m, mon_state (fun _ => Unknown) (snd (p_run k p_init acts)) = Some m
            /\ Inv (fst (p_run k p_init acts)) m.
Proof. intros. apply p_run_inv. apply Inv_init. Qed.

Theorem pool_disciplined : forall (k : pkind) (acts : list pact),
  disciplined (snd (p_run k p_init acts)) = true.
Proof.
  intros k acts. unfold disciplined. apply mon_run_state.
  destruct (pool_run_inv k acts) as [m [H _]]. eauto.
Qed.

Corollary pool_exclusive : forall k acts w w' o,
  p_wrapper (fst (p_run k p_init acts)) w = Some o ->
  p_wrapper (fst (p_run k p_init acts)) w' = Some o -> w = w'.
Proof.
  intros k acts w w' o. destruct (pool_run_inv k acts) as [m [_ I]].
  apply (inv_excl _ _ I).
Qed.

Corollary pool_held_not_pooled : forall k acts w o,
  p_wrapper (fst (p_run k p_init acts)) w = Some o ->
  p_inpool (fst (p_run k p_init acts)) o = false.
Proof.
  intros k acts w o H. destruct (pool_run_inv k acts) as [m [_ I]].
  destruct (p_inpool (fst (p_run k p_init acts)) o) eqn:Hp; auto.
  pose proof (inv_pool _ _ I _ Hp). pose proof (inv_wrap _ _ I _ _ H). congruence.
Qed.

Definition needs_ready (o : oid) (e : pev) : Prop := e = EvUse o \/ e = EvFinish o.

Lemma mon_run_ready : forall m pre e o post,
  needs_ready o e -> mon_run m (pre ++ e :: post) = true ->
  exists m', mon_state m pre = Some m' /\ m' o = Ready.
Proof.
  intros m pre e o post He H. apply mon_run_app in H. destruct H as [m' [H1 H2]].
  exists m'. split; auto.
  destruct He as [-> | ->]; cbn [mon_run mon_step] in H2;
    destruct (m' o); cbn [ostatus_eqb] in H2; try discriminate; auto.
Qed.

Definition unreadies (o : oid) (e : pev) : Prop :=
  e = EvGet o \/ e = EvPut o \/ e = EvResetFail o.

Lemma mon_step_spec : forall m e m', mon_step m e = Some m' ->
  match e with
  | EvGet o | EvResetFail o => m' = upd m o Acquired
  | EvNew o | EvReset o => m' = upd m o Ready
  | EvPut o => m' = upd m o Pooled
  | _ => m' = m
  end.
Proof.
  intros m e m'. destruct e as [o| |o| |o|o|o|o|o| ]; cbn [mon_step];
    try destruct (ostatus_eqb _ _); try destruct (m o);
    intros H; try discriminate H; injection H as <-; reflexivity.
Qed.

Lemma upd_ready : forall m x st o,
  upd m x st o = Ready -> (x = o /\ st = Ready) \/ (x <> o /\ m o = Ready).
Proof. intros m x st o. unfold upd. destruct (Nat.eqb_spec o x); intros H; [left|right]; auto. Qed.

(* Ready is entered only by EvNew / EvReset, and any of Get / Put / ResetFail leaves it *)
Lemma mon_step_ready : forall m e m' o,
  mon_step m e = Some m' -> m' o = Ready ->
  (e = EvNew o \/ e = EvReset o) \/ (m o = Ready /\ ~ unreadies o e).
Proof.
  intros m e m' o Hs Hr. apply mon_step_spec in Hs. unfold unreadies.
  destruct e as [x| |x| |x|x|x|x|x| ]; subst m'.
  1,3,5,6,9: destruct (upd_ready _ _ _ _ Hr) as [[-> E]|[N Hm]]; try discriminate E.
  (* New o and Reset o; everything else found Ready at o and is none of Get / Put / ResetFail o *)
  all: try solve [left; auto].
  all: right; split; [assumption|intros [E|[E|E]]; congruence].
Qed.

Lemma mon_state_ready : forall evs m m' o,
  mon_state m evs = Some m' -> m' o = Ready ->
  (m o = Ready /\ forall e, In e evs -> ~ unreadies o e)
  \/ exists p1 e p2, evs = p1 ++ e :: p2 /\ (e = EvNew o \/ e = EvReset o)
                     /\ forall e', In e' p2 -> ~ unreadies o e'.
Proof.
  induction evs as [|e evs IH]; intros m m' o Hs Hr; cbn [mon_state] in Hs.
  - inversion Hs; subst. left. split; [auto | intros e []].
  - destruct (mon_step m e) as [m1|] eqn:H1; [|discriminate].
    destruct (IH _ _ _ Hs Hr) as [[Hr1 Hno] | [p1 [e0 [p2 [Heq [He0 Hno]]]]]].
    + destruct (mon_step_ready _ _ _ _ H1 Hr1) as [He | [Hm Hne]].
      * right. exists [], e, evs. split; auto.
      * left. split; auto. intros e' [<-|Hin]; auto.
    + right. exists (e :: p1), e0, p2. subst evs. split; auto.
Qed.

(* in a trace accepted from the all-Unknown monitor, a Use or Finish of o is preceded by a
   successful Reset (or the construction) of o with no Get / Put / failed Reset of o in between *)
Theorem disciplined_ready_after_reset : forall evs, disciplined evs = true ->
  forall pre e o post, needs_ready o e -> evs = pre ++ e :: post ->
  exists p1 e0 p2, pre = p1 ++ e0 :: p2 /\ (e0 = EvNew o \/ e0 = EvReset o)
                   /\ forall e', In e' p2 -> e' <> EvGet o /\ e' <> EvPut o /\ e' <> EvResetFail o.
Proof.
  intros evs H pre e o post He ->. unfold disciplined in H.
  destruct (mon_run_ready _ _ _ _ _ He H) as [m' [Hs Hr]].
  destruct (mon_state_ready _ _ _ _ Hs Hr) as [[Hu _] | [p1 [e0 [p2 [Heq [He0 Hno]]]]]];
    [discriminate|].
  exists p1, e0, p2. split; auto. split; auto.
  intros e' Hin. pose proof (Hno _ Hin) as Hn. unfold unreadies in Hn.
  repeat split; intro; apply Hn; auto.
Qed.

Lemma mon_step_pooled : forall m e m' o,
  mon_step m e = Some m' -> m o = Pooled -> m' o = Pooled \/ e = EvGet o.
Proof.
  intros m e m' o Hs Hp.
  destruct e as [x| |x| |x|x|x|x|x| ]; cbn [mon_step] in Hs;
    try (inversion Hs; subst; auto; fail).
  - destruct (ostatus_eqb (m x) Pooled); inversion Hs; subst. upds; auto.
  - destruct (ostatus_eqb (m x) Unknown) eqn:E; inversion Hs; subst. upds; auto.
    rewrite Hp in E. discriminate.
  - destruct (m x) eqn:E; inversion Hs; subst; upds; auto.
  - destruct (m x) eqn:E; inversion Hs; subst; upds; auto.
  - destruct (ostatus_eqb (m x) Ready); inversion Hs; subst; auto.
  - destruct (ostatus_eqb (m x) Ready); inversion Hs; subst; auto.
  - destruct (m x) eqn:E; inversion Hs; subst; upds; auto.
Qed.

Lemma mon_state_pooled : forall evs m m' o,
  mon_state m evs = Some m' -> m o = Pooled -> m' o = Pooled \/ In (EvGet o) evs.
Proof.
  induction evs as [|e evs IH]; intros m m' o Hs Hp; cbn [mon_state] in Hs.
  - inversion Hs; subst; auto.
  - destruct (mon_step m e) as [m1|] eqn:H1; [|discriminate].
    destruct (mon_step_pooled _ _ _ _ H1 Hp) as [Hp1 | ->].
    + destruct (IH _ _ _ Hs Hp1); auto. right; right; auto.
    + right; left; auto.
Qed.

Theorem disciplined_no_double_put : forall evs, disciplined evs = true ->
  forall pre o mid post, evs = pre ++ EvPut o :: mid ++ EvPut o :: post -> In (EvGet o) mid.
Proof.
  intros evs H pre o mid post ->. unfold disciplined in H.
  apply mon_run_app in H. destruct H as [m0 [_ H]].
  cbn [mon_run] in H.
  destruct (mon_step m0 (EvPut o)) as [m1|] eqn:H1; [|discriminate].
  assert (Hp : m1 o = Pooled).
  { cbn [mon_step] in H1. destruct (m0 o); inversion H1; subst; apply upd_same. }
  apply mon_run_app in H. destruct H as [m2 [H2 H3]].
  destruct (mon_state_pooled _ _ _ _ H2 Hp) as [Hp2 | Hin]; auto.
  cbn [mon_run mon_step] in H3. rewrite Hp2 in H3. discriminate.
Qed.

Corollary pool_finish_after_reset : forall k acts pre o post,
  snd (p_run k p_init acts) = pre ++ EvFinish o :: post ->
  exists p1 e p2, pre = p1 ++ e :: p2 /\ (e = EvNew o \/ e = EvReset o)
                  /\ forall e', In e' p2 -> e' <> EvGet o /\ e' <> EvPut o /\ e' <> EvResetFail o.
Proof.
  intros k acts pre o post.
  exact (disciplined_ready_after_reset _ (pool_disciplined k acts) pre _ o post (or_intror eq_refl)).
Qed.
