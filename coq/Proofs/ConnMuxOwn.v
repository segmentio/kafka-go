(* Proofs/ConnMuxOwn.v — own-response, distinct ids, abandonment closes, nothing after
   close, who holds the read lock. *)
From Coq Require Import List ZArith Bool Arith Lia.
From KV Require Import Lib.LTS Model.ConnMux Proofs.ConnMuxBase Proofs.ConnMuxProofs.
Import ListNotations.
Local Open Scope Z_scope.

Lemma flags_mono : forall s l s', step s l = Some s' ->
  (closed s = true -> closed s' = true) /\ (misaligned s = true -> misaligned s' = true).
Proof. intros s l s' H. step_cases H; auto. Qed.

Lemma nsend_mono : forall s l s', step s l = Some s' -> nsend s <= nsend s'.
Proof. intros s l s' H. destruct (step_num s l s' H) as [[G _]|[_ [_ [G _]]]]; lia. Qed.

Lemma nsend_run_mono : forall ls s s', run s ls = Some s' -> nsend s <= nsend s'.
Proof.
  exact (rel_run _ _ step (fun a b => nsend a <= nsend b) (fun a => Z.le_refl _)
           (fun a b c => Z.le_trans _ _ _) nsend_mono).
Qed.

Lemma consumed_mono : forall s l s' f, step s l = Some s' -> In f (consumed s) -> In f (consumed s').
Proof.
  intros s l s' f H C.
  destruct (step_frames s l s' H) as [[_ [[-> _]|[f' [_ ->]]]]|[_ [_ [_ [-> _]]]]]; auto.
  apply in_or_app. left. exact C.
Qed.

Lemma seqn_inj : forall s t u, Inv s ->
  presend (ph (thr s t)) = false -> presend (ph (thr s u)) = false ->
  - ID_BOUND < seqn (thr s t) - seqn (thr s u) < ID_BOUND ->
  rid (thr s t) = rid (thr s u) -> t = u.
Proof.
  intros s t u I Pt Pu D E.
  destruct (i_post s I t Pt) as [_ Rt]. destruct (i_post s I u Pu) as [_ Ru].
  apply (i_inj s I t u Pt Pu). apply wrap32_inj; [congruence|exact D].
Qed.

Lemma ids_distinct : forall s t u, Inv s -> nsend s < ID_BOUND ->
  presend (ph (thr s t)) = false -> presend (ph (thr s u)) = false ->
  rid (thr s t) = rid (thr s u) -> t = u.
Proof.
  intros s t u I B Pt Pu. apply (seqn_inj s t u I Pt Pu).
  destruct (i_post s I t Pt) as [Xt _]. destruct (i_post s I u Pu) as [Xu _]. lia.
Qed.

Definition completed (p : phase) : Prop :=
  match p with Reading | InBatch | Done _ => True | _ => False end.

Definition holds_own (s : state) (t : tid) : Prop :=
  exists f, got (thr s t) = Some f /\ fid f = rid (thr s t) /\ fown f = t /\ In f (consumed s).

(* alignment is a premise inside the invariant: RKafkaLeft / PeekGarbage only raise [misaligned],
   which is never lowered, so the implication survives every step *)
Definition OwnW (s : state) : Prop :=
  misaligned s = false -> forall t, completed (ph (thr s t)) -> holds_own s t.

Lemma step_completed : forall s l s' u, step s l = Some s' -> completed (ph (thr s' u)) ->
  (completed (ph (thr s u)) /\ got (thr s' u) = got (thr s u) /\ rid (thr s' u) = rid (thr s u)) \/
  (exists f w, ph (thr s u) = Peeking /\ wire s = f :: w /\ fid f = rid (thr s u) /\
     got (thr s' u) = Some f /\ rid (thr s' u) = rid (thr s u) /\ consumed s' = consumed s ++ [f]) \/
  misaligned s' = true.
Proof.
  intros s l s' u H. step_cases H; case_eqb; cbn [ph completed]; intros C;
    try contradiction; auto;
    try (left; match goal with Hp : ph _ = _ |- _ => rewrite Hp end; cbn; auto; fail).
  right. left. exists f, w. auto 7.
Qed.

(* the window: no bound on the number of requests a connection carries, only on how far apart
   (in send order) two OUTSTANDING requests are *)
Definition outstanding (s : state) (t : tid) : Prop :=
  ph (thr s t) = Waiting \/ ph (thr s t) = Peeking \/ exists f, In f (wire s) /\ fown f = t.

Definition window (s : state) : Prop :=
  forall t u, outstanding s t -> outstanding s u ->
    - ID_BOUND < seqn (thr s t) - seqn (thr s u) < ID_BOUND.

(* W holds in every state the run visits (including the first and the last) *)
Fixpoint run_within (W : state -> Prop) (s : state) (ls : list label) {struct ls} : Prop :=
  W s /\
  match ls with
  | [] => True
  | l :: ls' => match step s l with Some s' => run_within W s' ls' | None => True end
  end.

Lemma inv_run_within : forall (W P : state -> Prop),
  (forall s l s', W s -> P s -> step s l = Some s' -> P s') ->
  forall ls s s', P s -> run s ls = Some s' -> run_within W s ls -> P s' /\ W s'.
Proof.
  intros W P Hstep. induction ls as [|l ls IH]; intros s s' Ps Hr Hw; simpl in *.
  - inversion Hr; subst. split; [exact Ps|exact (proj1 Hw)].
  - destruct Hw as [Ws Hw]. destruct (step s l) as [s1|] eqn:E; [|discriminate].
    eapply IH; [|exact Hr|exact Hw]. eapply Hstep; eauto.
Qed.

Lemma wire_frame : forall s f, Inv s -> In f (wire s) ->
  reached (thr s (fown f)) = true /\ fid f = rid (thr s (fown f)) /\ In (fown f) (answered s).
Proof. intros s f I Hf. apply (i_frames s I). apply in_or_app. right. exact Hf. Qed.

Lemma outstanding_presend : forall s t, Inv s -> outstanding s t -> presend (ph (thr s t)) = false.
Proof.
  intros s t I [H|[H|[f [Hf Ho]]]]; try (rewrite H; reflexivity).
  destruct (wire_frame s f I Hf) as [R _]. rewrite Ho in R. apply presend_false_of_reached; auto.
Qed.

Lemma ids_distinct_window : forall s t u, Inv s -> window s ->
  outstanding s t -> outstanding s u -> rid (thr s t) = rid (thr s u) -> t = u.
Proof.
  intros s t u I W Ot Ou.
  exact (seqn_inj s t u I (outstanding_presend s t I Ot) (outstanding_presend s u I Ou) (W t u Ot Ou)).
Qed.

(* A peeking call whose id equals that of a frame on the wire is that frame's owner, both
   being outstanding inside the window; so the header it skips is its own. *)
Lemma Own_step : forall s l s', window s -> Inv s /\ OwnW s -> step s l = Some s' -> Inv s' /\ OwnW s'.
Proof.
  intros s l s' W [Iv O] H. split; [eapply Inv_step; eauto|]. intros M' u C.
  assert (M : misaligned s = false).
  { destruct (misaligned s) eqn:E; [|reflexivity].
    rewrite (proj2 (flags_mono s l s' H) E) in M'. discriminate. }
  destruct (step_completed s l s' u H C) as [[C0 [G R]]|[(f & w & P & Wi & Ef & G & R & K)|X]]; [| |congruence].
  - destruct (O M u C0) as [f [A [B [D F]]]]. exists f. rewrite G, R.
    repeat split; auto. eapply consumed_mono; eauto.
  - assert (Hf : In f (wire s)) by (rewrite Wi; left; reflexivity).
    destruct (wire_frame s f Iv Hf) as [_ [Ei _]].
    exists f. rewrite G, R, K. repeat split; auto.
    + apply (ids_distinct_window s); auto; [right; right; exists f; auto|right; left; exact P|congruence].
    + apply in_or_app. right. left. reflexivity.
Qed.

Lemma Own_run : forall ls s, run init ls = Some s -> run_within window init ls ->
  Inv s /\ OwnW s /\ window s.
Proof.
  intros ls s H Hw.
  destruct (inv_run_within window (fun x => Inv x /\ OwnW x) Own_step ls init s) as [[I O] W]; auto.
  split; [exact Inv_init|]. intros _ t C. destruct C.
Qed.

Lemma own_response : forall s, Inv s -> OwnW s -> aligned s ->
  (forall t, completed (ph (thr s t)) ->
     exists f, got (thr s t) = Some f /\ fid f = rid (thr s t) /\ fown f = t /\
               In f (consumed s) /\ In t (answered s)) /\
  NoDup (map fown (consumed s)).
Proof.
  intros s I O A. split.
  - intros t C. destruct (O A t C) as [f [G [E [F D]]]]. exists f. repeat split; auto.
    destruct (i_frames s I f (in_or_app _ _ _ (or_introl D))) as [_ [_ X]]. rewrite F in X. exact X.
  - pose proof (i_nodup s I) as N. rewrite map_app in N. eapply NoDup_app_l; exact N.
Qed.

(* the total bound implies the window in every visited state: the windowed theorem subsumes
   the bounded one, and its hypothesis is satisfiable by every run below the bound *)
Lemma window_of_bound : forall s, Inv s -> nsend s < ID_BOUND -> window s.
Proof.
  intros s I B t u Ot Ou.
  destruct (i_post s I t (outstanding_presend s t I Ot)) as [Xt _].
  destruct (i_post s I u (outstanding_presend s u I Ou)) as [Xu _]. lia.
Qed.

Lemma run_within_of_bound : forall ls s s', Inv s -> run s ls = Some s' -> nsend s' < ID_BOUND ->
  run_within window s ls.
Proof.
  induction ls as [|l ls IH]; intros s s' I H B; simpl in *.
  - inversion H; subst. split; [apply window_of_bound; auto|exact Logic.I].
  - destruct (step s l) as [s1|] eqn:E; [|discriminate].
    pose proof (Inv_step s l s1 I E) as I1. pose proof (IH s1 s' I1 H B) as W1.
    split; [|exact W1]. apply window_of_bound; [exact I|].
    pose proof (nsend_mono s l s1 E). pose proof (nsend_run_mono ls s1 s' H). lia.
Qed.

Definition AbandonInv (s : state) : Prop :=
  forall t e, ph (thr s t) = Failed e -> e <> ENoProgress -> closed s = true.

Lemma Abandon_run : forall ls s, run init ls = Some s -> AbandonInv s.
Proof.
  intros ls s. apply (inv_run _ _ step AbandonInv); [|intros t e P; discriminate P].
  intros x l x' A H u e. pose proof (A u e) as Au. pose proof (proj1 (flags_mono x l x' H)) as CM.
  (* a new failure closes the connection or is ErrNoProgress *)
  step_cases H; case_eqb; cbn [ph]; auto; intros P N; try discriminate P; try reflexivity.
  all: injection P as <-; contradiction.
Qed.

Lemma closed_step : forall s l s', step s l = Some s' -> closed s = true ->
  closed s' = true /\
  (forall f, In f (wire s') -> In f (wire s)) /\
  (forall f, In f (consumed s') -> In f (consumed s) \/ In f (wire s)) /\
  answered s' = answered s.
Proof.
  intros s l s' H C. split; [exact (proj1 (flags_mono s l s' H) C)|].
  destruct (step_frames s l s' H) as [[-> K]|[_ [C' _]]]; [|congruence].
  destruct K as [[-> [->| ->]]|[f' [-> ->]]]; repeat split; auto; try contradiction.
  - intros f Hf. right. exact Hf.
  - intros f Hf. apply in_app_or in Hf. destruct Hf as [Hf|[<-|[]]]; auto. right; left; reflexivity.
Qed.

Definition holder_phase (p : phase) : bool :=
  match p with Peeking | Reading | InBatch => true | _ => false end.

Definition LockInv (s : state) : Prop :=
  forall t, rlock s = Some t -> holder_phase (ph (thr s t)) = true.

Lemma LockInv_run : forall ls s, run init ls = Some s -> LockInv s.
Proof.
  intros ls s. apply (inv_run _ _ step LockInv); [|intros t R; discriminate R].
  intros x l x' L H u. pose proof (L u) as Lu.
  (* a stepping call whose old phase is not a holder's held no lock, by the hypothesis at x *)
  step_cases H; intros R; try discriminate R; try (injection R as <-);
    case_eqb; try reflexivity; auto;
    specialize (Lu R); match goal with Hp : ph _ = _ |- _ => rewrite Hp in Lu end; discriminate Lu.
Qed.
