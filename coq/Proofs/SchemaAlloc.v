(* Proofs/SchemaAlloc.v — one induction over the schema for a decode of ARBITRARY bytes: it never
   panics or runs out of fuel, a success consumed what it took from the frame (SchemaTotal's [good]),
   and what it allocates is bounded by the DECLARED frame size times a constant of the schema (the
   declared size is itself a wire field: f8b_oom in SchemaC20.v). *)
From Coq Require Import List NArith ZArith Bool Lia.
From Coq Require Import ZifyN ZifyNat ZifyBool.
From KV Require Import Lib.Bits Lib.Bytes Lib.Varint Model.Schema
  Proofs.SchemaBase Proofs.SchemaDefs Proofs.SchemaPrims Proofs.SchemaEqns Proofs.SchemaTotal.
Import ListNotations.

(* bytes allocated per frame byte: element sizes add up along a nesting path *)
Fixpoint kfac (t : ty) {struct t} : Z :=
  match t with
  | TString _ | TBytes _ | TRecords _ | TMarker => 1%Z
  | TArray _ esize e => Z.of_N esize + kfac e
  | TStruct fields tagged =>
      Z.max 1 (Z.max
        ((fix go (l : list ty) : Z := match l with [] => 0%Z | x :: r => Z.max (kfac x) (go r) end) fields)
        ((fix go (l : list (Z * ty)) : Z := match l with [] => 0%Z | (_, x) :: r => Z.max (kfac x) (go r) end) tagged))
  | _ => 0%Z
  end.

Definition kmax_fields : list ty -> Z :=
  fix go (l : list ty) : Z := match l with [] => 0%Z | x :: r => Z.max (kfac x) (go r) end.
Definition kmax_tags : list (Z * ty) -> Z :=
  fix go (l : list (Z * ty)) : Z := match l with [] => 0%Z | (_, x) :: r => Z.max (kfac x) (go r) end.

Lemma kfac_struct_eq fields tagged :
  kfac (TStruct fields tagged) = Z.max 1 (Z.max (kmax_fields fields) (kmax_tags tagged)).
Proof. reflexivity. Qed.

Lemma kfac_nonneg : forall t, (0 <= kfac t)%Z.
Proof.
  induction t as [| w | | n | n | n e t IH | fields tagged IHf IHt | | r] using ty_ind';
    try (cbn [kfac]; lia); rewrite kfac_struct_eq; lia.
Qed.

Lemma kmax_fields_in x l : In x l -> (kfac x <= kmax_fields l)%Z.
Proof. induction l as [|y r IH]; intros H; [destruct H|]. cbn [kmax_fields]. destruct H as [->|H]; [lia|]. specialize (IH H). lia. Qed.

Lemma kmax_tags_in p l : In p l -> (kfac (snd p) <= kmax_tags l)%Z.
Proof.
  induction l as [|[i y] r IH]; intros H; [destruct H|]. cbn [kmax_tags].
  destruct H as [<-|H]; [cbn [snd]; lia|]. specialize (IH H). lia.
Qed.

Definition zal (s : dstate) : Z := Z.of_N (d_alloc s).
Definition nonneg (s : dstate) : Prop := (0 <= d_remain s)%Z.

Lemma consumes_nonneg m s s' : consumes m s s' -> nonneg s -> nonneg s'.
Proof. intros [k [_ [_ [_ [Hp _]]]]] H. exact (Hp H). Qed.

Lemma consumes_remain m s s' : consumes m s s' -> (d_remain s' + Z.of_nat m <= d_remain s)%Z.
Proof. intros [k [Hk [_ [Hr _]]]]. lia. Qed.

(* z allocated, r remaining, before (0), between (1) and after (2) two parts at rate K *)
Lemma seq_ok K z0 z1 z2 r0 r1 r2 : (0 <= K)%Z -> (0 <= r2 <= r1)%Z -> (r1 <= r0)%Z ->
  (z1 <= z0 + K * (r0 - r1) + (if (r1 <=? 0)%Z then K * r0 else 0))%Z ->
  (z2 <= z1 + K * (r1 - r2) + (if (r2 <=? 0)%Z then K * r1 else 0))%Z ->
  (z2 <= z0 + K * (r0 - r2) + (if (r2 <=? 0)%Z then K * r0 else 0))%Z.
Proof. intros HK H2 H1 Ha1 Ha2. destruct (Z.leb_spec r1 0); destruct (Z.leb_spec r2 0); nia. Qed.

(* each half may leave one allocation unpaid on a failure: hence the factor 2 *)
Lemma seq_fail K z0 z1 r0 r1 : (0 <= K)%Z -> (0 <= r1 <= r0)%Z ->
  (z1 <= z0 + K * (r0 - r1) + (if (r1 <=? 0)%Z then K * r0 else 0))%Z ->
  (z1 + 2 * K * r1 <= z0 + 2 * K * r0)%Z.
Proof. intros HK H1 Ha1. destruct (Z.leb_spec r1 0); nia. Qed.

Section Alloc.
Variable c : cfg.
Variable flex : bool.

(* the accounting invariant: K bytes per frame byte consumed, plus once K per byte of what
   remained when the frame's remaining size reached zero; twice that on an error *)
Definition ab {A} (K : Z) (s : dstate) (r : res A) : Prop :=
  match r with
  | Ok _ s' => (zal s' <= zal s + K * (d_remain s - d_remain s')
                        + (if (d_remain s' <=? 0)%Z then K * d_remain s else 0))%Z
  | Err _ _ al => (Z.of_N al <= zal s + 2 * K * d_remain s)%Z
  | Oom => (Z.of_N (budget c) < zal s + 2 * K * d_remain s)%Z
  | Panic => True
  | OutOfFuel => True
  end.

Definition gab {A} (m : nat) (K : Z) (s : dstate) (r : res A) : Prop := good m s r /\ ab K s r.

(* [good] from any state, the accounting only when the remaining size is not negative *)
Definition acct {A} (m : nat) (K : Z) (s : dstate) (r : res A) : Prop :=
  good m s r /\ (nonneg s -> ab K s r).

Lemma acct_gab {A} m K s (r : res A) : acct m K s r -> nonneg s -> gab m K s r.
Proof. intros [Hg Ha] Hs. exact (conj Hg (Ha Hs)). Qed.

Lemma acct_ret {A} K s (a : A) : (0 <= K)%Z -> acct 0 K s (Ok a s).
Proof.
  intros HK. split; [apply consumes_refl|]. unfold nonneg. intros Hs. cbn [ab].
  destruct (Z.leb_spec (d_remain s) 0); nia.
Qed.

Lemma acct_mono {A} m K K' s (r : res A) : (0 <= K <= K')%Z -> acct m K s r -> acct m K' s r.
Proof.
  intros HK [Hg Ha]. split; [exact Hg|]. intros Hs. specialize (Ha Hs).
  destruct r as [a s'| e ra al | | |]; cbn [ab good] in *; try exact I.
  - pose proof (consumes_remain _ _ _ Hg) as Hr. pose proof (consumes_nonneg _ _ _ Hg Hs) as Hs'.
    unfold nonneg in *. destruct (Z.leb_spec (d_remain s') 0); nia.
  - unfold nonneg in Hs. nia.
  - unfold nonneg in Hs. nia.
Qed.

Lemma acct_weaken {A} m m' K s (r : res A) : (m' <= m)%nat -> acct m K s r -> acct m' K s r.
Proof. intros H [Hg Ha]. split; [eapply good_weaken; eassumption|exact Ha]. Qed.

(* [m] is what the caller keeps of the sum; the first part may account at a lower rate *)
Lemma acct_bind {A B} m m1 m2 K1 K s (r : res A) (f : A -> dstate -> res B) :
  small s -> acct m1 K1 s r -> (0 <= K1 <= K)%Z ->
  (forall a s', small s' -> consumes m1 s s' -> acct m2 K s' (f a s')) ->
  (m <= m1 + m2)%nat ->
  acct m K s (bind r f).
Proof.
  intros Hsm Hr HK Hf Hm. apply (acct_mono _ K1 K) in Hr; [|exact HK]. destruct Hr as [Hg Ha].
  assert (Hf' : forall a s', consumes m1 s s' -> acct m2 K s' (f a s'))
    by (intros a s' Hc; apply Hf; [eapply consumes_small; eassumption|exact Hc]).
  split.
  - eapply good_bind; [exact Hg|intros a s' Hc; exact (proj1 (Hf' a s' Hc))|exact Hm].
  - intros Hs. specialize (Ha Hs).
    destruct r as [a s'| e ra al | | |]; cbn [ab good bind] in *; try exact Ha; try exact I.
    pose proof (consumes_remain _ _ _ Hg) as Hr. pose proof (consumes_nonneg _ _ _ Hg Hs) as Hs'.
    destruct (Hf' a s' Hg) as [Hg2 Ha2]. specialize (Ha2 Hs').
    destruct (f a s') as [b s''| e ra al | | |]; cbn [ab good] in *; try exact I.
    + pose proof (consumes_remain _ _ _ Hg2) as Hr2. pose proof (consumes_nonneg _ _ _ Hg2 Hs') as Hs''.
      unfold nonneg in *. eapply seq_ok; [| | |exact Ha|exact Ha2]; lia.
    + unfold nonneg in *. eapply seq_fail in Ha; [|lia|lia]. lia.
    + unfold nonneg in *. eapply seq_fail in Ha; [|lia|lia]. lia.
Qed.

Lemma acct_map {A B} m K1 K s (r : res A) (g : A -> B) :
  small s -> acct m K1 s r -> (0 <= K1 <= K)%Z -> acct m K s (bind r (fun a s' => Ok (g a) s')).
Proof.
  intros Hsm Hr HK. eapply acct_bind; [exact Hsm|exact Hr|exact HK| |apply Nat.le_add_r].
  intros a s' _ _. apply acct_ret. lia.
Qed.

Lemma ab_total {A} m K s (r : res A) : (0 <= K)%Z -> nonneg s -> good m s r -> ab K s r ->
  match r with
  | Ok _ s' => (zal s' <= zal s + 2 * K * d_remain s)%Z
  | Err _ _ al => (Z.of_N al <= zal s + 2 * K * d_remain s)%Z
  | Oom => (Z.of_N (budget c) < zal s + 2 * K * d_remain s)%Z
  | _ => True
  end.
Proof.
  intros HK Hs Hg Ha. destruct r as [a s'| | | |]; cbn [ab good] in *; try exact Ha.
  pose proof (consumes_remain _ _ _ Hg) as Hr. pose proof (consumes_nonneg _ _ _ Hg Hs) as Hs'.
  unfold nonneg in *. destruct (Z.leb_spec (d_remain s') 0); nia.
Qed.

Lemma read_z_ab k s : nonneg s -> ab 0 s (read_z k s).
Proof.
  intros Hs. unfold read_z, nonneg in *.
  destruct (Z.leb k 0); [cbn [ab]; destruct (Z.leb (d_remain s) 0); lia|].
  destruct (Z.leb (d_remain s) 0); [cbn [ab]; unfold zal; lia|].
  destruct (Z.ltb _ _); [cbn [ab]; unfold zal; lia|].
  destruct (Z.ltb _ _); [cbn [ab]; unfold zal; lia|].
  cbn [ab d_remain d_alloc zal]. unfold zal. cbn [d_alloc].
  destruct (Z.leb _ 0); lia.
Qed.

Lemma read_n_acct k s : acct k 0 s (read_n k s).
Proof. split; [apply read_n_good|apply read_z_ab]. Qed.

Lemma read_int_acct w s : small s -> acct w 0 s (read_int w s).
Proof. intros Hsm. unfold read_int. apply (acct_map _ 0); [exact Hsm|apply read_n_acct|lia]. Qed.

Lemma fail_acct {A} m K e s : (0 <= K)%Z -> acct m K s (@fail A e s).
Proof. intros HK. split; [apply fail_good|]. unfold fail, nonneg. intros Hs. cbn [ab]. unfold zal. nia. Qed.

Lemma uvarint_loop_acct n : forall x sh s, small s -> acct 1 0 s (uvarint_loop n x sh s).
Proof.
  induction n as [|n IH]; intros x sh s Hsm; cbn [uvarint_loop]; [apply fail_acct; lia|].
  eapply acct_bind; [exact Hsm|apply read_n_acct|lia| |apply Nat.le_add_r].
  intros bs s' Hsm' _. destruct (N.ltb _ 128); [apply acct_ret; lia|].
  eapply acct_weaken; [apply Nat.le_0_l|apply IH; exact Hsm'].
Qed.

Lemma read_uvarint_acct s : small s -> acct 1 0 s (read_uvarint s).
Proof. intros Hsm. unfold read_uvarint. apply uvarint_loop_acct. exact Hsm. Qed.

Definition progress {A} (n : Z) (s : dstate) (r : res A) : Prop :=
  match r with
  | Ok _ s' => (n <= d_remain s - d_remain s')%Z \/ (d_remain s' <= 0)%Z
  | _ => True
  end.

(* the one idea of the bound: the n * e bytes of the buffer are covered by the n frame bytes
   read into it at rate e, or, if the frame ran out first, by the whole frame once more *)
Lemma prepaid_ok e Ke z0 z' r r' nn : (0 <= e)%Z -> (0 <= Ke)%Z -> (0 <= nn <= r)%Z -> (0 <= r' <= r)%Z ->
  (z' <= z0 + nn * e + Ke * (r - r') + (if (r' <=? 0)%Z then Ke * r else 0))%Z ->
  (nn <= r - r' \/ r' <= 0)%Z ->
  (z' <= z0 + (e + Ke) * (r - r') + (if (r' <=? 0)%Z then (e + Ke) * r else 0))%Z.
Proof. intros He HKe Hnn Hr Ha [Hp|Hp]; destruct (Z.leb_spec r' 0); nia. Qed.

Lemma prepaid_acct {A} m Ke e nn s (q : unit -> dstate -> res A) :
  (0 <= Ke)%Z -> (e <= 65536)%N -> small s -> (0 <= nn <= d_remain s)%Z ->
  (forall s1, d_in s1 = d_in s -> d_remain s1 = d_remain s -> (d_alloc s <= d_alloc s1)%N ->
     acct m Ke s1 (q tt s1) /\ progress nn s1 (q tt s1)) ->
  acct m (Z.of_N e + Ke) s (bind (alloc c nn e s) q).
Proof.
  intros HKe He Hsm Hnn Hq. destruct (alloc_cases c nn e s Hnn Hsm He) as [[-> Hb]| ->]; cbn [bind].
  { split; [exact I|]. unfold nonneg. intros Hs. cbn [ab d_alloc] in *. unfold zal. nia. }
  set (s1 := {| d_in := d_in s; d_remain := d_remain s; d_alloc := d_alloc s + Z.to_N nn * e |}).
  destruct (Hq s1 eq_refl eq_refl ltac:(cbn [s1 d_alloc]; lia)) as [[Hg Ha] Hp].
  assert (Hz1 : zal s1 = (zal s + nn * Z.of_N e)%Z)
    by (unfold zal, s1; cbn [d_alloc]; rewrite N2Z.inj_add, N2Z.inj_mul, Z2N.id by lia; reflexivity).
  split.
  - destruct (q tt s1) as [a s'| | | |]; cbn [good] in *; try exact Hg.
    destruct Hg as [k Hk]. exists k. cbn [s1 d_in d_remain d_alloc] in Hk. repeat split; try apply Hk. lia.
  - intros Hs. specialize (Ha Hs). unfold nonneg in Hs.
    destruct (q tt s1) as [a s'| er ra al | | |]; cbn [ab good progress] in *; try exact I;
      rewrite Hz1 in Ha; cbn [s1 d_remain] in Ha, Hp.
    + pose proof (consumes_remain _ _ _ Hg) as Hr. pose proof (consumes_nonneg _ _ _ Hg Hs) as Hs'.
      unfold nonneg in Hs'. cbn [s1 d_remain] in Hr.
      eapply prepaid_ok; [| | | |exact Ha|exact Hp]; lia.
    + nia.
    + nia.
Qed.

Lemma read_alloc_acct n s : small s -> acct (Z.to_nat n) 1 s (read_alloc c n s).
Proof.
  intros Hsm. unfold read_alloc.
  destruct (Z.ltb_spec n 0); [apply fail_acct; lia|].
  destruct (Z.ltb_spec (d_remain s) n); [apply fail_acct; lia|]. cbn [orb].
  apply (prepaid_acct _ 0 1); [lia|lia|exact Hsm|lia|]. intros s1 _ _ _.
  split; [split; [apply read_z_good|apply read_z_ab]|].
  unfold read_z. destruct (Z.leb_spec n 0); [left; cbn; lia|].
  repeat (destruct (_ <=? _)%Z || destruct (_ <? _)%Z; try exact I). left. cbn [d_remain]. lia.
Qed.

Lemma read_alloc_acct0 n s : small s -> acct 0 1 s (read_alloc c n s).
Proof. intros Hsm. eapply acct_weaken; [apply Nat.le_0_l|apply read_alloc_acct; exact Hsm]. Qed.

Lemma read_body_acct {B} n (mk : list N -> B) s : small s ->
  acct 0 1 s (bind (read_alloc c n s) (fun bs s => Ok (mk bs) s)).
Proof. intros Hsm. apply (acct_map _ 1); [exact Hsm|apply read_alloc_acct0; exact Hsm|lia]. Qed.

Lemma dec_prefixed_acct {B} m w K (nullv : B) Kf Ki s :
  (0 <= K)%Z -> (m <= if flex then 1 else w)%nat ->
  (forall x s, (1 <= x)%N -> small s -> acct 0 K s (Kf x s)) ->
  (forall x s, (0 <= x)%Z -> small s -> acct 0 K s (Ki x s)) ->
  small s -> acct m K s (dec_prefixed flex w nullv Kf Ki s).
Proof.
  intros HK Hm HKf HKi Hsm. unfold dec_prefixed. destruct flex.
  - eapply acct_bind; [exact Hsm|apply read_uvarint_acct; exact Hsm|lia| |lia]. intros x s1 Hsm1 _.
    destruct (N.ltb_spec x 1); [apply acct_ret; exact HK|apply HKf; assumption].
  - eapply acct_bind; [exact Hsm|apply read_int_acct; exact Hsm|lia| |lia]. intros x s1 Hsm1 _.
    destruct (Z.ltb_spec x 0); [apply acct_ret; exact HK|apply HKi; assumption].
Qed.

Lemma consumes_fuel m s s' (f0 : N) fuel : consumes (S m) s s' ->
  (length (d_in s) + 1 <= length (f0 :: fuel))%nat -> (length (d_in s') + 1 <= length fuel)%nat.
Proof. intros [k [Hk [Hi _]]] Hf. rewrite Hi, skipn_length. cbn [length] in Hf. lia. Qed.

Lemma elems_loop_acct K (dec : dstate -> res value) :
  (0 <= K)%Z ->
  (forall s, small s -> acct 1 K s (dec s)) ->
  forall fuel n s, small s -> (length (d_in s) + 1 <= length fuel)%nat ->
    acct 0 K s (elems_loop dec fuel n s) /\ progress (Z.of_N n) s (elems_loop dec fuel n s).
Proof.
  intros HK Hdec. induction fuel as [|f0 fuel IH]; intros n s Hsm Hf; [cbn [length] in Hf; lia|].
  destruct (Z.leb_spec (d_remain s) 0) as [Hz|Hpos];
    [rewrite elems_loop_exhausted by exact Hz; split; [apply acct_ret; exact HK|right; exact Hz]|].
  destruct (N.eq_dec n 0) as [->|Hn0];
    [rewrite elems_loop_done; split; [apply acct_ret; exact HK|left; cbn; lia]|].
  rewrite elems_loop_step by assumption. split.
  - eapply acct_bind; [exact Hsm|apply Hdec; exact Hsm|lia| |apply Nat.le_0_l]. intros v s' Hsm' Hc.
    apply (acct_map _ K); [exact Hsm'|apply IH; [exact Hsm'|eapply consumes_fuel; eassumption]|lia].
  - destruct (Hdec s Hsm) as [Hg _]. destruct (dec s) as [v s'| | | |]; cbn [bind progress good] in *; try exact I.
    pose proof (consumes_remain _ _ _ Hg) as Hr.
    destruct (IH (n - 1)%N s' (consumes_small _ _ _ Hg Hsm) (consumes_fuel _ _ _ _ _ Hg Hf)) as [_ Hp].
    destruct (elems_loop dec fuel (n - 1) s') as [r s''| | | |]; cbn [bind progress] in *; try exact I.
    destruct Hp as [Hp|Hp]; [left; lia|right; exact Hp].
Qed.

Lemma array_body_acct Ke e (dec : dstate -> res value) :
  (0 <= Ke)%Z -> (e <= 65536)%N ->
  (forall s, small s -> acct 1 Ke s (dec s)) ->
  forall nn s, small s -> (0 <= nn <= d_remain s)%Z ->
    acct 0 (Z.of_N e + Ke) s (array_body c dec e nn s).
Proof.
  intros HKe He Hdec nn s Hsm Hnn. unfold array_body.
  apply prepaid_acct; [exact HKe|exact He|exact Hsm|exact Hnn|]. intros s1 Hi Hr _.
  assert (Hsm1 : small s1) by (unfold small in *; rewrite Hr; exact Hsm).
  destruct (elems_loop_acct Ke dec HKe Hdec (0%N :: d_in s1) (Z.to_N nn) s1 Hsm1 ltac:(cbn [length]; lia)) as [Ha Hp].
  rewrite Z2N.id in Hp by lia.
  split; [apply (acct_map _ Ke); [exact Hsm1|exact Ha|lia]|].
  destruct (elems_loop dec _ _ s1); [exact Hp|exact I..].
Qed.

Lemma array_acct nullable e t : (e <= 65536)%N ->
  (forall s, small s -> acct 1 (kfac t) s (decode c flex t s)) ->
  forall s, small s ->
    acct (N.to_nat (min_size flex (TArray nullable e t))) (kfac (TArray nullable e t)) s
      (decode c flex (TArray nullable e t) s).
Proof.
  intros He Helem s Hsm. pose proof (kfac_nonneg t) as Hkt.
  pose proof (array_body_acct (kfac t) e (decode c flex t) Hkt He Helem) as Hbody.
  rewrite decode_array_eq. cbn [min_size kfac].
  apply dec_prefixed_acct; [lia|now destruct flex| | |exact Hsm]; intros x s1 Hx Hsm1.
  - destruct (Z.ltb_spec (d_remain s1) 0); [apply fail_acct; lia|].
    destruct (Z.ltb_spec (d_remain s1) (Z.of_N (x - 1))); [apply fail_acct; lia|]. cbn [orb].
    apply Hbody; [exact Hsm1|lia].
  - destruct (Z.ltb_spec (d_remain s1) x); [apply fail_acct; lia|]. apply Hbody; [exact Hsm1|lia].
Qed.

Lemma counted_loop_acct {X A} K (step : X -> dstate -> res X) (fin : X -> A) :
  (0 <= K)%Z ->
  (forall x s, small s -> acct 1 K s (step x s)) ->
  forall fuel n x s, small s -> (length (d_in s) + 1 <= length fuel)%nat ->
    acct 0 K s (counted_loop step fin fuel n x s).
Proof.
  intros HK Hstep. induction fuel as [|f0 fuel IH]; intros n x s Hsm Hf; [cbn [length] in Hf; lia|].
  destruct (Z.leb_spec n 0) as [Hn|Hn]; [rewrite counted_loop_done by exact Hn; apply acct_ret; exact HK|].
  rewrite counted_loop_step by exact Hn.
  eapply acct_bind; [exact Hsm|apply Hstep; exact Hsm|lia| |apply Nat.le_0_l]. intros x' s' Hsm' Hc.
  apply IH; [exact Hsm'|eapply consumes_fuel; eassumption].
Qed.

Lemma skip_step_acct s : small s -> acct 1 1 s (skip_header_tags_step c s).
Proof.
  intros Hsm. unfold skip_header_tags_step.
  eapply acct_bind; [exact Hsm|apply read_uvarint_acct; exact Hsm|lia| |apply Nat.le_add_r]. intros _ s1 Hsm1 _.
  eapply acct_bind; [exact Hsm1|apply read_uvarint_acct; exact Hsm1|lia| |apply Nat.le_0_l]. intros size s2 Hsm2 _.
  apply (acct_map _ 1); [exact Hsm2|apply read_alloc_acct0; exact Hsm2|lia].
Qed.

Lemma tag_step_acct K (D : ty -> dstate -> res value) tagged ts :
  (1 <= K)%Z ->
  (forall p, In p tagged -> (kfac (snd p) <= K)%Z /\
                            forall s, small s -> acct 0 (kfac (snd p)) s (D (snd p) s)) ->
  forall s, small s -> acct 1 K s (tag_step c D tagged ts s).
Proof.
  intros HK HD s Hsm. unfold tag_step.
  eapply acct_bind; [exact Hsm|apply read_uvarint_acct; exact Hsm|lia| |apply Nat.le_add_r]. intros tagid s1 Hsm1 _.
  eapply acct_bind; [exact Hsm1|apply read_uvarint_acct; exact Hsm1|lia| |apply Nat.le_0_l]. intros size s2 Hsm2 _.
  destruct (dec_tag_from D (int_of_u64 tagid) s2 tagged 0) as [[i r]|] eqn:E.
  - destruct (dec_tag_from_in D _ _ _ _ _ _ E) as [p [Hp ->]]. destruct (HD p Hp) as [Hkp Hgp].
    pose proof (kfac_nonneg (snd p)). eapply acct_map; [exact Hsm2|apply Hgp; exact Hsm2|lia].
  - apply (acct_map _ 1); [exact Hsm2|apply read_alloc_acct0; exact Hsm2|lia].
Qed.

Lemma dec_fields_acct K (D : ty -> dstate -> res value) : (0 <= K)%Z -> forall fields,
  (forall t, In t fields -> (kfac t <= K)%Z /\
                            forall s, small s -> acct (N.to_nat (min_size flex t)) (kfac t) s (D t s)) ->
  forall s, small s -> acct (N.to_nat (min_fields flex fields)) K s (dec_fields D fields s).
Proof.
  intros HK. induction fields as [|ft tr IH]; intros HF s Hsm; [apply acct_ret; exact HK|].
  destruct (HF ft (or_introl eq_refl)) as [Hkx Hx]. pose proof (kfac_nonneg ft). cbn [dec_fields min_fields].
  eapply acct_bind; [exact Hsm|apply Hx; exact Hsm|lia| |].
  - intros v s1 Hsm1 _.
    apply (acct_map _ K); [exact Hsm1|apply IH; [intros t Ht; apply HF; right; exact Ht|exact Hsm1]|lia].
  - lia.
Qed.

(* rate at least 1: unknown entries of the tag buffer are read into buffers *)
Lemma struct_acct fields tagged :
  (forall t, In t fields -> forall s, small s ->
     acct (N.to_nat (min_size flex t)) (kfac t) s (decode c flex t s)) ->
  (forall p, In p tagged -> forall s, small s -> acct 0 (kfac (snd p)) s (decode c flex (snd p) s)) ->
  forall s, small s ->
    acct (N.to_nat (min_size flex (TStruct fields tagged))) (kfac (TStruct fields tagged)) s
      (decode c flex (TStruct fields tagged) s).
Proof.
  intros HF HT s Hsm. rewrite decode_struct_eq, min_size_struct_eq, kfac_struct_eq.
  set (K := Z.max 1 (Z.max (kmax_fields fields) (kmax_tags tagged))).
  assert (HK1 : (1 <= K)%Z) by (unfold K; lia).
  assert (HF' : forall t, In t fields -> (kfac t <= K)%Z /\ forall s, small s ->
                  acct (N.to_nat (min_size flex t)) (kfac t) s (decode c flex t s))
    by (intros t Ht; split; [pose proof (kmax_fields_in t fields Ht); unfold K; lia|exact (HF t Ht)]).
  assert (HT' : forall p, In p tagged -> (kfac (snd p) <= K)%Z /\ forall s, small s ->
                  acct 0 (kfac (snd p)) s (decode c flex (snd p) s))
    by (intros p Hp; split; [pose proof (kmax_tags_in p tagged Hp); unfold K; lia|exact (HT p Hp)]).
  clearbody K. clear HF HT.
  pose proof (dec_fields_acct K (decode c flex) ltac:(lia) fields HF' s Hsm) as Hfields.
  apply acct_bind with (m1 := N.to_nat (min_fields flex fields)) (m2 := if flex then 1%nat else 0%nat) (K1 := K);
    [exact Hsm|exact Hfields|lia| |destruct flex; lia].
  intros fs s1 Hsm1 _. destruct flex; cbn [negb]; [|apply acct_ret; lia].
  eapply acct_bind; [exact Hsm1|apply read_uvarint_acct; exact Hsm1|lia| |apply Nat.le_add_r]. intros cnt s2 Hsm2 _.
  apply counted_loop_acct; [lia|intros ts s0; apply tag_step_acct; assumption|exact Hsm2|cbn [length]; lia].
Qed.

Theorem decode_acct : forall t, schema_ok flex t = true ->
  forall s, small s -> acct (N.to_nat (min_size flex t)) (kfac t) s (decode c flex t s).
Proof.
  induction t as [| w | | n | n | n e t IH | fields tagged IHf IHt | | r] using ty_ind'; intros Hok s Hsm.
  - apply (acct_map _ 0); [exact Hsm|apply read_n_acct|cbn [kfac]; lia].
  - cbn [decode min_size kfac]. rewrite Nat2N.id. apply (acct_map _ 0); [exact Hsm|apply read_int_acct; exact Hsm|lia].
  - apply (acct_map _ 0); [exact Hsm|apply read_n_acct|cbn [kfac]; lia].
  - rewrite decode_string_eq. cbn [min_size kfac].
    apply dec_prefixed_acct; [lia|now destruct flex| | |exact Hsm]; intros x s0 _; apply read_body_acct.
  - rewrite decode_bytes_eq. cbn [min_size kfac].
    apply dec_prefixed_acct; [lia|now destruct flex| | |exact Hsm]; intros x s0 _; apply read_body_acct.
  - cbn [schema_ok] in Hok. apply andb_true_iff in Hok as [Hok Hsub]. apply andb_true_iff in Hok as [Hok _].
    apply andb_true_iff in Hok as [Hok He]. apply andb_true_iff in Hok as [Hmin _].
    apply N.leb_le in He, Hmin.
    apply array_acct; [exact He| |exact Hsm]. intros s0 Hsm0.
    eapply acct_weaken; [|apply IH; [exact Hsub|exact Hsm0]]. lia.
  - rewrite schema_ok_struct_eq in Hok. apply andb_true_iff in Hok as [Hok _]. apply andb_true_iff in Hok as [Hok _].
    apply andb_true_iff in Hok as [Hf Ht].
    rewrite Forall_forall in IHf, IHt. apply struct_acct; [intros x Hx|intros p Hp s0 Hsm0| exact Hsm].
    + apply IHf; [exact Hx|]. apply (ok_fields_in flex fields Hf x Hx).
    + eapply acct_weaken; [apply Nat.le_0_l|apply IHt; [exact Hp| |exact Hsm0]]. apply (ok_tags_in flex tagged Ht p Hp).
  - rewrite decode_marker_eq. cbn [min_size kfac]. destruct flex; cbn [negb]; [|apply acct_ret; lia].
    eapply acct_bind; [exact Hsm|apply read_uvarint_acct; exact Hsm|lia| |apply Nat.le_add_r]. intros cnt s1 Hsm1 _.
    rewrite marker_loop_counted.
    apply counted_loop_acct; [lia|intros _; apply skip_step_acct|exact Hsm1|cbn [length]; lia].
  - cbn [decode min_size kfac].
    eapply acct_bind; [exact Hsm|apply read_int_acct; exact Hsm|lia| |apply Nat.le_add_r]. intros x s1 Hsm1 _.
    destruct (x <? 0)%Z; [apply acct_ret; lia|apply read_body_acct; exact Hsm1].
Qed.
End Alloc.

Lemma discard_all_acct c s : acct c 0 0 s (discard_all s).
Proof.
  unfold discard_all.
  destruct (Z.leb_spec (d_remain s) 0) as [Hz|Hpos]; [apply acct_ret; lia|].
  destruct (Z.ltb_spec (Z.of_nat (length (d_in s))) (d_remain s)) as [Hshort|Hen].
  { split; [exact I|]. intros _. cbn [ab]. unfold zal. lia. }
  split.
  - cbn [good]. exists (Z.to_nat (d_remain s)). cbn [d_in d_remain d_alloc]. repeat split; lia.
  - intros _. cbn [ab d_remain d_alloc]. unfold zal. cbn [d_alloc]. change (0 <=? 0)%Z with true. cbv iota. lia.
Qed.

Definition response_frame (input : list N) : dstate :=
  {| d_in := skipn 4 input; d_remain := get_bes 4 (firstn 4 input); d_alloc := 0 |}.

Lemma read_response_eq c flex t input :
  read_response c flex t input =
  if (Z.of_nat (length input) <? 4)%Z then Err EEof (4 - Z.of_nat (length input)) 0
  else bind (read_int 4 (response_frame input)) (fun corr s =>
       bind (read_header_tags c flex s) (fun _ s =>
       bind (decode c flex t s) (fun v s =>
       bind (discard_all s) (fun _ s => Ok (corr, v) s)))).
Proof.
  rewrite read_response_unfold. unfold read_int at 1. unfold read_n, read_z. cbn [d_remain d_in d_alloc].
  change (Z.of_nat 4 <=? 0)%Z with false. change (4 <=? 0)%Z with false. cbv iota.
  change (Z.min (Z.of_nat 4) 4) with 4%Z.
  destruct (Z.of_nat (length input) <? 4)%Z; reflexivity.
Qed.

Lemma Forall_firstn' {A} (P : A -> Prop) n : forall l, Forall P l -> Forall P (firstn n l).
Proof.
  induction n as [|n IH]; intros l H; [constructor|].
  destruct l as [|x l]; [constructor|]. apply Forall_cons_iff in H as [Hx Hl].
  cbn [firstn]. constructor; [exact Hx|apply IH; exact Hl].
Qed.

Lemma response_frame_small input : bytes_ok input -> (4 <= length input)%nat -> small (response_frame input).
Proof.
  intros Hb Hl. unfold small, response_frame. cbn [d_remain].
  apply (put_get_bes 4 (firstn 4 input)); [lia|apply Forall_firstn'; exact Hb|rewrite firstn_length; lia].
Qed.

Lemma response_acct c flex t input : schema_ok flex t = true -> bytes_ok input -> (4 <= length input)%nat ->
  acct c 4 (Z.max 1 (kfac t)) (response_frame input)
    (bind (read_int 4 (response_frame input)) (fun corr s =>
     bind (read_header_tags c flex s) (fun _ s =>
     bind (decode c flex t s) (fun v s =>
     bind (discard_all s) (fun _ s => Ok (corr, v) s))))).
Proof.
  intros Hok Hb Hl. pose proof (response_frame_small input Hb Hl) as Hsm1. pose proof (kfac_nonneg t) as Hkt.
  eapply acct_bind; [exact Hsm1|apply read_int_acct; exact Hsm1|lia| |apply Nat.le_add_r]. intros corr s2 Hsm2 _.
  eapply (acct_bind c 0 0 0 1); [exact Hsm2| |lia| |apply Nat.le_0_l].
  - unfold read_header_tags. destruct flex; [|apply acct_ret; lia].
    eapply acct_bind; [exact Hsm2|apply read_uvarint_acct; exact Hsm2|lia| |apply Nat.le_0_l]. intros cnt s3 Hsm3 _.
    rewrite header_tags_counted.
    apply counted_loop_acct; [lia|intros _; apply skip_step_acct|exact Hsm3|cbn [length]; lia].
  - intros _ s3 Hsm3 _.
    eapply acct_bind; [exact Hsm3|apply decode_acct; [exact Hok|exact Hsm3]|lia| |apply Nat.le_0_l].
    intros v s4 Hsm4 _. apply (acct_map c _ 0); [exact Hsm4|apply discard_all_acct|lia].
Qed.

Lemma read_int_eof w s : (0 < w)%nat -> (d_remain s <= 0)%Z ->
  read_int w s = Err EEof (d_remain s) (d_alloc s).
Proof.
  intros Hw Hr. unfold read_int, read_n, read_z.
  destruct (Z.leb_spec (Z.of_nat w) 0); [lia|]. destruct (Z.leb_spec (d_remain s) 0); [reflexivity|lia].
Qed.

Lemma bind_Ok {A B} (r : res A) (f : A -> dstate -> res B) b s' :
  bind r f = Ok b s' -> exists a s1, r = Ok a s1 /\ f a s1 = Ok b s'.
Proof. destruct r; cbn [bind]; intros H; try discriminate. eauto. Qed.

Lemma discard_all_remain s u s' : discard_all s = Ok u s' -> (d_remain s' <= 0)%Z.
Proof.
  unfold discard_all. destruct (Z.leb_spec (d_remain s) 0); [intros E; injection E as _ <-; assumption|].
  destruct (_ <? _)%Z; [discriminate|]. intros E. injection E as _ <-. cbn [d_remain]. lia.
Qed.

Theorem read_response_total c flex t input :
  schema_ok flex t = true -> bytes_ok input ->
  match read_response c flex t input with
  | Ok _ s' =>
      exists size, (4 <= length input)%nat /\ size = get_bes 4 (firstn 4 input) /\ (4 <= size)%Z /\
        (4 + size <= Z.of_nat (length input))%Z /\
        d_in s' = skipn (4 + Z.to_nat size) input /\ d_remain s' = 0%Z
  | Err _ _ _ => True
  | Oom => True
  | Panic => False
  | OutOfFuel => False
  end.
Proof.
  intros Hok Hb. rewrite read_response_eq.
  destruct (Z.ltb_spec (Z.of_nat (length input)) 4) as [|Hl]; [exact I|].
  destruct (response_acct c flex t input Hok Hb ltac:(lia)) as [Hg _].
  (* a frame announced empty or negative fails at the correlation id *)
  destruct (Z.leb_spec (d_remain (response_frame input)) 0) as [Hneg|Hpos];
    [rewrite read_int_eof by (lia || exact Hneg); exact I|].
  match goal with |- match ?e with _ => _ end => destruct e as [r s'| | | |] eqn:HE end; try exact Hg; try exact I.
  (* the final discardAll leaves nothing of the frame, so what was consumed is its size *)
  apply bind_Ok in HE as [corr [s2 [_ HE]]]. apply bind_Ok in HE as [u [s3 [_ HE]]].
  apply bind_Ok in HE as [v [s4 [_ HE]]]. apply bind_Ok in HE as [u' [s5 [Hd HE]]].
  injection HE as _ <-. apply discard_all_remain in Hd.
  destruct Hg as [k [Hk [Hi [Hr [Hnn _]]]]]. cbn [response_frame d_in d_remain] in *.
  rewrite skipn_length in Hk. specialize (Hnn ltac:(lia)).
  exists (get_bes 4 (firstn 4 input)). repeat split; try lia.
  rewrite Hi, skipn_skipn'. f_equal. lia.
Qed.

Corollary cut_never_ok c flex t input :
  schema_ok flex t = true -> bytes_ok input ->
  (Z.of_nat (length input) < 4 + get_bes 4 (firstn 4 input))%Z ->
  match read_response c flex t input with
  | Ok _ _ => False | Panic => False | OutOfFuel => False
  | Err _ _ _ => True | Oom => True
  end.
Proof.
  intros Hok Hb Hcut. pose proof (read_response_total c flex t input Hok Hb) as H.
  destruct (read_response c flex t input); try exact H; try exact I.
  destruct H as [size [_ [-> [_ [Hle _]]]]]. lia.
Qed.

Theorem response_alloc_bounded c flex t input :
  schema_ok flex t = true -> bytes_ok input ->
  let size := get_bes 4 (firstn 4 input) in
  let K := Z.max 1 (kfac t) in
  match read_response c flex t input with
  | Ok _ s' => (zal s' <= 2 * K * Z.max 0 size)%Z
  | Err _ _ al => (Z.of_N al <= 2 * K * Z.max 0 size)%Z
  | Oom => (Z.of_N (budget c) < 2 * K * Z.max 0 size)%Z
  | Panic => True
  | OutOfFuel => True
  end.
Proof.
  intros Hok Hb size K. assert (HK : (1 <= K)%Z) by (unfold K; lia). rewrite read_response_eq.
  pose proof (Z.le_max_l 0 size) as Hmax.
  destruct (Z.ltb_spec (Z.of_nat (length input)) 4) as [|Hl]; [change (Z.of_N 0) with 0%Z; nia|].
  destruct (Z.leb_spec (d_remain (response_frame input)) 0) as [Hneg|Hpos];
    [rewrite read_int_eof by (lia || exact Hneg); cbn [bind response_frame d_alloc]; change (Z.of_N 0) with 0%Z; nia|].
  destruct (response_acct c flex t input Hok Hb ltac:(lia)) as [Hg Ha].
  assert (Hs : nonneg (response_frame input)) by (unfold nonneg; lia).
  pose proof (ab_total c 4 K _ _ ltac:(lia) Hs Hg (Ha Hs)) as H.
  cbn [response_frame d_remain] in Hpos, H. fold size in Hpos, H. rewrite (Z.max_r 0 size) by lia.
  change (zal (response_frame input)) with 0%Z in H. exact H.
Qed.
