(* Proofs/WriterC07.v — C07 (ordering).  [JournalInv] puts the journalled requests of a writer
   in batch order; [Inv2]: the messages of a partition writer, read in batch order ([pw_seq]),
   are in the submission order of each goroutine; [batch_order] combines them. *)
From Coq Require Import List NArith Bool Arith Lia.
From KV Require Import Lib.LTS Model.Writer Proofs.WriterStmts Proofs.WriterBase Proofs.WriterC01a
  Proofs.WriterSteps.
Import ListNotations.

Ltac inv H := inversion H; subst; clear H.

Section ListLemmas.
Context {A : Type}.

Definition before (l : list A) (x y : A) : Prop :=
  exists i j, i < j /\ nth_error l i = Some x /\ nth_error l j = Some y.

Lemma nth_error_In' : forall (l : list A) i x, nth_error l i = Some x -> In x l.
Proof. intros; eapply nth_error_In; eauto. Qed.

Lemma before_in_l : forall l x y, before l x y -> In x l.
Proof. intros l x y (i & j & _ & H & _). eapply nth_error_In; eauto. Qed.
Lemma before_in_r : forall l x y, before l x y -> In y l.
Proof. intros l x y (i & j & _ & _ & H). eapply nth_error_In; eauto. Qed.

Lemma before_app_inv : forall l1 l2 x y, before (l1 ++ l2) x y ->
  before l1 x y \/ (In x l1 /\ In y l2) \/ before l2 x y.
Proof.
  intros l1 l2 x y (i & j & L & Hi & Hj).
  destruct (Nat.lt_ge_cases j (length l1)) as [J|J].
  - left. exists i, j. rewrite nth_error_app1 in Hi, Hj by lia. auto.
  - rewrite nth_error_app2 in Hj by lia.
    destruct (Nat.lt_ge_cases i (length l1)) as [I|I].
    + right; left. rewrite nth_error_app1 in Hi by lia. split; eapply nth_error_In; eauto.
    + right; right. rewrite nth_error_app2 in Hi by lia.
      exists (i - length l1), (j - length l1). split; [lia|auto].
Qed.

Lemma before_app_l : forall l1 l2 x y, before l1 x y -> before (l1 ++ l2) x y.
Proof.
  intros l1 l2 x y (i & j & L & Hi & Hj). exists i, j.
  assert (j < length l1) by (apply nth_error_Some; congruence).
  rewrite !nth_error_app1 by lia. auto.
Qed.

Lemma before_app_r : forall l1 l2 x y, before l2 x y -> before (l1 ++ l2) x y.
Proof.
  intros l1 l2 x y (i & j & L & Hi & Hj). exists (length l1 + i), (length l1 + j).
  rewrite !nth_error_app2 by lia.
  replace (length l1 + i - length l1) with i by lia.
  replace (length l1 + j - length l1) with j by lia. split; [lia|auto].
Qed.

Lemma before_app_mid : forall l1 l2 x y, In x l1 -> In y l2 -> before (l1 ++ l2) x y.
Proof.
  intros l1 l2 x y Hx Hy. apply In_nth_error in Hx. apply In_nth_error in Hy.
  destruct Hx as [i Hi], Hy as [j Hj]. exists i, (length l1 + j).
  assert (i < length l1) by (apply nth_error_Some; congruence).
  rewrite nth_error_app1 by lia. rewrite nth_error_app2 by lia.
  replace (length l1 + j - length l1) with j by lia. split; [lia|auto].
Qed.

Lemma before_split : forall l1 l2 l3 x y, before (l1 ++ x :: l2 ++ y :: l3) x y.
Proof.
  intros. apply before_app_r. change (x :: l2 ++ y :: l3) with ([x] ++ (l2 ++ y :: l3)).
  apply before_app_mid; [left; auto|apply in_or_app; right; left; auto].
Qed.

Lemma before_cons_inv : forall a l x y, before (a :: l) x y -> (a = x /\ In y l) \/ before l x y.
Proof.
  intros a l x y H. change (a :: l) with ([a] ++ l) in H. apply before_app_inv in H.
  destruct H as [H|[[H1 H2]|H]]; auto.
  - destruct H as (i & j & L & Hi & Hj). destruct j as [|[|j]]; simpl in Hj; try discriminate. lia.
  - left. destruct H1 as [H1|[]]. auto.
Qed.

Lemma before_filter : forall f l x y, before (filter f l) x y -> before l x y.
Proof.
  induction l as [|a l IH]; simpl; intros x y H; [exact H|].
  destruct (f a).
  - apply before_cons_inv in H. destruct H as [[-> H]|H].
    + change (x :: l) with ([x] ++ l). apply before_app_mid; [left; auto|].
      apply filter_In in H. tauto.
    + change (a :: l) with ([a] ++ l). apply before_app_r. auto.
  - change (a :: l) with ([a] ++ l). apply before_app_r. auto.
Qed.

Lemma NoDup_before_idx : forall l x y i j, NoDup l -> before l x y ->
  nth_error l i = Some x -> nth_error l j = Some y -> i < j.
Proof.
  intros l x y i j N (i' & j' & L & Hi & Hj) Ei Ej. rewrite NoDup_nth_error in N.
  assert (i = i') by (apply N; [eapply nth_error_lt; eauto|congruence]).
  assert (j = j') by (apply N; [eapply nth_error_lt; eauto|congruence]). lia.
Qed.

Lemma NoDup_before_asym : forall l x y, NoDup l -> before l x y -> before l y x -> False.
Proof.
  intros l x y N B (i & j & L & Hi & Hj). pose proof (NoDup_before_idx _ _ _ _ _ N B Hj Hi). lia.
Qed.

End ListLemmas.

Lemma before_flat_map_inv : forall A B (F : A -> list B) l x y, before (flat_map F l) x y ->
  exists i j a b, nth_error l i = Some a /\ nth_error l j = Some b /\ In x (F a) /\ In y (F b) /\
                  (i < j \/ (i = j /\ before (F a) x y)).
Proof.
  induction l as [|a l IH]; simpl; intros x y H.
  - destruct H as (i & j & _ & Hi & _). destruct i; discriminate.
  - apply before_app_inv in H. destruct H as [H|[[H1 H2]|H]].
    + exists 0, 0, a, a. simpl. repeat split; auto; [eapply before_in_l|eapply before_in_r]; eauto.
    + apply in_flat_map in H2. destruct H2 as (b & Hb & Hy). apply In_nth_error in Hb.
      destruct Hb as [j Hj]. exists 0, (S j), a, b. simpl. repeat split; auto. left; lia.
    + apply IH in H. destruct H as (i & j & a' & b' & Hi & Hj & Hx & Hy & O).
      exists (S i), (S j), a', b'. simpl. repeat split; auto. destruct O as [O|[O1 O2]]; [left; lia|right; split; [lia|auto]].
Qed.

Lemma before_flat_map_in : forall A B (F : A -> list B) l a x y, In a l -> before (F a) x y ->
  before (flat_map F l) x y.
Proof.
  intros A B F l a x y Hin H. apply in_split in Hin. destruct Hin as (l1 & l2 & ->).
  rewrite flat_map_app. simpl. apply before_app_r. apply before_app_l. exact H.
Qed.

Lemma before_flat_map_lt : forall A B (F : A -> list B) l i j a b x y,
  i < j -> nth_error l i = Some a -> nth_error l j = Some b -> In x (F a) -> In y (F b) ->
  before (flat_map F l) x y.
Proof.
  induction l as [|c l IH]; intros i j a b x y L Hi Hj Hx Hy.
  - destruct i; discriminate.
  - simpl. destruct j as [|j]; [lia|]. simpl in Hj. destruct i as [|i]; simpl in Hi.
    + inv Hi. apply before_app_mid; auto. apply in_flat_map. exists b. split; auto. eapply nth_error_In; eauto.
    + apply before_app_r. eapply IH with (i := i) (j := j); eauto. lia.
Qed.

Lemma NoDup_flat_map_idx : forall A B (G : A -> list B) l i j a b z,
  NoDup (flat_map G l) -> nth_error l i = Some a -> nth_error l j = Some b ->
  In z (G a) -> In z (G b) -> i = j.
Proof.
  induction l as [|c l IH]; intros i j a b z N Hi Hj Ha Hb.
  - destruct i; discriminate.
  - simpl in N. apply NoDup_app_iff in N. destruct i as [|i], j as [|j]; simpl in *; auto.
    + inv Hi. exfalso. eapply N; eauto. apply in_flat_map. exists b. split; auto. eapply nth_error_In; eauto.
    + inv Hj. exfalso. eapply N; eauto. apply in_flat_map. exists a. split; auto. eapply nth_error_In; eauto.
    + f_equal. eapply IH; eauto. apply N.
Qed.

Lemma flat_map_upd : forall A B (F : A -> list B) l i x y,
  nth_error l i = Some y -> F x = F y -> flat_map F (upd l i x) = flat_map F l.
Proof.
  induction l as [|c l IH]; intros i x y H E; [reflexivity|].
  destruct i as [|i]; simpl in *.
  - inv H. rewrite E. reflexivity.
  - f_equal. eauto.
Qed.

Lemma seq_idx : forall A (f : A -> nat) l n i x,
  map f l = seq 0 n -> nth_error l i = Some x -> f x = i.
Proof.
  intros A f l n i x H E. apply (map_nth_error f) in E. rewrite H in E.
  assert (L : i < length (seq 0 n)) by (apply nth_error_Some; congruence).
  rewrite seq_length in L. apply nth_error_nth with (d := 0) in E. rewrite seq_nth in E by lia. lia.
Qed.

Lemma before_flat_map_NoDup : forall A B (F : A -> list B) l i j a b x y,
  NoDup (flat_map F l) -> before (flat_map F l) x y ->
  nth_error l i = Some a -> nth_error l j = Some b -> In x (F a) -> In y (F b) ->
  i < j \/ (i = j /\ before (F a) x y).
Proof.
  intros A B F l i j a b x y N H Hi Hj Hx Hy.
  destruct (before_flat_map_inv _ _ _ _ _ _ H) as (i' & j' & a' & b' & Hi' & Hj' & Hx' & Hy' & O).
  assert (i' = i) by (eapply NoDup_flat_map_idx; eauto).
  assert (j' = j) by (eapply NoDup_flat_map_idx; eauto). subst i' j'.
  assert (a' = a) by congruence. subst a'. exact O.
Qed.

Lemma map_upd_same : forall A B (f : A -> B) l p x y,
  nth_error l p = Some x -> f y = f x -> map f (upd l p y) = map f l.
Proof.
  induction l as [|c l IH]; intros p x y H E; [reflexivity|].
  destruct p as [|p]; simpl in *; [inv H; rewrite E; reflexivity|f_equal; eauto].
Qed.

Lemma NoDup_map_idx : forall A B (f : A -> B) l i j a b,
  NoDup (map f l) -> nth_error l i = Some a -> nth_error l j = Some b -> f a = f b -> i = j.
Proof.
  intros A B f l i j a b N Hi Hj E. rewrite NoDup_nth_error in N. apply N.
  - rewrite map_length. eapply nth_error_lt; eauto.
  - rewrite !nth_error_map, Hi, Hj. simpl. congruence.
Qed.

Definition pw_seq (pw : pwriter) : list msg := flat_map b_msgs (pw_all pw).

Definition oseq (pws : list pwriter) (q : nat) : list msg :=
  match nth_error pws q with Some x => pw_seq x | None => [] end.

Lemma oseq_in : forall pws q x, In x (oseq pws q) -> exists pw, nth_error pws q = Some pw /\ In x (pw_seq pw).
Proof. intros pws q x H. unfold oseq in H. destruct (nth_error pws q); [eauto|destruct H]. Qed.

Lemma oseq_some : forall pws q pw, nth_error pws q = Some pw -> oseq pws q = pw_seq pw.
Proof. intros pws q pw H. unfold oseq. rewrite H. reflexivity. Qed.

(* what the ordering argument sees of a partition writer; only batchMessages changes it *)
Definition view (pw : pwriter) : tpart * list msg := (pw_tp pw, pw_seq pw).

Lemma view_nth : forall pws pws' q pw', map view pws' = map view pws -> nth_error pws' q = Some pw' ->
  exists pw, nth_error pws q = Some pw /\ pw_tp pw = pw_tp pw' /\ pw_seq pw = pw_seq pw'.
Proof.
  intros pws pws' q pw' V E. apply (map_nth_error view) in E. rewrite V, nth_error_map in E.
  destruct (nth_error pws q) as [pw|]; [|discriminate]. inv E. eauto.
Qed.

Lemma view_oseq : forall pws pws' q, map view pws' = map view pws -> oseq pws' q = oseq pws q.
Proof.
  intros pws pws' q V. unfold oseq. destruct (nth_error pws' q) as [pw'|] eqn:E.
  - destruct (view_nth _ _ _ _ V E) as (pw & -> & _ & S). exact (eq_sym S).
  - destruct (nth_error pws q) as [pw|] eqn:E0; [|reflexivity].
    destruct (view_nth _ _ _ _ (eq_sym V) E0) as (pw' & E' & _). congruence.
Qed.

Lemma view_tp : forall pws pws', map view pws' = map view pws -> map pw_tp pws' = map pw_tp pws.
Proof. intros pws pws' V. rewrite <- !(map_map view fst). congruence. Qed.

Lemma view_upd_pwstep : forall cfg pws p pw l pw' j cp, Forall wf_pw pws -> nth_error pws p = Some pw ->
  pwstep cfg p pw l pw' j cp -> map view (upd pws p pw') = map view pws.
Proof.
  intros cfg pws p pw l pw' j cp W E T. eapply map_upd_same; [exact E|].
  pose proof (pwstep_all _ _ _ _ _ _ _ T (wf_curr_open _ (Forall_nth _ _ _ _ _ W E))) as A.
  destruct (pwstep_fields _ _ _ _ _ _ _ T) as (Tp & _). unfold view, pw_seq. congruence.
Qed.

Lemma view_map_close : forall pws, Forall wf_pw pws -> map view (map close_pw pws) = map view pws.
Proof.
  intros pws W. rewrite map_map. apply map_ext_in. intros x Hx. rewrite Forall_forall in W.
  unfold view, pw_seq. rewrite (close_all _ (wf_curr_open _ (W x Hx))). f_equal.
  rewrite close_pw_eq. destruct (flush_fields x) as (F1 & _). destruct (pw_open x); auto.
Qed.

Definition jr_sorted (j : list attempt) : Prop :=
  forall i i' a b, i < i' -> nth_error j i = Some a -> nth_error j i' = Some b ->
                   a_pw a = a_pw b -> a_k a <= a_k b.

Record JournalInv (s : state) : Prop := {
  i1_uniq : NoDup (map pw_tp (s_pws s));
  i1_sorted : jr_sorted (s_journal s)
}.

Lemma jr_batch : forall cfg ls s a, runs cfg ls s -> In a (s_journal s) ->
  exists pw b, nth_error (s_pws s) (a_pw a) = Some pw /\ a_tp a = pw_tp pw /\
               nth_error (pw_all pw) (a_k a) = Some b /\ b_msgs b = a_msgs a.
Proof.
  intros cfg ls s a Hr Ha.
  destruct (Full_journal_batches _ _ (full_inv _ _ _ Hr) a Ha) as (pw & b & E & Hb & Hk & Hm & T).
  exists pw, b. repeat split; auto. apply pw_done_all, In_nth_error in Hb. destruct Hb as [i Hi].
  pose proof (Forall_nth _ _ _ _ _ (proj1 (wf_runs _ _ _ Hr)) E) as W.
  rewrite <- Hk, (seq_idx _ b_k _ _ _ _ (wf_ks _ W) Hi). exact Hi.
Qed.

Lemma batch_le_snd : forall pw sd b0, wf_pw pw -> pw_snd pw = Some sd -> In b0 (pw_done pw) ->
  b_k b0 <= b_k (sd_batch sd).
Proof.
  intros pw sd b0 W Es Hin. pose proof (wf_ks _ W) as Hk. rewrite pw_all_split in Hk.
  unfold pw_done in *. rewrite Es in *. simpl in *. set (X := map fst (pw_fin pw)) in *.
  assert (E1 : b_k (sd_batch sd) = length X).
  { eapply seq_idx; [exact Hk|]. rewrite <- app_assoc. rewrite nth_error_app2 by lia.
    rewrite Nat.sub_diag. reflexivity. }
  apply In_nth_error in Hin. destruct Hin as [i Hi].
  assert (L : i < length (X ++ [sd_batch sd])) by (eapply nth_error_lt; eauto).
  rewrite app_length in L. simpl in L.
  assert (E2 : b_k b0 = i) by (eapply seq_idx; [exact Hk|rewrite nth_error_app1; auto; rewrite app_length; simpl; lia]).
  lia.
Qed.

Lemma JournalInv_init : JournalInv init.
Proof.
  split; simpl.
  - constructor.
  - intros i i' a b _ H; destruct i; discriminate.
Qed.

Lemma assigned_uniq : forall cfg m pws wg refs pws' wg' refs', assigned cfg m pws wg refs pws' wg' refs' ->
  Forall (fun pw => pw_open pw = true) pws -> NoDup (map pw_tp pws) -> NoDup (map pw_tp pws').
Proof.
  intros cfg m pws wg refs pws' wg' refs' A O U. destruct A as [p pw pw' k sp E Ho _ Ad|pw' k sp Hn Ad].
  - destruct (pw_add_spec cfg _ _ _ _ _ Ad Ho) as (T & _).
    rewrite (map_upd_same _ _ pw_tp _ _ _ _ E T). exact U.
  - destruct (pw_add_spec cfg _ _ _ _ _ Ad eq_refl) as (T & _).
    rewrite map_app. apply NoDup_app_iff. repeat split; auto; [repeat constructor; intros []|].
    intros z Hz [<-|[]]. apply in_map_iff in Hz. destruct Hz as (x & Ex & Hx).
    apply In_nth_error in Hx. destruct Hx as [q Hq]. specialize (Hn _ _ Hq).
    rewrite (Forall_nth _ _ _ _ _ O Hq) in Hn. simpl in Hn, T.
    rewrite Ex, T, tp_eqb_refl in Hn. discriminate.
Qed.

Lemma JournalInv_step : forall cfg s l s', Full cfg s -> JournalInv s -> stepped cfg s l s' -> JournalInv s'.
Proof.
  intros cfg s l s' F [U Sj] T. destruct (Full_wf_state _ _ F) as [W O].
  destruct T as [| | c cl pws wg refs _ _ Ecl EA | l p pw pw' j cp E T | |]; try (split; assumption).
  - split; auto. simpl. rewrite Ecl in O. simpl in O.
    apply (assign_all_wf_ind cfg (c_msgs cl) (fun _ pws1 _ _ => NoDup (map pw_tp pws1)))
      with (pws0 := s_pws s) (wg0 := s_wg s) (wg := wg) (refs := refs); auto.
    intros ms1 m ms2 pws1 wg1 refs1 pws' wg' refs' _ _ O1 U1 A. eapply assigned_uniq; eauto.
  - assert (U' : NoDup (map pw_tp (upd (s_pws s) p pw'))).
    { rewrite (view_tp _ _ (view_upd_pwstep _ _ _ _ _ _ _ _ W E T)). exact U. }
    destruct T; simpl; rewrite ?app_nil_r; try (split; assumption). split; auto; simpl.
    (* a produce attempt carries the batch being sent, the latest the sender has taken *)
    intros i i' a b0 L Hi Hi' Epw. apply nth_error_snoc in Hi'. destruct Hi' as [Hi'|[-> ->]].
    + assert (i < length (s_journal s)) by (apply nth_error_lt in Hi'; lia).
      rewrite nth_error_app1 in Hi by lia. exact (Sj i i' a b0 L Hi Hi' Epw).
    + rewrite nth_error_app1 in Hi by lia. simpl in *.
      destruct (Full_journal_batches _ _ F a (nth_error_In _ _ Hi)) as (pwa & ba & A1 & A3 & A4 & _).
      rewrite Epw in A1. assert (pwa = pw) by congruence. subst pwa. rewrite <- A4.
      apply (batch_le_snd pw (mkSnd b n PAttempt) ba); auto. exact (Forall_nth _ _ _ _ _ W E).
  - split; auto. simpl. rewrite (view_tp _ _ (view_map_close _ W)). exact U.
Qed.

Lemma JournalInv_runs : forall cfg ls s, runs cfg ls s -> JournalInv s.
Proof.
  intros cfg ls s H. apply (runs_inv cfg (fun s => Full cfg s /\ JournalInv s)) with (ls := ls); auto.
  - split; [apply Full_init|apply JournalInv_init].
  - intros s0 l s1 [F I] St. split; [eapply Full_step|eapply JournalInv_step]; eauto using step_stepped.
Qed.

Lemma C07_retries_contiguous_proof : stmt_C07_retries_contiguous.
Proof.
  intros cfg ls s Hr i j a b Hi Hj. pose proof (JournalInv_runs _ _ _ Hr) as I.
  destruct (jr_batch _ _ _ a Hr (nth_error_In _ _ Hi)) as (pwa & ba & A1 & A2 & A3 & A4).
  destruct (jr_batch _ _ _ b Hr (nth_error_In _ _ Hj)) as (pwb & bb & B1 & B2 & B3 & B4).
  split; [|split].
  - intros Ep Ek. destruct (Nat.lt_ge_cases i j) as [L|L]; auto.
    destruct (Nat.eq_dec i j) as [->|N]; [assert (a = b) by congruence; subst; lia|].
    assert (a_k b <= a_k a) by (eapply (i1_sorted _ I j i); eauto; lia). lia.
  - intros Ep Ek. rewrite Ep in A1. rewrite Ek in A3.
    assert (pwa = pwb) by congruence. subst pwb. assert (ba = bb) by congruence. subst bb.
    split; congruence.
  - intros Et. eapply (NoDup_map_idx _ _ pw_tp); eauto using (i1_uniq _ I). congruence.
Qed.

Lemma existsb_eqb_false : forall x l, existsb (N.eqb x) l = false -> ~ In x l.
Proof.
  intros x l H Hin. assert (existsb (N.eqb x) l = true); [|congruence].
  apply existsb_exists. exists x. split; auto. apply N.eqb_refl.
Qed.

Lemma admissible_facts : forall s g msgs, call_admissible s g msgs = true ->
  (forall cl, In cl (s_calls s) -> c_g cl = g -> returned cl = true) /\
  (forall m, In m msgs -> ~ In (m_id m) (used_ids (s_calls s))).
Proof.
  intros s g msgs H. unfold call_admissible in H.
  apply andb_true_iff in H. destruct H as [H H3]. apply andb_true_iff in H. destruct H as [H1 _]. split.
  - intros cl Hin Eg. rewrite forallb_forall in H1. specialize (H1 _ Hin). rewrite Eg, N.eqb_refl in H1. exact H1.
  - intros m Hin. rewrite forallb_forall in H3. specialize (H3 _ Hin). apply negb_true_iff in H3.
    apply existsb_eqb_false; auto.
Qed.

Lemma ids_idx : forall cs i j a b x y, NoDup (used_ids cs) ->
  nth_error cs i = Some a -> nth_error cs j = Some b -> In x (c_msgs a) -> In y (c_msgs b) ->
  m_id x = m_id y -> i = j.
Proof.
  intros cs i j a b x y N Hi Hj Hx Hy E. unfold used_ids in N.
  eapply (NoDup_flat_map_idx _ _ (fun c => map m_id (c_msgs c)) cs i j a b (m_id x)); eauto.
  - apply in_map; auto.
  - rewrite E. apply in_map; auto.
Qed.

Lemma ids_call_nodup : forall cs i a, NoDup (used_ids cs) -> nth_error cs i = Some a -> NoDup (map m_id (c_msgs a)).
Proof.
  intros cs i a N Hi. unfold used_ids in N.
  eapply (NoDup_flat_map_in _ _ (fun c => map m_id (c_msgs c))); eauto using nth_error_In.
Qed.

Lemma sub_before : forall cs g x y, before (submitted cs g) x y ->
  exists i j a b, nth_error cs i = Some a /\ nth_error cs j = Some b /\ In x (c_msgs a) /\ In y (c_msgs b) /\
                  c_g a = g /\ c_g b = g /\ (i < j \/ (i = j /\ before (c_msgs a) x y)).
Proof.
  intros cs g x y H. unfold submitted in H. apply before_flat_map_inv in H.
  destruct H as (i & j & a & b & Hi & Hj & Hx & Hy & O). exists i, j, a, b.
  destruct (N.eqb (c_g a) g && negb (rejected a)) eqn:Ea; [|destruct Hx].
  destruct (N.eqb (c_g b) g && negb (rejected b)) eqn:Eb; [|destruct Hy].
  apply andb_true_iff in Ea, Eb. destruct Ea as [Ea _], Eb as [Eb _]. apply N.eqb_eq in Ea, Eb.
  repeat split; auto.
Qed.

Lemma sub_before_same_call : forall cs g x y c cl, NoDup (used_ids cs) -> before (submitted cs g) x y ->
  nth_error cs c = Some cl -> In x (c_msgs cl) -> In y (c_msgs cl) -> before (c_msgs cl) x y.
Proof.
  intros cs g x y c cl N H Hc Hx Hy. apply sub_before in H.
  destruct H as (i & j & a & b & Hi & Hj & Hx' & Hy' & _ & _ & O).
  assert (i = c) by (apply (ids_idx cs i c a cl x x N Hi Hc Hx' Hx eq_refl)).
  assert (j = c) by (apply (ids_idx cs j c b cl y y N Hj Hc Hy' Hy eq_refl)). subst i j.
  destruct O as [O|[_ O]]; [lia|]. congruence.
Qed.

Lemma NoDup_map_mid : forall A B (f : A -> B) l1 m l2 x, NoDup (map f (l1 ++ m :: l2)) -> In x l1 -> f x = f m -> False.
Proof.
  intros A B f l1 m l2 x N Hx E. rewrite map_app in N. simpl in N.
  apply NoDup_app_iff in N. eapply (proj2 (proj2 N) (f m)); [rewrite <- E; apply in_map; auto|left; auto].
Qed.

Lemma in_flat_map_upd_nil : forall A B (F : A -> list B) l i x b, F x = [] ->
  In b (flat_map F (upd l i x)) -> In b (flat_map F l).
Proof.
  induction l as [|h t IH]; intros i x b E H; [exact H|]. destruct i as [|i]; simpl in *.
  - rewrite E in H. simpl in H. apply in_or_app; auto.
  - apply in_app_or in H. apply in_or_app. destruct H; [auto|right; eauto].
Qed.

Lemma before_flat_map_upd_nil : forall A B (F : A -> list B) l i x a b, F x = [] ->
  before (flat_map F (upd l i x)) a b -> before (flat_map F l) a b.
Proof.
  induction l as [|h t IH]; intros i x a b E H; [exact H|]. destruct i as [|i]; simpl in *.
  - rewrite E in H. simpl in H. apply before_app_r. auto.
  - apply before_app_inv in H. destruct H as [H|[[H1 H2]|H]].
    + apply before_app_l; auto.
    + apply before_app_mid; auto. eapply in_flat_map_upd_nil; eauto.
    + apply before_app_r. eauto.
Qed.

(* seqc: the calls of one goroutine are sequential (Call admits g only if its calls returned) *)
Definition seqc (cs : list call) : Prop :=
  forall c1 c2 cl1 cl2, c1 < c2 -> nth_error cs c1 = Some cl1 -> nth_error cs c2 = Some cl2 ->
                        c_g cl1 = c_g cl2 -> returned cl1 = true.

Lemma seqc_upd : forall cs c cl cl', nth_error cs c = Some cl -> c_g cl' = c_g cl ->
  (returned cl = true -> returned cl' = true) -> seqc cs -> seqc (upd cs c cl').
Proof.
  intros cs c cl cl' Hc Eg Ert S c1 c2 cl1 cl2 L H1 H2 E.
  assert (K : forall i x, nth_error (upd cs c cl') i = Some x ->
              exists x0, nth_error cs i = Some x0 /\ c_g x0 = c_g x /\ (returned x0 = true -> returned x = true)).
  { intros i x Hx. apply nth_error_upd in Hx. destruct Hx as [(-> & -> & _)|[_ Hx]]; eauto. }
  destruct (K _ _ H1) as (y1 & Y1 & G1 & R1). destruct (K _ _ H2) as (y2 & Y2 & G2 & R2).
  apply R1. eapply S; eauto. congruence.
Qed.

Lemma submitted_upd : forall cs c cl cl' g, nth_error cs c = Some cl ->
  c_g cl' = c_g cl -> c_msgs cl' = c_msgs cl -> rejected cl' = rejected cl ->
  submitted (upd cs c cl') g = submitted cs g.
Proof.
  intros cs c cl cl' g Hc Eg Em Er. unfold submitted. eapply flat_map_upd; eauto. rewrite Eg, Em, Er. reflexivity.
Qed.

Definition assigned_in (cs : list call) (x : msg) : Prop :=
  exists c cl, nth_error cs c = Some cl /\ In x (c_msgs cl) /\ c_ph cl <> CEntered /\ rejected cl = false.

Definition covered (cfg : config) (pws : list pwriter) (m : msg) : Prop :=
  exists q pw, nth_error pws q = Some pw /\ pw_tp pw = tp_of cfg m /\ In m (pw_seq pw).

Definition tp_okl (cfg : config) (pws : list pwriter) : Prop :=
  forall q pw x, nth_error pws q = Some pw -> In x (pw_seq pw) -> tp_of cfg x = pw_tp pw.

Definition order_ok (cs : list call) (pws : list pwriter) : Prop :=
  forall g q m1 m2, before (submitted cs g) m1 m2 -> In m1 (oseq pws q) -> In m2 (oseq pws q) ->
                    before (oseq pws q) m1 m2.

(* Inv2: ids unique over all calls; calls of a goroutine sequential (seqc); a message in a
   writer belongs to an assigned, accepted call, and to the writer of its topic-partition; no
   id twice in a writer; submission order in each writer; every assigned message is in one. *)
Record Inv2 (cfg : config) (s : state) : Prop := {
  i2_ids : NoDup (used_ids (s_calls s));
  i2_seqc : seqc (s_calls s);
  i2_prov : forall q x, In x (oseq (s_pws s) q) -> assigned_in (s_calls s) x;
  i2_tp : tp_okl cfg (s_pws s);
  i2_nodup : forall q, NoDup (map m_id (oseq (s_pws s) q));
  i2_order : order_ok (s_calls s) (s_pws s);
  i2_cover : forall c cl m, nth_error (s_calls s) c = Some cl -> c_ph cl <> CEntered -> rejected cl = false ->
                            In m (c_msgs cl) -> covered cfg (s_pws s) m
}.

Lemma assigned_at : forall cfg m pws wg refs pws' wg' refs', assigned cfg m pws wg refs pws' wg' refs' ->
  exists q0 pw', nth_error pws' q0 = Some pw' /\ pw_tp pw' = tp_of cfg m /\
    pw_seq pw' = oseq pws q0 ++ [m] /\
    (forall x, nth_error pws q0 = Some x -> pw_tp x = tp_of cfg m) /\
    (forall q, q <> q0 -> nth_error pws' q = nth_error pws q).
Proof.
  intros cfg m pws wg refs pws' wg' refs' A. destruct A as [p pw pw' k sp E Ho Et Ad|pw' k sp Hn Ad].
  - destruct (pw_add_spec cfg _ _ _ _ _ Ad Ho) as (T & _).
    exists p, pw'. split; [apply nth_error_upd_eq; eapply nth_error_lt; eauto|]. split; [congruence|].
    split; [rewrite (oseq_some _ _ _ E); exact (pw_add_msgs _ _ _ _ _ _ Ad Ho)|].
    split; [intros x Hx; congruence|]. intros q N. apply nth_error_upd_neq. auto.
  - destruct (pw_add_spec cfg _ _ _ _ _ Ad eq_refl) as (T & _).
    assert (EN : nth_error pws (length pws) = None) by (apply nth_error_None; lia).
    exists (length pws), pw'. split; [rewrite nth_error_app2, Nat.sub_diag by lia; reflexivity|].
    split; [exact T|]. split; [unfold oseq; rewrite EN; exact (pw_add_msgs _ _ _ _ _ _ Ad eq_refl)|].
    split; [intros x Hx; congruence|]. intros q N.
    destruct (Nat.lt_ge_cases q (length pws)); [apply nth_error_app1; auto|].
    rewrite (proj2 (nth_error_None pws q)) by lia. apply nth_error_None. rewrite app_length. simpl. lia.
Qed.

Lemma covered_fwd : forall cfg pws pws' m, fwd pw_sub pws pws' -> covered cfg pws m -> covered cfg pws' m.
Proof.
  intros cfg pws pws' m F (q & pw & E & T & I). destruct (F _ _ E) as (pw' & E' & T' & I').
  exists q, pw'. split; auto. split; [congruence|apply I', I].
Qed.

Section AssignFold.
Variable cfg : config.
Variable cs : list call.
Variable c : nat.
Variable cl : call.
Hypothesis Hc : nth_error cs c = Some cl.
Hypothesis Hph : c_ph cl = CEntered.
Hypothesis HN : NoDup (used_ids cs).
Hypothesis HS : seqc cs.

Definition prov_f (ms1 : list msg) (pws : list pwriter) : Prop :=
  forall q x, In x (oseq pws q) ->
    (exists c2 cl2, c2 <> c /\ nth_error cs c2 = Some cl2 /\ In x (c_msgs cl2) /\
                    c_ph cl2 <> CEntered /\ rejected cl2 = false) \/ In x ms1.

(* the loop invariant of batchMessages for the call c: ms1 are its messages placed so far *)
Definition placing (ms1 : list msg) (pws : list pwriter) : Prop :=
  prov_f ms1 pws /\ tp_okl cfg pws /\ (forall q, NoDup (map m_id (oseq pws q))) /\
  order_ok cs pws /\ (forall m, In m ms1 -> covered cfg pws m).

Lemma cl_nodup : NoDup (c_msgs cl).
Proof. eapply NoDup_map_inv. eapply ids_call_nodup; eauto. Qed.

Lemma fresh_m : forall ms1 m ms2 pws q x, prov_f ms1 pws -> c_msgs cl = ms1 ++ m :: ms2 ->
  In x (oseq pws q) -> m_id x = m_id m -> False.
Proof.
  intros ms1 m ms2 pws q x P E Hx Eid. destruct (P _ _ Hx) as [(c2 & cl2 & N2 & H2 & I2 & _)|I1].
  - apply N2. eapply (ids_idx cs c2 c cl2 cl x m); eauto. rewrite E. apply in_or_app. right. left. reflexivity.
  - eapply (NoDup_map_mid _ _ m_id ms1 m ms2 x); eauto. rewrite <- E. eapply ids_call_nodup; eauto.
Qed.

Lemma noback_m : forall ms1 m ms2 pws q g m2, prov_f ms1 pws -> c_msgs cl = ms1 ++ m :: ms2 ->
  In m2 (oseq pws q) -> before (submitted cs g) m m2 -> False.
Proof.
  intros ms1 m ms2 pws q g m2 P E H2 B.
  assert (Hm : In m (c_msgs cl)) by (rewrite E; apply in_or_app; right; left; reflexivity).
  destruct (P _ _ H2) as [(c2 & cl2 & N2 & Hc2 & I2 & Ph2 & _)|I1].
  - apply sub_before in B. destruct B as (i & j & a & b & Hi & Hj & Hx & Hy & Ga & Gb & O).
    assert (i = c) by (apply (ids_idx cs i c a cl m m HN Hi Hc Hx Hm eq_refl)).
    assert (j = c2) by (apply (ids_idx cs j c2 b cl2 m2 m2 HN Hj Hc2 Hy I2 eq_refl)). subst i j.
    destruct O as [O|[O _]]; [|congruence].
    assert (a = cl) by congruence. subst a.
    assert (R : returned cl = true) by (eapply HS; eauto; congruence).
    unfold returned in R. rewrite Hph in R. discriminate.
  - assert (B' : before (c_msgs cl) m m2).
    { eapply sub_before_same_call; eauto. rewrite E. apply in_or_app. left. auto. }
    eapply (NoDup_before_asym (c_msgs cl) m m2); [apply cl_nodup|exact B'|].
    rewrite E. apply before_app_mid; [auto|left; reflexivity].
Qed.

Lemma placing_step : forall ms1 m ms2 pws wg refs pws' wg' refs', c_msgs cl = ms1 ++ m :: ms2 -> placing ms1 pws ->
  assigned cfg m pws wg refs pws' wg' refs' -> placing (ms1 ++ [m]) pws'.
Proof.
  intros ms1 m ms2 pws wg refs pws' wg' refs' E (Q2 & Q3 & Q4 & Q5 & Q6) A.
  assert (Hm : In m (c_msgs cl)) by (rewrite E; apply in_or_app; right; left; reflexivity).
  destruct (assigned_at _ _ _ _ _ _ _ _ A) as (q0 & pw' & E' & T' & S' & Tx & Oth).
  assert (O0 : oseq pws' q0 = oseq pws q0 ++ [m]) by (rewrite (oseq_some _ _ _ E'); exact S').
  assert (O1 : forall q, q <> q0 -> oseq pws' q = oseq pws q) by (intros q N; unfold oseq; rewrite (Oth _ N); reflexivity).
  split; [|split; [|split; [|split]]].
  - intros q x Hx. destruct (Nat.eq_dec q q0) as [->|N]; [rewrite O0 in Hx|rewrite (O1 _ N) in Hx].
    + apply in_app_or in Hx. destruct Hx as [Hx|[<-|[]]]; [|right; apply in_or_app; right; left; reflexivity].
      destruct (Q2 _ _ Hx) as [L|R]; [left; auto|right; apply in_or_app; auto].
    + destruct (Q2 _ _ Hx) as [L|R]; [left; auto|right; apply in_or_app; auto].
  - intros q x' x Hq Hx. destruct (Nat.eq_dec q q0) as [->|N]; [|rewrite (Oth _ N) in Hq; eapply Q3; eauto].
    assert (x' = pw') by congruence. subst x'. rewrite S' in Hx.
    apply in_app_or in Hx. destruct Hx as [Hx|[<-|[]]]; [|congruence].
    apply oseq_in in Hx. destruct Hx as (x0 & E0 & I0). rewrite (Q3 _ _ _ E0 I0), (Tx _ E0). congruence.
  - intros q. destruct (Nat.eq_dec q q0) as [->|N]; [rewrite O0|rewrite (O1 _ N); apply Q4].
    rewrite map_app. apply NoDup_app_iff. repeat split; [apply Q4|repeat constructor; intros []|].
    intros z Hz [<-|[]]. apply in_map_iff in Hz. destruct Hz as (x & Ex & Hx). eapply fresh_m; eauto.
  - intros g q m1 m2 B H1 H2.
    destruct (Nat.eq_dec q q0) as [->|N]; [rewrite O0 in *|rewrite (O1 _ N) in *; eapply Q5; eauto].
    apply in_app_or in H1. apply in_app_or in H2. destruct H1 as [H1|[<-|[]]], H2 as [H2|[<-|[]]].
    + apply before_app_l. eapply Q5; eauto.
    + apply before_app_mid; [auto|left; reflexivity].
    + exfalso. eapply noback_m; eauto.
    + exfalso. eapply (NoDup_before_asym (c_msgs cl) m m); try apply cl_nodup; eapply sub_before_same_call; eauto.
  - intros m' Hm'. apply in_app_or in Hm'. destruct Hm' as [Hm'|[<-|[]]].
    + eapply covered_fwd; [eapply assigned_sub; eauto|auto].
    + exists q0, pw'. split; auto. split; auto. rewrite S'. apply in_or_app. right. left. reflexivity.
Qed.

End AssignFold.

Lemma Inv2_same_view : forall cfg s s', Inv2 cfg s -> s_calls s' = s_calls s ->
  map view (s_pws s') = map view (s_pws s) -> Inv2 cfg s'.
Proof.
  intros cfg s s' [I1 I2 I3 I4 I5 I6 I7] Ec V.
  assert (O : forall q, oseq (s_pws s') q = oseq (s_pws s) q) by (intros; apply view_oseq; auto).
  split; rewrite ?Ec; auto.
  - intros q x Hx. rewrite O in Hx. eauto.
  - intros q pw' x Hq Hx. destruct (view_nth _ _ _ _ V Hq) as (pw & Hpw & T & S).
    rewrite <- S in Hx. rewrite <- T. eapply I4; eauto.
  - intros q. rewrite O. auto.
  - intros g q m1 m2 B H1 H2. rewrite O in *. eapply I6; eauto.
  - intros c cl m H1 H2 H3 H4. destruct (I7 _ _ _ H1 H2 H3 H4) as (q & pw & E & T & I).
    destruct (view_nth _ _ _ _ (eq_sym V) E) as (pw' & E' & T' & S'). exists q, pw'.
    split; auto. split; congruence.
Qed.

Lemma Inv2_init : forall cfg, Inv2 cfg init.
Proof.
  intros cfg. split; simpl.
  - constructor.
  - intros c1 c2 cl1 cl2 _ H. destruct c1; discriminate.
  - intros q x H. unfold oseq in H. destruct q; destruct H.
  - intros q pw x H. destruct q; discriminate.
  - intros q. unfold oseq. destruct q; constructor.
  - intros g q m1 m2 _ H. unfold oseq in H. destruct q; destruct H.
  - intros c cl m H. destruct c; discriminate.
Qed.

Lemma Inv2_call : forall cfg s g msgs wg ph, Inv2 cfg s -> call_admissible s g msgs = true ->
  call_outcome s g msgs wg ph ->
  Inv2 cfg (add_call s wg (mkCall g msgs [] ph)).
Proof.
  intros cfg s g msgs wg ph I Adm Ph.
  destruct (admissible_facts _ _ _ Adm) as (A1 & A3).
  destruct I as [I1 I2 I3 I4 I5 I6 I7]. split; simpl; auto.
  + eapply admissible_NoDup; eauto.
  + intros c1 c2 cl1 cl2 L H1 H2 Eg. apply nth_error_snoc in H2. destruct H2 as [H2|[-> ->]].
    * assert (c1 < length (s_calls s)) by (apply nth_error_lt in H2; lia).
      rewrite nth_error_app1 in H1 by lia. exact (I2 _ _ _ _ L H1 H2 Eg).
    * rewrite nth_error_app1 in H1 by lia. apply A1; [eapply nth_error_In; eauto|exact Eg].
  + intros q x Hx. destruct (I3 _ _ Hx) as (c2 & cl2 & H2 & R). exists c2, cl2. split; auto.
    rewrite nth_error_app1; auto. eapply nth_error_lt; eauto.
  + intros g0 q m1 m2 B H1 H2. unfold submitted in B. rewrite flat_map_app in B. simpl in B. rewrite app_nil_r in B.
    assert (K : forall y, In y (if (g =? g0)%N && negb (rejected (mkCall g msgs [] ph)) then msgs else []) ->
                          In y (oseq (s_pws s) q) -> False).
    { intros y Hy Hy'. assert (In y msgs) by (destruct ((g =? g0)%N && negb (rejected (mkCall g msgs [] ph))); [auto|destruct Hy]).
      destruct (I3 _ _ Hy') as (c2 & cl2 & E2 & In2 & _). eapply A3; eauto.
      unfold used_ids. apply in_flat_map. exists cl2. split; [eapply nth_error_In; eauto|apply in_map; auto]. }
    apply before_app_inv in B. destruct B as [B|[[_ B]|B]].
    * eapply I6; eauto.
    * exfalso. eapply K; eauto.
    * exfalso. eapply K; eauto. eapply before_in_r; eauto.
  + intros c cl m H1 H2 H3 H4. apply nth_error_snoc in H1. destruct H1 as [H1|[-> ->]]; [eapply I7; eauto|].
    simpl in *. destruct Ph as [(-> & _)|(_ & _ & [Ph| ->])]; [congruence|congruence|destruct H4].
Qed.

(* a call returns: from its wait, or from batchMessages on a closed Writer (then nothing of
   it was batched, and it leaves the submitted messages) *)
Lemma Inv2_ret : forall cfg s c cl r, Inv2 cfg s -> nth_error (s_calls s) c = Some cl ->
  ret_outcome s cl r ->
  Inv2 cfg (ret_call s c cl r).
Proof.
  intros cfg s c cl r I Ec Ph.
  destruct I as [I1 I2 I3 I4 I5 I6 I7].
  set (cl' := mkCall (c_g cl) (c_msgs cl) (c_refs cl) (CReturned r)).
  pose proof (used_ids_upd _ _ _ cl' Ec eq_refl) as U1.
  assert (U2 : seqc (upd (s_calls s) c cl')) by (apply (seqc_upd _ _ cl); auto).
  split; simpl; fold cl'; auto; [rewrite U1; auto| | |].
  + intros q x Hx. destruct (I3 _ _ Hx) as (c2 & cl2 & E2 & In2 & Ph2 & R2).
    destruct (Nat.eq_dec c c2) as [<-|N]; [|exists c2, cl2; rewrite nth_error_upd_neq by auto; auto].
    assert (cl2 = cl) by congruence. subst cl2. destruct Ph as [[_ Rj]|[Ep _]]; [|congruence].
    exists c, cl'. split; [apply nth_error_upd_eq; eapply nth_error_lt; eauto|].
    split; auto. split; [discriminate|exact Rj].
  + intros g q m1 m2 B. eapply I6. destruct Ph as [[Ep Rj]|(Ep & -> & _)].
    * rewrite (submitted_upd _ _ _ cl' g Ec eq_refl eq_refl) in B; [exact B|].
      unfold rejected at 2. rewrite Ep. exact Rj.
    * unfold submitted in *. eapply before_flat_map_upd_nil; [|exact B]. simpl. rewrite andb_false_r. reflexivity.
  + intros c0 cl0 m H1 H2 H3 H4. apply nth_error_upd in H1. destruct H1 as [(-> & -> & _)|[N0 H1]]; [|eapply I7; eauto].
    destruct Ph as [[Ep _]|(_ & -> & _)]; [|subst cl'; discriminate].
    apply (I7 c0 cl); auto; [congruence|unfold rejected; rewrite Ep; reflexivity].
Qed.

Lemma Inv2_assign : forall cfg s c cl pws wg refs, Inv2 cfg s ->
  nth_error (s_calls s) c = Some cl -> c_ph cl = CEntered ->
  assign_all cfg (s_pws s) (s_wg s) (c_msgs cl) = (pws, wg, refs) ->
  Inv2 cfg (mkSt (s_close s) wg pws (upd (s_calls s) c (mkCall (c_g cl) (c_msgs cl) refs CWaiting))
                 (s_journal s) (s_log s) (s_compl s)).
Proof.
  intros cfg s c cl pws wg refs I Ec Ep EA.
  destruct I as [I1 I2 I3 I4 I5 I6 I7].
  assert (P : placing cfg (s_calls s) c (c_msgs cl) pws /\ fwd pw_sub (s_pws s) pws).
  { eapply (assign_all_by_msg cfg (c_msgs cl) (fun ms1 pws _ _ =>
              placing cfg (s_calls s) c ms1 pws /\ fwd pw_sub (s_pws s) pws)); [| |exact EA].
    - intros ms1 m ms2 pws1 wg1 refs1 pws' wg' refs' E (A1 & A2) A. split; [eapply placing_step; eauto|].
      eapply fwd_trans; [exact pw_sub_trans|exact A2|eapply assigned_sub; eauto].
    - split; [|apply fwd_refl, pw_sub_refl]. split; [|split; [|split; [|split]]]; auto.
      + intros q x Hx. left. destruct (I3 _ _ Hx) as (c2 & cl2 & E2 & In2 & Ph2 & R2).
        exists c2, cl2. repeat split; auto. intros ->. congruence.
      + intros m []. }
  destruct P as ((P2 & P3 & P4 & P5 & P6) & PF).
  set (cl' := mkCall (c_g cl) (c_msgs cl) refs CWaiting).
  assert (Rj : rejected cl = false) by (unfold rejected; rewrite Ep; reflexivity).
  pose proof (used_ids_upd _ _ _ cl' Ec eq_refl) as U1.
  assert (U2 : forall g, submitted (upd (s_calls s) c cl') g = submitted (s_calls s) g).
  { intros g. apply (submitted_upd _ _ cl); auto. }
  assert (U3 : seqc (upd (s_calls s) c cl')).
  { apply (seqc_upd _ _ cl); auto. unfold returned. rewrite Ep. discriminate. }
  assert (Ec' : nth_error (upd (s_calls s) c cl') c = Some cl').
  { apply nth_error_upd_eq. eapply nth_error_lt; eauto. }
  split; simpl; fold cl'; auto.
  + rewrite U1. auto.
  + intros q x Hx. destruct (P2 _ _ Hx) as [(c2 & cl2 & N2 & E2 & In2 & Ph2 & R2)|Hin].
    * exists c2, cl2. rewrite nth_error_upd_neq by auto. auto.
    * exists c, cl'. split; auto. split; auto. split; [discriminate|reflexivity].
  + intros g q m1 m2 B. rewrite U2 in B. eapply P5; eauto.
  + intros c0 cl0 m H1 H2 H3 H4. apply nth_error_upd in H1. destruct H1 as [(-> & -> & _)|[N0 H1]].
    * apply P6. exact H4.
    * eapply covered_fwd; [exact PF|]. eapply I7; eauto.
Qed.

Lemma Inv2_step : forall cfg s l s', wf_state s -> Inv2 cfg s -> stepped cfg s l s' -> Inv2 cfg s'.
Proof.
  intros cfg s l s' [W _] I T.
  destruct T as [g msgs merr wg ph Adm Ph | l c cl r Ec Ph | c cl pws wg refs Ec Ep Ecl EA
                | l p pw pw' j cp E T | |].
  - apply Inv2_call; auto.
  - apply Inv2_ret; auto.
  - apply Inv2_assign; auto.
  - eapply Inv2_same_view; [exact I|reflexivity|]. exact (view_upd_pwstep _ _ _ _ _ _ _ _ W E T).
  - eapply Inv2_same_view; [exact I|reflexivity|]. exact (view_map_close _ W).
  - eapply Inv2_same_view; [exact I|reflexivity|reflexivity].
Qed.

Lemma order_invs_runs : forall cfg ls s, runs cfg ls s -> JournalInv s /\ Inv2 cfg s.
Proof.
  intros cfg ls s H. split; [exact (JournalInv_runs _ _ _ H)|].
  apply (runs_stepped cfg (Inv2 cfg) (Inv2_init cfg) (Inv2_step cfg) ls s H).
Qed.

Lemma batch_order : forall cfg s g q pw m1 m2 ia ib ba bb, Inv2 cfg s ->
  nth_error (s_pws s) q = Some pw -> before (submitted (s_calls s) g) m1 m2 ->
  nth_error (pw_all pw) ia = Some ba -> nth_error (pw_all pw) ib = Some bb ->
  In m1 (b_msgs ba) -> In m2 (b_msgs bb) ->
  NoDup (pw_seq pw) /\ (ia < ib \/ (ia = ib /\ before (b_msgs ba) m1 m2)).
Proof.
  intros cfg s g q pw m1 m2 ia ib ba bb I E B Ha Hb H1 H2.
  assert (O : oseq (s_pws s) q = pw_seq pw) by (apply oseq_some; auto).
  assert (ND : NoDup (pw_seq pw)) by (eapply NoDup_map_inv; rewrite <- O; apply (i2_nodup _ _ I)).
  assert (B' : before (pw_seq pw) m1 m2).
  { rewrite <- O. apply (i2_order _ _ I _ _ _ _ B); rewrite O; apply in_flat_map.
    - exists ba. split; [eapply nth_error_In; eauto|exact H1].
    - exists bb. split; [eapply nth_error_In; eauto|exact H2]. }
  split; [exact ND|]. exact (before_flat_map_NoDup _ _ b_msgs (pw_all pw) _ _ _ _ _ _ ND B' Ha Hb H1 H2).
Qed.

Lemma sub_before_of : forall cfg s g tp m1 m2, submitted_before cfg s g tp m1 m2 ->
  before (submitted (s_calls s) g) m1 m2.
Proof. intros cfg s g tp m1 m2 (l1 & l2 & l3 & H). eapply before_filter. rewrite H. apply before_split. Qed.

(* C07_batch_internal_order *)
Lemma attempt_internal_order : forall cfg ls s g m1 m2 a i j, runs cfg ls s ->
  before (submitted (s_calls s) g) m1 m2 -> In a (s_journal s) ->
  nth_error (a_msgs a) i = Some m1 -> nth_error (a_msgs a) j = Some m2 -> i < j.
Proof.
  intros cfg ls s g m1 m2 a i j Hr B Ha Hi Hj. destruct (order_invs_runs _ _ _ Hr) as [J I].
  destruct (jr_batch _ _ _ a Hr Ha) as (pw & b & E & _ & Hb & Hm). rewrite <- Hm in Hi, Hj.
  destruct (batch_order _ _ _ _ _ _ _ _ _ _ _ I E B Hb Hb (nth_error_In _ _ Hi) (nth_error_In _ _ Hj))
    as [ND [L|[_ B']]]; [lia|].
  apply (NoDup_before_idx (b_msgs b) m1 m2 i j); auto. exact (NoDup_flat_map_in _ _ b_msgs _ _ ND (nth_error_In _ _ Hb)).
Qed.

(* C07_order on the journal instead of the log *)
Lemma attempt_order : forall cfg ls s g m1 m2 p p' a b, runs cfg ls s ->
  before (submitted (s_calls s) g) m1 m2 ->
  nth_error (s_journal s) p = Some a -> nth_error (s_journal s) p' = Some b -> a_tp a = a_tp b ->
  In m1 (a_msgs a) -> In m2 (a_msgs b) -> ~ (In m1 (a_msgs a) /\ In m2 (a_msgs a)) -> p < p'.
Proof.
  intros cfg ls s g m1 m2 p p' a b Hr B Hp Hp' Et Ha Hb Hno. destruct (order_invs_runs _ _ _ Hr) as [J I].
  destruct (C07_retries_contiguous_proof cfg ls s Hr p p' a b Hp Hp') as (R1 & _ & R3).
  pose proof (R3 Et) as Epw. apply R1; auto.
  destruct (jr_batch _ _ _ a Hr (nth_error_In _ _ Hp)) as (pwa & ba & A1 & _ & A3 & A5).
  destruct (jr_batch _ _ _ b Hr (nth_error_In _ _ Hp')) as (pwb & bb & B1 & _ & B3 & B5).
  rewrite Epw in A1. assert (pwa = pwb) by congruence. subst pwb. rewrite <- A5 in Ha, Hno. rewrite <- B5 in Hb.
  destruct (batch_order _ _ _ _ _ _ _ _ _ _ _ I A1 B A3 B3 Ha Hb) as [_ [L|[Ek _]]]; [exact L|].
  (* the same batch number: the same batch *)
  exfalso. apply Hno. rewrite Ek in A3. assert (ba = bb) by congruence. subst bb. auto.
Qed.

Definition amsgs (tp : tpart) (a : attempt) : list msg :=
  if a_applied a && tp_eqb (a_tp a) tp then a_msgs a else [].

Lemma filter_pair_tp : forall tp t (l : list msg),
  map snd (filter (fun e : tpart * msg => tp_eqb (fst e) tp) (map (pair t) l)) = if tp_eqb t tp then l else [].
Proof.
  intros tp t l. induction l as [|x l IH]; simpl; [destruct (tp_eqb t tp); reflexivity|].
  destruct (tp_eqb t tp) eqn:E; simpl; [f_equal|]; exact IH.
Qed.

Lemma log_of_journal_tp : forall tp j,
  map snd (filter (fun e : tpart * msg => tp_eqb (fst e) tp) (log_of_journal j)) = flat_map (amsgs tp) j.
Proof.
  intros tp j. induction j as [|a j IH]; simpl; [reflexivity|].
  rewrite filter_app, map_app, IH. f_equal. unfold amsgs. destruct (a_applied a); simpl; [apply filter_pair_tp|reflexivity].
Qed.

Lemma flat_map_order : forall A B (F : A -> list B) l i j x y,
  nth_error (flat_map F l) i = Some x -> nth_error (flat_map F l) j = Some y ->
  (forall p p' a b, nth_error l p = Some a -> nth_error l p' = Some b -> In x (F a) -> In y (F b) -> p < p') ->
  i < j.
Proof.
  intros A B F l i j x y Hi Hj H. destruct (Nat.lt_ge_cases i j) as [L|L]; auto. exfalso.
  destruct (Nat.eq_dec i j) as [->|N].
  - assert (x = y) by congruence. subst y. apply nth_error_In in Hi. apply in_flat_map in Hi.
    destruct Hi as (a & Ha & Hx). apply In_nth_error in Ha. destruct Ha as [p Hp].
    specialize (H p p a a Hp Hp Hx Hx). lia.
  - assert (Bf : before (flat_map F l) y x) by (exists j, i; split; [lia|auto]).
    apply before_flat_map_inv in Bf. destruct Bf as (p' & p & b & a & Hp' & Hp & Hy & Hx & O).
    specialize (H p p' a b Hp Hp' Hx Hy). lia.
Qed.

Lemma amsgs_in : forall tp a x, In x (amsgs tp a) -> a_tp a = tp /\ In x (a_msgs a).
Proof.
  intros tp a x H. unfold amsgs in H. destruct (a_applied a && tp_eqb (a_tp a) tp) eqn:E; [|destruct H].
  apply andb_true_iff in E. destruct E as [_ E]. apply tp_eqb_eq in E. auto.
Qed.

Lemma log_of_amsgs : forall cfg ls s tp, runs cfg ls s -> log_of s tp = flat_map (amsgs tp) (s_journal s).
Proof.
  intros cfg ls s tp H. unfold log_of. rewrite (Full_log_journal _ _ (full_inv _ _ _ H)). apply log_of_journal_tp.
Qed.

Print Assumptions C07_retries_contiguous_proof.
