(* Proofs/LifecyclePost.v — what holds once a Reader.Close call has returned *)
From Coq Require Import List Arith Bool Lia.
From KV Require Import Lib.LTS Model.Lifecycle Proofs.LifecycleBase Proofs.LifecycleSafe Proofs.LifecycleGen.
Import ListNotations.

(* the Close return event is in the history only if some Close call is in its final phase *)
Definition inv_h1 (s : state) : Prop := existsb is_closed_ev (hist s) = true -> cl_at 6 s.

Lemma inv_h1_step : forall s l s', inv_h1 s -> step s l = Some s' -> inv_h1 s'.
Proof.
  intros s l s' I St. unfold inv_h1 in *. pose proof (cl_at_keeps _ _ _ 6 St) as K.
  destruct (close_label l) eqn:L.
  - destruct l; try discriminate L; step_inv St; cbn; auto.
    all: intros _; exists k, CLRet; split; [eapply nth_upd_eq; eauto|cbn; lia].
  - destruct (fr_close_ev _ _ _ (step_frame _ _ _ St) L) as (-> & _). auto.
Qed.

(* everything Close accounts for is gone once Close passed <-r.done *)
Record quiet (s : state) : Prop := {
  q_fetchers : all_exited s = true;
  q_conn : forall k g, nth_error (gens s) k = Some g -> g_conn g = false;
  q_gph : gph s = GExited \/ gph s = GNone;
  q_rph : rph s = RExited \/ rph s = RNone;
  q_fns : forall i f, nth_error (fns s) i = Some f -> n_acc f = true -> nexit f = true }.

Lemma quiet_of : forall s, inv1 s -> inv2 s -> cl_at 5 s -> quiet s.
Proof.
  intros s I1 I2 C.
  assert (Hx : all_exited s = true) by exact (inv1_at s 5 4 I1 C ltac:(lia)).
  destruct (c_group (cfg s)) eqn:G.
  - pose proof (I1 5 ltac:(lia) C G) as Hd. pose proof (j_rdone _ I2 Hd) as Hr.
    assert (Hg : gph s = GExited) by (apply (j_gexit _ I2); rewrite Hr; reflexivity).
    assert (Hp : forall k g, nth_error (gens s) k = Some g -> gen_past s k g).
    { intros k g H. destruct (j_past _ I2 k g H) as [A|A]; auto. rewrite Hg in A. discriminate. }
    split; auto.
    + intros k g H. apply (Hp k g H).
    + intros i f H Ha. pose proof (j_fngen _ I2 i f H) as L.
      destruct (nth_error (gens s) (n_gen f)) as [g|] eqn:Eg; [|apply nth_error_None in Eg; lia].
      destruct (Hp _ _ Eg) as (A & _). pose proof (forallb_nth _ _ _ _ _ A H) as P.
      unfold pastp, acc_of in P. rewrite Nat.eqb_refl, Ha in P. exact P.
  - destruct (j_nogroup _ I2 G) as (A & B & C0 & D & E). split; auto.
    + intros k g H. rewrite C0 in H. destruct k; discriminate.
    + intros i f H. rewrite D in H. destruct i; discriminate.
Qed.

Lemma returned_state : forall s, inv1 s -> inv2 s -> cl_at 6 s ->
  closed s = true /\ stctx s = true /\ all_exited s = true /\ quiet s.
Proof.
  intros s I1 I2 C.
  split; [exact (inv1_at s 6 1 I1 C ltac:(lia))|split; [exact (inv1_at s 6 3 I1 C ltac:(lia))|split]].
  - exact (inv1_at s 6 4 I1 C ltac:(lia)).
  - apply quiet_of; auto. apply (cl_at_mono 6); [lia|exact C].
Qed.

(* a loud request needs a partition reader in FReadTop, run in GJoin or GSync, or an open generation connection *)
Lemma silent_step : forall s l s', (existsb is_closed_ev (hist s) = true -> quiet s) ->
  mon_silent (hist s) = true -> step s l = Some s' -> mon_silent (hist s') = true.
Proof.
  intros s l s' Q IH St. destruct (loud_label l) eqn:L.
  2: { rewrite (fr_silent _ _ _ (step_frame _ _ _ St) L). exact IH. }
  destruct l; try discriminate L; step_inv St; unf; try rewrite reply_all_calls_only; destr_goal; cbn; rewrite ?IH; try reflexivity;
    rewrite ?andb_true_r; destruct (existsb is_closed_ev (hist s)) eqn:E; try reflexivity; exfalso;
    destruct (Q eq_refl) as [Q1 Q2 Q3 Q4 Q5].
  all: try fexit_contra.
  all: try (destruct Q3; congruence).
  all: match goal with H : gen_conn ?s0 ?k = true |- _ =>
         unfold gen_conn in H; destruct (nth_error (gens s0) k) eqn:Eg; [|discriminate];
         pose proof (Q2 _ _ Eg); congruence end.
Qed.

(* [mstat]: the member id as the broker sees it is the one ConsumerGroup.run holds; none after a reported
   leave, none seen once run has returned *)
Definition g_nomid (g : gphase) : bool := match g with GBackoff | GOffer _ true => true | _ => false end.
Definition g_out (g : gphase) : bool := match g with GExited | GNone => true | _ => false end.
Record inv3 (s : state) : Prop := {
  l_stat : mstat (hist s) <> 0 -> mstat (hist s) = mnum (mid s);
  l_none : g_nomid (gph s) = true -> mid s = None;
  l_exit : g_out (gph s) = true -> mstat (hist s) = 0 }.

Lemma inv3_same : forall s s', inv3 s -> mstat (hist s') = mstat (hist s) -> mid s' = mid s ->
  (g_nomid (gph s') = true -> mid s = None \/ g_nomid (gph s) = true) ->
  (g_out (gph s') = true -> mid s = None \/ g_nomid (gph s) = true \/ g_out (gph s) = true) -> inv3 s'.
Proof.
  intros s s' [L1 L2 L3] Eh Em Hn Ho.
  assert (Z : mid s = None -> mstat (hist s) = 0).
  { intros N. rewrite N in L1. destruct (Nat.eq_dec (mstat (hist s)) 0); auto. }
  split; rewrite ?Eh, ?Em; auto.
  - intros N. destruct (Hn N); auto.
  - intros O. destruct (Ho O) as [N|[N|O']]; auto.
Qed.
Lemma inv3_left : forall s', mstat (hist s') = 0 -> (g_nomid (gph s') = true -> mid s' = None) -> inv3 s'.
Proof. intros s' E N. split; auto. intros X. congruence. Qed.
Lemma inv3_joined : forall s' m, mstat (hist s') = S m -> mid s' = Some m -> g_nomid (gph s') = false ->
  g_out (gph s') = false -> inv3 s'.
Proof. intros s' m E M N O. split; rewrite ?E, ?M, ?N, ?O; auto; discriminate. Qed.

Lemma inv3_step : forall s l s', inv3 s -> step s l = Some s' -> inv3 s'.
Proof.
  intros s l s' I St. destruct (run_label l || cg_label l) eqn:C.
  2: { pose proof (step_frame _ _ _ St) as F. destruct (proj1 (orb_false_iff _ _) C) as [_ C'].
       destruct (fr_mid _ _ _ F C') as (Em & Eh). destruct I as [L1 L2 L3].
       split; rewrite ?(fr_gph _ _ _ F C), ?Em, ?Eh; assumption. }
  destruct l; try discriminate C; step_inv St; unf; destr_goal;
  first [ apply (inv3_same s); [exact I | reflexivity | cbn in *; congruence | solve [by_phase] | solve [by_phase] ]
        | apply inv3_left; [reflexivity | solve [by_phase] ]
        | eapply inv3_joined; reflexivity
        | cbn in *; discriminate ].
Qed.

Lemma leave_step : forall s l s', inv1 s -> inv2 s -> inv3 s ->
  mon_leave (hist s) = true -> step s l = Some s' -> mon_leave (hist s') = true.
Proof.
  intros s l s' I1 I2 I3 IH St. destruct (close_label l) eqn:L.
  2: { destruct (fr_close_ev _ _ _ (step_frame _ _ _ St) L) as (_ & _ & ->). exact IH. }
  destruct l; try discriminate L; step_inv St; unf; destr_goal; cbn; rewrite ?IH; try reflexivity.
  (* EClosed: the call has passed <-r.done, so ConsumerGroup.run has returned *)
  all: rewrite andb_true_r; apply Nat.eqb_eq, (l_exit _ I3).
  all: assert (C : cl_at 5 s) by (eexists k, _; split; [eassumption|cbn; lia]).
  all: destruct (quiet_of _ I1 I2 C) as [_ _ [G|G] _ _]; rewrite G; reflexivity.
Qed.

(* [m_count]: the first Close call, until it has closed r.msgs, or r.msgs closed, make up r.closed *)
Definition is_first (p : clphase) : bool :=
  match p with CLCancel true | CLStop true | CLJoin true | CLDone true | CLMsgs true => true | _ => false end.
Definition b2n (b : bool) : nat := if b then 1 else 0.
Record inv4 (s : state) : Prop := {
  m_count : count is_first (closers s) + b2n (mclosed s) = b2n (closed s);
  m_nopanic : panicked s = false;
  m_hist : msgs_closes (hist s) = b2n (mclosed s) }.

(* [cbn] must not turn [count] into [length (filter ...)] *)
Local Arguments count : simpl never.

Lemma count_ge1 : forall A (p : A -> bool) l i y, nth_error l i = Some y -> p y = true -> 1 <= count p l.
Proof.
  induction l; intros [|i] y H Hp; simpl in *; try discriminate; rewrite count_cons.
  - inversion H; subst. rewrite Hp. lia.
  - specialize (IHl _ _ H Hp). lia.
Qed.

Lemma inv4_closer : forall s s' k p p', inv4 s -> nth_error (closers s) k = Some p -> closers s' = upd k p' (closers s) ->
  panicked s' = false ->
  b2n (is_first p') + b2n (mclosed s') + b2n (closed s) = b2n (is_first p) + b2n (mclosed s) + b2n (closed s') ->
  msgs_closes (hist s') = b2n (mclosed s') -> inv4 s'.
Proof.
  intros s s' k p p' [M1 M2 M3] Hk E Hp A Hh. split; auto. rewrite E.
  pose proof (count_upd _ is_first _ _ p' _ Hk) as U. unfold b2n in *. lia.
Qed.

Lemma inv4_step : forall s l s', inv4 s -> step s l = Some s' -> inv4 s'.
Proof.
  intros s l s' I St. destruct (close_label l) eqn:L.
  2: { pose proof (step_frame _ _ _ St) as F. destruct (fr_close _ _ _ F L) as (E1 & E2 & _ & E3 & E4).
       destruct (fr_close_ev _ _ _ F L) as (_ & E5 & _). destruct I. split; rewrite ?E1, ?E2, ?E3, ?E4, ?E5; assumption. }
  destruct l; try discriminate L.
  - destruct I as [M1 M2 M3]. step_inv St. split; unfold msgs_closes in *; cbn in *; auto.
    rewrite count_app. change (count is_first [CLMark]) with 0. lia.
  - step_inv St;
    try solve [eapply inv4_closer; [exact I | eassumption | reflexivity | apply I | cbn; destr_goal; reflexivity | apply I]].
    + eapply inv4_closer; [exact I | eassumption | reflexivity | apply I | cbn; destruct (closed s); cbn; lia | apply I].
    + (* a first call is still before close(r.msgs), so r.msgs is open: no panic *)
      exfalso. destruct I as [M1 _ _]. pose proof (count_ge1 _ is_first _ _ _ Heqo eq_refl). rewrite Heqb0 in M1.
      destruct (closed s); cbn in M1; lia.
    + unf. eapply inv4_closer; [exact I | eassumption | reflexivity | apply I | cbn; rewrite Heqb0; reflexivity | ].
      cbn. pose proof (m_hist _ I) as H. rewrite Heqb0 in H. unfold msgs_closes in *. rewrite !count_cons, H. reflexivity.
Qed.

Lemma close_returned_at : forall s, close_returned s = true -> cl_at 6 s.
Proof.
  intros s H. unfold close_returned in H. apply existsb_nth in H as (i & p & H1 & H2).
  exists i, p. split; auto. destruct p; try discriminate. cbn. lia.
Qed.

(* helpers of [inners]: IDial / IConn belong to readLag, ILookup / IOrphan to a partition reader's leader lookup *)
Definition ilag (i : iphase) : bool := match i with IDial | IConn => true | _ => false end.
Definition nolag (s : state) : Prop :=
  c_lag (cfg s) = false -> lag s = LagOff /\ forallb (fun i => negb (ilag i)) (inners s) = true.
Lemma nolag_step : forall s l s', nolag s -> step s l = Some s' -> nolag s'.
Proof.
  intros s l s' IH St G. pose proof (fr_cfg _ _ _ (step_frame _ _ _ St)) as E. rewrite E in G. destruct (IH G) as [A B].
  destruct (lag_label l) eqn:L.
  2: { destruct (fr_lag _ _ _ (step_frame _ _ _ St) L) as (-> & ->). auto. }
  destruct l; try discriminate L; step_inv St; unf; destr_goal; cbn; auto; try congruence;
  try (rewrite G in *; discriminate);
  try (split; [assumption|]); try (rewrite forallb_app1, B; reflexivity); try (apply forallb_upd; auto; fail);
  try (match goal with H : nth_error (inners s) ?i = Some ?x |- _ => pose proof (forallb_nth _ _ _ _ _ B H) as X; discriminate end).
Qed.

(* an open lookup connection belongs to a partition reader that is inside LookupPartition *)
Definition owned (fs : list fetcher) (hs : list iphase) : Prop :=
  forall j, nth_error hs j = Some ILookup -> exists i f, nth_error fs i = Some f /\ f_ph f = FLookup j.
Definition inv8 (s : state) : Prop := owned (fetchers s) (inners s).

Lemma owned_move : forall fs hs i f f', owned fs hs -> nth_error fs i = Some f -> (forall j, f_ph f <> FLookup j) ->
  owned (upd i f' fs) hs.
Proof.
  intros fs hs i f f' O Hi N j Hj. destruct (O j Hj) as (i0 & f0 & H0 & P0).
  destruct (Nat.eqb_spec i i0) as [->|Ne]; [rewrite Hi in H0; injection H0 as <-; destruct (N _ P0)|].
  exists i0, f0. rewrite nth_upd_neq; auto.
Qed.
Lemma owned_leave : forall fs hs i f f' j y, owned fs hs -> nth_error fs i = Some f -> f_ph f = FLookup j ->
  y <> ILookup -> owned (upd i f' fs) (upd j y hs).
Proof.
  intros fs hs i f f' j y O Hi P Hy j' Hj'. rewrite nth_upd in Hj'. destruct (Nat.eqb_spec j j') as [->|Nj].
  { destruct (nth_error hs j'); [injection Hj' as ->; congruence|discriminate]. }
  destruct (O j' Hj') as (i0 & f0 & H0 & P0).
  destruct (Nat.eqb_spec i i0) as [->|Ne]; [rewrite Hi in H0; injection H0 as <-; congruence|].
  exists i0, f0. rewrite nth_upd_neq; auto.
Qed.
Lemma owned_dial : forall fs hs i f f', owned fs hs -> nth_error fs i = Some f -> (forall j, f_ph f <> FLookup j) ->
  f_ph f' = FLookup (length hs) -> owned (upd i f' fs) (hs ++ [ILookup]).
Proof.
  intros fs hs i f f' O Hi N P j Hj. apply nth_app_cases in Hj as [Hj|[-> _]].
  - exact (owned_move fs hs i f f' O Hi N j Hj).
  - exists i, f'. split; [eapply nth_upd_eq; eauto|exact P].
Qed.
Lemma owned_grow : forall fs hs l, owned fs hs -> owned (fs ++ l) hs.
Proof.
  intros fs hs l O j Hj. destruct (O j Hj) as (i & f & H & P). exists i, f.
  rewrite nth_error_app1; [auto|eapply nth_some_lt; eauto].
Qed.
Lemma owned_helper_new : forall fs hs x, owned fs hs -> x <> ILookup -> owned fs (hs ++ [x]).
Proof. intros fs hs x O N j Hj. apply nth_app_cases in Hj as [Hj|[_ E]]; [auto|congruence]. Qed.
Lemma owned_helper_upd : forall fs hs j y, owned fs hs -> y <> ILookup -> owned fs (upd j y hs).
Proof.
  intros fs hs j y O N j' Hj'. rewrite nth_upd in Hj'. destruct (Nat.eqb_spec j j') as [->|Nj]; [|auto].
  destruct (nth_error hs j'); [injection Hj' as ->; congruence|discriminate].
Qed.

Lemma inv8_step : forall s l s', inv8 s -> step s l = Some s' -> inv8 s'.
Proof.
  intros s l s' I St. unfold inv8 in *. destruct (fetch_label l || lag_label l) eqn:L.
  2: { pose proof (step_frame _ _ _ St) as F. apply orb_false_iff in L as [L1 L2].
       destruct (fr_lag _ _ _ F L2) as (_ & ->). rewrite (fr_fetch _ _ _ F L1). exact I. }
  destruct l; try discriminate L; step_inv St; unf; destr_goal; cbn;
  first [ exact I | apply owned_grow, I
        | eapply owned_move; [exact I | eassumption | intros; congruence]
        | eapply owned_leave; [exact I | eassumption | eassumption | discriminate]
        | eapply owned_dial; [exact I | eassumption | intros; congruence | reflexivity]
        | apply owned_helper_new; [exact I | discriminate]
        | apply owned_helper_upd; [exact I | destr_goal; discriminate] ].
Qed.

Definition unacc_live (s : state) : nat := count (fun f => negb (n_acc f) && negb (nexit f)) (fns s).

Lemma count_false : forall A (p : A -> bool) l, (forall x, In x l -> p x = false) -> count p l = 0.
Proof. intros A p l H. apply count_zero_forallb, forallb_forall. intros x Hx. rewrite (H x Hx). reflexivity. Qed.
Lemma count_split_acc : forall l,
  count (fun f => negb (nexit f)) l =
  count (fun f => n_acc f && negb (nexit f)) l + count (fun f => negb (n_acc f) && negb (nexit f)) l.
Proof. induction l; [reflexivity|]. rewrite !count_cons, IHl. destruct (n_acc a), (nexit a); cbn; lia. Qed.

(* what may remain: functions started on a closed generation (unaccounted by Generation.Start), readLag,
   orphaned lookup helpers *)
Lemma quiet_registry : forall s, quiet s -> inv8 s ->
  live_acc s = 0 /\
  live s = unacc_live s + lag_live (lag s) + count (fun i => negb (idone i)) (inners s) /\
  conns s = count iconn (inners s) /\
  (forall j, nth_error (inners s) j <> Some ILookup).
Proof.
  intros s [Q1 Q2 Q3 Q4 Q5] I8.
  assert (Qx : forall x, In x (fetchers s) -> f_ph x = FExit).
  { intros x Hx. apply In_nth_error in Hx as (i & Hi). exact (all_exited_nth s i x Q1 Hi). }
  assert (F1 : count (fun f => negb (fdone f)) (fetchers s) = 0).
  { apply count_false. intros x Hx. unfold fdone. rewrite (Qx x Hx). reflexivity. }
  assert (F2 : count f_conn (fetchers s) = 0).
  { apply count_false. intros x Hx. unfold f_conn. rewrite (Qx x Hx). reflexivity. }
  assert (F3 : count g_conn (gens s) = 0).
  { apply count_false. intros x Hx. apply In_nth_error in Hx as (k & Hk). eapply Q2; eauto. }
  assert (F4 : count (fun f => n_acc f && negb (nexit f)) (fns s) = 0).
  { apply count_false. intros x Hx. apply In_nth_error in Hx as (k & Hk). destruct (n_acc x) eqn:A; [|reflexivity].
    rewrite (Q5 _ _ Hk A). reflexivity. }
  assert (F5 : r_live (rph s) = 0) by (destruct Q4 as [E|E]; rewrite E; reflexivity).
  assert (F6 : g_live (gph s) = 0 /\ g_hasconn (gph s) = 0) by (destruct Q3 as [E|E]; rewrite E; split; reflexivity).
  destruct F6 as [F6 F7].
  split; [unfold live_acc; rewrite F1, F4, F5, F6; reflexivity|].
  split; [unfold live, unacc_live; rewrite count_split_acc, F1, F4, F5, F6; lia|].
  split; [unfold conns; rewrite F2, F3, F7; lia|].
  intros j Hj. destruct (I8 j Hj) as (i & f & H1 & H2).
  pose proof (all_exited_nth s i f Q1 H1) as E. rewrite E in H2. discriminate.
Qed.

Lemma nolag_no_conn : forall s, forallb (fun i => negb (ilag i)) (inners s) = true ->
  (forall j, nth_error (inners s) j <> Some ILookup) -> count iconn (inners s) = 0.
Proof.
  intros s B NoL. apply count_false. intros x Hx. apply In_nth_error in Hx as (j & Hj).
  pose proof (forallb_nth _ _ _ _ _ B Hj) as X. destruct x; try reflexivity; try discriminate.
  destruct (NoL j Hj).
Qed.

(* the coordinator connection of the current generation is open *)
Definition inv7 (s : state) : Prop :=
  forall k g, cur_gen (gph s) = Some k -> nth_error (gens s) k = Some g -> g_conn g = true.

Lemma inv7_none : forall s', cur_gen (gph s') = None -> inv7 s'.
Proof. intros s' E k g Hc. rewrite E in Hc. discriminate. Qed.
Lemma inv7_gens : forall s s' j g g', inv7 s -> nth_error (gens s) j = Some g -> gens s' = upd j g' (gens s) ->
  g_conn g' = g_conn g -> (forall k, cur_gen (gph s') = Some k -> cur_gen (gph s) = Some k) -> inv7 s'.
Proof.
  intros s s' j g g' I Hj E Hc Hg k g0 Hk Hn. rewrite E, nth_upd in Hn. specialize (Hg _ Hk).
  destruct (Nat.eqb_spec j k) as [->|N]; [|eauto]. rewrite Hj in Hn. injection Hn as <-. rewrite Hc. eauto.
Qed.
Lemma inv7_gph : forall s s', inv7 s -> gens s' = gens s ->
  (forall k, cur_gen (gph s') = Some k -> cur_gen (gph s) = Some k) -> inv7 s'.
Proof. intros s s' I E Hg k g Hk Hn. rewrite E in Hn. eauto. Qed.

Lemma inv7_step : forall s l s', inv7 s -> step s l = Some s' -> inv7 s'.
Proof.
  intros s l s' I St. destruct (group_label l) eqn:L.
  2: { pose proof (step_frame _ _ _ St) as F. apply (inv7_gph s); [exact I|apply (fr_group _ _ _ F L)|].
       rewrite (fr_gph _ _ _ F); auto. unfold group_label in L. destruct (run_label l || cg_label l); [discriminate|reflexivity]. }
  destruct l; try discriminate L; step_inv St; unf; try rewrite reply_all_calls_only; destr_goal;
  first [ apply inv7_none; reflexivity
        | eapply inv7_gph; [exact I | reflexivity | solve [by_phase]]
        | eapply inv7_gens; [exact I | eassumption | cbn; reflexivity | reflexivity | solve [by_phase]]
        | intros k g Hk Hn; cbn in Hk, Hn; injection Hk as <-; rewrite nth_app_last in Hn; injection Hn as <-; reflexivity ].
Qed.

(* what Close's wait for <-r.done needs to see LGOfetch and LRDone enabled *)
Definition g_needs_mid (g : gphase) : bool := match g with GSync | GOfetch => true | _ => false end.
Record inv5 (s : state) : Prop := {
  v_group : c_group (cfg s) = true -> rph s <> RNone /\ gph s <> GNone;
  v_rexit : rph s = RExited -> rdone s = true;
  v_mid : g_needs_mid (gph s) = true -> mid s <> None }.

Lemma inv5_step : forall s l s', inv5 s -> step s l = Some s' -> inv5 s'.
Proof.
  intros s l s' [V1 V2 V3] St. destruct (run_label l || cg_label l) eqn:L.
  2: { pose proof (step_frame _ _ _ St) as F. destruct (proj1 (orb_false_iff _ _) L) as [L1 L2].
       destruct (fr_run _ _ _ F L1) as (Er & Ed & _). destruct (fr_mid _ _ _ F L2) as (Em & _).
       split; rewrite ?(fr_cfg _ _ _ F), ?(fr_gph _ _ _ F L), ?Er, ?Ed, ?Em; assumption. }
  destruct l; try discriminate L; step_inv St; unf; destr_goal; rw_ph;
    split; cbn; intros; auto; try discriminate; try congruence;
    try (match goal with H : c_group _ = true |- _ => destruct (V1 H); split; congruence end);
    try (apply V3; assumption).
  rw_ph. discriminate.
Qed.

Record rinv (c : config) (s : state) : Prop := {
  r_cfg : cfg s = c;
  r_nopanic : panicked s = false;
  r_inv1 : inv1 s;       (* Close calls by rank *)
  r_inv2 : inv2 s;       (* run, cg, generations *)
  r_inv3 : inv3 s;       (* member id at the broker *)
  r_inv4 : inv4 s;       (* r.msgs closed once *)
  r_inv5 : inv5 s;
  r_inv7 : inv7 s;
  r_inv8 : inv8 s;       (* lookup connections *)
  r_inv_h1 : inv_h1 s;   (* EClosed: a call is in CLRet *)
  r_nolag : nolag s;     (* no readLag *)
  (* [inv6] is in LifecycleCalls *)
  r_silent : mon_silent (hist s) = true;
  r_leave : mon_leave (hist s) = true }.

Lemma rinv_step : forall c s l s', rinv c s -> step s l = Some s' -> rinv c s'.
Proof.
  intros c s l s' [Ec Hp I1 I2 I3 I4 I5 I7 I8 Ih Nl Ms Ml] St.
  pose proof (inv4_step _ _ _ I4 St) as I4'.
  split; [rewrite (fr_cfg _ _ _ (step_frame _ _ _ St)); exact Ec | apply I4' | ..];
    eauto using inv1_step, inv2_step, inv3_step, inv5_step, inv7_step, inv8_step, inv_h1_step, nolag_step, leave_step.
  eapply silent_step; eauto. intros H. apply returned_state; auto.
Qed.

Lemma rinv_reach : forall c ls s, run step (init c) ls = Some s -> rinv c s.
Proof.
  intros c. apply reach_ind; [|apply rinv_step].
  split; try reflexivity; auto using inv1_init, inv2_init.
  - split; cbn; intros; auto; congruence.
  - split; reflexivity.
  - split; cbn; intros H; try rewrite H; try (split; discriminate); try discriminate; destruct (c_group c); discriminate.
  - intros k g H. cbn in H. destruct (c_group c); discriminate.
  - intros j H. destruct j; discriminate.
  - intros H. discriminate.
  - intros _. auto.
Qed.

Lemma rinv_returned : forall c s, rinv c s -> cl_at 6 s ->
  closed s = true /\ stctx s = true /\ all_exited s = true /\ quiet s.
Proof. intros c s I. apply returned_state; apply I. Qed.

Lemma rinv_ind : forall c (P : state -> Prop), P (init c) ->
  (forall s l s', rinv c s -> P s -> step s l = Some s' -> P s') -> forall ls s, run step (init c) ls = Some s -> P s.
Proof.
  intros c P H0 Hs ls s R. apply (reach_ind c (fun s => rinv c s /\ P s)) in R; [apply R| |].
  - split; [exact (rinv_reach c [] _ eq_refl)|exact H0].
  - intros x l x' [I Px] St. split; [eapply rinv_step|eapply Hs]; eauto.
Qed.
