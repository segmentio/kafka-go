(* Proofs/ConnOpsCustom.v — the hand-written early-return readers (produce, list-offsets,
   ApiVersions) evaluated on well-formed single-topic / single-partition responses. *)
From Coq Require Import List NArith ZArith Bool Lia.
From Coq Require Import ZifyN ZifyNat ZifyBool.
From KV Require Import Lib.Bits Lib.Bytes Model.Legacy Model.ConnOps.
From KV Require Import Proofs.ConnOpsBase Proofs.ConnOpsCodec Proofs.ConnOpsProofs.
Import ListNotations.
Open Scope Z_scope.

Lemma discardN_exact b sz rest : Z.of_nat (length b) <= sz ->
  discardN (Z.of_nat (length b)) sz (b ++ rest) = (inl tt, sz - Z.of_nat (length b), rest).
Proof.
  intros H. destruct (takes_discardN (Z.of_nat (length b)) sz (b ++ rest)) as [E _].
  rewrite E by (rewrite app_length; lia). rewrite Z.min_l, Nat2Z.id by lia.
  rewrite skipn_exact by reflexivity. destruct (Z.ltb_spec (Z.of_nat (length b)) 0); [lia|].
  destruct (Z.leb_spec (Z.of_nat (length b)) sz); [reflexivity|lia].
Qed.

(* the [runs] facts as equations to rewrite with where a reader may also stop at an error code: the
   size is written as what is read plus what remains [k], so they chain without subtractions *)
Lemma read_int_run w z k rest : (0 < w)%nat -> in_signed w z -> 0 <= k ->
  read_int w (Z.of_nat w + k) (put_bes w z ++ rest) = (inl z, k, rest).
Proof. intros Hw Hz Hk. pose proof (runs_read_int w z Hw Hz k rest Hk) as E. rewrite put_bes_length in E. exact E. Qed.
Lemma read_ty_run t w k rest : wt t w -> 0 <= k ->
  read_ty t (Z.of_nat (length (enc t w)) + k) (enc t w ++ rest) = (inl (dec_val t w), k, rest).
Proof. intros Hw Hk. exact (runs_read_ty t w Hw k rest Hk). Qed.
Lemma rep_run t l k rest : Forall (wt t) l -> 0 <= k ->
  rep (length l) (read_ty t) (Z.of_nat (length (flat_map (enc t) l)) + k) (flat_map (enc t) l ++ rest)
  = (inl (map (dec_val t) l), k, rest).
Proof.
  intros Hl Hk. rewrite flat_map_concat_map, <- (map_length (dec_val t) l). apply runs_rep; [|exact Hk].
  induction Hl as [|x l Hx _ IH]; constructor; [apply runs_read_ty, Hx|exact IH].
Qed.
Lemma guard_short_ok n sz s : n <= sz -> guard_short n sz s = (inl tt, sz, s).
Proof. intros H. unfold guard_short. destruct (Z.ltb_spec sz n); [lia|reflexivity]. Qed.
Lemma discardString_run x k rest : wt TStr x -> 0 <= k ->
  discardString (Z.of_nat (length (enc TStr x)) + k) (enc TStr x ++ rest) = (inl tt, k, rest).
Proof.
  intros Hwt Hk. destruct x as [|[b|]| | |]; cbn [wt] in Hwt; try contradiction; cbn [enc].
  all: unfold discardString, readStringWith, readInt16, bind; rewrite ?app_length, put_bes_length, <- ?app_assoc.
  - destruct Hwt as [_ Hl]. rewrite Nat2Z.inj_add, <- Z.add_assoc.
    rewrite read_int_run by (try apply in_signed_2_len; lia). rewrite guard_short_ok by lia.
    unfold discard_cb. destruct (Z.ltb_spec (Z.of_nat (length b)) 0); [lia|].
    rewrite discardN_exact by lia. repeat f_equal. lia.
  - rewrite read_int_run by (try apply in_signed_2_m1; lia). rewrite guard_short_ok by lia. reflexivity.
Qed.
Lemma discardInt32_run z k rest : 0 <= k -> discardInt32 (4 + k) (put_bes 4 z ++ rest) = (inl tt, k, rest).
Proof.
  intros Hk. pose proof (discardN_exact (put_bes 4 z) (4 + k) rest) as E. rewrite put_bes_length in E.
  change (Z.of_nat 4) with 4 in E. unfold discardInt32. rewrite E by lia. repeat f_equal. lia.
Qed.
Lemma readArrayWith_one_run A (cb : P A) k s : 0 <= k ->
  readArrayWith cb (4 + k) (put_bes 4 1 ++ s) = (a <- cb ;; ret [a]) k s.
Proof.
  intros Hk. unfold readArrayWith, readInt32, bind at 1.
  rewrite (read_int_run 4 1) by (try lia; unfold in_signed, pow256; cbn; lia).
  change (Z.to_nat 1) with 1%nat. cbn [rep]. unfold bind, ret.
  destruct (cb k s) as [[[a|e] sz1] s1]; reflexivity.
Qed.

Definition w_produce (name part : wval) (thr : Z) : wval :=
  WP (WL (Some [WP name (WL (Some [part]))])) (WZ thr).

Lemma enc_produce v name part thr :
  enc (resp_ty AProduce v) (w_produce name part thr)
  = put_bes 4 1 ++ enc TStr name ++ put_bes 4 1 ++ enc (t_produce_part v) part ++ put_bes 4 thr.
Proof.
  unfold w_produce. cbn [resp_ty tup enc flat_map length]. rewrite !app_nil_r.
  change (Z.of_nat 1) with 1. rewrite <- !app_assoc. reflexivity.
Qed.

Lemma produce_read_frame v name part thr rest :
  wt TStr name -> wt (t_produce_part v) part ->
  let body := enc (resp_ty AProduce v) (w_produce name part thr) in
  exists r, produce_read v (Z.of_nat (length body)) (body ++ rest) = (r, 0, rest) /\ done_read r.
Proof.
  intros Hn Hp body. subst body. rewrite enc_produce.
  set (en := enc TStr name). set (ep := enc (t_produce_part v) part).
  replace (Z.of_nat (length (put_bes 4 1 ++ en ++ put_bes 4 1 ++ ep ++ put_bes 4 thr)))
    with (4 + (Z.of_nat (length en) + (4 + (Z.of_nat (length ep) + (4 + 0)))))
    by (rewrite !app_length, !put_bes_length; lia).
  rewrite <- !app_assoc. unfold produce_read, expectZeroSize, skipRemainingOnKafkaError, bind.
  rewrite readArrayWith_one_run by lia. unfold bind.
  unfold en. rewrite discardString_run by (try assumption; lia).
  rewrite readArrayWith_one_run by lia. unfold produce_partition, bind.
  unfold ep. rewrite read_ty_run by (try assumption; lia).
  destruct (zfield 1 (dec_val (t_produce_part v) part) =? 0); cbv beta iota delta [ret fail].
  - rewrite discardInt32_run by lia. eexists; (split; [reflexivity|exact I]).
  - (* the remainder (the throttle time) is skipped *)
    change (discardN (4 + 0) (4 + 0)) with (discardInt32 (4 + 0)).
    rewrite discardInt32_run by lia. eexists; (split; [reflexivity|exact I]).
Qed.

Definition w_listoffsets (name part : wval) : wval := WL (Some [WP name (WL (Some [part]))]).

Lemma enc_listoffsets name part :
  enc (resp_ty AListOffsets 1) (w_listoffsets name part)
  = put_bes 4 1 ++ enc TStr name ++ put_bes 4 1 ++ enc t_listoffset_part part.
Proof.
  unfold w_listoffsets. cbn [resp_ty tup enc flat_map length]. rewrite !app_nil_r.
  change (Z.of_nat 1) with 1. rewrite <- ?app_assoc. reflexivity.
Qed.

Lemma listoffsets_read_frame name part rest :
  wt TStr name -> wt t_listoffset_part part ->
  let body := enc (resp_ty AListOffsets 1) (w_listoffsets name part) in
  exists r, listoffsets_read (Z.of_nat (length body)) (body ++ rest) = (r, 0, rest) /\ done_read r.
Proof.
  intros Hn Hp body. subst body. rewrite enc_listoffsets.
  set (en := enc TStr name). set (ep := enc t_listoffset_part part).
  replace (Z.of_nat (length (put_bes 4 1 ++ en ++ put_bes 4 1 ++ ep)))
    with (4 + (Z.of_nat (length en) + (4 + (Z.of_nat (length ep) + 0))))
    by (rewrite !app_length, !put_bes_length; lia).
  rewrite <- !app_assoc. unfold listoffsets_read, expectZeroSize, bind.
  rewrite readArrayWith_one_run by lia. unfold bind.
  unfold en. rewrite discardString_run by (try assumption; lia).
  rewrite readArrayWith_one_run by lia. unfold bind.
  unfold ep. rewrite read_ty_run by (try assumption; lia).
  destruct (zfield 1 (dec_val t_listoffset_part part) =? 0); eexists; (split; [reflexivity|exact I]).
Qed.

Definition done_result (r : result) : Prop :=
  match r with ROk _ => True | RErr (EKafka _) => True | _ => False end.

Lemma post_done topic a v x : done_result (post topic a v x).
Proof.
  unfold post. destruct (post_error topic a v x); [exact I|]. destruct a; exact I.
Qed.

Lemma conn_do_frame_done st o body rest r :
  fits body -> closed st = false ->
  op_read (op_api o) (op_ver o) (op_offset st o) (Z.of_nat (length body)) (body ++ rest) = (r, 0, rest) ->
  done_read r ->
  exists res, conn_do st o (frame (wrap32 (corr st + 1)) body ++ rest)
              = (mkConn false (wrap32 (corr st + 1)) (cfg_topic st) (op_offset st o), res, rest) /\
              done_result res.
Proof.
  intros Hfit Hcl E Hr. rewrite conn_do_on_frame by assumption. cbv zeta. rewrite E.
  destruct r as [x|e].
  - eexists. split; [reflexivity|apply post_done].
  - destruct e; try contradiction. rewrite map_err_of_kafka. eexists. split; [reflexivity|exact I].
Qed.

(* produce, every well-formed response: success or the partition's error code, and in both
   cases the whole frame is consumed *)
Theorem conn_do_produce_frame st v off name part thr rest :
  wt TStr name -> wt (t_produce_part v) part ->
  let body := enc (resp_ty AProduce v) (w_produce name part thr) in
  let id := wrap32 (corr st + 1) in
  fits body -> closed st = false ->
  exists r, conn_do st (mkOp AProduce v off) (frame id body ++ rest)
            = (mkConn false id (cfg_topic st) (offset st), r, rest) /\ done_result r.
Proof.
  intros Hn Hp body id Hfit Hcl.
  destruct (produce_read_frame v name part thr rest Hn Hp) as (r & E & Hr).
  exact (conn_do_frame_done st (mkOp AProduce v off) body rest r Hfit Hcl E Hr).
Qed.

Lemma wf_listoffsets w : well_formed AListOffsets 1 w ->
  exists name part, w = w_listoffsets name part /\ wt TStr name /\ wt t_listoffset_part part.
Proof.
  intros [Hwt (name & part & Hw)]. subst w. exists name, part. split; [reflexivity|].
  cbn [resp_ty tup wt] in Hwt. destruct Hwt as [Hall _].
  apply Forall_cons_iff in Hall as [[Hn [Hps _]] _].
  apply Forall_cons_iff in Hps as [Hp _]. auto.
Qed.

Lemma wf_produce v w : well_formed AProduce v w ->
  exists name part thr, w = w_produce name part thr /\ wt TStr name /\ wt (t_produce_part v) part.
Proof.
  intros [Hwt (topics & thr & Hw & name & part & Ht)]. subst w topics.
  cbn [resp_ty tup wt] in Hwt. destruct Hwt as [[Hall _] Hthr].
  destruct thr; cbn [wt] in Hthr; try contradiction.
  exists name, part, z. split; [reflexivity|].
  apply Forall_cons_iff in Hall as [[Hn [Hps _]] _].
  apply Forall_cons_iff in Hps as [Hp _]. auto.
Qed.

Definition t_apiv := tup [TI16; TI16; TI16].

(* ApiVersions on a well-formed response: the whole frame is consumed, whatever the outcome; a
   failure (null array) is not a Kafka error *)
Lemma apiversions_read_frame w rest :
  wt (resp_ty AApiVersions 0) w ->
  let body := enc (resp_ty AApiVersions 0) w in
  exists r, apiversions_read (Z.of_nat (length body)) (body ++ rest) = (r, 0, rest) /\
            match r with inr e' => is_kafka e' = false | _ => True end.
Proof.
  intros Hwt body. cbn [resp_ty tup] in Hwt. fold t_apiv in Hwt.
  destruct w as [| | |[e| | | |] [| |lo| |]|]; cbn [wt] in Hwt; try tauto. destruct Hwt as [He Hl].
  unfold apiversions_read, readInt16, readInt32, bind.
  destruct lo as [l|].
  - destruct Hl as [Hall Hlen]. set (ef := flat_map (enc t_apiv) l).
    change body with (put_bes 2 e ++ put_bes 4 (Z.of_nat (length l)) ++ ef).
    replace (Z.of_nat (length (put_bes 2 e ++ put_bes 4 (Z.of_nat (length l)) ++ ef)))
      with (Z.of_nat 2 + (Z.of_nat 4 + (Z.of_nat (length ef) + 0)))
      by (rewrite !app_length, !put_bes_length; lia).
    rewrite <- !app_assoc, read_int_run by (try assumption; lia).
    rewrite read_int_run by (try apply in_signed_4_len; lia).
    destruct (Z.ltb_spec (Z.of_nat (length l)) 0); [lia|].
    rewrite Nat2Z.id. unfold ef. rewrite rep_run by (try assumption; lia).
    eexists. split; [reflexivity|exact I].
  - change body with (put_bes 2 e ++ put_bes 4 (-1)).
    replace (Z.of_nat (length (put_bes 2 e ++ put_bes 4 (-1)))) with (Z.of_nat 2 + (Z.of_nat 4 + 0))
      by (rewrite !app_length, !put_bes_length; lia).
    rewrite <- !app_assoc, read_int_run by (try assumption; lia).
    rewrite read_int_run by (try (apply in_signed_4_len; unfold ZM31); lia).
    eexists. split; reflexivity.
Qed.
