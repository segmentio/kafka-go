(* Proofs/TransportConnectProofs.v — nothing is pooled in a closed connGroup, and once the group is
   closed and no set-up or request is in progress every connection that was set up is closed. *)
From Coq Require Import List Arith Bool.
From KV Require Import Lib.LTS Model.TransportConnect.
Import ListNotations.

Lemma tc_nth_upd : forall l i j x,
  nth_error (tc_upd i x l) j = if Nat.eqb i j then (match nth_error l j with Some _ => Some x | None => None end) else nth_error l j.
Proof.
  induction l; intros [|i] [|j] x; simpl; auto; try (destruct (Nat.eqb i j); destruct j; reflexivity).
Qed.

Definition tc_inv (s : tcstate) : Prop :=
  tc_closed s = true -> forall i, nth_error (tc_conns s) i <> Some TPooled.

Lemma tc_inv_set : forall s i x, tc_inv s -> (tc_closed s = true -> x <> TPooled) ->
  tc_inv (tc_set i x s).
Proof.
  intros s i x I X C j H. cbn [tc_set tc_conns tc_closed] in *. rewrite tc_nth_upd in H.
  destruct (Nat.eqb i j); [|exact (I C j H)].
  destruct (nth_error (tc_conns s) j); [|discriminate]. injection H as ->. exact (X C eq_refl).
Qed.

Lemma tc_inv_step : forall s l s', tc_inv s -> tc_step s l = Some s' -> tc_inv s'.
Proof.
  intros s l s' I St.
  destruct l; unfold tc_step in St;
    try (destruct (nth_error (tc_conns s) i) as [[[]| | | |]|]; try discriminate;
         injection St as <-; refine (tc_inv_set _ _ _ I _);
         unfold tc_release; intros C; try rewrite C; discriminate);
    injection St as <-; intros C j H; cbn [tc_conns tc_closed] in *.
  - (* TConnect *) destruct (Nat.lt_ge_cases j (length (tc_conns s))).
    + rewrite nth_error_app1 in H by auto. exact (I C j H).
    + rewrite nth_error_app2 in H by auto. destruct (j - length (tc_conns s)) as [|[|]]; discriminate.
  - (* TClosePool *) rewrite nth_error_map in H. destruct (nth_error (tc_conns s) j) as [[]|]; discriminate.
Qed.

Theorem tc_closed_pool_proof : forall ls s, run tc_step tc_init ls = Some s ->
  (tc_closed s = true -> forall i, nth_error (tc_conns s) i <> Some TPooled) /\
  (tc_closed s = true -> forallb (fun c => negb (tc_active c)) (tc_conns s) = true ->
     forallb (fun c => negb (tc_open c)) (tc_conns s) = true).
Proof.
  intros ls s R.
  assert (I : tc_inv s).
  { eapply (inv_run _ _ tc_step tc_inv); [apply tc_inv_step| |exact R]. intros C i H. destruct i; discriminate. }
  split; [exact I|]. intros C A. apply forallb_forall. intros x Hx.
  apply In_nth_error in Hx as (i & Hi). rewrite forallb_forall in A.
  pose proof (A x (nth_error_In _ _ Hi)) as Ax. destruct x; try reflexivity; try discriminate.
  exfalso. exact (I C i Hi).
Qed.

(* a connection serving a request the broker never answers does not stay in use: the request's deadline
   is enabled and closes it — also in a closed group, where no other step would reach it *)
Theorem tc_busy_bounded_proof : forall ls s i, run tc_step tc_init ls = Some s ->
  nth_error (tc_conns s) i = Some TBusy ->
  tc_step s (TDeadline i) = Some (tc_set i TClosed s) /\
  (tc_closed s = true -> tc_step s (TRelease i) = Some (tc_set i TClosed s)).
Proof.
  intros ls s i _ H. unfold tc_step, tc_release. rewrite H. split; [reflexivity|]. intros C. rewrite C. reflexivity.
Qed.

(* the set-up that completes after its requester left: pooled while the group is open, closed once it is closed *)
Theorem tc_late_setup_proof : forall ls s i, run tc_step tc_init ls = Some s ->
  nth_error (tc_conns s) i = Some (TSetup false) ->
  tc_step s (TSetupOk i) = Some (tc_set i (if tc_closed s then TClosed else TPooled) s).
Proof. intros ls s i _ H. unfold tc_step. rewrite H. reflexivity. Qed.

Example tc_late_setup_example :
  option_map tc_conns (run tc_step tc_init tc_late_setup) = Some [TClosed].
Proof. reflexivity. Qed.
