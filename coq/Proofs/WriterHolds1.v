(* Proofs/WriterHolds1.v — the extracted boolean history predicates C01_nil_holds, C01_we_holds,
   C01_compl_holds (Model/Writer.v, Section Hist) are true on every run of the model. *)
From Coq Require Import List NArith Bool Arith Lia.
From KV Require Import Lib.LTS Model.Writer Proofs.WriterStmts Proofs.WriterBase Proofs.WriterC01a
  Proofs.WriterC01b.
Import ListNotations.

Lemma opt_err_eqb_refl : forall o, opt_err_eqb o o = true.
Proof. destruct o; simpl; auto; apply N.eqb_refl. Qed.

Lemma NoDup_nodupb : forall l, NoDup l -> nodupb l = true.
Proof.
  induction 1; simpl; auto. rewrite IHNoDup, andb_true_r. apply negb_true_iff.
  destruct (existsb (N.eqb x) l) eqn:E; auto. apply existsb_exists in E.
  destruct E as (y & Hy & Ey). apply N.eqb_eq in Ey. subst; contradiction.
Qed.

Lemma In_combine_nth : forall A B (l1 : list A) (l2 : list B) x y, In (x,y) (combine l1 l2) ->
  exists i, nth_error l1 i = Some x /\ nth_error l2 i = Some y.
Proof.
  induction l1; destruct l2; simpl; intros x y H; try contradiction. destruct H as [H|H].
  - inv H. exists 0; auto.
  - destruct (IHl1 _ _ _ H) as (i & ? & ?). exists (S i); auto.
Qed.

Lemma journal_mem_id : forall cfg s p pw b m a,
  Full cfg s -> nth_error (s_pws s) p = Some pw -> In b (pw_all pw) -> In m (b_msgs b) ->
  In a (s_journal s) -> mem_id m (a_msgs a) = true -> In m (a_msgs a).
Proof.
  intros cfg s p pw b m a F Hp Hb Hm Ha Hmem.
  destruct (mem_id_ex _ _ Hmem) as (x & Hx & Ex).
  destruct (attempt_batch _ _ _ _ _ _ _ _ F Ha Hx Hp Hb Hm (eq_sym Ex)) as (_ & _ & -> & _). exact Hx.
Qed.

Lemma acked_attempt_for : forall cfg s m, acked_attempt cfg s m -> acked_for cfg (s_journal s) m = true.
Proof.
  intros cfg s m (a & Ha & H1 & H2 & H3 & H4). unfold acked_for. apply existsb_exists. exists a.
  split; auto. unfold a_acked. rewrite H1, H2, H4, (mem_id_In _ _ H3), tp_eqb_refl. reflexivity.
Qed.

Lemma in_log_of : forall cfg s m, In m (log_of s (tp_of cfg m)) -> in_log cfg (s_log s) m = true.
Proof.
  intros cfg s m H. unfold log_of in H. apply in_map_iff in H. destruct H as ([tp x] & E & H).
  simpl in E. subst x. apply filter_In in H. destruct H as [H1 H2]. simpl in H2.
  unfold in_log. apply existsb_exists. exists (tp, m). split; auto. simpl.
  rewrite H2, N.eqb_refl. reflexivity.
Qed.

Lemma C01_nil_holds_runs : forall cfg ls s, cfg_ok cfg -> runs cfg ls s ->
  C01_nil_holds cfg (s_calls s) (s_journal s) (s_log s) = true.
Proof.
  intros cfg ls s Hok Hr. unfold C01_nil_holds. destruct (async cfg) eqn:Ea; auto. simpl.
  apply forallb_forall. intros cl Hc. apply In_nth_error in Hc. destruct Hc as (c & Hc).
  destruct (c_ph cl) as [| |[| |we]] eqn:Hph; auto.
  apply forallb_forall. intros m Hm.
  destruct (C01_nil_means_logged_proof cfg ls s Hok Hr Ea c cl Hc Hph m Hm) as [H1 H2].
  rewrite (acked_attempt_for _ _ _ H1), (in_log_of _ _ _ H2). reflexivity.
Qed.

Lemma last_seen_spec : forall m j1 a j2,
  mem_id m (a_msgs a) = true -> (forall a', In a' j2 -> mem_id m (a_msgs a') = false) ->
  last_seen (j1 ++ a :: j2) m = Some (a_seen a).
Proof.
  intros m j1 a j2 Ha H2. unfold last_seen. rewrite fold_left_app. simpl. rewrite Ha.
  generalize (Some (a_seen a)). induction j2 as [|a' j2 IH]; simpl; intros acc; auto.
  rewrite (H2 a') by (simpl; auto). apply IH. intros; apply H2; simpl; auto.
Qed.

Lemma last_seen_fin : forall cfg s p pw b o m,
  Full cfg s -> Ops s ->
  nth_error (s_pws s) p = Some pw -> In (b,o) (pw_fin pw) -> In m (b_msgs b) ->
  last_seen (s_journal s) m = Some o.
Proof.
  intros cfg s p pw b o m F O Hp Hf Hm.
  destruct (fin_facts cfg _ _ _ _ _ _ F O Hp Hf Hm) as (_ & _ & (j1 & a & j2 & EJ & Hma & Hs & Hno) & _).
  rewrite EJ, <- Hs. apply last_seen_spec; [apply mem_id_In; auto|].
  intros a' Ha'. destruct (mem_id m (a_msgs a')) eqn:E; auto. exfalso. apply (Hno _ Ha').
  eapply (journal_mem_id cfg s p pw b m a'); eauto. { eapply fin_in_all; eauto. }
  rewrite EJ. apply in_app_iff. simpl. auto.
Qed.

Lemma C01_we_holds_runs : forall cfg ls s, cfg_ok cfg -> runs cfg ls s ->
  C01_we_holds cfg (s_calls s) (s_journal s) = true.
Proof.
  intros cfg ls s Hok Hr. unfold C01_we_holds.
  apply forallb_forall. intros cl Hc. apply In_nth_error in Hc. destruct Hc as (c & Hc).
  destruct (c_ph cl) as [| |[| |we]] eqn:Hph; auto.
  destruct (C01_write_errors_exact_proof cfg ls s Hok Hr c cl we Hc Hph) as (Hl & (i0 & e0 & He0) & Hall).
  destruct (we_entry cfg ls s Hr c cl we Hc Hph) as (_ & _ & Hent).
  destruct (inv3_runs cfg Hok _ _ Hr) as (F & _ & _ & O & _).
  rewrite Hl, Nat.eqb_refl. simpl.
  replace (existsb (fun e => negb (is_none e)) we) with true.
  2:{ symmetry. apply existsb_exists. exists (Some e0). split; [eapply nth_error_In; eauto|reflexivity]. }
  simpl. apply forallb_forall. intros [m o] Hmo. simpl.
  destruct (In_combine_nth _ _ _ _ _ _ Hmo) as (i & Hi & Ho).
  destruct (Hall _ _ _ Hi Ho) as [Hiff Hlast].
  destruct (Hent _ _ _ Hi Ho) as (p & pw & b & _ & Hp & _ & Hfin & Hin).
  rewrite (last_seen_fin cfg s p pw b o m F O Hp Hfin Hin), opt_err_eqb_refl, andb_true_r.
  destruct o as [e|]; simpl.
  - destruct (acked_for cfg (s_journal s) m) eqn:Ea; auto. exfalso.
    unfold acked_for in Ea. apply existsb_exists in Ea. destruct Ea as (a & Ha & Hb).
    apply andb_true_iff in Hb. destruct Hb as [Hb H4]. apply andb_true_iff in Hb. destruct Hb as [Hb H3].
    apply andb_true_iff in Hb. destruct Hb as [H1 H2].
    assert (acked_attempt cfg s m).
    { exists a. split; auto. split; auto. split; [unfold a_acked in H2; destruct (a_seen a); [discriminate|auto]|].
      split; [|apply tp_eqb_eq; auto].
      eapply (journal_mem_id cfg s p pw b m a); eauto. eapply fin_in_all; eauto. }
    apply Hiff in H. discriminate.
  - rewrite acked_attempt_for; auto. apply Hiff; auto.
Qed.

Print Assumptions C01_nil_holds_runs.
Print Assumptions C01_we_holds_runs.

Lemma filter_none : forall A (f : A -> bool) l, (forall x, In x l -> f x = false) -> filter f l = [].
Proof.
  induction l; simpl; intros H; auto. rewrite (H a) by auto. apply IHl. intros; apply H; auto.
Qed.

Lemma filter_unique : forall compl ms o m, NoDup (compl_ids compl) -> In (ms,o) compl -> In m ms ->
  filter (fun ce => mem_id m (fst ce)) compl = [(ms,o)].
Proof.
  induction compl as [|ce rest IH]; simpl; intros ms o m N Hin Hm; [contradiction|].
  unfold compl_ids in N. simpl in N.
  assert (Hrest : forall ce', In ce' rest -> mem_id m (fst ce') = true ->
                  In (m_id m) (flat_map (fun ce => map m_id (fst ce)) rest)).
  { intros ce' Hc Hmem. destruct (mem_id_ex _ _ Hmem) as (x & Hx & Ex).
    apply in_flat_map. exists ce'. split; auto. rewrite <- Ex. apply in_map; auto. }
  destruct (mem_id m (fst ce)) eqn:E.
  - destruct (mem_id_ex _ _ E) as (x & Hx & Ex).
    assert (Hid : In (m_id m) (map m_id (fst ce))) by (rewrite <- Ex; apply in_map; auto).
    assert (Hno : forall ce', In ce' rest -> mem_id m (fst ce') = false).
    { intros ce' Hc. destruct (mem_id m (fst ce')) eqn:E'; auto. exfalso.
      apply NoDup_app_iff in N. destruct N as (_ & _ & D). apply (D _ Hid). apply Hrest with ce'; auto. }
    f_equal.
    + destruct Hin as [->|Hin]; auto. exfalso. specialize (Hno _ Hin). simpl in Hno.
      rewrite mem_id_In in Hno; auto; discriminate.
    + apply filter_none. exact Hno.
  - destruct Hin as [->|Hin].
    + simpl in E. rewrite mem_id_In in E; auto; discriminate.
    + apply IH; auto. apply NoDup_app_iff in N. apply N.
Qed.

Lemma C01_compl_holds_runs : forall cfg ls s, cfg_ok cfg -> runs cfg ls s ->
  C01_compl_holds cfg (s_calls s) (s_journal s) (s_compl s) = true.
Proof.
  intros cfg ls s Hok Hr. unfold C01_compl_holds.
  destruct (inv3_runs cfg Hok _ _ Hr) as (F & _ & _ & O & (A3 & K & Nc)).
  destruct (C01_completion_once_proof cfg ls s Hok Hr) as (_ & Hb & Hc).
  repeat (apply andb_true_iff; split).
  - apply NoDup_nodupb. exact Nc.
  - apply forallb_forall. intros [ms o] Hce. simpl. apply forallb_forall. intros m Hm.
    destruct (K _ _ Hce) as (p & pw & b & Hp & Hf & ->).
    rewrite (last_seen_fin cfg s p pw b o m F O Hp Hf Hm). apply opt_err_eqb_refl.
  - apply forallb_forall. intros [ms o] Hce. simpl. apply forallb_forall. intros m Hm.
    destruct (Hb _ _ _ Hce Hm) as (_ & c & cl & Hcl & Hrej & Hin).
    apply existsb_exists. exists cl. split; [eapply nth_error_In; eauto|].
    rewrite Hrej, (mem_id_In _ _ Hin). reflexivity.
  - destruct (async cfg) eqn:Ea; auto. simpl. specialize (Hc eq_refl).
    apply forallb_forall. intros cl Hcl. apply In_nth_error in Hcl. destruct Hcl as (c & Hcl).
    destruct (Hc _ _ Hcl) as [Hnil Hwe].
    destruct (c_ph cl) as [| |[| |we]] eqn:Hph; auto.
    + apply forallb_forall. intros m Hm. destruct (Hnil eq_refl _ Hm) as (ms & Hin & Hmm).
      unfold compl_of. rewrite (filter_unique _ _ _ _ Nc Hin Hmm). reflexivity.
    + apply forallb_forall. intros [m o] Hmo. simpl.
      destruct (In_combine_nth _ _ _ _ _ _ Hmo) as (i & Hi & Ho).
      destruct (Hwe we eq_refl _ _ _ Hi Ho) as (ms & Hin & Hmm).
      unfold compl_of. rewrite (filter_unique _ _ _ _ Nc Hin Hmm). simpl. apply opt_err_eqb_refl.
Qed.

Print Assumptions C01_compl_holds_runs.
