(* Proofs/GroupBalancersRR.v — RoundRobinGroupBalancer: residue classes *)
From Coq Require Import List NArith ZArith Bool Arith Lia Permutation.
From KV Require Import Model.GroupBalancers Proofs.GroupBalancersBase Proofs.GroupBalancersRange.
Import ListNotations.

Lemma select_from_nth keep s l d :
  select_from keep s l = map (fun j => nth (j - s) l d) (filter keep (seq s (length l))).
Proof.
  revert s. induction l as [|p t IH]; intros s; cbn [select_from length seq filter]; [reflexivity|].
  assert (E : map (fun j => nth (j - S s) t d) (filter keep (seq (S s) (length t))) =
              map (fun j => nth (j - s) (p :: t) d) (filter keep (seq (S s) (length t)))).
  { apply map_ext_in. intros j Hj. apply filter_In in Hj. destruct Hj as [Hj _].
    apply in_seq in Hj. replace (j - s) with (S (j - S s)) by lia. reflexivity. }
  destruct (keep s); cbn [map]; rewrite IH, E; [rewrite Nat.sub_diag|]; reflexivity.
Qed.

Lemma select_from_all s l : select_from (fun _ => true) s l = l.
Proof. revert s. induction l as [|p t IH]; intros s; cbn [select_from]; [reflexivity|]. f_equal. apply IH. Qed.

Lemma filter_lt_S {A} (f : A -> nat) n l :
  Permutation (filter (fun a => f a <? n) l ++ filter (fun a => f a =? n) l)
              (filter (fun a => f a <? S n) l).
Proof.
  induction l as [|a l IH]; cbn [filter app]; [constructor|].
  destruct (Nat.ltb_spec (f a) n), (Nat.eqb_spec (f a) n), (Nat.ltb_spec (f a) (S n)); try lia.
  - cbn [app]. constructor. exact IH.
  - apply Permutation_sym, Permutation_cons_app, Permutation_sym. exact IH.
  - exact IH.
Qed.

Lemma classes_perm_lt {A} (f : A -> nat) n l :
  Permutation (flat_map (fun i => filter (fun a => f a =? i) l) (seq 0 n))
              (filter (fun a => f a <? n) l).
Proof.
  induction n as [|n IH].
  - cbn [seq flat_map]. induction l as [|a l IHl]; cbn [filter]; [constructor|exact IHl].
  - rewrite seq_S, flat_map_app. cbn [flat_map plus]. rewrite app_nil_r, IH.
    apply filter_lt_S.
Qed.

Lemma classes_perm {A} (f : A -> nat) n l : (forall a, In a l -> f a < n) ->
  Permutation (flat_map (fun i => filter (fun a => f a =? i) l) (seq 0 n)) l.
Proof.
  intros H. rewrite classes_perm_lt.
  replace (filter (fun a => f a <? n) l) with l; [reflexivity|].
  induction l as [|a l IH]; cbn [filter]; [reflexivity|].
  destruct (Nat.ltb_spec (f a) n) as [_|Hge]; [|specialize (H a (or_introl eq_refl)); lia].
  f_equal. apply IH. intros; apply H; right; assumption.
Qed.

Definition rr_sel (parts : list Z) (mc i : nat) : list Z :=
  select_from (fun j => j mod mc =? i) 0 parts.

Lemma rr_sel_all parts mc : 0 < mc -> Permutation (flat_map (rr_sel parts mc) (seq 0 mc)) parts.
Proof.
  intros H. unfold rr_sel.
  erewrite flat_map_ext; [|intros i; apply (select_from_nth _ 0 parts 0%Z)].
  rewrite (flat_map_map_out (fun j => nth (j - 0) parts 0%Z)
             (fun i => filter (fun j => j mod mc =? i) (seq 0 (length parts)))).
  rewrite (classes_perm (fun j => j mod mc) mc) by (intros; apply Nat.mod_upper_bound; lia).
  rewrite <- (filter_all (fun _ => true) (seq 0 (length parts))) by reflexivity.
  rewrite <- (select_from_nth (fun _ => true) 0 parts 0%Z), select_from_all. reflexivity.
Qed.

(* ceil((P - i) / M): how many j < P fall in class i *)
Definition rr_count (P M i : nat) : nat := (P + M - 1 - i) / M.

Lemma rr_count_spec P M i n : i < M -> n < rr_count P M i <-> i + n * M < P.
Proof.
  intros Hi. unfold rr_count. split; intros H.
  - pose proof (Nat.mul_div_le (P + M - 1 - i) M ltac:(lia)) as Hd.
    apply (Nat.mul_le_mono_l _ _ M) in H. lia.
  - apply Nat.div_le_lower_bound; lia.
Qed.

Lemma rr_class_seq P M i : i < M ->
  filter (fun j => j mod M =? i) (seq 0 P) = map (fun n => i + n * M) (seq 0 (rr_count P M i)).
Proof.
  (* all the induction needs of the count is its characterisation, which moves with P *)
  intros Hi. generalize (rr_count P M i) (fun n => rr_count_spec P M i n Hi).
  induction P as [|P IH]; intros k Hk.
  - destruct k; [reflexivity|]. specialize (Hk 0). lia.
  - rewrite seq_S, filter_app. cbn [filter plus].
    destruct (Nat.eqb_spec (P mod M) i) as [E|N].
    + (* P = i + q*M is the last of the class: k = q + 1 *)
      pose proof (Nat.div_mod_eq P M) as Ed. rewrite E in Ed. set (q := P / M) in *.
      assert (k = S q) as -> by (pose proof (Hk q); pose proof (Hk (S q)); lia).
      rewrite seq_S, map_app, (IH q).
      * cbn [map plus]. do 2 f_equal. lia.
      * intros n. rewrite (Nat.mul_lt_mono_pos_r M) by lia. lia.
    + rewrite app_nil_r. apply IH. intros n. rewrite Hk.
      assert (i + n * M <> P); [|lia].
      intros <-. apply N. rewrite Nat.mod_add by lia. apply Nat.mod_small, Hi.
Qed.

Lemma rr_sel_kth parts mc i : i < mc ->
  rr_sel parts mc i =
  map (fun n => nth (i + n * mc) parts 0%Z) (seq 0 (rr_count (length parts) mc i)).
Proof.
  intros Hi. unfold rr_sel. rewrite (select_from_nth _ 0 parts 0%Z).
  rewrite rr_class_seq by exact Hi. rewrite map_map.
  apply map_ext. intros n. rewrite Nat.sub_0_r. reflexivity.
Qed.

Lemma rr_count_bounds P M i : i < M -> P / M <= rr_count P M i <= P / M + 1.
Proof.
  intros Hi. split; [apply Nat.div_le_mono; lia|].
  destruct (Nat.le_gt_cases (rr_count P M i) (P / M + 1)) as [H|H]; [exact H|].
  apply rr_count_spec in H; [|exact Hi].
  pose proof (Nat.div_mod_eq P M). pose proof (Nat.mod_upper_bound P M ltac:(lia)). lia.
Qed.

Lemma rr_sel_len parts mc i : i < mc ->
  length parts / mc <= length (rr_sel parts mc i) <= length parts / mc + 1.
Proof.
  intros Hi. rewrite rr_sel_kth by exact Hi. rewrite map_length, seq_length.
  apply rr_count_bounds. exact Hi.
Qed.

Lemma rr_assign_ib ms ps : rr_assign ms ps = ib_assign rr_sel ms ps.
Proof.
  unfold rr_assign, ib_assign, lift, ib_topic. apply flat_map_ext.
  intros [k l]. reflexivity.
Qed.
