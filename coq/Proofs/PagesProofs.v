(* Proofs/PagesProofs.v — invariant of the page transition system and stability of the bytes
   seen through a live pageRef. *)
From Coq Require Import List NArith Bool Arith Lia.
From KV Require Import Model.Pages.
Import ListNotations.

Lemma upd_length {A} (l : list A) : forall i x, length (upd l i x) = length l.
Proof. induction l as [|h t IH]; intros [|i] x; cbn [upd length]; try reflexivity. rewrite IH. reflexivity. Qed.
Lemma nth_error_upd_same {A} (l : list A) : forall i x, i < length l -> nth_error (upd l i x) i = Some x.
Proof. induction l as [|h t IH]; intros [|i] x H; cbn [upd nth_error length] in *; try lia; try reflexivity. apply IH. lia. Qed.
Lemma nth_error_upd_other {A} (l : list A) : forall i j x, i <> j -> nth_error (upd l i x) j = nth_error l j.
Proof.
  induction l as [|h t IH]; intros [|i] [|j] x H; cbn [upd nth_error]; try reflexivity; try lia.
  apply IH. lia.
Qed.
Lemma nth_upd_same {A} (l : list A) i x d : i < length l -> nth i (upd l i x) d = x.
Proof. intros H. apply nth_error_nth, nth_error_upd_same, H. Qed.
Lemma nth_upd_other {A} (l : list A) i j x d : i <> j -> nth j (upd l i x) d = nth j l d.
Proof. intros H. rewrite <- !nth_default_eq. unfold nth_default. rewrite nth_error_upd_other by exact H. reflexivity. Qed.
Lemma nth_upd {A} (l : list A) i j x d : i < length l ->
  nth j (upd l i x) d = if Nat.eq_dec i j then x else nth j l d.
Proof. intros H. destruct (Nat.eq_dec i j) as [<-|Hne]; [apply nth_upd_same, H|apply nth_upd_other, Hne]. Qed.
Lemma nth_error_lt {A} (l : list A) i x : nth_error l i = Some x -> i < length l.
Proof. intros H. apply nth_error_Some. rewrite H. discriminate. Qed.

Lemma sum_upd {A} (f : A -> nat) (l : list A) : forall i x y, nth_error l i = Some y ->
  list_sum (map f (upd l i x)) + f y = list_sum (map f l) + f x.
Proof.
  induction l as [|h t IH]; intros [|i] x y H; cbn [nth_error] in H; try discriminate.
  - injection H as <-. cbn [upd map]. unfold list_sum. cbn [fold_right]. lia.
  - cbn [upd map]. specialize (IH i x y H). unfold list_sum in *. cbn [fold_right]. lia.
Qed.
Lemma sum_app1 {A} (f : A -> nat) (l : list A) x : list_sum (map f (l ++ [x])) = list_sum (map f l) + f x.
Proof. rewrite map_app, list_sum_app. cbn. lia. Qed.

Notation cnt := (count_occ Nat.eq_dec).

Lemma cnt_app1 l p q : cnt (l ++ [q]) p = cnt l p + (if Nat.eq_dec q p then 1 else 0).
Proof. rewrite count_occ_app. cbn [count_occ]. destruct (Nat.eq_dec q p); lia. Qed.

Definition buf_hold (p : nat) (b : pbuf) : nat := if b_live b then cnt (b_pages b) p else 0.
Definition ref_hold (p : nat) (r : pref) : nat := if r_live r then cnt (map fst (r_segs r)) p else 0.
Definition holders (s : pstate) (p : nat) : nat :=
  list_sum (map (buf_hold p) (s_bufs s)) + list_sum (map (ref_hold p) (s_refs s)).

Definition segs_below (s : pstate) : Prop :=
  forall r rf, nth_error (s_refs s) r = Some rf -> r_live rf = true ->
  forall p lo hi, In (p, (lo, hi)) (r_segs rf) -> hi <= length (p_data (get_page s p)).

Record Inv (s : pstate) : Prop := {
  inv_count : forall p, holders s p <= p_refc (get_page s p);      (* every holder is counted *)
  inv_pool  : forall p, p_pool (get_page s p) = true -> p_refc (get_page s p) = 0;   (* pooled => count 0 *)
  inv_segs  : segs_below s
}.

Lemma Inv_s0 : Inv s0.
Proof.
  split.
  - intros p. unfold holders, get_page. cbn. destruct p; cbn; lia.
  - intros p. unfold get_page. cbn. destruct p; cbn; discriminate.
  - intros r rf H. destruct r; discriminate H.
Qed.

Lemma get_page_lt s p : 0 < p_refc (get_page s p) -> p < length (s_pages s).
Proof.
  intros H. destruct (Nat.lt_ge_cases p (length (s_pages s))) as [|Hge]; [assumption|].
  unfold get_page in H. rewrite nth_overflow in H by exact Hge. cbn in H. lia.
Qed.

Lemma list_sum_ge {A} (f : A -> nat) (l : list A) : forall i x, nth_error l i = Some x -> f x <= list_sum (map f l).
Proof.
  induction l as [|h t IH]; intros [|i] x H; cbn [nth_error] in H; try discriminate;
    unfold list_sum in *; cbn [map fold_right].
  - injection H as ->. lia.
  - specialize (IH i x H). lia.
Qed.

(* a page held by a live buffer / live ref is counted, hence known and not pooled *)
Lemma buf_page_counted s b bf p : Inv s -> nth_error (s_bufs s) b = Some bf -> b_live bf = true -> In p (b_pages bf) ->
  0 < p_refc (get_page s p).
Proof.
  intros I Hb Hl Hin. pose proof (inv_count s I p) as Hc. unfold holders in Hc.
  pose proof (list_sum_ge (buf_hold p) _ b bf Hb) as H. unfold buf_hold at 1 in H. rewrite Hl in H.
  apply (count_occ_In Nat.eq_dec) in Hin. lia.
Qed.
Lemma unheld_not_in_ref s r rf p : nth_error (s_refs s) r = Some rf -> r_live rf = true ->
  list_sum (map (ref_hold p) (s_refs s)) = 0 -> ~ In p (map fst (r_segs rf)).
Proof.
  intros Hr Hl H0 Hin.
  pose proof (list_sum_ge (ref_hold p) _ r rf Hr) as H. unfold ref_hold at 1 in H. rewrite Hl in H.
  apply (count_occ_In Nat.eq_dec) in Hin. lia.
Qed.
Lemma pooled_not_in_ref s r rf p : Inv s -> nth_error (s_refs s) r = Some rf -> r_live rf = true ->
  p_pool (get_page s p) = true -> ~ In p (map fst (r_segs rf)).
Proof.
  intros I Hr Hl Hp. apply (unheld_not_in_ref s r rf p Hr Hl).
  pose proof (inv_count s I p). rewrite (inv_pool s I p Hp) in H. unfold holders in H. lia.
Qed.

Definition refc_of (ps : list page) (p : nat) : nat := p_refc (nth p ps page0).
Definition data_of (ps : list page) (p : nat) : list N := p_data (nth p ps page0).
Definition pool_of (ps : list page) (p : nat) : bool := p_pool (nth p ps page0).

Lemma inc_page_spec ps q : q < length ps ->
  length (inc_page ps q) = length ps /\
  forall p, refc_of (inc_page ps q) p = refc_of ps p + (if Nat.eq_dec q p then 1 else 0) /\
            data_of (inc_page ps q) p = data_of ps p /\ pool_of (inc_page ps q) p = pool_of ps p.
Proof.
  intros Hq. unfold inc_page. split; [apply upd_length|]. intros p.
  unfold refc_of, data_of, pool_of. destruct (Nat.eq_dec q p) as [->|Hne].
  - rewrite nth_upd_same by exact Hq. cbn. repeat split; lia.
  - rewrite nth_upd_other by exact Hne. repeat split; lia.
Qed.

Lemma inc_pages_spec l : forall ps, (forall q, In q l -> q < length ps) ->
  length (inc_pages ps l) = length ps /\
  forall p, refc_of (inc_pages ps l) p = refc_of ps p + cnt l p /\
            data_of (inc_pages ps l) p = data_of ps p /\ pool_of (inc_pages ps l) p = pool_of ps p.
Proof.
  induction l as [|q l IH]; intros ps H; cbn [inc_pages fold_left].
  - split; [reflexivity|]. intros p. cbn [count_occ]. repeat split; lia.
  - destruct (inc_page_spec ps q (H q (or_introl eq_refl))) as [L1 S1].
    destruct (IH (inc_page ps q)) as [L2 S2].
    { intros x Hx. rewrite L1. apply H. right. exact Hx. }
    fold (inc_pages (inc_page ps q) l). split; [lia|]. intros p.
    destruct (S1 p) as (A1 & B1 & C1). destruct (S2 p) as (A2 & B2 & C2).
    cbn [count_occ]. rewrite A2, A1, B2, B1, C2, C1. destruct (Nat.eq_dec q p); repeat split; lia.
Qed.

Lemma dec_page_spec ps q ps' : dec_page ps q = Some ps' ->
  length ps' = length ps /\ 0 < refc_of ps q /\
  forall p, refc_of ps' p + (if Nat.eq_dec q p then 1 else 0) = refc_of ps p /\
            data_of ps' p = data_of ps p /\
            pool_of ps' p = (if Nat.eq_dec q p then Nat.eqb (refc_of ps' p) 0 else pool_of ps p).
Proof.
  unfold dec_page. intros H. destruct (p_refc (nth q ps page0)) as [|n] eqn:E; [discriminate|].
  injection H as <-.
  assert (Hq : q < length ps).
  { destruct (Nat.lt_ge_cases q (length ps)); [assumption|]. rewrite nth_overflow in E by assumption. discriminate. }
  split; [apply upd_length|]. split; [unfold refc_of; lia|]. intros p.
  unfold refc_of, data_of, pool_of. destruct (Nat.eq_dec q p) as [->|Hne].
  - rewrite nth_upd_same by exact Hq. cbn. repeat split; lia.
  - rewrite nth_upd_other by exact Hne. repeat split; lia.
Qed.

Lemma dec_pages_spec l : forall ps ps', dec_pages ps l = Some ps' ->
  length ps' = length ps /\
  forall p, refc_of ps' p + cnt l p = refc_of ps p /\ data_of ps' p = data_of ps p /\
            (pool_of ps' p = true -> refc_of ps' p = 0 \/ (cnt l p = 0 /\ pool_of ps p = true)).
Proof.
  induction l as [|q l IH]; intros ps ps' H; cbn [dec_pages] in H.
  - injection H as <-. split; [reflexivity|]. intros p. cbn [count_occ]. repeat split; try lia.
    intros Hp. right. split; [reflexivity|exact Hp].
  - destruct (dec_page ps q) as [ps1|] eqn:E; [|discriminate].
    destruct (dec_page_spec ps q ps1 E) as (L1 & _ & S1).
    destruct (IH ps1 ps' H) as (L2 & S2). split; [lia|]. intros p.
    destruct (S1 p) as (A1 & B1 & C1). destruct (S2 p) as (A2 & B2 & C2).
    cbn [count_occ]. destruct (Nat.eq_dec q p) as [->|Hne].
    + repeat split; try lia; try congruence. intros Hp. destruct (C2 Hp) as [|[Hc Hp1]]; [left; assumption|].
      left. rewrite C1 in Hp1. apply Nat.eqb_eq in Hp1. lia.
    + repeat split; try lia; try congruence. intros Hp. destruct (C2 Hp) as [|[Hc Hp1]]; [left; assumption|].
      right. split; [lia|]. rewrite <- C1. exact Hp1.
Qed.

Lemma holders_upd_buf s ps b bf bf' q : nth_error (s_bufs s) b = Some bf ->
  holders {| s_pages := ps; s_bufs := upd (s_bufs s) b bf'; s_refs := s_refs s |} q + buf_hold q bf =
  holders s q + buf_hold q bf'.
Proof. intros Hb. unfold holders. cbn [s_bufs s_refs]. pose proof (sum_upd (buf_hold q) _ b bf' bf Hb). lia. Qed.
Lemma holders_upd_ref s ps r rf rf' q : nth_error (s_refs s) r = Some rf ->
  holders {| s_pages := ps; s_bufs := s_bufs s; s_refs := upd (s_refs s) r rf' |} q + ref_hold q rf =
  holders s q + ref_hold q rf'.
Proof. intros Hr. unfold holders. cbn [s_bufs s_refs]. pose proof (sum_upd (ref_hold q) _ r rf' rf Hr). lia. Qed.

Lemma read_seg_prefix (d extra : list N) lo hi : hi <= length d ->
  firstn (hi - lo) (skipn lo (d ++ extra)) = firstn (hi - lo) (skipn lo d).
Proof.
  intros H. destruct (Nat.le_gt_cases lo (length d)) as [Hlo|Hlo].
  - rewrite skipn_app. replace (lo - length d) with 0 by lia. cbn [skipn].
    rewrite firstn_app. rewrite skipn_length. replace (hi - lo - (length d - lo)) with 0 by lia.
    cbn [firstn]. apply app_nil_r.
  - replace (hi - lo) with 0 by lia. reflexivity.
Qed.

(* a ref that stays as it is keeps its bytes when the pages it points into only grow *)
Definition seen_grows (s s' : pstate) (rf : pref) : Prop :=
  forall p lo hi, In (p, (lo, hi)) (r_segs rf) ->
  exists extra, p_data (get_page s' p) = p_data (get_page s p) ++ extra.

Lemma read_ref_kept s s' r rf : segs_below s ->
  nth_error (s_refs s) r = Some rf -> nth_error (s_refs s') r = Some rf -> (r_live rf = true -> seen_grows s s' rf) ->
  read_ref s' r = read_ref s r /\
  (r_live rf = true -> forall p lo hi, In (p, (lo, hi)) (r_segs rf) -> hi <= length (p_data (get_page s' p))).
Proof.
  intros Hb Hr Hr' Hg. unfold read_ref. rewrite Hr, Hr'.
  destruct (r_live rf) eqn:Hl; [|split; [reflexivity|discriminate]]. specialize (Hg eq_refl). split.
  - do 2 f_equal. apply map_ext_in. intros [p [lo hi]] Hin. unfold read_seg.
    destruct (Hg p lo hi Hin) as [extra ->]. apply read_seg_prefix, (Hb r rf Hr Hl p lo hi Hin).
  - intros _ p lo hi Hin. destruct (Hg p lo hi Hin) as [extra ->]. rewrite app_length.
    pose proof (Hb r rf Hr Hl p lo hi Hin). lia.
Qed.

Lemma refs_frame s s' : segs_below s -> s_refs s' = s_refs s ->
  (forall r rf, nth_error (s_refs s) r = Some rf -> r_live rf = true -> seen_grows s s' rf) ->
  segs_below s' /\ forall r bytes, read_ref s r = Some bytes -> read_ref s' r = Some bytes.
Proof.
  intros Hb Hrefs Hg. split.
  - intros r rf Hr Hl. rewrite Hrefs in Hr.
    apply (read_ref_kept s s' r rf Hb Hr); [rewrite Hrefs; exact Hr|intros _; exact (Hg r rf Hr Hl)|exact Hl].
  - intros r bytes H. destruct (nth_error (s_refs s) r) as [rf|] eqn:Hr; [|unfold read_ref in H; rewrite Hr in H; discriminate].
    rewrite <- H. apply (read_ref_kept s s' r rf Hb Hr); [rewrite Hrefs; exact Hr|intros Hl; exact (Hg r rf Hr Hl)].
Qed.

Lemma seen_same s s' rf : (forall q, p_data (get_page s' q) = p_data (get_page s q)) -> seen_grows s s' rf.
Proof. intros Hd p lo hi _. exists []. rewrite app_nil_r. apply Hd. Qed.

(* tail.Write, and the pool forgetting a page: one page replaced; count kept, bytes only grow, not newly pooled *)
Lemma set_page_preserves s p pg' : Inv s -> p < length (s_pages s) ->
  p_refc pg' = p_refc (get_page s p) -> (p_pool pg' = true -> p_pool (get_page s p) = true) ->
  (exists extra, p_data pg' = p_data (get_page s p) ++ extra) ->
  let s' := {| s_pages := upd (s_pages s) p pg'; s_bufs := s_bufs s; s_refs := s_refs s |} in
  Inv s' /\ forall r bytes, read_ref s r = Some bytes -> read_ref s' r = Some bytes.
Proof.
  intros I Hp Hc Hpool [extra Hd] s'.
  assert (Hg : forall q, get_page s' q = if Nat.eq_dec p q then pg' else get_page s q)
    by (intros q; apply nth_upd, Hp).
  destruct (refs_frame s s' (inv_segs s I) eq_refl) as [Hsegs Hreads].
  { intros r rf _ _ q lo hi _. rewrite Hg. destruct (Nat.eq_dec p q) as [<-|_]; [exists extra; exact Hd|].
    exists []. symmetry. apply app_nil_r. }
  split; [|exact Hreads]. split; [| |exact Hsegs].
  - intros q. rewrite Hg. destruct (Nat.eq_dec p q) as [<-|_]; [rewrite Hc|]; apply (inv_count s I).
  - intros q. rewrite Hg. destruct (Nat.eq_dec p q) as [<-|_]; [|apply (inv_pool s I q)].
    intros H. rewrite Hc. apply (inv_pool s I p), Hpool, H.
Qed.

(* newPage: [b] gains [p], which nobody held; [ps'] = the pages with p at count 1, empty, not pooled *)
Lemma new_page_preserves s b bf p ps' : Inv s ->
  nth_error (s_bufs s) b = Some bf -> b_live bf = true -> p_refc (get_page s p) = 0 ->
  (forall q, nth q ps' page0 = if Nat.eq_dec p q then {| p_refc := 1; p_data := []; p_pool := false |} else get_page s q) ->
  let s' := {| s_pages := ps'; s_bufs := upd (s_bufs s) b {| b_live := true; b_pages := b_pages bf ++ [p] |};
               s_refs := s_refs s |} in
  Inv s' /\ forall r bytes, read_ref s r = Some bytes -> read_ref s' r = Some bytes.
Proof.
  intros I Hb Hl H0 Hg s'. change (forall q, get_page s' q = if Nat.eq_dec p q then {| p_refc := 1; p_data := []; p_pool := false |} else get_page s q) in Hg.
  assert (Hunseen : forall r rf, nth_error (s_refs s) r = Some rf -> r_live rf = true -> ~ In p (map fst (r_segs rf))).
  { intros r rf Hr Hlr. apply (unheld_not_in_ref s r rf p Hr Hlr).
    pose proof (inv_count s I p). unfold holders in *. lia. }
  destruct (refs_frame s s' (inv_segs s I) eq_refl) as [Hsegs Hreads].
  { intros r rf Hr Hlr q lo hi Hin. rewrite Hg.
    destruct (Nat.eq_dec p q) as [<-|_]; [|exists []; symmetry; apply app_nil_r].
    exfalso. apply (Hunseen r rf Hr Hlr), in_map_iff. exists (p, (lo, hi)). split; [reflexivity|exact Hin]. }
  split; [|exact Hreads]. split; [| |exact Hsegs]; intros q; rewrite Hg.
  - 
    pose proof (holders_upd_buf s ps' b bf {| b_live := true; b_pages := b_pages bf ++ [p] |} q Hb) as Hs.
    fold s' in Hs. unfold buf_hold in Hs. cbn [b_live b_pages] in Hs. rewrite Hl, cnt_app1 in Hs.
    pose proof (inv_count s I q). destruct (Nat.eq_dec p q) as [<-|_]; cbn [p_refc]; lia.
  - destruct (Nat.eq_dec p q); [discriminate|apply (inv_pool s I q)].
Qed.

(* unref of a buffer or a ref: the counts of its pages [l] go down with the holders *)
Lemma release_preserves s s' l : Inv s -> dec_pages (s_pages s) l = Some (s_pages s') ->
  (forall q, holders s' q + cnt l q = holders s q) ->
  (forall q, holders s' q <= p_refc (get_page s' q)) /\
  (forall q, p_pool (get_page s' q) = true -> p_refc (get_page s' q) = 0) /\
  (forall q, p_data (get_page s' q) = p_data (get_page s q)).
Proof.
  intros I Hdec Hh. destruct (dec_pages_spec _ _ _ Hdec) as [_ HS].
  assert (HS' : forall q, p_refc (get_page s' q) + cnt l q = p_refc (get_page s q) /\
                        p_data (get_page s' q) = p_data (get_page s q) /\
                        (p_pool (get_page s' q) = true ->
                         p_refc (get_page s' q) = 0 \/ (cnt l q = 0 /\ p_pool (get_page s q) = true)))
    by exact HS.
  split; [|split]; intros q; destruct (HS' q) as (A & B & C).
  - pose proof (inv_count s I q). pose proof (Hh q). lia.
  - intros Hp. destruct (C Hp) as [H0|[_ Hp0]]; [exact H0|]. pose proof (inv_pool s I q Hp0). lia.
  - exact B.
Qed.

(* refTo: the new ref points into pages of the live buffer b, below the bytes they hold *)
Lemma ref_preserves s b bf segs : Inv s ->
  nth_error (s_bufs s) b = Some bf -> b_live bf = true -> forallb (seg_ok s (b_pages bf)) segs = true ->
  let s' := {| s_pages := inc_pages (s_pages s) (map fst segs); s_bufs := s_bufs s;
               s_refs := s_refs s ++ [{| r_live := true; r_segs := segs |}] |} in
  Inv s' /\ forall r bytes, read_ref s r = Some bytes -> read_ref s' r = Some bytes.
Proof.
  intros I Hb Hl Hsegs s'. rewrite forallb_forall in Hsegs.
  assert (Hseg : forall p lo hi, In (p, (lo, hi)) segs ->
            0 < p_refc (get_page s p) /\ hi <= length (p_data (get_page s p))).
  { intros p lo hi Hin. specialize (Hsegs _ Hin). unfold seg_ok in Hsegs.
    apply andb_prop in Hsegs as [Hs1 Hs3]. apply andb_prop in Hs1 as [Hs1 Hs2].
    split; [|apply Nat.leb_le; exact Hs3].
    apply existsb_exists in Hs1 as (x & Hx & E). apply Nat.eqb_eq in E. subst x.
    exact (buf_page_counted s b bf p I Hb Hl Hx). }
  assert (Hheld : forall q, In q (map fst segs) -> 0 < p_refc (get_page s q)).
  { intros q Hq. apply in_map_iff in Hq as ([p [lo hi]] & <- & Hin). apply (Hseg p lo hi Hin). }
  destruct (inc_pages_spec (map fst segs) (s_pages s)) as [_ HS];
    [intros q Hq; apply get_page_lt, Hheld, Hq|].
  assert (Hd : forall q, p_data (get_page s' q) = p_data (get_page s q)) by (intros q; apply (HS q)).
  assert (Hold : forall r rf, nth_error (s_refs s) r = Some rf -> nth_error (s_refs s') r = Some rf).
  { intros r rf Hr. cbn [s_refs s']. rewrite nth_error_app1 by (eapply nth_error_lt, Hr). exact Hr. }
  split; [split|].
  - intros q. pose proof (inv_count s I q) as H. unfold holders in *. cbn [s_bufs s_refs s'].
    rewrite sum_app1. unfold ref_hold at 2. cbn [r_live r_segs].
    destruct (HS q) as (A & _ & _). unfold refc_of in A. unfold get_page in *. cbn [s_pages s']. lia.
  - intros q Hp. destruct (HS q) as (A & _ & C). unfold refc_of, pool_of in *.
    unfold get_page in *. cbn [s_pages s'] in *. rewrite C in Hp. pose proof (inv_pool s I q Hp) as H0.
    destruct (Nat.eq_dec (cnt (map fst segs) q) 0) as [E|E]; [unfold get_page in H0; lia|].
    pose proof (Hheld q ltac:(apply (count_occ_In Nat.eq_dec); lia)). unfold get_page in H0. lia.
  - intros r rf Hr Hlr q lo hi Hin. rewrite Hd. cbn [s_refs s'] in Hr.
    destruct (Nat.lt_ge_cases r (length (s_refs s))) as [Hrl|Hrl].
    + rewrite nth_error_app1 in Hr by exact Hrl. apply (inv_segs s I r rf Hr Hlr q lo hi Hin).
    + rewrite nth_error_app2 in Hr by exact Hrl.
      destruct (r - length (s_refs s)) as [|k]; cbn [nth_error] in Hr; [|destruct k; discriminate].
      injection Hr as <-. apply (Hseg q lo hi Hin).
  - intros r bytes H. destruct (nth_error (s_refs s) r) as [rf|] eqn:Hr; [|unfold read_ref in H; rewrite Hr in H; discriminate].
    rewrite <- H. apply (read_ref_kept s s' r rf (inv_segs s I) Hr (Hold r rf Hr)). intros _. apply seen_same, Hd.
Qed.

Lemma unref_buf_preserves s b bf ps : Inv s ->
  nth_error (s_bufs s) b = Some bf -> b_live bf = true -> dec_pages (s_pages s) (b_pages bf) = Some ps ->
  let s' := {| s_pages := ps; s_bufs := upd (s_bufs s) b {| b_live := false; b_pages := [] |}; s_refs := s_refs s |} in
  Inv s' /\ forall r bytes, read_ref s r = Some bytes -> read_ref s' r = Some bytes.
Proof.
  intros I Hb Hl Hdec s'.
  destruct (release_preserves s s' (b_pages bf) I Hdec) as (Hc & Hpl & Hd).
  { intros q. pose proof (holders_upd_buf s ps b bf {| b_live := false; b_pages := [] |} q Hb) as Hs.
    unfold buf_hold in Hs. cbn [b_live b_pages] in Hs. rewrite Hl in Hs. fold s' in Hs. lia. }
  destruct (refs_frame s s' (inv_segs s I) eq_refl) as [Hsegs Hreads]; [intros; apply seen_same, Hd|].
  split; [split; assumption|exact Hreads].
Qed.

Lemma unref_ref_preserves s r0 rf0 ps : Inv s ->
  nth_error (s_refs s) r0 = Some rf0 -> r_live rf0 = true -> dec_pages (s_pages s) (map fst (r_segs rf0)) = Some ps ->
  let s' := {| s_pages := ps; s_bufs := s_bufs s; s_refs := upd (s_refs s) r0 {| r_live := false; r_segs := [] |} |} in
  Inv s' /\ read_ref s' r0 = None /\
  forall r bytes, r0 <> r -> read_ref s r = Some bytes -> read_ref s' r = Some bytes.
Proof.
  intros I Hr0 Hl0 Hdec s'.
  destruct (release_preserves s s' (map fst (r_segs rf0)) I Hdec) as (Hc & Hpl & Hd).
  { intros q. pose proof (holders_upd_ref s ps r0 rf0 {| r_live := false; r_segs := [] |} q Hr0) as Hs.
    unfold ref_hold in Hs. cbn [r_live r_segs] in Hs. rewrite Hl0 in Hs. fold s' in Hs. lia. }
  assert (Hdead : nth_error (s_refs s') r0 = Some {| r_live := false; r_segs := [] |})
    by (eapply nth_error_upd_same, nth_error_lt, Hr0).
  assert (Hold : forall r, r0 <> r -> nth_error (s_refs s') r = nth_error (s_refs s) r)
    by (intros r Hne; apply nth_error_upd_other, Hne).
  split; [split; [exact Hc|exact Hpl|]|split].
  - intros r rf Hr Hlr. destruct (Nat.eq_dec r0 r) as [<-|Hne]; [rewrite Hdead in Hr; injection Hr as <-; discriminate Hlr|].
    rewrite (Hold r Hne) in Hr.
    apply (read_ref_kept s s' r rf (inv_segs s I) Hr); [rewrite Hold; assumption|intros _; apply seen_same, Hd|exact Hlr].
  - unfold read_ref. rewrite Hdead. reflexivity.
  - intros r bytes Hne H. destruct (nth_error (s_refs s) r) as [rf|] eqn:Hr; [|unfold read_ref in H; rewrite Hr in H; discriminate].
    rewrite <- H. apply (read_ref_kept s s' r rf (inv_segs s I) Hr); [rewrite Hold; assumption|intros _; apply seen_same, Hd].
Qed.

Theorem step_preserves : forall s o s', Inv s -> step s o = Some s' ->
  Inv s' /\
  (forall r bytes, read_ref s r = Some bytes ->
     read_ref s' r = Some bytes \/ (o = OUnrefRef r /\ read_ref s' r = None)).
Proof.
  intros s o s' I Hstep.
  (* all operations but OUnrefRef keep every ref readable *)
  assert (Hkeep : forall s1, (Inv s1 /\ forall r bytes, read_ref s r = Some bytes -> read_ref s1 r = Some bytes) ->
            Inv s1 /\ forall r bytes, read_ref s r = Some bytes ->
              read_ref s1 r = Some bytes \/ (o = OUnrefRef r /\ read_ref s1 r = None))
    by (intros s1 [I1 H1]; split; [exact I1|intros r bytes H; left; exact (H1 r bytes H)]).
  destruct o as [|b src|b data|b segs|b|r0|p0]; cbn [step] in Hstep.
  - (* ONewBuf *)
    injection Hstep as <-. apply Hkeep. split; [split|intros r bytes H; exact H].
    + intros p. pose proof (inv_count s I p) as H. unfold holders, get_page in *. cbn [s_bufs s_refs s_pages].
      rewrite sum_app1. unfold buf_hold at 2. cbn. lia.
    + exact (inv_pool s I).
    + exact (inv_segs s I).
  - (* ONewPage *)
    destruct (nth_error (s_bufs s) b) as [bf|] eqn:Hb; [|discriminate].
    destruct (b_live bf) eqn:Hl; cbn [negb] in Hstep; [|discriminate].
    destruct src as [p|].
    + (* pagePool.Get() returned p *)
      destruct (nth_error (s_pages s) p) as [pg|] eqn:Hp; [|discriminate].
      destruct (p_pool pg) eqn:Hpool; cbn [negb] in Hstep; [|discriminate].
      injection Hstep as <-. apply Hkeep.
      assert (Hpg : get_page s p = pg) by (apply nth_error_nth, Hp).
      assert (H0 : p_refc (get_page s p) = 0) by (apply (inv_pool s I); rewrite Hpg; exact Hpool).
      rewrite Hpg in H0. rewrite H0.
      apply (new_page_preserves s b bf p _ I Hb Hl); [rewrite Hpg; exact H0|].
      intros q. apply nth_upd. eapply nth_error_lt, Hp.
    + (* a fresh page *)
      injection Hstep as <-. apply Hkeep.
      assert (Hn : get_page s (length (s_pages s)) = page0) by (apply nth_overflow; lia).
      apply (new_page_preserves s b bf _ _ I Hb Hl); [rewrite Hn; reflexivity|].
      intros q. destruct (Nat.eq_dec (length (s_pages s)) q) as [<-|Hne].
      * rewrite app_nth2, Nat.sub_diag by lia. reflexivity.
      * unfold get_page. destruct (Nat.lt_ge_cases q (length (s_pages s))); [apply app_nth1; assumption|].
        rewrite !nth_overflow; [reflexivity|lia|rewrite app_length; cbn [length]; lia].
  - (* OAppend *)
    destruct (nth_error (s_bufs s) b) as [bf|] eqn:Hb; [|discriminate].
    destruct (negb (b_live bf)); [discriminate|].
    destruct (rev (b_pages bf)) as [|p t]; [discriminate|].
    destruct (nth_error (s_pages s) p) as [pg|] eqn:Hp; [|discriminate].
    destruct (page_size <? length (p_data pg) + length data); [discriminate|].
    injection Hstep as <-. apply Hkeep.
    rewrite <- (nth_error_nth _ _ page0 Hp). fold (get_page s p).
    apply set_page_preserves; [exact I|eapply nth_error_lt, Hp|reflexivity|exact (fun H => H)|].
    exists data. reflexivity.
  - (* ORef *)
    destruct (nth_error (s_bufs s) b) as [bf|] eqn:Hb; [|discriminate].
    destruct (b_live bf) eqn:Hl; cbn [negb] in Hstep; [|discriminate].
    destruct (forallb (seg_ok s (b_pages bf)) segs && nodupb (map fst segs)) eqn:Hok; cbn [negb] in Hstep; [|discriminate].
    (* the nodupb half of the guard plays no part in the invariant *)
    injection Hstep as <-. apply Hkeep. apply andb_prop in Hok as [Hsegs _].
    exact (ref_preserves s b bf segs I Hb Hl Hsegs).
  - (* OUnrefBuf *)
    destruct (nth_error (s_bufs s) b) as [bf|] eqn:Hb; [|discriminate].
    destruct (b_live bf) eqn:Hl; cbn [negb] in Hstep; [|discriminate].
    destruct (dec_pages (s_pages s) (b_pages bf)) as [ps|] eqn:Hdec; [|discriminate].
    injection Hstep as <-. apply Hkeep. exact (unref_buf_preserves s b bf ps I Hb Hl Hdec).
  - (* OUnrefRef (a second call does nothing) *)
    destruct (nth_error (s_refs s) r0) as [rf0|] eqn:Hr0; [|discriminate].
    destruct (r_live rf0) eqn:Hl0; cbn [negb] in Hstep.
    2:{ injection Hstep as <-. split; [exact I|]. intros r bytes H. left. exact H. }
    destruct (dec_pages (s_pages s) (map fst (r_segs rf0))) as [ps|] eqn:Hdec; [|discriminate].
    injection Hstep as <-.
    destruct (unref_ref_preserves s r0 rf0 ps I Hr0 Hl0 Hdec) as (I' & Hdead & Hold).
    split; [exact I'|]. intros r bytes H.
    destruct (Nat.eq_dec r0 r) as [<-|Hne]; [right; split; [reflexivity|exact Hdead]|left; exact (Hold r bytes Hne H)].
  - (* OPoolDrop *)
    destruct (nth_error (s_pages s) p0) as [pg|] eqn:Hp; [|discriminate].
    destruct (negb (p_pool pg)); [discriminate|].
    injection Hstep as <-. apply Hkeep.
    rewrite <- (nth_error_nth _ _ page0 Hp). fold (get_page s p0).
    apply set_page_preserves; [exact I|eapply nth_error_lt, Hp|reflexivity|discriminate|].
    exists []. symmetry. apply app_nil_r.
Qed.

Lemma run_inv : forall ops s s', Inv s -> run s ops = Some s' -> Inv s'.
Proof.
  induction ops as [|o ops IH]; intros s s' I H; cbn [run] in H.
  - injection H as <-. exact I.
  - destruct (step s o) as [s1|] eqn:E; [|discriminate].
    apply (IH s1 s' (proj1 (step_preserves s o s1 I E)) H).
Qed.

(* from any state satisfying the invariant, for every sequence of atomic actions of any number of buffers,
   refs and goroutines: a ref that can be read yields the same bytes later unless it was closed in between *)
Theorem run_stable : forall ops s1 s2 r bytes,
  Inv s1 -> run s1 ops = Some s2 -> read_ref s1 r = Some bytes ->
  Inv s2 /\ (read_ref s2 r = Some bytes \/ In (OUnrefRef r) ops).
Proof.
  induction ops as [|o ops IH]; intros s1 s2 r bytes I1 H2 Hr; cbn [run] in H2.
  - injection H2 as <-. split; [exact I1|]. left. exact Hr.
  - destruct (step s1 o) as [sm|] eqn:E; [|discriminate].
    destruct (step_preserves s1 o sm I1 E) as [Im Hread].
    destruct (Hread r bytes Hr) as [Hk|[Ho Hn]].
    + destruct (IH sm s2 r bytes Im H2 Hk) as [I2 [A|A]]; split; try exact I2; [left; exact A|right; right; exact A].
    + split; [apply (run_inv ops sm s2 Im H2)|]. right. left. exact Ho.
Qed.

(* the pool never holds a page that somebody still references *)
Theorem pooled_unheld : forall s, Inv s ->
  forall p, p_pool (get_page s p) = true ->
  p_refc (get_page s p) = 0 /\
  (forall r rf, nth_error (s_refs s) r = Some rf -> r_live rf = true -> ~ In p (map fst (r_segs rf))) /\
  (forall b bf, nth_error (s_bufs s) b = Some bf -> b_live bf = true -> ~ In p (b_pages bf)).
Proof.
  intros s I p Hp. split; [apply (inv_pool s I p Hp)|]. split.
  - intros r rf Hr Hl. apply (pooled_not_in_ref s r rf p I Hr Hl Hp).
  - intros b bf Hb Hl Hin. pose proof (buf_page_counted s b bf p I Hb Hl Hin). rewrite (inv_pool s I p Hp) in H. lia.
Qed.
