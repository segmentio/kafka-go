(* Proofs/SchemaRoundtrip.v — decode (encode v) = canon v, for every schema type
   accepted by schema_ok, every well-formed value, whatever follows in the stream. *)
From Coq Require Import List NArith ZArith Bool Lia.
From Coq Require Import ZifyN ZifyNat ZifyBool.
From KV Require Import Lib.Bits Lib.Bytes Lib.Varint Model.Schema
  Proofs.SchemaBase Proofs.SchemaDefs Proofs.SchemaPrims Proofs.SchemaEqns.
Import ListNotations.

Lemma in_signed_small w z : (0 < w)%nat -> (- 128 <= z < 128)%Z -> in_signed w z.
Proof.
  intros Hw Hz. unfold in_signed. destruct w as [|w']; [lia|].
  rewrite pow256_S. pose proof (pow256_pos w').
  assert (128 <= 256 * pow256 w' / 2)%N.
  { apply N.div_le_lower_bound; [discriminate|]. lia. }
  lia.
Qed.

Lemma prefixed_bytes flex w null n body : bytes_ok body -> bytes_ok (prefixed flex w null n body).
Proof.
  intros H. unfold prefixed.
  destruct flex, null.
  - apply put_uvarint_bytes.
  - apply Forall_app; split; [apply put_uvarint_bytes|exact H].
  - apply put_bes_bytes.
  - apply Forall_app; split; [apply put_bes_bytes|exact H].
Qed.

Lemma prefixed_length (flex : bool) w null n body :
  ((if flex then 1 else w) <= length (prefixed flex w null n body))%nat.
Proof.
  unfold prefixed. destruct flex, null; rewrite ?app_length, ?put_bes_length; try lia.
  - pose proof (put_uvarint_length 0). lia.
  - pose proof (put_uvarint_length (N.of_nat n + 1)). lia.
Qed.

Section RT.
Variable c : cfg.
Variable flex : bool.

(* the size conjunct lets an array's element loop take its turns *)
Definition RT (t : ty) : Prop :=
  forall v bs, wfb flex t v = true -> encode flex t v = Some bs ->
    bytes_ok bs /\ (min_size flex t <= N.of_nat (length bs))%N /\
    reads c (decode c flex t) bs (canon t v) (alloc_of t v).

Lemma uv_len_ok n : (Z.of_nat n < ZM31)%Z -> (N.of_nat n + 1 < M64)%N.
Proof. unfold ZM31, M64. lia. Qed.

(* [n <= length body] bounds the count by the frame, so that n + 1 stays a uint64 *)
Lemma reads_prefixed {B} w (nullv b : B) (Kf : N -> dstate -> res B) (Ki : Z -> dstate -> res B) null n body d :
  (0 < w)%nat -> (flex = false -> in_signed w (Z.of_nat n)) ->
  (null = true -> b = nullv /\ d = 0%N) ->
  (null = false -> (Z.of_nat n < ZM31)%Z -> reads c (Kf (N.of_nat n + 1)%N) body b d) ->
  (null = false -> reads c (Ki (Z.of_nat n)) body b d) ->
  (n <= length body)%nat ->
  reads c (dec_prefixed flex w nullv Kf Ki) (prefixed flex w null n body) b d.
Proof.
  intros Hw Hn Hnull HKf HKi Hle. unfold prefixed, dec_prefixed. destruct flex, null.
  - destruct (Hnull eq_refl) as [-> ->].
    apply reads_bind_ret with (a := 0%N); [apply reads_uvarint|]; reflexivity.
  - apply reads_bounded. rewrite lenZ_app. unfold lenZ at 2. intros Hb.
    pose proof (lenZ_nonneg (put_uvarint (N.of_nat n + 1))).
    apply reads_bind0 with (a := (N.of_nat n + 1)%N); [apply reads_uvarint, uv_len_ok; lia|].
    replace (N.of_nat n + 1 <? 1)%N with false by lia. apply HKf; [reflexivity|lia].
  - destruct (Hnull eq_refl) as [-> ->].
    apply reads_bind_ret with (a := (-1)%Z); [apply reads_int; [exact Hw|apply in_signed_small; [exact Hw|lia]]|reflexivity].
  - apply reads_bind0 with (a := Z.of_nat n); [apply reads_int; auto|].
    replace (Z.of_nat n <? 0)%Z with false by lia. apply HKi. reflexivity.
Qed.

Lemma RT_bool : RT TBool.
Proof.
  intros v bs Hwf Henc. destruct v; try discriminate. cbn [encode] in Henc. injection Henc as <-.
  set (x := if b then 1%N else 0%N).
  split; [|split].
  - constructor; [|constructor]. unfold is_byte, x. destruct b; lia.
  - cbn [min_size length]. lia.
  - cbn [decode canon alloc_of].
    apply reads_bind_ret with (a := [x]); [exact (reads_n c [x])|]. intros s. unfold x. destruct b; reflexivity.
Qed.

Lemma RT_int w : int_width_ok w = true -> RT (TInt w).
Proof.
  intros Hw v bs Hwf Henc. destruct v; try discriminate. cbn [encode] in Henc. injection Henc as <-.
  cbn [wfb] in Hwf. apply in_signedb_spec in Hwf.
  split; [apply put_bes_bytes|split].
  - rewrite put_bes_length. cbn [min_size]. lia.
  - cbn [decode canon alloc_of].
    apply reads_bind_ret with (a := z); [apply reads_int; [destruct w; [discriminate|lia]|exact Hwf]|reflexivity].
Qed.

Lemma RT_float : RT TFloat64.
Proof.
  intros v bs Hwf Henc. destruct v; try discriminate.
  (* not by injection, which would evaluate put_be 8 *)
  assert (bs = put_be 8 bits) as -> by (cbn [encode] in Henc; congruence).
  cbn [wfb] in Hwf. pose proof (reads_n c (put_be 8 bits)) as Hrd. rewrite put_be_length in Hrd.
  split; [apply put_be_bytes|split].
  - rewrite put_be_length. cbn [min_size]. lia.
  - cbn [decode canon alloc_of].
    apply reads_bind_ret with (a := put_be 8 bits); [exact Hrd|]. intros s.
    rewrite get_put_be0 by (change (pow256 8) with M64; lia). reflexivity.
Qed.

Lemma reads_body {B} (mk : list N -> B) l :
  reads c (fun s => bind (read_alloc c (Z.of_nat (length l)) s) (fun bs s => Ok (mk bs) s))
    l (mk l) (N.of_nat (length l)).
Proof. apply reads_bind_ret with (a := l); [apply reads_read_alloc|reflexivity]. Qed.

Lemma reads_body_compact {B} (mk : list N -> B) l : (Z.of_nat (length l) < ZM31)%Z ->
  reads c (fun s => bind (read_alloc c (int_of_u64 (N.of_nat (length l) + 1 - 1)) s) (fun bs s => Ok (mk bs) s))
    l (mk l) (N.of_nat (length l)).
Proof.
  intros Hl. rewrite N.add_sub, int_of_u64_small, nat_N_Z by (rewrite nat_N_Z; exact Hl). apply reads_body.
Qed.

Lemma RT_string nullable : RT (TString nullable).
Proof.
  intros v bs Hwf Henc. destruct v; try discriminate.
  cbn [wfb] in Hwf. apply andb_true_iff in Hwf as [Hok Hlen]. apply bytes_okb_spec in Hok.
  rewrite encode_string_eq in Henc. injection Henc as <-.
  split; [apply prefixed_bytes; exact Hok|split].
  - pose proof (prefixed_length flex 2 (nullable && is_nil s) (length s) s). cbn [min_size]. destruct flex; lia.
  - cbn [canon alloc_of]. eapply reads_ext; [intros s0; apply decode_string_eq|].
    (* wfb puts no bound on a flexible string: the frame does *)
    apply reads_prefixed; [lia| | |intros _; apply reads_body_compact|intros _; apply reads_body|lia].
    + intros ->. apply in_signed_2. cbn [orb] in Hlen. lia.
    + destruct s; [split; reflexivity|rewrite andb_false_r; discriminate].
Qed.

Lemma RT_bytes nullable : RT (TBytes nullable).
Proof.
  intros v bs Hwf Henc. destruct v as [| | | |b| | | |]; try discriminate.
  cbn [wfb] in Hwf. apply andb_true_iff in Hwf as [Hok Hlen]. apply bytes_okb_spec in Hok.
  rewrite encode_bytes_eq in Henc. injection Henc as <-.
  set (l := match b with None => [] | Some l => l end) in *.
  assert (Hca : canon (TBytes nullable) (VBytes b) = (if nullable && is_none b then VBytes None else VBytes (Some l))
                /\ alloc_of (TBytes nullable) (VBytes b) = N.of_nat (length l))
    by (unfold l; destruct b, nullable; split; reflexivity).
  destruct Hca as [-> ->].
  split; [apply prefixed_bytes; exact Hok|split].
  - pose proof (prefixed_length flex 4 (nullable && is_none b) (length l) l). cbn [min_size]. destruct flex; lia.
  - eapply reads_ext; [intros s0; apply decode_bytes_eq|].
    apply reads_prefixed;
      [lia|intros _; apply in_signed_4; lia|
      |intros ->; apply (reads_body_compact (fun bs => VBytes (Some bs)))
      |intros ->; apply (reads_body (fun bs => VBytes (Some bs)))|lia].
    intros E. rewrite E. split; [reflexivity|]. unfold l. destruct b; [rewrite andb_false_r in E; discriminate|reflexivity].
Qed.

Lemma RT_marker : flex = false -> RT TMarker.
Proof.
  intros Hflex v bs Hwf Henc. destruct v; try discriminate. cbn [encode] in Henc. injection Henc as <-.
  split; [constructor|split].
  - cbn [min_size length]. rewrite Hflex. lia.
  - cbn [decode canon alloc_of]. rewrite Hflex. apply reads_ret.
Qed.

Lemma RT_records raw0 : RT (TRecords raw0).
Proof.
  intros v bs Hwf Henc. destruct v as [| | | | | | | |raw]; try discriminate.
  cbn [encode] in Henc. injection Henc as <-.
  cbn [wfb] in Hwf. apply andb_true_iff in Hwf as [Hok Hshape]. apply bytes_okb_spec in Hok.
  destruct raw as [|b0 [|b1 [|b2 [|b3 body]]]]; try discriminate.
  change (b0 :: b1 :: b2 :: b3 :: body) with ([b0; b1; b2; b3] ++ body) in *.
  apply Forall_app in Hok as Hh. destruct Hh as [Hh _].
  destruct (put_get_bes 4 [b0; b1; b2; b3] ltac:(lia) Hh eq_refl) as [Hn Hhead].
  set (n := get_bes 4 [b0; b1; b2; b3]) in *.
  split; [exact Hok|split].
  - cbn [min_size app length]. lia.
  - replace (alloc_of (TRecords raw0) (VRecords ([b0; b1; b2; b3] ++ body))) with (N.of_nat (length body))
      by (cbn [alloc_of app length Nat.sub]; lia).
    cbn [decode canon]. rewrite <- Hhead at 1.
    apply reads_bind0 with (a := n); [apply reads_int; [lia|exact Hn]|].
    rewrite Hhead. destruct (n <? 0)%Z.
    + destruct body; [|discriminate]. rewrite app_nil_r. apply reads_ret.
    + apply Z.eqb_eq in Hshape. rewrite Hshape. apply (reads_body (fun bs => VRecords ([b0; b1; b2; b3] ++ bs))).
Qed.

Lemma RT_elems elem :
  RT elem -> (1 <= min_size flex elem)%N ->
  forall es bb, forallb (wfb flex elem) es = true -> enc_list (encode flex elem) es = Some bb ->
    bytes_ok bb /\ (length es <= length bb)%nat /\
    forall fuel, (length bb < length fuel)%nat ->
      reads c (elems_loop (decode c flex elem) fuel (N.of_nat (length es))) bb
        (map (canon elem) es, 0%N) (alloc_list (alloc_of elem) es).
Proof.
  intros HRT Hmin. induction es as [|x r IH]; intros bb Hwf Henc.
  - cbn [enc_list] in Henc. injection Henc as <-. split; [constructor|split; [cbn; lia|]].
    intros fuel _. apply reads_ext with (q := Ok ([], 0%N)); [apply elems_loop_done|apply reads_ret].
  - cbn [forallb] in Hwf. apply andb_true_iff in Hwf as [Hwx Hwr].
    cbn [enc_list] in Henc.
    destruct (encode flex elem x) as [bx|] eqn:Ex; [|discriminate].
    destruct (enc_list (encode flex elem) r) as [br|] eqn:Er; [|discriminate].
    injection Henc as <-.
    destruct (HRT x bx Hwx Ex) as [Hbx [Hlx Hdx]].
    destruct (IH br Hwr eq_refl) as [Hbr [Hlr Hdr]].
    split; [apply Forall_app; split; assumption|split].
    + rewrite app_length. cbn [length]. lia.
    + intros [|f0 fuel] Hf; rewrite app_length in Hf; cbn [length] in Hf; [lia|].
      cbn [map alloc_list].
      (* the element is not empty, so the frame has room left and the loop takes a turn *)
      eapply reads_room;
        [intros s Hs; apply elems_loop_step; [cbn [length]; lia|rewrite lenZ_app in Hs; unfold lenZ in Hs; lia]|].
      replace (N.of_nat (length (x :: r)) - 1)%N with (N.of_nat (length r)) by (cbn [length]; lia).
      eapply reads_bind; [exact Hdx|].
      apply reads_bind_ret with (a := (map (canon elem) r, 0%N)); [apply Hdr; lia|reflexivity].
Qed.

Lemma RT_fields : forall fields,
  Forall RT fields ->
  forall fs bb, wf_fields (wfb flex) fields fs = true -> enc_fields (encode flex) fields fs = Some bb ->
    bytes_ok bb /\ (min_fields flex fields <= N.of_nat (length bb))%N /\
    reads c (dec_fields (decode c flex) fields) bb
      (canon_fields canon fields fs) (alloc_fields alloc_of fields fs).
Proof.
  induction fields as [|ft tr IH]; intros HF fs bb Hwf Henc.
  - destruct fs; [|discriminate]. cbn [enc_fields] in Henc. injection Henc as <-.
    split; [constructor|split; [cbn; lia|]]. apply reads_ret.
  - destruct fs as [|fv vr]; [discriminate|].
    apply Forall_cons_iff in HF as [HRT HF].
    cbn [wf_fields] in Hwf. apply andb_true_iff in Hwf as [Hwx Hwr].
    cbn [enc_fields] in Henc.
    destruct (encode flex ft fv) as [bx|] eqn:Ex; [|discriminate].
    destruct (enc_fields (encode flex) tr vr) as [br|] eqn:Er; [|discriminate].
    injection Henc as <-.
    destruct (HRT fv bx Hwx Ex) as [Hbx [Hlx Hdx]].
    destruct (IH HF vr br Hwr Er) as [Hbr [Hlr Hdr]].
    split; [apply Forall_app; split; assumption|split].
    + rewrite app_length. cbn [min_fields]. lia.
    + cbn [dec_fields canon_fields alloc_fields]. eapply reads_bind; [exact Hdx|].
      apply reads_bind_ret with (a := canon_fields canon tr vr); [exact Hdr|reflexivity].
Qed.

Lemma reads_array nullable esize elem null n bb cl d :
  (esize <= 65536)%N -> (Z.of_nat n < ZM31)%Z -> (n <= length bb)%nat ->
  (forall fuel, (length bb < length fuel)%nat ->
     reads c (elems_loop (decode c flex elem) fuel (N.of_nat n)) bb (cl, 0%N) d) ->
  reads c (decode c flex (TArray nullable esize elem)) (prefixed flex 4 null n bb)
    (if null then VArray None 0 else VArray (Some cl) 0)
    (if null then 0%N else (N.of_nat n * esize + d)%N).
Proof.
  intros He Hn Hle Hloop.
  assert (Hbody : reads c (array_body c (decode c flex elem) esize (Z.of_nat n))
                    bb (VArray (Some cl) 0) (N.of_nat n * esize + d)).
  { unfold array_body. replace (Z.to_N (Z.of_nat n)) with (N.of_nat n) by lia.
    apply (reads_bind c _ _ [] bb tt); [apply reads_alloc; assumption|].
    apply reads_bind_ret with (a := (cl, 0%N)); [|reflexivity].
    apply (reads_fuelled c (cons 0%N) (fun fuel => elems_loop (decode c flex elem) fuel (N.of_nat n)));
      [intros i; apply Nat.lt_succ_diag_r|exact Hloop]. }
  eapply reads_ext; [intros s; apply decode_array_eq|].
  apply reads_prefixed;
    [lia|intros _; apply in_signed_4; lia| | | |exact Hle].
  - intros ->. split; reflexivity.
  - (* the count fits what remains of the frame: each element takes a byte *)
    intros -> _. rewrite N.add_sub, nat_N_Z.
    eapply reads_room; [intros s Hs|exact Hbody]. unfold lenZ in Hs.
    destruct (Z.ltb_spec (d_remain s) 0); [lia|]. destruct (Z.ltb_spec (d_remain s) (Z.of_nat n)); [lia|].
    reflexivity.
  - intros ->.
    eapply reads_room; [intros s Hs|exact Hbody]. unfold lenZ in Hs.
    destruct (Z.ltb_spec (d_remain s) (Z.of_nat n)); [lia|reflexivity].
Qed.

Lemma RT_array nullable esize elem :
  RT elem -> (1 <= min_size flex elem)%N -> (esize <= 65536)%N ->
  RT (TArray nullable esize elem).
Proof.
  intros HRT Hmin He2 v bs Hwf Henc. destruct v as [| | | | | a pad | | |]; try discriminate.
  rewrite wfb_array_eq in Hwf. apply andb_true_iff in Hwf as [Hpad Hwf]. apply N.eqb_eq in Hpad. subst pad.
  cbv zeta in Hwf. apply andb_true_iff in Hwf as [Hlen Hwl]. apply Z.ltb_lt in Hlen.
  rewrite encode_array_prefixed in Henc. cbv zeta in Henc. rewrite canon_array_eq, alloc_array_eq.
  set (es := match a with None => [] | Some l => l end) in *.
  destruct (enc_list (encode flex elem) es) as [bb|] eqn:Eb; [|discriminate]. injection Henc as <-.
  destruct (RT_elems elem HRT Hmin es bb Hwl Eb) as [Hbb [Hll Hdl]].
  split; [apply prefixed_bytes; exact Hbb|split].
  - pose proof (prefixed_length flex 4 (nullable && is_none a) (length es) bb). cbn [min_size].
    clear - H. destruct flex; lia.
  - pose proof (reads_array nullable esize elem (nullable && is_none a) (length es) bb _ _ He2 Hlen Hll Hdl) as H.
    unfold es in H |- *. destruct a, nullable; exact H.
Qed.

Lemma set_nth_app {A} (a b : list A) x v : set_nth (a ++ x :: b) (length a) v = a ++ v :: b.
Proof. induction a as [|y a IH]; cbn [app length set_nth]; [reflexivity|]. rewrite IH. reflexivity. Qed.

Lemma canon_tags_length : forall tl vl, length tl = length vl -> length (canon_tags canon tl vl) = length tl.
Proof.
  induction tl as [|[i t] tr IH]; intros [|v vr] H; cbn [canon_tags length] in *; try lia.
  rewrite IH by lia. reflexivity.
Qed.

Lemma canon_tags_app : forall tl1 vl1 tl2 vl2, length tl1 = length vl1 ->
  canon_tags canon (tl1 ++ tl2) (vl1 ++ vl2) = canon_tags canon tl1 vl1 ++ canon_tags canon tl2 vl2.
Proof.
  induction tl1 as [|[i t] tr IH]; intros [|v vr] tl2 vl2 H; cbn [length] in H; try lia; [reflexivity|].
  cbn [app canon_tags]. rewrite IH by lia. reflexivity.
Qed.

Lemma wf_tags_length : forall tl vl, wf_tags (wfb flex) tl vl = true -> length tl = length vl.
Proof.
  induction tl as [|[i t] tr IH]; intros [|v vr] H; cbn [wf_tags] in H; try discriminate; [reflexivity|].
  apply andb_true_iff in H as [_ H]. cbn [length]. rewrite (IH vr H). reflexivity.
Qed.

Lemma reads_counted_loop {X A} (step : X -> dstate -> res X) (fin : X -> A) n fuel x x' bs d :
  (n <= length fuel)%nat -> reads c (steps step n x) bs x' d ->
  reads c (counted_loop step fin fuel (Z.of_nat n) x) bs (fin x') d.
Proof.
  intros Hf H. eapply reads_ext; [intros s; apply counted_loop_steps; exact Hf|].
  apply reads_bind_ret with (a := x'); [exact H|reflexivity].
Qed.

Lemma reads_entry {B} (K : N -> N -> dstate -> res B) id pl b d :
  (0 <= id < ZM31)%Z ->
  ((Z.of_nat (length pl) < ZM31)%Z -> reads c (K (Z.to_N id) (N.of_nat (length pl))) pl b d) ->
  reads c (fun s => bind (read_uvarint s) (fun tagid s => bind (read_uvarint s) (fun size s => K tagid size s)))
    (put_uvarint (u64 id) ++ put_uvarint (N.of_nat (length pl)) ++ pl) b d.
Proof.
  intros Hid HK. apply reads_bounded. rewrite !lenZ_app. unfold lenZ at 3. intros Hb.
  pose proof (lenZ_nonneg (put_uvarint (u64 id))). pose proof (lenZ_nonneg (put_uvarint (N.of_nat (length pl)))).
  rewrite u64_small by exact Hid.
  apply reads_bind0 with (a := Z.to_N id); [apply reads_uvarint; unfold M64, ZM31 in *; lia|].
  apply reads_bind0 with (a := N.of_nat (length pl)); [apply reads_uvarint; unfold M64, ZM31 in *; lia|].
  apply HK. lia.
Qed.

Lemma reads_tag_known D pre id ft post ts bx v d :
  ~ In id (map fst post) -> (0 <= id < ZM31)%Z -> reads c (D ft) bx v d ->
  reads c (tag_step c D (pre ++ (id, ft) :: post) ts)
    (put_uvarint (u64 id) ++ put_uvarint (N.of_nat (length bx)) ++ bx) (set_nth ts (length pre) v) d.
Proof.
  intros Hn Hid Hv. unfold tag_step. apply reads_entry; [exact Hid|]. intros _.
  rewrite int_of_u64_small, Z2N.id by (rewrite ?Z2N.id; lia).
  eapply reads_ext; [intros s; rewrite dec_tag_found by exact Hn; reflexivity|]. cbn [Nat.add].
  apply reads_bind_ret with (a := v); [exact Hv|reflexivity].
Qed.

Lemma reads_tag_unknown D tagged ts id pl :
  ~ In id (map fst tagged) -> (0 <= id < ZM31)%Z ->
  reads c (tag_step c D tagged ts)
    (put_uvarint (u64 id) ++ put_uvarint (N.of_nat (length pl)) ++ pl) ts (N.of_nat (length pl)).
Proof.
  intros Hn Hid. unfold tag_step. apply reads_entry; [exact Hid|]. intros Hl.
  rewrite !int_of_u64_small, Z2N.id, nat_N_Z by (rewrite ?Z2N.id, ?nat_N_Z; lia).
  eapply reads_ext; [intros s; rewrite dec_tag_none by exact Hn; reflexivity|].
  apply (reads_body (fun _ => ts)).
Qed.

(* each entry is two varints at least, hence 2 * cnt <= length bt: the loop's fuel (the unread
   input and two to spare) covers cnt turns *)
Lemma RT_tags tagged : NoDup (map fst tagged) -> forall cur pre vpre vcur cnt bt,
  tagged = pre ++ cur -> length pre = length vpre ->
  Forall (fun p => is_marker (snd p) = false -> RT (snd p)) cur ->
  Forall (fun p => if is_marker (snd p) then True else (0 <= fst p < ZM31)%Z) cur ->
  wf_tags (wfb flex) cur vcur = true ->
  enc_tags (encode flex) cur vcur = Some (cnt, bt) ->
  bytes_ok bt /\ (2 * N.to_nat cnt <= length bt)%nat /\
  reads c (steps (tag_step c (decode c flex) tagged) (N.to_nat cnt) (canon_tags canon pre vpre ++ zeros_of cur))
    bt (canon_tags canon pre vpre ++ canon_tags canon cur vcur) (alloc_tags alloc_of cur vcur).
Proof.
  intros Hnd. induction cur as [|[id ft] cur' IH]; intros pre vpre vcur cnt bt Htag Hlen HRT Hids Hwf Henc.
  - destruct vcur; [|discriminate]. cbn [enc_tags] in Henc. injection Henc as <- <-.
    split; [constructor|split; [cbn; lia|]]. apply reads_ret.
  - destruct vcur as [|fv vr]; [discriminate|].
    cbn [wf_tags] in Hwf. apply andb_true_iff in Hwf as [Hwx Hwr].
    apply Forall_cons_iff in HRT as [HRTx HRTr]. apply Forall_cons_iff in Hids as [Hidx Hidr].
    cbn [fst snd] in HRTx, Hidx.
    cbn [enc_tags] in Henc.
    destruct (enc_tags (encode flex) cur' vr) as [[cnt' br]|] eqn:Er; [|discriminate].
    assert (Htag' : tagged = (pre ++ [(id, ft)]) ++ cur') by (rewrite <- app_assoc; exact Htag).
    assert (Hlen' : length (pre ++ [(id, ft)]) = length (vpre ++ [fv])) by (rewrite !app_length; cbn; lia).
    destruct (IH (pre ++ [(id, ft)]) (vpre ++ [fv]) vr cnt' br Htag' Hlen' HRTr Hidr Hwr Er) as [Hbr [Hlr Hdr]].
    rewrite canon_tags_app in Hdr by exact Hlen. cbn [canon_tags] in Hdr. rewrite <- !app_assoc in Hdr.
    cbn [app zeros_of canon_tags alloc_tags] in Hdr |- *.
    destruct (is_marker ft) eqn:Hm.
    + (* a zero-size marker: neither encoded nor decoded *)
      injection Henc as <- <-. destruct ft; try discriminate. destruct fv; try discriminate.
      split; [exact Hbr|split; [exact Hlr|exact Hdr]].
    + destruct (encode flex ft fv) as [bx|] eqn:Ex; [|discriminate]. injection Henc as <- <-.
      destruct (HRTx eq_refl fv bx Hwx Ex) as [Hbx [_ Hdx]].
      pose proof (put_uvarint_length (u64 id)). pose proof (put_uvarint_length (N.of_nat (length bx))).
      split; [repeat (apply Forall_app; split); try apply put_uvarint_bytes; assumption|split].
      * rewrite !app_length. lia.
      * replace (N.to_nat (cnt' + 1)) with (S (N.to_nat cnt')) by lia. cbn [steps].
        rewrite (app_assoc _ bx br), (app_assoc _ _ br).
        refine (reads_bind c _ _ _ _ _ _ _ _ _ Hdr).
        rewrite <- (set_nth_app (canon_tags canon pre vpre) (zeros_of cur') (zero ft) (canon ft fv)).
        rewrite (canon_tags_length pre vpre Hlen), Htag.
        apply reads_tag_known; [|exact Hidx|exact Hdx].
        rewrite Htag, map_app in Hnd. apply NoDup_remove_2 in Hnd. cbn [map fst] in Hnd.
        intros Hin. apply Hnd, in_or_app. right. exact Hin.
Qed.

Lemma RT_struct fields tagged :
  Forall RT fields ->
  Forall (fun p => is_marker (snd p) = false -> RT (snd p)) tagged ->
  Forall (fun p => if is_marker (snd p) then True else (0 <= fst p < ZM31)%Z) tagged ->
  NoDup (map fst tagged) ->
  (flex = true \/ tagged = []) ->
  RT (TStruct fields tagged).
Proof.
  intros HF HT Hids Hnd Hflex v bs Hwf Henc. destruct v as [| | | | | | fs ts | |]; try discriminate.
  rewrite wfb_struct_eq in Hwf. apply andb_true_iff in Hwf as [Hwf Hwt].
  rewrite encode_struct_eq in Henc. rewrite canon_struct_eq, alloc_struct_eq, min_size_struct_eq.
  destruct (enc_fields (encode flex) fields fs) as [br|] eqn:Ef; [|discriminate].
  destruct (enc_tags (encode flex) tagged ts) as [[cnt bt]|] eqn:Et; [|discriminate].
  destruct (RT_fields fields HF fs br Hwf Ef) as [Hbr [Hlr Hdr]].
  destruct (RT_tags tagged Hnd tagged [] [] ts cnt bt eq_refl eq_refl HT Hids Hwt Et) as [Hbt [Hlt Hdt]].
  cbn [canon_tags app] in Hdt.
  destruct flex eqn:Hfl.
  - injection Henc as <-. pose proof (put_uvarint_length cnt) as Hlc.
    split; [repeat (apply Forall_app; split); try apply put_uvarint_bytes; assumption|split].
    + rewrite !app_length. lia.
    + eapply reads_ext; [intros s; apply decode_struct_eq|].
      eapply reads_bind; [exact Hdr|]. cbv beta. cbn [negb].
      apply reads_bounded. rewrite lenZ_app. unfold lenZ. intros Hb.
      apply reads_bind0 with (a := cnt); [apply reads_uvarint; unfold M64, ZM31 in *; lia|].
      rewrite int_of_u64_small, <- N_nat_Z by lia.
      apply (reads_fuelled c (fun i => 0%N :: 0%N :: i)
               (fun fuel => tag_loop c (decode c true) tagged (canon_fields canon fields fs) fuel
                              (Z.of_nat (N.to_nat cnt)) (zeros_of tagged))); [intros i; cbn [length]; lia|].
      intros fuel Hf. apply reads_counted_loop; [lia|exact Hdt].
  - injection Henc as <-. destruct Hflex as [Hx| ->]; [discriminate|]. destruct ts; [|discriminate].
    split; [exact Hbr|split; [lia|]].
    eapply reads_ext; [intros s; apply decode_struct_eq|]. cbn [alloc_tags]. rewrite N.add_0_r.
    apply reads_bind_ret with (a := canon_fields canon fields fs); [exact Hdr|reflexivity].
Qed.

Lemma struct_parts fields tagged :
  schema_ok flex (TStruct fields tagged) = true ->
  Forall (fun t => schema_ok flex t = true -> flex && is_marker t = false -> RT t) fields ->
  Forall (fun p => schema_ok flex (snd p) = true -> flex && is_marker (snd p) = false -> RT (snd p)) tagged ->
  Forall RT fields /\
  Forall (fun p => is_marker (snd p) = false -> RT (snd p)) tagged /\
  Forall (fun p => if is_marker (snd p) then True else (0 <= fst p < ZM31)%Z) tagged /\
  NoDup (map fst tagged) /\ (flex = true \/ tagged = []).
Proof.
  intros Hok IHf IHt. rewrite schema_ok_struct_eq in Hok.
  apply andb_true_iff in Hok as [Hok Hfl]. apply andb_true_iff in Hok as [Hok Hnd].
  apply andb_true_iff in Hok as [Hf Ht].
  pose proof (ok_fields_in flex fields Hf) as Hf'. pose proof (ok_tags_in flex tagged Ht) as Ht'.
  rewrite Forall_forall in IHf, IHt. repeat split; try apply Forall_forall.
  - intros x Hx. destruct (Hf' x Hx). apply IHf; assumption.
  - intros p Hp Hnm. apply IHt; [exact Hp|apply Ht'; exact Hp|]. rewrite Hnm. apply andb_false_r.
  - intros p Hp. destruct (Ht' p Hp) as [_ Hi]. destruct (is_marker (snd p)); [exact I|exact Hi].
  - apply nodupZ_spec. exact Hnd.
  - apply orb_true_iff in Hfl as [Hfl|Hfl]; [left; exact Hfl|right; destruct tagged; [reflexivity|discriminate]].
Qed.

Theorem roundtrip : forall t, schema_ok flex t = true -> flex && is_marker t = false -> RT t.
Proof.
  induction t as [| w | | n | n | n e t IH | fields tagged IHf IHt | | r] using ty_ind'; intros Hok Hm.
  - apply RT_bool.
  - apply RT_int. exact Hok.
  - apply RT_float.
  - apply RT_string.
  - apply RT_bytes.
  - cbn [schema_ok] in Hok. apply andb_true_iff in Hok as [Hok Hsub]. apply andb_true_iff in Hok as [Hok Hnm].
    apply andb_true_iff in Hok as [Hok He2]. apply andb_true_iff in Hok as [Hmin _].
    apply negb_true_iff in Hnm.
    apply RT_array; [apply IH; [exact Hsub|rewrite Hnm; apply andb_false_r]|apply N.leb_le..]; assumption.
  - destruct (struct_parts fields tagged Hok IHf IHt) as [HF [HT [Hids [Hnd Hfl]]]].
    apply RT_struct; assumption.
  - apply RT_marker. cbn [is_marker] in Hm. rewrite andb_true_r in Hm. exact Hm.
  - apply RT_records.
Qed.

Lemma struct_parts_ok fields tagged :
  schema_ok flex (TStruct fields tagged) = true ->
  Forall RT fields /\
  Forall (fun p => is_marker (snd p) = false -> RT (snd p)) tagged /\
  Forall (fun p => if is_marker (snd p) then True else (0 <= fst p < ZM31)%Z) tagged /\
  NoDup (map fst tagged) /\ (flex = true \/ tagged = []).
Proof.
  intros Hok. apply struct_parts; [exact Hok| |]; apply Forall_forall; intros x _; apply roundtrip.
Qed.
End RT.
