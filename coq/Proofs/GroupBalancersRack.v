(* Proofs/GroupBalancersRack.v — the in-zone loop of RackAffinityGroupBalancer.assignTopic *)
From Coq Require Import List NArith ZArith Bool Arith Lia Permutation.
From KV Require Import Model.GroupBalancers Proofs.GroupBalancersBase Proofs.GroupBalancersRackBase.
Import ListNotations.

Lemma aget_partitions_by_topic t ps :
  aget t (partitions_by_topic ps) = filter (fun p => bytes_eqb (p_topic p) t) ps.
Proof.
  unfold partitions_by_topic. fold (grp p_topic (fun p : partition => [p]) ps []).
  rewrite aget_grp. cbn [aget app]. rewrite flat_map_singleton. apply map_id.
Qed.

Lemma zoned_partitions_grp parts :
  zoned_partitions parts = grp p_rack (fun p => [p_id p]) parts [].
Proof. reflexivity. Qed.

Lemma aget_zoned_partitions z parts :
  aget z (zoned_partitions parts) = map p_id (filter (fun p => bytes_eqb (p_rack p) z) parts).
Proof. rewrite zoned_partitions_grp, aget_grp. apply flat_map_singleton. Qed.

Lemma aget_zoned_consumers z mems :
  aget z (zoned_consumers mems) = map m_id (filter (fun m => bytes_eqb (m_userdata m) z) mems).
Proof.
  unfold zoned_consumers. fold (grp m_userdata (fun m => [m_id m]) mems []).
  rewrite aget_grp. apply flat_map_singleton.
Qed.

Lemma deal_spec cs : forall ppm parts asg, ppm * length cs <= length parts ->
  exists ops, deal cs ppm parts asg = Some (appends ops asg, skipn (ppm * length cs) parts) /\
    blocks ops cs ppm (firstn (ppm * length cs) parts).
Proof.
  induction cs as [|c cs IH]; intros ppm parts asg Hlen; cbn [length] in *.
  - exists []. rewrite Nat.mul_0_r. repeat split. constructor.
  - cbn [deal]. rewrite take_opt_some by nia.
    destruct (IH ppm (skipn ppm parts) (aappend c (firstn ppm parts) asg)) as [ops [E [Hk [Hv Hl]]]];
      [rewrite skipn_length; nia|].
    exists ((c, firstn ppm parts) :: ops).
    replace (ppm * S (length cs)) with (ppm + ppm * length cs) by lia.
    split; [rewrite E, skipn_skipn'; reflexivity|]. split; [cbn [map fst]; f_equal; exact Hk|].
    split; [cbn [flat_map snd]; rewrite Hv; apply firstn_app_skipn|].
    constructor; [apply firstn_length_le; nia|exact Hl].
Qed.

Lemma deal_extra_deal n : forall cs parts asg, n <= length cs -> n <= length parts ->
  deal_extra n cs parts asg = option_map fst (deal (firstn n cs) 1 parts asg).
Proof.
  induction n as [|n IH]; intros cs parts asg H1 H2; [reflexivity|].
  destruct cs as [|c cs]; [cbn in H1; lia|]. destruct parts as [|p ps]; [cbn in H2; lia|].
  cbn [length] in H1, H2. cbn [deal_extra firstn deal].
  rewrite take_opt_some by (cbn [length]; lia). cbn [firstn skipn]. apply IH; lia.
Qed.

Lemma deal_extra_spec n cs parts asg : n <= length cs -> n <= length parts ->
  exists ops, deal_extra n cs parts asg = Some (appends ops asg) /\
    blocks ops (firstn n cs) 1 (firstn n parts).
Proof.
  intros H1 H2. rewrite deal_extra_deal by assumption.
  destruct (deal_spec (firstn n cs) 1 parts asg) as [ops [E B]];
    rewrite firstn_length_le, Nat.mul_1_l in * by exact H1; [exact H2|].
  exists ops. rewrite E. split; [reflexivity|exact B].
Qed.

(* [leftover] in assignTopic *)
Definition extra_of (T ppm left rem C : nat) : nat :=
  if ppm =? T then Nat.min (Nat.min left rem) C else left.

Lemma extra_bounds T n C rem :
  let ppm := Nat.min (n / C) T in
  let lo := extra_of T ppm (n - ppm * C) rem C in
  0 < C ->
  ppm * C <= n /\ lo <= C /\ lo <= n - ppm * C /\ (ppm = T -> lo <= rem) /\ (ppm <> T -> ppm < T) /\
  Nat.min n (C * T) <= ppm * C + lo.
Proof.
  intros ppm lo HC. unfold lo, extra_of.
  pose proof (Nat.mul_div_le n C ltac:(lia)) as Hd.
  assert (Hp : ppm * C <= n) by (unfold ppm; nia).
  destruct (Nat.eqb_spec ppm T) as [E|N].
  - repeat split; try lia; intros; try contradiction; nia.
  - assert (Hq : ppm = n / C) by (unfold ppm in *; lia).
    pose proof (Nat.div_mod_eq n C) as Edm.
    pose proof (Nat.mod_upper_bound n C ltac:(lia)) as Bm.
    repeat split; try lia; intros; try contradiction; nia.
Qed.

(* the derived quantities come as variables with defining equations, so that the proof
   rewrites the unfolded [zone_step] into them *)
Lemma zone_step_eq zc T st z cs parts ppm lo :
  amem z (r_zp st) = true -> aget z zc = cs -> cs <> [] -> aget z (r_zp st) = parts ->
  Nat.min (length parts / length cs) T = ppm ->
  extra_of T ppm (length parts - ppm * length cs) (r_rem st) (length cs) = lo ->
  exists ops1 ops2,
    zone_step zc T st z =
      Some {| r_zp := put_rest z (skipn (ppm * length cs + lo) parts) (r_zp st);
              r_asg := appends (ops1 ++ ops2) (r_asg st);
              r_rem := if ppm =? T then r_rem st - lo else r_rem st |} /\
    blocks ops1 cs ppm (firstn (ppm * length cs) parts) /\
    blocks ops2 (firstn lo cs) 1 (firstn lo (skipn (ppm * length cs) parts)).
Proof.
  intros Emem Ecs Hcs Eparts Eppm Elo.
  assert (HC : 0 < length cs) by (destruct cs; [congruence|cbn; lia]).
  destruct (extra_bounds T (length parts) (length cs) (r_rem st) HC) as [B1 [B2 [B3 _]]].
  cbv zeta in B1, B2, B3. rewrite Eppm in B1, B2, B3. rewrite Elo in B2, B3.
  destruct (deal_spec cs ppm parts (r_asg st) B1) as [ops1 [E1 Hb1]].
  destruct (deal_extra_spec lo cs (skipn (ppm * length cs) parts) (appends ops1 (r_asg st)) B2)
    as [ops2 [E2 Hb2]]; [rewrite skipn_length; exact B3|].
  exists ops1, ops2. split; [|split; assumption].
  unfold zone_step. cbv zeta. rewrite Emem, Ecs, Eparts. cbn [negb].
  destruct cs as [|c0 cs0]; [congruence|]. cbv beta iota. rewrite Eppm, E1, skipn_length.
  unfold extra_of in Elo. rewrite Elo, E2, take_opt_some by (rewrite skipn_length; exact B3).
  rewrite skipn_skipn', grp_app. reflexivity.
Qed.

Section Zone.
Variable mems : list member.
Hypothesis mems_nd : NoDup (map m_id mems).
Variable zp0 : amap Z.
Variables T R : nat.

Definition zids := map m_id mems.
Definition cs_of (z : bytes) : list bytes := aget z (zoned_consumers mems).

Lemma cs_of_eq z : cs_of z = map m_id (filter (fun m => bytes_eqb (m_userdata m) z) mems).
Proof. apply aget_zoned_consumers. Qed.

Lemma cs_nd z : NoDup (cs_of z).
Proof. rewrite cs_of_eq. apply NoDup_map_filter. exact mems_nd. Qed.

Lemma cs_incl z : incl (cs_of z) zids.
Proof.
  rewrite cs_of_eq. intros c Hc. apply in_map_iff in Hc. destruct Hc as [m [<- Hm]].
  apply filter_In in Hm. apply in_map. tauto.
Qed.

Lemma cs_disj z z' c : In c (cs_of z) -> In c (cs_of z') -> z = z'.
Proof.
  rewrite !cs_of_eq. intros H1 H2.
  apply in_map_iff in H1. destruct H1 as [m1 [E1 H1]]. apply filter_In in H1.
  apply in_map_iff in H2. destruct H2 as [m2 [E2 H2]]. apply filter_In in H2.
  assert (m1 = m2) by (eapply NoDup_map_inj; [exact mems_nd|tauto|tauto|congruence]).
  subst m2. destruct H1 as [_ H1], H2 as [_ H2].
  destruct (bytes_eqb_spec (m_userdata m1) z), (bytes_eqb_spec (m_userdata m1) z'); congruence.
Qed.

Definition held (z : bytes) (asg : amap Z) : list Z := flat_map (fun c => aget c asg) (cs_of z).

(* rack affinity for zone z, the per-topic core of C14_rack_affinity *)
Definition aff (z : bytes) (asg : amap Z) : Prop :=
  exists n other, Nat.min (length (aget z zp0)) (length (cs_of z) * T) <= n /\
    Permutation (held z asg) (firstn n (aget z zp0) ++ other).

Lemma flat_map_app_perm {A B} (f g : A -> list B) l :
  Permutation (flat_map (fun a => f a ++ g a) l) (flat_map f l ++ flat_map g l).
Proof.
  induction l as [|a l IH]; [reflexivity|]. cbn [flat_map]. rewrite IH. apply perm_juggle.
Qed.

Lemma held_appends z ops asg :
  Permutation (held z (appends ops asg))
    (held z asg ++
     flat_map snd (flat_map (fun c => filter (fun op => bytes_eqb (fst op) c) ops) (cs_of z))).
Proof.
  unfold held. rewrite (flat_map_ext _ _ (fun c => aget_grp fst snd c ops asg)).
  rewrite flat_map_app_perm, flat_map_flat_map. reflexivity.
Qed.

Lemma aff_appends z ops asg : aff z asg -> aff z (appends ops asg).
Proof.
  intros [n [other [Hn Hp]]]. exists n. eexists. split; [exact Hn|].
  rewrite held_appends, Hp, <- app_assoc. reflexivity.
Qed.

Record zinv (todo : list bytes) (st : rstate) : Prop := {
  zi_zp : amap_over (akeys zp0) (r_zp st);
  zi_todo : forall z, In z todo ->
     aget z (r_zp st) = aget z zp0 /\ (In z (akeys zp0) -> In z (akeys (r_zp st)));
  (* the remainder spent so far is the number of members above T *)
  zi_over : over zids T (r_asg st) + r_rem st = R;
  zi_le : forall i, In i zids -> Lf (r_asg st) i <= T + 1;
  (* a consumer belongs to one rack, so those of unvisited zones hold nothing yet *)
  zi_fresh : forall z c, In z todo -> In c (cs_of z) -> aget c (r_asg st) = [];
  zi_perm : Permutation (avalues (r_asg st) ++ avalues (r_zp st)) (avalues zp0);
  zi_asg : amap_over zids (r_asg st);
  zi_aff : forall z, ~ In z todo -> In z (akeys zp0) -> aff z (r_asg st) }.

Lemma zinv_done z todo st : zinv (z :: todo) st -> aff z (r_asg st) \/ ~ In z (akeys zp0) ->
  zinv todo st.
Proof.
  intros I Hz. destruct I. constructor; try assumption.
  - intros z' Hz'. apply zi_todo0. right. exact Hz'.
  - intros z' c Hz'. apply zi_fresh0. right. exact Hz'.
  - intros z' Hn Hk. destruct (bytes_eq_dec z' z) as [->|Hne].
    + destruct Hz; [assumption|contradiction].
    + apply zi_aff0; [|exact Hk]. intros [E|E]; [congruence|contradiction].
Qed.

(* Loads after a zone: its consumers were empty, each got ppm <= T, the first lo one more.
   Somebody ends above T only when ppm = T, and then exactly lo members do. *)
Lemma zone_loads (L L' : bytes -> nat) cs ppm lo :
  NoDup cs -> incl cs zids -> lo <= length cs -> ppm <= T -> (ppm <> T -> ppm < T) ->
  (forall i, L' i = L i + ind cs ppm i + ind (firstn lo cs) 1 i) ->
  (forall c, In c cs -> L c = 0) ->
  sumf (fun i => L' i - T) zids = sumf (fun i => L i - T) zids + (if ppm =? T then lo else 0) /\
  ((forall i, In i zids -> L i <= T + 1) -> forall i, In i zids -> L' i <= T + 1).
Proof.
  intros Hnd Hinc Hlo HpT HpT' HL Hfresh.
  assert (Hout : forall i, ~ In i cs -> ~ In i (firstn lo cs))
    by (intros i Hi H; apply Hi; eapply firstn_In_incl; exact H).
  split.
  - rewrite (sumf_ext_in _ (fun i => (L i - T) + (if ppm =? T then ind (firstn lo cs) 1 i else 0))).
    + rewrite sumf_add. f_equal. destruct (ppm =? T); [|rewrite sumf_const; lia].
      rewrite sumf_ind; [rewrite firstn_length_le by exact Hlo; lia|exact mems_nd|apply NoDup_firstn, Hnd|].
      intros x Hx. apply Hinc. eapply firstn_In_incl. exact Hx.
    + intros i _. rewrite HL. pose proof (ind_le (firstn lo cs) 1 i) as Hb.
      destruct (in_dec bytes_eq_dec i cs) as [Hi|Hi].
      * rewrite (ind_in cs ppm i Hi), (Hfresh i Hi).
        destruct (Nat.eqb_spec ppm T) as [E|N]; [lia|]. specialize (HpT' N). lia.
      * rewrite !ind_notin by auto. destruct (ppm =? T); lia.
  - intros Hle i Hi. rewrite HL. pose proof (ind_le (firstn lo cs) 1 i) as Hb.
    destruct (in_dec bytes_eq_dec i cs) as [Hc|Hc].
    + rewrite (ind_in cs ppm i Hc), (Hfresh i Hc). lia.
    + rewrite !ind_notin by auto. specialize (Hle i Hi). lia.
Qed.

Lemma zone_step_ok z todo st : zinv (z :: todo) st -> ~ In z todo ->
  exists st', zone_step (zoned_consumers mems) T st z = Some st' /\ zinv todo st'.
Proof.
  intros I Hzt.
  destruct (zi_todo _ _ I z (or_introl eq_refl)) as [Hparts Hkz].
  destruct (amem z (r_zp st)) eqn:Emem.
  2:{ exists st. split; [unfold zone_step; rewrite Emem; reflexivity|].
      apply (zinv_done z); [exact I|]. right.
      intros Hk. apply Hkz, amem_iff in Hk. congruence. }
  destruct (cs_of z) as [|c0 cs0] eqn:Ecs.
  { exists st. split; [unfold zone_step, cs_of in *; rewrite Emem, Ecs; reflexivity|].
    apply (zinv_done z); [exact I|]. left.
    exists 0, []. unfold held. rewrite Ecs. cbn [length flat_map firstn app]. split; [lia|reflexivity]. }
  (* [zone_step_eq] says what the step does; the rest re-establishes the invariant *)
  assert (Hne : cs_of z <> []) by congruence. clear c0 cs0 Ecs.
  destruct I as [Zzp Ztodo Zover Zle Zfresh Zperm Zasg Zaff]. pose proof (proj1 Zzp) as Znd.
  assert (HC : 0 < length (cs_of z)) by (destruct (cs_of z); [congruence|cbn; lia]).
  pose proof (extra_bounds T (length (aget z (r_zp st))) (length (cs_of z)) (r_rem st) HC) as HB.
  cbv zeta in HB.
  set (cs := cs_of z) in *. set (parts := aget z (r_zp st)) in *.
  set (ppm := Nat.min (length parts / length cs) T) in *.
  set (lo := extra_of T ppm (length parts - ppm * length cs) (r_rem st) (length cs)) in *.
  destruct HB as [_ [Hlo_cs [_ [Hlo_rem [Hppm_lt Hdealt]]]]].
  destruct (zone_step_eq (zoned_consumers mems) T st z cs parts ppm lo Emem eq_refl Hne eq_refl eq_refl eq_refl)
    as [ops1 [ops2 [E [Hb1 Hb2]]]].
  rewrite E. clear E. eexists. split; [reflexivity|].
  assert (HpT : ppm <= T) by apply Nat.le_min_r. clearbody ppm lo.
  apply amem_iff in Emem.
  pose proof (cs_nd z) as Hcsnd. pose proof (cs_incl z) as Hcsinc. fold cs in Hcsnd, Hcsinc.
  assert (Hkeys : forall k, In k (map fst (ops1 ++ ops2)) -> In k cs).
  { intros k. rewrite map_app, (proj1 Hb1), (proj1 Hb2), in_app_iff.
    intros [H|H]; [exact H|eapply firstn_In_incl; exact H]. }
  assert (Hvals : flat_map snd (ops1 ++ ops2) = firstn (ppm * length cs + lo) parts).
  { rewrite flat_map_app, (proj1 (proj2 Hb1)), (proj1 (proj2 Hb2)). apply firstn_app_skipn. }
  assert (Hfresh : forall c, In c cs -> aget c (r_asg st) = [])
    by (intros c; apply (Zfresh z c (or_introl eq_refl))).
  assert (HL : forall i, Lf (appends (ops1 ++ ops2) (r_asg st)) i =
                         Lf (r_asg st) i + ind cs ppm i + ind (firstn lo cs) 1 i).
  { intros i. rewrite grp_app, (Lf_appends_blocks _ _ _ _ _ i Hb2) by (apply NoDup_firstn, Hcsnd).
    rewrite (Lf_appends_blocks _ _ _ _ _ i Hb1 Hcsnd). reflexivity. }
  destruct (zone_loads (Lf (r_asg st)) (Lf (appends (ops1 ++ ops2) (r_asg st))) cs ppm lo
              Hcsnd Hcsinc Hlo_cs HpT Hppm_lt HL) as [Hover Hle].
  { intros c Hc. unfold Lf. rewrite (Hfresh c Hc). reflexivity. }
  constructor; cbn [r_zp r_asg r_rem].
  - (* zi_zp *) apply amap_over_put_rest; assumption.
  - (* zi_todo *) intros z' Hz'. assert (Hne' : z' <> z) by (intros ->; contradiction).
    destruct (Ztodo z' (or_intror Hz')) as [Ha Hb]. split.
    + rewrite aget_put_rest_neq by (try apply Znd; assumption). exact Ha.
    + intros Hk. apply akeys_put_rest_neq; auto.
  - (* zi_over *) fold (over zids T (appends (ops1 ++ ops2) (r_asg st))) in Hover.
    pose proof Zover as Ho. fold (over zids T (r_asg st)) in Hover. rewrite Hover.
    destruct (Nat.eqb_spec ppm T) as [E|N]; [specialize (Hlo_rem E)|]; lia.
  - (* zi_le *) apply Hle, Zle.
  - (* zi_fresh *) intros z' c Hz' Hc. rewrite aget_grp_other; [apply (Zfresh z' c); [right; exact Hz'|exact Hc]|].
    intros Hin. apply Hkeys in Hin. assert (z = z') by (eapply cs_disj; eassumption).
    subst z'. contradiction.
  - (* zi_perm *) rewrite <- Zperm, avalues_grp, Hvals.
    rewrite (avalues_put_rest z _ _ Znd Emem).
    rewrite (avalues_split z (r_zp st) Znd Emem). fold parts.
    rewrite <- (firstn_skipn (ppm * length cs + lo) parts) at 3.
    rewrite <- !app_assoc. reflexivity.
  - (* zi_asg *) apply amap_over_grp; [exact Zasg|]. intros k Hk. apply Hcsinc, Hkeys, Hk.
  - (* zi_aff *) intros z' Hn Hk. destruct (bytes_eq_dec z' z) as [->|Hne'].
    + (* the zone just served: its consumers hold exactly what was dealt *)
      exists (ppm * length cs + lo), []. fold cs. rewrite <- Hparts. fold parts. split; [exact Hdealt|].
      rewrite app_nil_r, held_appends. fold cs. unfold held. fold cs.
      rewrite (flat_map_ext_in _ (fun _ => []) cs Hfresh), flat_map_nil. cbn [app].
      rewrite (group_perm fst cs _ Hcsnd); [rewrite Hvals; reflexivity|].
      intros op Hop. apply Hkeys, in_map, Hop.
    + apply aff_appends, Zaff; [|exact Hk]. intros [E|E]; [congruence|contradiction].
Qed.

Lemma zinv_init zo : NoDup (akeys zp0) -> incl (akeys zp0) zo ->
  zinv zo {| r_zp := zp0; r_asg := []; r_rem := R |}.
Proof.
  intros Hnd Hzo. constructor; cbn [r_zp r_asg r_rem].
  - (* zi_zp *) split; [exact Hnd|apply incl_refl].
  - (* zi_todo *) auto.
  - (* zi_over *) unfold over. rewrite (sumf_ext_in _ (fun _ => 0)) by reflexivity. rewrite sumf_const. lia.
  - (* zi_le *) intros i _. cbn. lia.
  - (* zi_fresh *) reflexivity.
  - (* zi_perm *) reflexivity.
  - (* zi_asg *) split; [constructor|intros k []].
  - (* zi_aff *) intros z Hn Hk. destruct (Hn (Hzo z Hk)).
Qed.

Lemma zone_loop_ok : forall todo st, NoDup todo -> zinv todo st ->
  exists st', zone_loop (zoned_consumers mems) T st todo = Some st' /\ zinv [] st'.
Proof.
  induction todo as [|z todo IH]; intros st Hnd I.
  - exists st. split; [reflexivity|exact I].
  - apply NoDup_cons_iff in Hnd. destruct Hnd as [Hz Hnd].
    destruct (zone_step_ok z todo st I Hz) as [st1 [E1 I1]].
    destruct (IH st1 Hnd I1) as [st2 [E2 I2]].
    exists st2. split; [|exact I2]. cbn [zone_loop]. rewrite E1. exact E2.
Qed.
End Zone.

Definition topic_assigned (mems : list member) (parts : list partition) (r : amap Z) : Prop :=
  let T := length parts / length mems in
  NoDup (akeys r) /\ incl (akeys r) (map m_id mems) /\
  Permutation (avalues r) (map p_id parts) /\
  (forall i, In i (map m_id mems) -> T <= length (aget i r) <= T + 1) /\
  (forall z, aff mems (zoned_partitions parts) T z r).

Theorem rack_topic_ok zo ro mems parts :
  mems <> [] -> NoDup (map m_id mems) ->
  Permutation zo (zones_of parts) -> Permutation ro (zones_of parts) ->
  exists r, rack_assign_topic zo ro mems parts = Some r /\ topic_assigned mems parts r.
Proof.
  intros Hne Hnd Hzo Hro. set (T := length parts / length mems).
  set (ids := map m_id mems). set (zp0 := zoned_partitions parts).
  set (R := length parts mod length mems).
  assert (HM : 0 < length mems) by (destruct mems; [congruence|cbn; lia]).
  assert (HMi : length ids = length mems) by apply map_length.
  assert (Hzp0nd : NoDup (akeys zp0)) by (apply NoDup_akeys_grp; constructor).
  assert (Hzp0v : Permutation (avalues zp0) (map p_id parts)).
  { unfold zp0. rewrite zoned_partitions_grp, avalues_grp. apply Permutation_refl', flat_map_singleton. }
  assert (I0 : zinv mems zp0 T R zo {| r_zp := zp0; r_asg := []; r_rem := R |}).
  { apply zinv_init; [exact Hzp0nd|]. intros z. apply Permutation_in, Permutation_sym, Hzo. }
  assert (Hzond : NoDup zo) by (eapply Permutation_NoDup; [apply Permutation_sym; exact Hzo|exact Hzp0nd]).
  assert (Hrond : NoDup ro) by (eapply Permutation_NoDup; [apply Permutation_sym; exact Hro|exact Hzp0nd]).
  destruct (zone_loop_ok mems Hnd zp0 T R zo _ Hzond I0) as [st1 [E1 I1]]. clear I0.
  destruct I1 as [[Znd Zkeys] _ Zover Zle _ Zperm Zasg Zaff].
  (* [rack_assign_topic] matches on mems *)
  unfold rack_assign_topic. destruct mems as [|m0 mems']; [congruence|].
  set (mems := m0 :: mems') in *. fold zp0. fold T. fold R. rewrite E1.
  set (remaining := flat_map (fun z => aget z (r_zp st1)) ro).
  assert (Hremp : Permutation remaining (avalues (r_zp st1))).
  { apply flat_map_order_perm; [apply Znd|exact Hrond|].
    intros x Hx. eapply Permutation_in; [apply Permutation_sym; exact Hro|].
    apply Zkeys, Hx. }
  assert (HPMR : length parts = length ids * T + R).
  { rewrite HMi. unfold T, R. apply Nat.div_mod_eq. }
  destruct (hand_out_ok ids Hnd T R (length parts) HPMR mems (r_asg st1) remaining (r_rem st1)) as
    [ops [E [Hk [Hv Hb]]]].
  - exact Hnd.
  - apply incl_refl.
  - rewrite (tot_avalues ids Hnd _ (proj1 Zasg) (proj2 Zasg)).
    rewrite (Permutation_length Hremp), <- app_length, (Permutation_length Zperm).
    rewrite (Permutation_length Hzp0v). apply map_length.
  - exact Zover.
  - exact Zle.
  - intros i Hi Hni. contradiction.
  - (* members at most T are those not above it *)
    change (over ids T (r_asg st1) + r_rem st1 = R) in Zover.
    assert (Hc : cnt_le T (r_asg st1) ids + over ids T (r_asg st1) = length ids).
    { unfold cnt_le, over. rewrite <- sumf_add.
      rewrite (sumf_ext_in _ (fun _ => 1)); [rewrite sumf_const; lia|].
      intros i Hi. pose proof (Zle i Hi).
      destruct (Nat.leb_spec (Lf (r_asg st1) i) T); lia. }
    assert (HRM : R < length ids) by (rewrite HMi; apply Nat.mod_upper_bound; lia).
    change (r_rem st1 <= cnt_le T (r_asg st1) ids). lia.
  - exists (appends ops (r_asg st1)). split; [exact E|]. unfold topic_assigned. cbv zeta. fold T zp0.
    destruct (amap_over_grp fst snd ids ops _ Zasg Hk) as [Hrnd Hrinc].
    split; [exact Hrnd|]. split; [exact Hrinc|].
    split. { rewrite avalues_grp, Hv, Hremp, Zperm. exact Hzp0v. }
    split; [exact Hb|].
    intros z. destruct (in_dec bytes_eq_dec z (akeys zp0)) as [Hk'|Hk'].
    + apply aff_appends, Zaff; [intros []|exact Hk'].
    + exists 0, (held mems z (appends ops (r_asg st1))).
      rewrite (aget_notin z zp0 Hk'). cbn [length firstn app]. split; [lia|reflexivity].
Qed.
