(* Proofs/GroupReaderCommit.v — a commit from CommitMessages through queue and stash into an OffsetCommit
   request (C03_commit_bound; reused by GroupReaderCover); the replies of the sync loop
   (C03_sync_commit_recorded). *)
From Coq Require Import List NArith ZArith Bool Lia.
From Coq Require Import ZifyN ZifyNat ZifyBool.
From KV Require Import Lib.LTS Model.GroupReader Proofs.GroupReaderBase.
Import ListNotations.
Open Scope Z_scope.

(* Every offset in a queued request, in the stash or in an OffsetCommit request satisfies Q, if Q is
   monotone in the history and holds of the commits of a CommitMessages call when it is made. *)
Section Flow.
  Variable Q : list event -> nat -> tp -> Z -> Prop.
  Hypothesis Q_mono : forall es h r t c, Q h r t c -> Q (es ++ h) r t c.

  Definition all_Q (h : list event) (r : nat) (m : list (tp * Z)) : Prop :=
    forall t c, In (t, c) m -> Q h r t c.
  Definition P_sent (e : event) (h : list event) : Prop :=
    match e with EvOffsetCommit r _ _ offs _ _ => all_Q h r offs | _ => True end.
  Definition flow (s : state) : Prop :=
    forall r, (forall rq, In rq (rd_commits (st_rd s r)) -> all_Q (st_hist s) r (cq_commits rq)) /\
              all_Q (st_hist s) r (rd_stash (st_rd s r)).

  Lemma all_Q_mono : forall es h r m, all_Q h r m -> all_Q (es ++ h) r m.
  Proof. intros es h r m H t c Hin. apply Q_mono, H, Hin. Qed.

  Lemma flow_frame : forall s s' es, st_hist s' = es ++ st_hist s -> flow s ->
    (forall r rq, In rq (rd_commits (st_rd s' r)) ->
       In rq (rd_commits (st_rd s r)) \/ all_Q (st_hist s') r (cq_commits rq)) ->
    (forall r tc, In tc (rd_stash (st_rd s' r)) ->
       In tc (rd_stash (st_rd s r)) \/ exists rq, In rq (rd_commits (st_rd s r)) /\ In tc (cq_commits rq)) ->
    flow s'.
  Proof.
    intros s s' es Hh Hi Hc Hs r. destruct (Hi r) as [I1 I2]. split.
    - intros rq Hin. destruct (Hc r rq Hin) as [Ho|Hn]; [|exact Hn]. rewrite Hh. apply all_Q_mono, I1, Ho.
    - intros t c Hin. rewrite Hh. apply Q_mono.
      destruct (Hs r _ Hin) as [Ho|[rq [H1 H2]]]; [exact (I2 t c Ho)|exact (I1 rq H1 t c H2)].
  Qed.

  Lemma not_sent : forall e, match e with EvOffsetCommit _ _ _ _ _ _ => False | _ => True end ->
    forall h, P_sent e h.
  Proof. intros [] H h; try exact I; contradiction. Qed.

  Lemma flow_step : forall cfg s l s', flow s /\ hist_ok P_sent (st_hist s) -> step cfg s l = Some s' ->
    (forall r msgs es, l = LCommitCall r msgs -> forallb (handed (st_hist s) r) msgs = true ->
       In (EvCommitCall r (st_ncall s) msgs) es -> all_Q (es ++ st_hist s) r (makeCommits msgs)) ->
    flow s' /\ hist_ok P_sent (st_hist s').
  Proof.
    intros cfg s l s' [Hi Ho] H Hcall.
    destruct (step_kind _ _ _ _ H) as (r & x' & c' & hw' & es & K & Hrd & _ & _ & Hh). clear H.
    assert (M : (forall rq, In rq (rd_commits x') -> In rq (rd_commits (st_rd s r)) \/ all_Q (es ++ st_hist s) r (cq_commits rq)) /\
                (forall tc, In tc (rd_stash x') -> In tc (rd_stash (st_rd s r)) \/
                   exists rq, In rq (rd_commits (st_rd s r)) /\ In tc (cq_commits rq)) /\
                hist_ok P_sent (es ++ st_hist s)).
    { 
      pose proof (proj2 (Hi r)) as Hs. revert Hs Hcall K. generalize (st_rd s r) as x. intros x Hs Hcall K.
      destruct K; cbn [rd_commits rd_stash with_group with_msgs with_fetch with_commits with_readers with_loop];
        (split; [|split]); auto; try (intros ? []);
        try solve [apply hist_ok_app_triv; [exact Ho|]; intros e He; apply not_sent; revert e He; each_event].
      - destruct (snap <=? v)%N; (split; [exact I|exact Ho]).
      - (* LCommitCall: the new request *)
        intros rq0 Hin. apply in_app_or in Hin. destruct Hin as [Hin|[<-|[]]]; [left; exact Hin|right].
        apply (Hcall r msgs _ eq_refl H). apply in_or_app. right. left. reflexivity.
      - destruct H0 as [(_ & _ & ->)|(_ & _ & ->)]; cbn; repeat split; exact Ho.
      - (* LLoopRecv: the head of the queue goes into the stash *)
        intros rq0 Hin. left. rewrite H0. right. exact Hin.
      - intros [t o] Hin. apply In_merge in Hin.
        destruct Hin as [Hin|Hin]; [left; exact Hin|right; exists rq; split; [rewrite H0; left; reflexivity|exact Hin]].
      - intros [t o] Hin. apply In_foldmerge in Hin. exact Hin.
      - (* the commit is over / retry: what was sent is the stash *)
        eapply hist_ok_replies; [exact H0|intros; exact I|].
        destruct H2 as [(-> & _)|(mid & g & z & b & -> & _)]; [exact Ho|split; [exact Hs|exact Ho]].
      - split; [exact Hs|exact Ho]. }
    destruct M as (Mc & Ms & Mh). rewrite Hh. split; [|exact Mh].
    apply (flow_frame s s' es Hh Hi); intros r0; rewrite Hrd; unfold upd;
      (destruct (Nat.eqb r0 r) eqn:Er; [apply Nat.eqb_eq in Er; subst r0; rewrite ?Hh; assumption|auto]).
  Qed.
End Flow.

Definition passed (h : list event) (r : nat) (t : tp) (o : Z) : Prop :=
  exists id msgs, In (EvCommitCall r id msgs) h /\ In (t, o) msgs.
Definition bounded (h : list event) (r : nat) (t : tp) (c : Z) : Prop := passed h r t (c - 1).

Lemma bounded_mono : forall es h r t c, bounded h r t c -> bounded (es ++ h) r t c.
Proof. intros es h r t c [id [msgs [H1 H2]]]. exists id, msgs. split; [apply in_or_app; right; exact H1|exact H2]. Qed.

Lemma makeCommits_In : forall msgs t c, In (t, c) (makeCommits msgs) -> In (t, c - 1) msgs.
Proof.
  induction msgs as [|[k v] msgs IH]; intros t c H; [destruct H|].
  cbn in H. destruct H as [H|H].
  - inversion H; subst. left. f_equal. lia.
  - right; apply IH; exact H.
Qed.

Lemma makeCommits_In' : forall msgs t o, In (t, o) msgs -> In (t, o + 1) (makeCommits msgs).
Proof.
  intros msgs t o H. unfold makeCommits. apply in_map_iff. exists (t, o). split; [reflexivity|exact H].
Qed.

Lemma bound_run : forall cfg ls s, run (step cfg) init ls = Some s ->
  flow bounded s /\ hist_ok (P_sent bounded) (st_hist s).
Proof.
  intros cfg ls s.
  apply (@inv_run _ _ (step cfg) (fun x => flow bounded x /\ hist_ok (P_sent bounded) (st_hist x))).
  - intros x l x' Hx H. apply (flow_step bounded bounded_mono cfg x l x' Hx H).
    intros r msgs es _ _ Hes t c Hin.
    exists (st_ncall x), msgs. split; [apply in_or_app; left; exact Hes|apply makeCommits_In; exact Hin].
  - split; [|exact I]. intros r. split; [intros rq []|intros t c []].
Qed.

(* after the acknowledged commit e (code 0, applied) the coordinator's committed offset of t
   is >= c, and the call (r,id) is older than e *)
Definition acked (h : list event) (r id : nat) (t : tp) (c : Z) : Prop :=
  exists ha r' mid g offs hb c',
    h = ha ++ EvOffsetCommit r' mid g offs 0 true :: hb /\
    hist_committed (EvOffsetCommit r' mid g offs 0 true :: hb) t = Some c' /\ c <= c' /\
    exists msgs, In (EvCommitCall r id msgs) hb.

Definition P_sync (cfg : config) (e : event) (h : list event) : Prop :=
  match e with
  | EvCommitRet r id RNil =>
    cfg_sync cfg = true ->
    exists msgs, In (EvCommitCall r id msgs) h /\ forall t o, In (t, o) msgs -> acked h r id t (o + 1)
  | _ => True
  end.

Definition waiters_of (l : cloop) : list nat := match l with CLBusy ws _ _ _ => ws | _ => [] end.

(* every queued request and every waiter of the commit in progress comes from a recorded call; the
   stash covers what the waiters passed *)
Definition msync (h : list event) (r : nat) (x : rstate) : Prop :=
  (forall rq, In rq (rd_commits x) ->
     exists msgs, In (EvCommitCall r (cq_id rq) msgs) h /\ cq_commits rq = makeCommits msgs) /\
  (forall id, In id (waiters_of (rd_loop x)) ->
     exists msgs, In (EvCommitCall r id msgs) h /\
       forall t o, In (t, o) msgs -> le_opt (o + 1) (lookup (rd_stash x) t)).
Definition inv_sync (s : state) : Prop := forall r, msync (st_hist s) r (st_rd s r).

Lemma msync_mono : forall es h r x, msync h r x -> msync (es ++ h) r x.
Proof.
  intros es h r x [I1 I2]. split.
  - intros rq H. destruct (I1 rq H) as [msgs [A B]]. exists msgs; split; [apply in_or_app; right; exact A|exact B].
  - intros id H. destruct (I2 id H) as [msgs [A B]]. exists msgs; split; [apply in_or_app; right; exact A|exact B].
Qed.

Lemma not_nil_ret : forall cfg e, match e with EvCommitRet _ _ RNil => False | _ => True end ->
  forall h, P_sync cfg e h.
Proof. intros cfg [] H h; try exact I. destruct res; [contradiction|exact I]. Qed.

(* a nil reply follows an acknowledged commit of the stash, which covers what its waiters passed *)
Lemma sync_replies : forall cfg h r x ws (ok : bool) code pre es w,
  msync h r x -> waiters_of (rd_loop x) = ws ->
  replies r ws (rd_waiting x) (if ok then RNil else RErr code) = (es, w) ->
  (ok = true -> (pre = [] /\ rd_stash x = []) \/
                exists mid g, pre = [EvOffsetCommit r mid g (rd_stash x) 0 true]) ->
  hist_ok (P_sync cfg) (pre ++ h) -> hist_ok (P_sync cfg) ((es ++ pre) ++ h).
Proof.
  intros cfg h r x ws ok code pre es w Hm HL Hrep Hok Ho.
  rewrite <- app_assoc. apply hist_ok_app; [exact Ho|]. intros e1 esa esb Ees.
  assert (Hin : In e1 es) by (rewrite Ees; apply in_or_app; right; left; reflexivity).
  destruct (replies_events _ _ _ _ _ _ Hrep e1 Hin) as [id [Hid ->]].
  destruct ok; [|exact I]. cbn. intros _.
  rewrite <- HL in Hid. destruct (proj2 Hm id Hid) as [msgs [A B]].
  exists msgs. split; [apply in_or_app; right; apply in_or_app; right; exact A|].
  intros t o Hto. destruct (B t o Hto) as [c' [Hl Hc]].
  destruct (Hok eq_refl) as [[-> Hst]|[mid [g ->]]].
  - rewrite Hst in Hl; discriminate Hl.
  - exists esb, r, mid, g, (rd_stash x), h, c'.
    split; [reflexivity|]. split; [cbn [hist_committed]; rewrite Hl; reflexivity|].
    split; [exact Hc|exists msgs; exact A].
Qed.

Lemma step_sync : forall cfg s l s', cfg_sync cfg = true ->
  inv_sync s /\ hist_ok (P_sync cfg) (st_hist s) -> step cfg s l = Some s' ->
  inv_sync s' /\ hist_ok (P_sync cfg) (st_hist s').
Proof.
  intros cfg s l s' Hsync [Hi Ho] H.
  destruct (step_kind _ _ _ _ H) as (r & x' & c' & hw' & es & K & Hrd & _ & _ & Hh). clear H.
  assert (M : msync (es ++ st_hist s) r x' /\ hist_ok (P_sync cfg) (es ++ st_hist s)).
  { pose proof (Hi r) as Hm. revert Hm K. generalize (st_rd s r) as x. intros x Hm K.
    pose proof (msync_mono es _ _ _ Hm) as Hm'.
    destruct K; (split; [try exact Hm'|]);
      try solve [apply hist_ok_app_triv; [exact Ho|]; intros e He; apply not_nil_ret; revert e He; each_event].
    - split; [exact (proj1 Hm')|intros id []].
    - destruct (snap <=? v)%N; (split; [exact I|exact Ho]).
    - split; [|exact (proj2 Hm')]. intros rq0 Hin. apply in_app_or in Hin.
      destruct Hin as [Hin|[<-|[]]]; [exact (proj1 Hm' rq0 Hin)|]. exists msgs. split; [|reflexivity].
      apply in_or_app. left. apply in_or_app. right. left. reflexivity.
    - destruct H0 as [(_ & _ & ->)|(X & _)]; [split; [exact I|exact Ho]|congruence].
    - (* LLoopRecv: the head of the queue becomes the waiter, its commits are merged *)
      rewrite Hsync. split.
      + intros rq0 Hin. apply (proj1 Hm'). rewrite H0. right. exact Hin.
      + intros id [<-|[]]. destruct (proj1 Hm rq) as [m [A B]]; [rewrite H0; left; reflexivity|].
        exists m. split; [exact A|]. intros t0 o Hto. rewrite B. apply merge_covers, makeCommits_In', Hto.
    - congruence.
    - rewrite Hsync. split; [intros rq []|]. intros id Hid. apply in_map_iff in Hid. destruct Hid as [rq [<- Hrq]].
      destruct (proj1 Hm rq Hrq) as [m [A B]]. exists m. split; [exact A|].
      intros t0 o Hto. eapply foldmerge_covers; [exact Hrq|]. rewrite B. apply makeCommits_In', Hto.
    - split; [exact (proj1 Hm')|]. destruct final; intros id [].
    - destruct H2 as [(-> & _ & Hst)|(mid & g & z & b & -> & _ & Hz)];
        apply (sync_replies cfg _ r x ws ok code _ es0 w Hm (f_equal waiters_of H) H0).
      + intros Hok. left. auto.
      + exact Ho.
      + intros Hok. right. destruct (Hz Hok) as [-> ->]. eauto.
      + split; [exact I|exact Ho].
    - (* retry: same waiters, same stash *)
      split; [exact (proj1 Hm')|]. intros id Hid. apply (proj2 Hm'). rewrite H. exact Hid. }
  destruct M as [Mm Mh]. rewrite Hh. split; [|exact Mh].
  intros r0. unfold inv_sync in *. rewrite Hrd, Hh. unfold upd.
  destruct (Nat.eqb r0 r) eqn:Er; [apply Nat.eqb_eq in Er; subst r0; exact Mm|apply msync_mono, Hi].
Qed.


Lemma init_sync : forall cfg, inv_sync init /\ hist_ok (P_sync cfg) (st_hist init).
Proof. intros; split; [|exact I]. intros r; split; intros ? []. Qed.

Lemma sync_run : forall cfg ls s, cfg_sync cfg = true -> run (step cfg) init ls = Some s ->
  inv_sync s /\ hist_ok (P_sync cfg) (st_hist s).
Proof.
  intros cfg ls s Hsync.
  apply (@inv_run _ _ (step cfg) (fun x => inv_sync x /\ hist_ok (P_sync cfg) (st_hist x)));
    [intros; eapply step_sync; eauto|apply init_sync].
Qed.
