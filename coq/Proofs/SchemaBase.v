(* Proofs/SchemaBase.v — induction principle for the nested schema type, decidable
   equality (for Gen = Golden), static well-formedness of schemas. *)
From Coq Require Import List NArith ZArith Bool Lia.
From KV Require Import Lib.Bits Model.Schema.
Import ListNotations.

Section ty_ind'.
  Variable P : ty -> Prop.
  Hypothesis HBool : P TBool.
  Hypothesis HInt : forall w, P (TInt w).
  Hypothesis HFloat : P TFloat64.
  Hypothesis HString : forall n, P (TString n).
  Hypothesis HBytes : forall n, P (TBytes n).
  Hypothesis HArray : forall n e t, P t -> P (TArray n e t).
  Hypothesis HStruct : forall fs ts, Forall P fs -> Forall (fun p => P (snd p)) ts -> P (TStruct fs ts).
  Hypothesis HMarker : P TMarker.
  Hypothesis HRecords : forall r, P (TRecords r).

  Fixpoint ty_ind' (t : ty) : P t :=
    match t with
    | TBool => HBool
    | TInt w => HInt w
    | TFloat64 => HFloat
    | TString n => HString n
    | TBytes n => HBytes n
    | TArray n e t' => HArray n e t' (ty_ind' t')
    | TStruct fs ts =>
        HStruct fs ts
          ((fix go (l : list ty) : Forall P l :=
              match l with
              | [] => Forall_nil _
              | x :: r => Forall_cons x (ty_ind' x) (go r)
              end) fs)
          ((fix go (l : list (Z * ty)) : Forall (fun p => P (snd p)) l :=
              match l with
              | [] => Forall_nil _
              | x :: r => Forall_cons x (ty_ind' (snd x)) (go r)
              end) ts)
    | TMarker => HMarker
    | TRecords r => HRecords r
    end.
End ty_ind'.

Fixpoint ty_eqb (a b : ty) {struct a} : bool :=
  match a, b with
  | TBool, TBool => true
  | TInt w1, TInt w2 => Nat.eqb w1 w2
  | TFloat64, TFloat64 => true
  | TString n1, TString n2 => Bool.eqb n1 n2
  | TBytes n1, TBytes n2 => Bool.eqb n1 n2
  | TArray n1 e1 t1, TArray n2 e2 t2 => Bool.eqb n1 n2 && N.eqb e1 e2 && ty_eqb t1 t2
  | TStruct f1 g1, TStruct f2 g2 =>
      (fix go (l1 l2 : list ty) : bool :=
         match l1, l2 with
         | [], [] => true
         | x :: r1, y :: r2 => ty_eqb x y && go r1 r2
         | _, _ => false
         end) f1 f2
      && (fix go (l1 l2 : list (Z * ty)) : bool :=
            match l1, l2 with
            | [], [] => true
            | (i, x) :: r1, (j, y) :: r2 => Z.eqb i j && ty_eqb x y && go r1 r2
            | _, _ => false
            end) g1 g2
  | TMarker, TMarker => true
  | TRecords r1, TRecords r2 => Bool.eqb r1 r2
  | _, _ => false
  end.

Lemma ty_eqb_eq : forall a b, ty_eqb a b = true -> a = b.
Proof.
  induction a as [| w | | n | n | n e t IH | fs ts IHf IHt | | r] using ty_ind';
    intros b H; destruct b; cbn [ty_eqb] in H; try discriminate; try reflexivity.
  - apply Nat.eqb_eq in H. subst. reflexivity.
  - apply Bool.eqb_prop in H. subst. reflexivity.
  - apply Bool.eqb_prop in H. subst. reflexivity.
  - apply andb_true_iff in H as [H H3]. apply andb_true_iff in H as [H1 H2].
    apply Bool.eqb_prop in H1. apply N.eqb_eq in H2. apply IH in H3. subst. reflexivity.
  - apply andb_true_iff in H as [H1 H2].
    f_equal.
    + clear H2 IHt. revert fields H1. induction IHf as [|x r Hx _ IHr]; intros [|y r2] H1; try discriminate; [reflexivity|].
      apply andb_true_iff in H1 as [Ha Hb]. f_equal; [apply Hx; exact Ha | apply IHr; exact Hb].
    + clear H1 IHf. revert tagged H2. induction IHt as [|[i x] r Hx _ IHr]; intros [|[j y] r2] H2; try discriminate; [reflexivity|].
      apply andb_true_iff in H2 as [Ha Hc]. apply andb_true_iff in Ha as [Ha Hb].
      apply Z.eqb_eq in Ha. cbn [snd] in Hx. apply Hx in Hb. subst. f_equal. apply IHr. exact Hc.
  - apply Bool.eqb_prop in H. subst. reflexivity.
Qed.

Definition ms_eqb (a b : msg_schema) : bool :=
  Z.eqb a.(ms_api) b.(ms_api) && Bool.eqb a.(ms_response) b.(ms_response)
  && Z.eqb a.(ms_version) b.(ms_version) && Bool.eqb a.(ms_flex) b.(ms_flex)
  && ty_eqb a.(ms_ty) b.(ms_ty).

Lemma ms_eqb_eq a b : ms_eqb a b = true -> a = b.
Proof.
  unfold ms_eqb. intros H.
  repeat (apply andb_true_iff in H as [H ?]).
  destruct a, b. cbn in *.
  apply Z.eqb_eq in H. apply Bool.eqb_prop in H3. apply Z.eqb_eq in H2. apply Bool.eqb_prop in H1.
  apply ty_eqb_eq in H0. subst. reflexivity.
Qed.

Fixpoint schemas_eqb (l1 l2 : list msg_schema) {struct l1} : bool :=
  match l1, l2 with
  | [], [] => true
  | a :: r1, b :: r2 => ms_eqb a b && schemas_eqb r1 r2
  | _, _ => false
  end.

Lemma schemas_eqb_eq : forall l1 l2, schemas_eqb l1 l2 = true -> l1 = l2.
Proof.
  induction l1 as [|a r IH]; intros [|b r2] H; cbn in H; try discriminate; [reflexivity|].
  apply andb_true_iff in H as [H1 H2]. apply ms_eqb_eq in H1. apply IH in H2. subst. reflexivity.
Qed.

(* minimal number of bytes the decoder consumes for a value of the type *)
Fixpoint min_size (flex : bool) (t : ty) {struct t} : N :=
  match t with
  | TBool => 1 | TInt w => N.of_nat w | TFloat64 => 8
  | TString _ => if flex then 1 else 2
  | TBytes _ => if flex then 1 else 4
  | TArray _ _ _ => if flex then 1 else 4
  | TStruct fields _ =>
      ((fix go (l : list ty) : N := match l with [] => 0 | x :: r => min_size flex x + go r end) fields
       + (if flex then 1 else 0))%N
  | TMarker => if flex then 1 else 0
  | TRecords _ => 4
  end.

Definition int_width_ok (w : nat) : bool :=
  Nat.eqb w 1 || Nat.eqb w 2 || Nat.eqb w 4 || Nat.eqb w 8.

Fixpoint nodupZ (l : list Z) : bool :=
  match l with [] => true | x :: r => negb (existsb (Z.eqb x) r) && nodupZ r end.

Lemma nodupZ_spec l : nodupZ l = true -> NoDup l.
Proof.
  induction l as [|x r IH]; intros H; [constructor|].
  cbn [nodupZ] in H. apply andb_true_iff in H as [Hx Hr]. constructor; [|apply IH; exact Hr].
  intros Hin. apply negb_true_iff in Hx.
  assert (existsb (Z.eqb x) r = true); [|congruence].
  apply existsb_exists. exists x. split; [exact Hin|apply Z.eqb_refl].
Qed.

(* every array element takes at least one byte on the wire (the guard the decoder relies on)
   and is not a zero-size marker; an element has at most 64 KiB, so that make() of a count that
   fits an int32 frame stays below the runtime's 2^48; int widths are 1/2/4/8; no zero-size
   marker among the regular fields of a flexible struct (the encoder would skip what the
   decoder reads); tag ids are distinct and fit a non-negative int32, except the marker's -1;
   tagged fields only in flexible messages. *)
Fixpoint schema_ok (flex : bool) (t : ty) {struct t} : bool :=
  match t with
  | TInt w => int_width_ok w
  | TArray _ esize e => (1 <=? min_size flex e)%N && (1 <=? esize)%N && (esize <=? 65536)%N && negb (is_marker e) && schema_ok flex e
  | TStruct fields tagged =>
      (fix go (l : list ty) : bool :=
         match l with [] => true | x :: r => negb (flex && is_marker x) && schema_ok flex x && go r end) fields
      && (fix go (l : list (Z * ty)) : bool :=
            match l with
            | [] => true
            | (i, x) :: r => (if is_marker x then Z.eqb i (-1) else (0 <=? i)%Z && (i <? ZM31)%Z) && schema_ok flex x && go r
            end) tagged
      && nodupZ (map fst tagged)
      && (flex || match tagged with [] => true | _ => false end)
  | _ => true
  end.

Definition schemas_ok (l : list msg_schema) : bool :=
  forallb (fun m => schema_ok m.(ms_flex) m.(ms_ty) && match m.(ms_ty) with TStruct _ _ => true | _ => false end) l.
