(* Proofs/ConnOpsCodec.v — the reflective reader decodes what the reference encoder of the
   same grammar wrote, consuming exactly those bytes (for every well-typed wire value).
   [runs p bytes a]: on a stream that starts with bytes, with any remaining size from their length
   up, p returns a and consumes exactly bytes; it composes along bind. *)
From Coq Require Import List NArith ZArith Bool Lia.
From Coq Require Import ZifyN ZifyNat ZifyBool.
From KV Require Import Lib.Bits Lib.Bytes Model.Legacy Proofs.ConnOpsBase.
Import ListNotations.
Open Scope Z_scope.

Lemma put_bes_length w z : length (put_bes w z) = w.
Proof. unfold put_bes. apply put_be_length. Qed.

Definition runs {A} (p : P A) (bytes : list N) (a : A) : Prop :=
  forall k rest, 0 <= k -> p (Z.of_nat (length bytes) + k) (bytes ++ rest) = (inl a, k, rest).

Lemma runs_ret A (a : A) : runs (ret a) [] a.
Proof. intros k rest _. reflexivity. Qed.
Lemma runs_bind A B (p : P A) (f : A -> P B) b1 b2 a r :
  runs p b1 a -> runs (f a) b2 r -> runs (bind p f) (b1 ++ b2) r.
Proof.
  intros Hp Hf k rest Hk. unfold bind.
  rewrite app_length, Nat2Z.inj_add, <- Z.add_assoc, <- app_assoc, Hp by lia. apply Hf, Hk.
Qed.
Lemma runs_pmap A B (f : A -> B) (p : P A) b a : runs p b a -> runs (pmap f p) b (f a).
Proof. intros Hp k rest Hk. unfold pmap, bind. rewrite Hp by exact Hk. reflexivity. Qed.
Lemma runs_rep A (p : P A) bs l : Forall2 (runs p) bs l -> runs (rep (length l) p) (concat bs) l.
Proof.
  induction 1 as [|b a bs l Hb _ IH]; cbn [length rep concat]; [apply runs_ret|].
  apply (runs_bind _ _ _ _ _ _ _ _ Hb). rewrite <- (app_nil_r (concat bs)).
  apply (runs_bind _ _ _ _ _ _ _ _ IH), runs_ret.
Qed.

Lemma runs_peek_read n b : length b = n -> runs (peek_read n) b b.
Proof.
  intros Hl k rest Hk. unfold peek_read. rewrite Hl.
  destruct (Z.ltb_spec (Z.of_nat n + k) (Z.of_nat n)); [lia|].
  destruct (Nat.ltb_spec (length (b ++ rest)) n) as [Hx|Hx]; [rewrite app_length in Hx; lia|].
  rewrite firstn_exact, skipn_exact by exact Hl. repeat f_equal. lia.
Qed.
Lemma runs_read_int w z : (0 < w)%nat -> in_signed w z -> runs (read_int w) (put_bes w z) z.
Proof.
  intros Hw Hz. unfold read_int. rewrite <- (app_nil_r (put_bes w z)).
  apply (runs_bind _ _ _ _ _ _ _ _ (runs_peek_read w _ (put_bes_length w z))).
  rewrite get_put_bes by assumption. apply runs_ret.
Qed.

(* STRING / BYTES / ARRAY lengths as they are encoded *)
Lemma in_signed_2_len n : 0 <= n < 32768 -> in_signed 2 n.
Proof. intros H. unfold in_signed, pow256. cbn. lia. Qed.
Lemma in_signed_4_len n : -1 <= n < ZM31 -> in_signed 4 n.
Proof. intros H. unfold in_signed, pow256, ZM31 in *. cbn. lia. Qed.
Lemma in_signed_2_m1 : in_signed 2 (-1).
Proof. unfold in_signed, pow256. cbn. lia. Qed.

(* the "n > sz -> errShortRead" guard passes when the n bytes are there *)
Lemma runs_guarded_bytes b :
  runs (_ <- guard_short (Z.of_nat (length b)) ;; readNewBytes (Z.of_nat (length b))) b b.
Proof.
  intros k rest Hk. unfold bind, guard_short, readNewBytes.
  destruct (Z.ltb_spec (Z.of_nat (length b) + k) (Z.of_nat (length b))); [lia|].
  destruct (Z.ltb_spec 0 (Z.of_nat (length b))) as [Hn|Hn].
  - destruct (Z.ltb_spec (Z.of_nat (length b) + k) (Z.of_nat (length b))); [lia|].
    destruct (Z.ltb_spec (Z.of_nat (length b)) 0); [lia|].
    destruct (Z.leb_spec (Z.of_nat (length b)) (Z.of_nat (length (b ++ rest)))) as [Hx|Hx];
      [|rewrite app_length in Hx; lia].
    rewrite Nat2Z.id, firstn_exact, skipn_exact by reflexivity. repeat f_equal. lia.
  - destruct b; [reflexivity|cbn [length] in Hn; lia].
Qed.
Lemma runs_lenprefixed (w : nat) (o : option (list N)) :
  (0 < w)%nat -> in_signed w (-1) -> (forall b, o = Some b -> in_signed w (Z.of_nat (length b))) ->
  runs (n <- read_int w ;; _ <- guard_short n ;; readNewBytes n)
       match o with Some b => put_bes w (Z.of_nat (length b)) ++ b | None => put_bes w (-1) end
       match o with Some b => b | None => [] end.
Proof.
  intros Hw Hm Ho. destruct o as [b|].
  - exact (runs_bind _ _ _ _ _ _ _ _ (runs_read_int w _ Hw (Ho b eq_refl)) (runs_guarded_bytes b)).
  - rewrite <- (app_nil_r (put_bes w (-1))). apply (runs_bind _ _ _ _ _ _ _ _ (runs_read_int w _ Hw Hm)).
    intros k rest Hk. unfold bind, guard_short.
    destruct (Z.ltb_spec (Z.of_nat (@length N []) + k) (-1)); [cbn in *; lia|reflexivity].
Qed.

Lemma runs_readString o : wt TStr (WS o) ->
  runs readString (enc TStr (WS o)) match o with Some b => b | None => [] end.
Proof.
  intros Hwt. apply (runs_lenprefixed 2 o); [lia|exact in_signed_2_m1|].
  intros b ->. apply in_signed_2_len. cbn [wt] in Hwt. lia.
Qed.
Lemma runs_readBytes o : wt TByt (WS o) ->
  runs readBytes (enc TByt (WS o)) match o with Some b => b | None => [] end.
Proof.
  intros Hwt. apply (runs_lenprefixed 4 o); [lia|apply in_signed_4_len; unfold ZM31; lia|].
  intros b ->. apply in_signed_4_len. cbn [wt] in Hwt. lia.
Qed.
(* readArrayWith over the encodings of the elements; a null array reads as empty *)
Lemma runs_array A t (p : P A) (g : wval -> A) :
  (forall x, wt t x -> runs p (enc t x) (g x)) ->
  forall ol, wt (TArr t) (WL ol) ->
  runs (readArrayWith p) (enc (TArr t) (WL ol)) match ol with Some l => map g l | None => [] end.
Proof.
  intros Hp [l|] Hwt; cbn [enc]; unfold readArrayWith, readInt32.
  - destruct Hwt as [Hall Hlen]. rewrite flat_map_concat_map.
    apply (runs_bind _ _ _ _ _ _ _ _ (runs_read_int 4 _ ltac:(lia) (in_signed_4_len (Z.of_nat (length l)) ltac:(lia)))).
    rewrite Nat2Z.id, <- (map_length g l). apply runs_rep.
    clear Hlen. induction Hall as [|x l Hx _ IH]; constructor; [apply Hp, Hx|apply IH].
  - rewrite <- (app_nil_r (put_bes 4 (-1))).
    apply (runs_bind _ _ _ _ _ _ _ _ (runs_read_int 4 (-1) ltac:(lia) (in_signed_4_len (-1) ltac:(unfold ZM31; lia)))).
    apply runs_ret.
Qed.

Theorem runs_read_ty t : forall w, wt t w -> runs (read_ty t) (enc t w) (dec_val t w).
Proof.
  induction t; intros w Hwt; destruct w; cbn [wt] in Hwt; try contradiction; cbn [enc read_ty dec_val].
  1-4: apply runs_pmap, runs_read_int; [lia|exact Hwt].   (* TI8 .. TI64 *)
  - (* TBool *) apply runs_pmap. unfold readBool. rewrite <- (app_nil_r [_]).
    eapply runs_bind; [apply runs_peek_read; reflexivity|]. destruct Hwt; subst z; apply runs_ret.
  - (* TStr *)
    destruct s as [b|]; apply runs_pmap; [exact (runs_readString (Some b) Hwt)|exact (runs_readString None Hwt)].
  - (* TByt *)
    destruct s as [b|]; apply runs_pmap; [exact (runs_readBytes (Some b) Hwt)|exact (runs_readBytes None Hwt)].
  - (* TArr *)
    destruct l as [l|]; apply runs_pmap;
      [exact (runs_array _ t _ (dec_val t) IHt (Some l) Hwt)|exact (runs_array _ t _ (dec_val t) IHt None Hwt)].
  - (* TPair *) destruct Hwt as [H1 H2].
    apply (runs_bind _ _ _ _ _ _ _ _ (IHt1 _ H1)). rewrite <- (app_nil_r (enc t2 w2)).
    apply (runs_bind _ _ _ _ _ _ _ _ (IHt2 _ H2)), runs_ret.
  - (* TUnit *) apply runs_ret.
Qed.

Lemma runs_at_size A (p : P A) b a : runs p b a -> forall sz rest, Z.of_nat (length b) <= sz ->
  p sz (b ++ rest) = (inl a, sz - Z.of_nat (length b), rest).
Proof.
  intros H sz rest Hsz. replace sz with (Z.of_nat (length b) + (sz - Z.of_nat (length b))) at 1 by lia.
  apply H. lia.
Qed.

Theorem read_ty_enc t : forall w, wt t w -> forall sz rest,
  Z.of_nat (length (enc t w)) <= sz ->
  read_ty t sz (enc t w ++ rest) = (inl (dec_val t w), sz - Z.of_nat (length (enc t w)), rest).
Proof. intros w Hwt. apply runs_at_size, runs_read_ty, Hwt. Qed.
