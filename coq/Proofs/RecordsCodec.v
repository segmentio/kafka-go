(* Proofs/RecordsCodec.v — the reference codec of Spec/RecordFormat.v decodes what it encodes. *)
From Coq Require Import List NArith ZArith Bool Lia.
From Coq Require Import ZifyN ZifyNat ZifyBool.
From KV Require Import Lib.Bits Lib.Bytes Lib.Crc Spec.RecordFormat.
Import ListNotations.
Open Scope Z_scope.

Lemma zlen_app {A} (a b : list A) : zlen (a ++ b) = zlen a + zlen b.
Proof. unfold zlen. rewrite app_length. lia. Qed.
Lemma zlen_nonneg {A} (a : list A) : 0 <= zlen a.
Proof. unfold zlen. lia. Qed.
Lemma zlen_put_bes w z : zlen (put_bes w z) = Z.of_nat w.
Proof. unfold zlen, put_bes. rewrite put_be_length. reflexivity. Qed.
Lemma zlen_put_be w x : zlen (put_be w x) = Z.of_nat w.
Proof. unfold zlen. rewrite put_be_length. reflexivity. Qed.
Lemma zlen_cons {A} (x : A) l : zlen (x :: l) = 1 + zlen l.
Proof. unfold zlen. cbn [length]. lia. Qed.
Lemma zlen_ltb0 {A} (l : list A) : (zlen l <? 0) = false.
Proof. unfold zlen. lia. Qed.
Lemma zlen_cons_pos {A} (x : A) l : (0 <? zlen (x :: l)) = true.
Proof. unfold zlen. cbn [length]. lia. Qed.
Lemma to_nat_zlen {A} (l : list A) : Z.to_nat (zlen l) = length l.
Proof. apply Nat2Z.id. Qed.

Lemma take_app n a r : length a = n -> take n (a ++ r) = Some (a, r).
Proof.
  intros <-. induction a as [|x a IH]; cbn [length take app]; [reflexivity|]. rewrite IH. reflexivity.
Qed.
Lemma take_all n a : length a = n -> take n a = Some (a, []).
Proof. intros H. rewrite <- (app_nil_r a) at 1. apply take_app. exact H. Qed.
Lemma take_zlen a r : take (Z.to_nat (zlen a)) (a ++ r) = Some (a, r).
Proof. apply take_app. unfold zlen. lia. Qed.

Lemma put_be_mod : forall w x, put_be w (x mod pow256 w)%N = put_be w x.
Proof.
  induction w as [|w IH]; intros x; [reflexivity|].
  cbn [put_be]. rewrite pow256_S. pose proof (pow256_pos w) as Hp.
  rewrite N.mod_mul_r, (N.mul_comm 256) by lia.
  rewrite N.div_add, N.mod_add, N.mod_mod, (N.div_small (x mod 256)), N.add_0_l, IH
    by (try apply N.mod_lt; lia).
  reflexivity.
Qed.
Lemma get_put_be_mod w x : get_be (put_be w x) 0%N = (x mod pow256 w)%N.
Proof.
  rewrite <- put_be_mod. rewrite get_put_be0; [reflexivity|].
  apply N.mod_lt. pose proof (pow256_pos w). lia.
Qed.

Lemma skipn_app_exact {A} n (a b : list A) : length a = n -> skipn n (a ++ b) = b.
Proof. intros <-. rewrite skipn_app, skipn_all, Nat.sub_diag. reflexivity. Qed.
Lemma firstn_app_exact {A} n (a b : list A) : length a = n -> firstn n (a ++ b) = a.
Proof. intros <-. rewrite firstn_app, firstn_all, Nat.sub_diag. cbn. apply app_nil_r. Qed.
Lemma nth_app3 (a b c : list N) x t n : (length a + length b + length c)%nat = n ->
  nth n (a ++ b ++ c ++ x :: t) 0%N = x.
Proof. intros <-. rewrite !app_assoc, app_nth2 by (rewrite !app_length; lia). rewrite !app_length, Nat.sub_diag. reflexivity. Qed.

Lemma get_i_put w z r : (0 < w)%nat -> in_signed w z -> get_i w (put_bes w z ++ r) = Some (z, r).
Proof.
  intros Hw Hz. unfold get_i. rewrite take_app by (unfold put_bes; apply put_be_length).
  rewrite get_put_bes by assumption. reflexivity.
Qed.

Lemma in_signed_4 z : in_i32 z -> in_signed 4 z.
Proof. unfold in_signed, in_i32, ZM31. change (pow256 4) with 4294967296%N. change (4294967296 / 2)%N with 2147483648%N. lia. Qed.
Lemma in_signed_8 z : in_i64 z -> in_signed 8 z.
Proof. unfold in_signed, in_i64, ZM63. change (pow256 8) with 18446744073709551616%N.
  change (18446744073709551616 / 2)%N with 9223372036854775808%N. lia. Qed.

Lemma get_int8_put z r : -128 <= z < 128 -> get_i 1 (put_bes 1 z ++ r) = Some (z, r).
Proof.
  intros H. apply get_i_put; [lia|].
  unfold in_signed. change (pow256 1) with 256%N. change (256 / 2)%N with 128%N. lia.
Qed.
Lemma get_int16_put z r : -32768 <= z < 32768 -> get_i 2 (put_bes 2 z ++ r) = Some (z, r).
Proof.
  intros H. apply get_i_put; [lia|].
  unfold in_signed. change (pow256 2) with 65536%N. change (65536 / 2)%N with 32768%N. lia.
Qed.
Lemma get_int32_put z r : in_i32 z -> get_i 4 (put_bes 4 z ++ r) = Some (z, r).
Proof. intros H. apply get_i_put; [lia|apply in_signed_4, H]. Qed.
Lemma get_int64_put z r : in_i64 z -> get_i 8 (put_bes 8 z ++ r) = Some (z, r).
Proof. intros H. apply get_i_put; [lia|apply in_signed_8, H]. Qed.

Lemma bytes_eqb_refl a : bytes_eqb a a = true.
Proof. induction a as [|x a IH]; cbn [bytes_eqb]; [reflexivity|]. rewrite N.eqb_refl, IH. reflexivity. Qed.

Definition small {A} (l : list A) : Prop := zlen l < ZM31.
Definition osmall (b : obytes) : Prop := match b with None => True | Some l => small l end.

Lemma small_i32 {A} (l : list A) : small l -> in_i32 (zlen l).
Proof. unfold small, in_i32, ZM31, zlen. lia. Qed.
Lemma small_i64 {A} (l : list A) : small l -> in_i64 (zlen l).
Proof. unfold small, in_i64, ZM31, ZM63, zlen. lia. Qed.

(* [auto with range]: a value fits the field it is written to.  in_signed is kept out of it: auto's
   assumption step would compare it with every hypothesis up to conversion and compute 256 ^ w. *)
Create HintDb range discriminated.
#[export] Hint Resolve small_i32 small_i64 : range.
#[export] Hint Extern 1 (_ <= _ < _) => lia : range.
#[export] Hint Extern 2 (in_i32 _) => unfold in_i32, small, ZM31 in *; lia : range.
#[export] Hint Extern 2 (in_i64 _) => unfold in_i64, in_i32, small, ZM63, ZM31 in *; lia : range.

Definition pow128 (n : nat) : N := (128 ^ N.of_nat n)%N.
Lemma pow128_S n : pow128 (S n) = (128 * pow128 n)%N.
Proof. unfold pow128. rewrite Nat2N.inj_succ, N.pow_succ_r'. reflexivity. Qed.

Lemma uv_dec_S f b t : uv_dec (S f) (b :: t) =
  if (b <? 128)%N then Some (b, t)
  else match uv_dec f t with Some (v, r) => Some ((b - 128 + 128 * v)%N, r) | None => None end.
Proof. reflexivity. Qed.

(* uv_enc f writes up to f + 1 bytes: sv_enc has fuel 9, sv_dec 10; [k]: spare fuel (Go's readers allow a byte more) *)
Lemma uv_dec_enc : forall f k x r, (x < pow128 (S f))%N ->
  uv_dec (S f + k) (uv_enc f x ++ r) = Some (x, r).
Proof.
  induction f as [|f IH]; intros k x r Hx.
  - cbn [uv_enc app Nat.add]. change (pow128 1) with 128%N in Hx. rewrite uv_dec_S.
    destruct (N.ltb_spec x 128); [reflexivity|lia].
  - cbn [uv_enc]. rewrite pow128_S in Hx. cbn [Nat.add].
    destruct (N.ltb_spec x 128) as [Hlt|Hge]; cbn [app]; rewrite uv_dec_S.
    + destruct (N.ltb_spec x 128); [reflexivity|lia].
    + destruct (N.ltb_spec (x mod 128 + 128) 128); [lia|].
      change (S (f + k)) with (S f + k)%nat.
      rewrite IH by (apply N.div_lt_upper_bound; lia).
      f_equal. f_equal. pose proof (N.div_mod x 128 ltac:(discriminate)). lia.
Qed.

Lemma zz_enc_lt z : in_i64 z -> (zz_enc z < M64)%N.
Proof. unfold in_i64, ZM63, zz_enc, M64. intros H. destruct (Z.ltb_spec z 0); lia. Qed.
Lemma zz_dec_enc z : zz_dec (zz_enc z) = z.
Proof.
  unfold zz_dec, zz_enc. destruct (Z.ltb_spec z 0) as [Hn|Hp].
  - destruct (N.eqb_spec (Z.to_N (-2 * z - 1) mod 2) 0) as [He|He].
    + exfalso. lia.
    + lia.
  - destruct (N.eqb_spec (Z.to_N (2 * z) mod 2) 0) as [He|He].
    + lia.
    + exfalso. lia.
Qed.

Lemma M64_lt_pow128_10 : (M64 < pow128 10)%N.
Proof. unfold M64, pow128. vm_compute. reflexivity. Qed.

Lemma sv_dec_enc z r : in_i64 z -> sv_dec (sv_enc z ++ r) = Some (z, r).
Proof.
  intros Hz. unfold sv_dec, sv_enc.
  rewrite (uv_dec_enc 9 0) by (pose proof (zz_enc_lt z Hz); pose proof M64_lt_pow128_10; lia).
  rewrite zz_dec_enc. reflexivity.
Qed.

Lemma dec_enc_nbytes b r : osmall b -> dec_nbytes (enc_nbytes b ++ r) = Some (b, r).
Proof.
  intros Hb. unfold dec_nbytes, enc_nbytes. destruct b as [l|].
  - rewrite <- app_assoc, get_int32_put, zlen_ltb0, take_zlen by auto with range. reflexivity.
  - rewrite get_int32_put by auto with range. reflexivity.
Qed.

Lemma dec_enc_vbytes b r : osmall b -> dec_vbytes (enc_vbytes b ++ r) = Some (b, r).
Proof.
  intros Hb. unfold dec_vbytes, enc_vbytes. destruct b as [l|].
  - rewrite <- app_assoc, sv_dec_enc, zlen_ltb0, take_zlen by auto with range. reflexivity.
  - rewrite sv_dec_enc by auto with range. reflexivity.
Qed.

Definition wf_hdr (h : header) : Prop := small (fst h) /\ osmall (snd h).
Definition wf_rec (r : rec2) : Prop :=
  in_i64 (r_tsd r) /\ in_i64 (r_offd r) /\ osmall (r_key r) /\ osmall (r_val r) /\
  small (r_hdrs r) /\ Forall wf_hdr (r_hdrs r) /\ small (rec_body r).

Definition rec_fields_ok (r : rec2) : Prop :=
  in_i64 (r_tsd r) /\ in_i64 (r_offd r) /\ osmall (r_key r) /\ osmall (r_val r) /\
  small (r_hdrs r) /\ Forall wf_hdr (r_hdrs r).
Lemma wf_rec_fields r : wf_rec r -> rec_fields_ok r.
Proof. unfold wf_rec, rec_fields_ok. tauto. Qed.
Lemma wf_rec_intro r : rec_fields_ok r -> small (rec_body r) -> wf_rec r.
Proof. unfold wf_rec, rec_fields_ok. tauto. Qed.

Lemma dec_enc_hdr h r : wf_hdr h -> dec_hdr (enc_hdr h ++ r) = Some (h, r).
Proof.
  intros [Hk Hv]. unfold dec_hdr, enc_hdr.
  rewrite <- !app_assoc, sv_dec_enc, zlen_ltb0, take_zlen, dec_enc_vbytes by auto with range.
  destruct h; reflexivity.
Qed.

Lemma dec_enc_hdrs hs : forall r, Forall wf_hdr hs ->
  dec_hdrs (length hs) (concat (map enc_hdr hs) ++ r) = Some (hs, r).
Proof.
  induction hs as [|h hs IH]; intros r H; cbn [length map concat dec_hdrs app]; [reflexivity|].
  apply Forall_cons_iff in H as [Hh Hs].
  rewrite <- app_assoc, dec_enc_hdr, IH by assumption. reflexivity.
Qed.

Lemma dec_enc_rec_body r : rec_fields_ok r -> dec_rec_body (rec_body r) = Some r.
Proof.
  intros (Ht & Ho & Hk & Hv & Hn & Hh). unfold dec_rec_body, rec_body.
  rewrite get_int8_put, !sv_dec_enc, !dec_enc_vbytes, sv_dec_enc, zlen_ltb0, to_nat_zlen by auto with range.
  rewrite <- (app_nil_r (concat _)), dec_enc_hdrs by exact Hh. destruct r; reflexivity.
Qed.

Lemma dec_enc_recs rs : Forall wf_rec rs ->
  dec_recs (length rs) (concat (map enc_rec rs)) = Some rs.
Proof.
  induction rs as [|r rs IH]; intros H; cbn [length map concat dec_recs]; [reflexivity|].
  apply Forall_cons_iff in H as [Hr Hs]. assert (Hsm : small (rec_body r)) by apply Hr.
  unfold enc_rec at 1.
  rewrite <- app_assoc, sv_dec_enc, zlen_ltb0, take_zlen, dec_enc_rec_body, IH by auto using wf_rec_fields with range.
  reflexivity.
Qed.

Definition wf_msg (m : msg) : Prop :=
  (m_magic m = 0 \/ m_magic m = 1) /\ (m_magic m = 0 -> m_ts m = 0) /\
  -128 <= m_attrs m < 128 /\ in_i64 (m_ts m) /\ in_i64 (m_off m) /\
  osmall (m_key m) /\ osmall (m_val m) /\ 4 + zlen (msg_body m) < ZM31.

(* the timestamp field exists from magic 1 on; a magic-0 message reads as timestamp 0 *)
Lemma ts_field_enc m r : wf_msg m ->
  (if m_magic m =? 0 then Some (0, (if m_magic m =? 0 then [] else put_bes 8 (m_ts m)) ++ r)
   else get_i 8 ((if m_magic m =? 0 then [] else put_bes 8 (m_ts m)) ++ r)) = Some (m_ts m, r).
Proof.
  intros (_ & Hts0 & _ & Hts & _). destruct (Z.eqb_spec (m_magic m) 0) as [H0|H0]; cbv iota.
  - rewrite (Hts0 H0). reflexivity.
  - apply get_int64_put, Hts.
Qed.

Lemma dec_enc_msg_body m : wf_msg m ->
  dec_msg_body (m_off m) (put_be 4 (crc32_ieee (msg_body m)) ++ msg_body m) = Some m.
Proof.
  intros Hm. pose proof Hm as (Hmg & _ & Ha & _ & _ & Hk & Hv & _). unfold dec_msg_body.
  rewrite take_app by apply put_be_length. rewrite bytes_eqb_refl. cbn [negb].
  unfold msg_body. rewrite get_int8_put by lia.
  replace ((m_magic m =? 0) || (m_magic m =? 1)) with true by (destruct Hmg as [->| ->]; reflexivity).
  cbn [negb]. rewrite get_int8_put by exact Ha. rewrite ts_field_enc by exact Hm.
  rewrite dec_enc_nbytes, <- (app_nil_r (enc_nbytes (m_val m))), dec_enc_nbytes by assumption.
  destruct m; reflexivity.
Qed.

Lemma split_enc_msg m rest : wf_msg m ->
  split_item (enc_msg m ++ rest) =
  Some (m_off m, put_be 4 (crc32_ieee (msg_body m)) ++ msg_body m, rest).
Proof.
  intros (_ & _ & _ & _ & Ho & _ & _ & Hsz). unfold split_item, enc_msg. rewrite <- !app_assoc.
  pose proof (zlen_nonneg (msg_body m)).
  rewrite get_int64_put, get_int32_put by auto with range.
  destruct (Z.ltb_spec (4 + zlen (msg_body m)) 0); [lia|].
  rewrite app_assoc. rewrite take_app; [reflexivity|].
  rewrite app_length, put_be_length. unfold zlen. lia.
Qed.

Lemma enc_msg_len m : (26 <= length (enc_msg m))%nat.
Proof.
  assert (H : forall b, (4 <= length (enc_nbytes b))%nat).
  { intros [l|]; unfold enc_nbytes; [rewrite app_length|]; unfold put_bes; rewrite put_be_length; lia. }
  unfold enc_msg, msg_body. rewrite !app_length. unfold put_bes. rewrite !put_be_length.
  pose proof (H (m_key m)). pose proof (H (m_val m)). lia.
Qed.

Lemma dec_msgs_S f bs : bs <> [] ->
  dec_msgs (S f) bs =
  match split_item bs with
  | Some (off, body, rest) =>
    match dec_msg_body off body with
    | Some m => match dec_msgs f rest with Some ms => Some (m :: ms) | None => None end
    | None => None
    end
  | None => None
  end.
Proof. destruct bs; [contradiction|reflexivity]. Qed.

Lemma nonempty_app (a b : list N) : (0 < length a)%nat -> a ++ b <> [].
Proof. destruct a; cbn; [lia|discriminate]. Qed.

Lemma dec_enc_msgs ms : forall fuel, Forall wf_msg ms ->
  (length (concat (map enc_msg ms)) <= fuel)%nat ->
  dec_msgs fuel (concat (map enc_msg ms)) = Some ms.
Proof.
  induction ms as [|m ms IH]; intros fuel H Hf.
  - destruct fuel; reflexivity.
  - apply Forall_cons_iff in H as [Hm Hs]. cbn [map concat] in *.
    pose proof (enc_msg_len m). rewrite app_length in Hf.
    destruct fuel as [|fuel]; [lia|].
    rewrite dec_msgs_S by (apply nonempty_app; lia).
    rewrite split_enc_msg, dec_enc_msg_body, IH by (assumption || lia). reflexivity.
Qed.
