(* Proofs/ConsumerGroupBase.v — runs, invariant induction, list update, and what ConsumerGroupAcc and
   ConsumerGroupRun (which do not import each other) both use. *)
From Coq Require Import List ZArith Bool Arith Lia.
From KV Require Lib.LTS.
From KV Require Import Model.ConsumerGroup.
Import ListNotations.

(* [run] of the model is [LTS.run step] (by conversion), so the lemmas of Lib/LTS.v apply to it *)
Lemma run_app : forall ls1 ls2 s,
  run s (ls1 ++ ls2) = match run s ls1 with Some s' => run s' ls2 | None => None end.
Proof. exact (LTS.run_app _ _ step). Qed.

Lemma run_snoc : forall ls l s s',
  run s (ls ++ [l]) = Some s' -> exists s1, run s ls = Some s1 /\ step s1 l = Some s'.
Proof.
  intros ls l s s' H. rewrite run_app in H. destruct (run s ls) as [s1|]; [|discriminate].
  exists s1. split; [reflexivity|]. cbn [run] in H. destruct (step s1 l); [exact H|discriminate].
Qed.

Lemma inv_run : forall (P : state -> Prop) s0,
  P s0 ->
  (forall s l s', P s -> step s l = Some s' -> P s') ->
  forall ls s, run s0 ls = Some s -> P s.
Proof. intros P s0 H0 Hstep ls s H. exact (LTS.inv_run _ _ step P Hstep ls s0 s H0 H). Qed.

Definition reachable (w : nat) (s : state) : Prop := exists ls, run (init w) ls = Some s.

Lemma reachable_init : forall w, reachable w (init w).
Proof. intro w. exists []. reflexivity. Qed.

Lemma reachable_step : forall w s l s', reachable w s -> step s l = Some s' -> reachable w s'.
Proof.
  intros w s l s' [ls H] E. exists (ls ++ [l]). rewrite run_app, H. cbn [run]. rewrite E. reflexivity.
Qed.

Lemma inv_reachable : forall w (P : state -> Prop),
  P (init w) ->
  (forall s l s', reachable w s -> P s -> step s l = Some s' -> P s') ->
  forall s, reachable w s -> P s.
Proof.
  intros w P H0 Hstep s [ls H].
  assert (G : reachable w s /\ P s).
  { revert H. apply (inv_run (fun s => reachable w s /\ P s)).
    - split; [apply reachable_init | exact H0].
    - intros s1 l s2 [R Q] E. split; [eapply reachable_step; eauto | eapply Hstep; eauto]. }
  exact (proj2 G).
Qed.

Lemma upd_length : forall A i (x : A) l, length (upd i x l) = length l.
Proof. induction i; destruct l; cbn; auto. Qed.

Lemma nth_error_upd_same : forall A i (x : A) l, i < length l -> nth_error (upd i x l) i = Some x.
Proof. induction i; destruct l; cbn; intros; try lia; auto. apply IHi; lia. Qed.

Lemma nth_error_upd_other : forall A i j (x : A) l, i <> j -> nth_error (upd i x l) j = nth_error l j.
Proof.
  induction i; destruct l; destruct j; cbn; intros; try congruence; auto.
Qed.

Lemma nth_error_upd : forall A i j (x : A) l,
  nth_error (upd i x l) j = if Nat.eqb i j then (if Nat.ltb i (length l) then Some x else None) else nth_error l j.
Proof.
  intros. destruct (Nat.eqb_spec i j).
  - subst. destruct (Nat.ltb_spec j (length l)).
    + apply nth_error_upd_same; auto.
    + apply nth_error_None. rewrite upd_length. lia.
  - apply nth_error_upd_other; auto.
Qed.

(* every monitor of the model is [gmon chk] for its [chk] (by conversion): each event is judged
   against its past *)
Section GMon.
  Variable chk : event -> list event -> bool.
  Fixpoint gmon (h : list event) : bool :=
    match h with [] => true | e :: t => chk e t && gmon t end.
  Lemma gmon_at : forall post e pre, gmon (post ++ e :: pre) = true -> chk e pre = true.
  Proof.
    induction post as [|a post IH]; intros e pre H; cbn [app gmon] in H; apply andb_true_iff in H;
      [exact (proj1 H)|exact (IH _ _ (proj2 H))].
  Qed.
End GMon.

Inductive ext (P : event -> Prop) (h : list event) : list event -> Prop :=
| ext_nil : ext P h h
| ext_cons e h' : P e -> ext P h h' -> ext P h (e :: h').

Lemma ext_app : forall P h h', ext P h h' -> exists es, h' = es ++ h /\ Forall P es.
Proof.
  induction 1 as [|e h' Pe _ (es & E & F)].
  - exists []. split; [reflexivity|constructor].
  - exists (e :: es). subst. split; [reflexivity|constructor; assumption].
Qed.

(* case analysis on the scrutinee of a match in hypothesis H *)
Ltac bm H := match type of H with context [match ?x with _ => _ end] => destruct x eqn:? end.

Lemma do_start_shape : forall k kd s s1, do_start k kd s = Some s1 ->
  exists g, nth_error (gens s) k = Some g /\
    gens s1 = (if g_closed g then gens s else upd k (g_inc g) (gens s)) /\
    fns s1 = fns s ++ [mkfn k kd (negb (g_closed g)) FRunning false] /\
    panicked s1 = panicked s /\ pc s1 = pc s /\ mid s1 = mid s /\
    hist s1 = HStart k (length (fns s)) (negb (g_closed g)) :: hist s.
Proof.
  intros k kd s s1 H. unfold do_start in H.
  destruct (nth_error (gens s) k) as [g|] eqn:Eg; [|discriminate].
  exists g. split; [reflexivity|].
  destruct (g_closed g); inversion H; subst s1; cbn; repeat split; reflexivity.
Qed.
