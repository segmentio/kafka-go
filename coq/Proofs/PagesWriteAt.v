(* Proofs/PagesWriteAt.v — pageBuffer.WriteAt (back-patching): exactly the range [off, off+len) of the content
   is replaced, for every offset and length (within a page, on a boundary, over several pages); lengths,
   refcounts, pool flags and the other pages are unchanged. *)
From Coq Require Import List NArith Bool Arith Lia.
From KV Require Import Model.Pages Proofs.PagesProofs Proofs.PagesReadFrom.
Import ListNotations.

Definition cat (ps : list page) (l : list nat) : list N := concat (map (data_of ps) l).

Lemma overwrite_length d o b : o + length b <= length d -> length (overwrite d o b) = length d.
Proof.
  intros H. unfold overwrite. rewrite !app_length, firstn_length, skipn_length. lia.
Qed.

Lemma cat_ext ps ps' l : (forall q, In q l -> nth q ps' page0 = nth q ps page0) -> cat ps' l = cat ps l.
Proof.
  intros H. unfold cat. f_equal. apply map_ext_in. intros q Hq. unfold data_of. rewrite (H q Hq). reflexivity.
Qed.

Lemma pages_write_at_spec : forall l ps off data,
  NoDup l -> (forall p, In p l -> p < length ps) -> off + length data <= length (cat ps l) ->
  let ps' := pages_write_at ps l off data in
  length ps' = length ps /\
  (forall q, length (data_of ps' q) = length (data_of ps q) /\
             p_refc (nth q ps' page0) = p_refc (nth q ps page0) /\
             p_pool (nth q ps' page0) = p_pool (nth q ps page0)) /\
  (forall q, ~ In q l -> nth q ps' page0 = nth q ps page0) /\
  cat ps' l = firstn off (cat ps l) ++ data ++ skipn (off + length data) (cat ps l).
Proof.
  induction l as [|p t IH]; intros ps off data Hnd Hlt Hle; cbn zeta.
  - cbn [pages_write_at]. unfold cat in *. cbn [map concat length] in *.
    assert (off = 0) by lia. assert (data = []) by (destruct data; [reflexivity|cbn in Hle; lia]). subst.
    repeat split; reflexivity.
  - apply NoDup_cons_iff in Hnd as [Hpt Hnd].
    assert (Hp : p < length ps) by (apply Hlt; left; reflexivity).
    assert (Hltt : forall q, In q t -> q < length ps) by (intros q Hq; apply Hlt; right; exact Hq).
    cbn [pages_write_at]. fold (data_of ps p).
    set (d := data_of ps p) in *. set (X := cat ps t) in *.
    assert (Hcat : cat ps (p :: t) = d ++ X) by reflexivity.
    rewrite Hcat in *. rewrite app_length in Hle.
    destruct (Nat.leb_spec (length d) off) as [Hskip|Hin].
    + (* the range starts after this page *)
      destruct (IH ps (off - length d) data Hnd Hltt ltac:(fold X; lia)) as (L & Same & Other & Cat).
      fold X in Cat. set (ps' := pages_write_at ps t (off - length d) data) in *.
      split; [exact L|]. split; [exact Same|]. split.
      * intros q Hq. apply Other. intros Hin. apply Hq. right. exact Hin.
      * unfold cat at 1. cbn [map concat]. fold (cat ps' t). rewrite Cat.
        unfold data_of at 1. rewrite (Other p Hpt). fold (data_of ps p). fold d.
        rewrite firstn_app, (firstn_all2 d Hskip).
        rewrite skipn_app, (skipn_all2 (n := off + length data) d) by lia. cbn [app].
        replace (off + length data - length d) with (off - length d + length data) by lia.
        rewrite <- !app_assoc. reflexivity.
    + (* the range starts inside this page *)
      set (n := Nat.min (length d - off) (length data)).
      set (F := firstn n data). set (data' := skipn n data).
      set (pg' := {| p_refc := p_refc (nth p ps page0); p_data := overwrite d off F; p_pool := p_pool (nth p ps page0) |}).
      set (ps1 := upd ps p pg').
      assert (Hn : n <= length data /\ n <= length d - off) by (unfold n; lia).
      assert (HF : length F = n) by (unfold F; rewrite firstn_length; lia).
      assert (Hd' : length data' = length data - n) by (unfold data'; apply skipn_length).
      assert (Hsplit : data = F ++ data') by (unfold F, data'; symmetry; apply firstn_skipn).
      assert (L1 : length ps1 = length ps) by apply upd_length.
      assert (Hother1 : forall q, q <> p -> nth q ps1 page0 = nth q ps page0).
      { intros q Hq. unfold ps1. apply nth_upd_other. congruence. }
      assert (Hp1 : nth p ps1 page0 = pg') by (unfold ps1; apply nth_upd_same; exact Hp).
      assert (HX1 : cat ps1 t = X).
      { apply cat_ext. intros q Hq. apply Hother1. intros ->. exact (Hpt Hq). }
      destruct (IH ps1 0 data' Hnd ltac:(intros q Hq; rewrite L1; apply Hltt, Hq) ltac:(rewrite HX1; lia))
        as (L & Same & Other & Cat).
      rewrite HX1 in Cat. set (ps' := pages_write_at ps1 t 0 data') in *.
      split; [lia|]. split; [|split].
      * intros q. destruct (Same q) as (S1 & S2 & S3). rewrite S1, S2, S3. unfold data_of.
        destruct (Nat.eq_dec q p) as [->|Hne].
        -- rewrite Hp1. unfold pg'. cbn [p_data p_refc p_pool]. fold (data_of ps p). fold d.
           rewrite overwrite_length by lia. repeat split; reflexivity.
        -- rewrite (Hother1 q Hne). repeat split; reflexivity.
      * intros q Hq. rewrite Other by (intros Hqt; apply Hq; right; exact Hqt).
        apply Hother1. intros ->. apply Hq. left. reflexivity.
      * unfold cat at 1. cbn [map concat]. fold (cat ps' t). rewrite Cat.
        unfold data_of at 1. rewrite (Other p Hpt), Hp1. unfold pg'. cbn [p_data firstn skipn Nat.add app].
        unfold overwrite. rewrite HF.
        rewrite firstn_app. replace (off - length d) with 0 by lia. cbn [firstn]. rewrite app_nil_r.
        rewrite skipn_app. rewrite <- !app_assoc. f_equal.
        destruct (Nat.le_gt_cases (length data) (length d - off)) as [HA|HB].
        -- (* everything lands in this page *)
           assert (Hn1 : n = length data) by (unfold n; lia).
           assert (Hd0 : data' = []) by (apply length_zero_iff_nil; lia).
           assert (HFd : F = data) by (rewrite Hsplit, Hd0, app_nil_r; reflexivity).
           rewrite Hd0, HFd, Hn1. cbn [app length skipn].
           replace (off + length data - length d) with 0 by lia. reflexivity.
        -- (* the page is filled up to its end, the rest goes on *)
           assert (Hn1 : n = length d - off) by (unfold n; lia).
           rewrite (skipn_all2 (n := off + n) d) by lia. rewrite (skipn_all2 (n := off + length data) d) by lia.
           cbn [app]. rewrite (app_assoc F data'), <- Hsplit. f_equal. f_equal. lia.
Qed.

Lemma buf_content_cat s b l : buf_ok s b l -> buf_content s b = cat (s_pages s) l.
Proof. intros H. rewrite (buf_ok_content s b l H). reflexivity. Qed.

Theorem pb_write_at_spec : forall s b l off data s',
  Inv s -> buf_ok s b l -> pb_write_at s b off data = Some s' ->
  Inv s' /\ buf_ok s' b l /\
  buf_content s' b = firstn off (buf_content s b) ++ data ++ skipn (off + length data) (buf_content s b) /\
  (forall q, length (p_data (get_page s' q)) = length (p_data (get_page s q)) /\
             p_refc (get_page s' q) = p_refc (get_page s q) /\ p_pool (get_page s' q) = p_pool (get_page s q)) /\
  (forall q, ~ In q l -> get_page s' q = get_page s q) /\
  s_bufs s' = s_bufs s /\ s_refs s' = s_refs s.
Proof.
  intros s b l off data s' I Hok H. pose proof Hok as [Hb Hnd].
  unfold pb_write_at in H. rewrite Hb in H. cbn [b_live negb b_pages] in H.
  destruct (Nat.ltb_spec (length (buf_content s b)) (off + length data)) as [|Hle]; [discriminate|].
  injection H as <-.
  rewrite (buf_content_cat s b l Hok) in *.
  assert (Hlt : forall p, In p l -> p < length (s_pages s)).
  { intros p Hp. apply (buf_page_known s b l p I Hok Hp). }
  destruct (pages_write_at_spec l (s_pages s) off data Hnd Hlt Hle) as (L & Same & Other & Cat).
  set (ps' := pages_write_at (s_pages s) l off data) in *.
  set (s' := {| s_pages := ps'; s_bufs := s_bufs s; s_refs := s_refs s |}).
  assert (Hok' : buf_ok s' b l) by (split; [exact Hb|exact Hnd]).
  assert (HI : Inv s').
  { split.
    - intros q. pose proof (inv_count s I q) as Hc. unfold holders, get_page in *. cbn [s_bufs s_refs s_pages s'].
      destruct (Same q) as (_ & R & _). rewrite R. exact Hc.
    - intros q. unfold get_page. cbn [s_pages s']. destruct (Same q) as (_ & R & P). rewrite R, P. apply (inv_pool s I q).
    - intros r rf Hr Hl q lo hi Hin. cbn [s_refs s'] in Hr. unfold get_page. cbn [s_pages s'].
      destruct (Same q) as (Ln & _ & _). unfold data_of in Ln. rewrite Ln. apply (inv_segs s I r rf Hr Hl q lo hi Hin). }
  assert (Hcontent : buf_content s' b =
                     firstn off (cat (s_pages s) l) ++ data ++ skipn (off + length data) (cat (s_pages s) l))
    by (rewrite (buf_content_cat s' b l Hok'); exact Cat).
  exact (conj HI (conj Hok' (conj Hcontent (conj Same (conj Other (conj eq_refl eq_refl)))))).
Qed.
