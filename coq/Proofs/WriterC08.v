(* Proofs/WriterC08.v — behind Properties/C08.v: what the validation rejects, and the invariant
   of runs that bounds every batch and every produce request (batch_ok, pw_ok, C08_inv). *)
From Coq Require Import List NArith Bool Arith Lia.
From KV Require Import Lib.LTS Model.Writer Proofs.WriterStmts Proofs.WriterBase Proofs.WriterSteps.
Import ListNotations.

Section Validate.
Variable cfg : config.

Lemma ftl_complete : forall ms k i m,
  nth_error ms i = Some m -> (batchBytes cfg < m_size m)%N ->
  exists i', i' <= i /\ first_too_large cfg k ms = Some (k + i').
Proof.
  induction ms as [|x r IH]; intros k i m Hn Hs.
  - destruct i; discriminate.
  - cbn [first_too_large].
    destruct (batchBytes cfg <? m_size x)%N eqn:E.
    + exists 0. split; [lia|]. f_equal. lia.
    + destruct i as [|i]; simpl in Hn.
      * inversion Hn; subst. apply N.ltb_ge in E. lia.
      * destruct (IH (S k) i m Hn Hs) as [i' [Hle Hf]].
        exists (S i'). split; [lia|]. rewrite Hf. f_equal. lia.
Qed.

Lemma ftl_sound : forall ms k j,
  first_too_large cfg k ms = Some j ->
  k <= j /\ exists m, nth_error ms (j - k) = Some m /\ (batchBytes cfg < m_size m)%N.
Proof.
  induction ms as [|x r IH]; intros k j H; cbn [first_too_large] in H.
  - discriminate.
  - destruct (batchBytes cfg <? m_size x)%N eqn:E.
    + inversion H; subst. split; [lia|]. exists x. rewrite Nat.sub_diag. split; [reflexivity|].
      apply N.ltb_lt in E. exact E.
    + destruct (IH _ _ H) as [Hle [m [Hn Hs]]]. split; [lia|].
      exists m. split; [|exact Hs].
      replace (j - k) with (S (j - S k)) by lia. exact Hn.
Qed.

Lemma ftl_none : forall ms k,
  first_too_large cfg k ms = None <-> (forall m, In m ms -> (m_size m <= batchBytes cfg)%N).
Proof.
  induction ms as [|x r IH]; intros k; cbn [first_too_large].
  - split; [intros _ m []|reflexivity].
  - destruct (batchBytes cfg <? m_size x)%N eqn:E.
    + split; [discriminate|]. intros H. apply N.ltb_lt in E.
      specialize (H x (or_introl eq_refl)). lia.
    + apply N.ltb_ge in E. rewrite IH. split.
      * intros H m [<-|Hi]; auto.
      * intros H m Hi. apply H. right; exact Hi.
Qed.

Lemma fte_not_toolarge : forall merr ms k i, first_topic_err cfg merr k ms <> Some (ETooLarge i).
Proof.
  induction ms as [|x r IH]; intros k i; cbn [first_topic_err].
  - discriminate.
  - destruct (choose_topic cfg x); [|discriminate].
    destruct merr as [[j e]|]; [|apply IH].
    destruct (Nat.eqb k j); [discriminate|apply IH].
Qed.

Lemma fte_some : forall merr ms k i m,
  nth_error ms i = Some m -> choose_topic cfg m = None ->
  exists e, first_topic_err cfg merr k ms = Some e.
Proof.
  induction ms as [|x r IH]; intros k i m Hn Hc.
  - destruct i; discriminate.
  - cbn [first_topic_err]. destruct i as [|i]; simpl in Hn.
    + inversion Hn; subst. rewrite Hc. eauto.
    + destruct (choose_topic cfg x); [|eauto].
      destruct merr as [[j e]|]; [|eapply IH; eauto].
      destruct (Nat.eqb k j); [eauto|eapply IH; eauto].
Qed.

Lemma fte_none : forall merr ms k,
  first_topic_err cfg merr k ms = None -> forall m, In m ms -> choose_topic cfg m <> None.
Proof.
  induction ms as [|x r IH]; intros k H m Hi; cbn [first_topic_err] in H.
  - destruct Hi.
  - destruct (choose_topic cfg x) eqn:E; [|discriminate].
    destruct Hi as [<-|Hi]; [congruence|].
    destruct merr as [[j e]|]; [|eapply IH; eauto].
    destruct (Nat.eqb k j); [discriminate|eapply IH; eauto].
Qed.

Lemma validate_none : forall merr ms, validate cfg merr ms = None ->
  forall m, In m ms -> (m_size m <= batchBytes cfg)%N /\ choose_topic cfg m <> None.
Proof.
  intros merr ms H m Hi. unfold validate in H.
  destruct (first_too_large cfg 0 ms) eqn:E; [discriminate|].
  split.
  - eapply ftl_none; eauto.
  - eapply fte_none; eauto.
Qed.

End Validate.

Lemma sum_sizes_snoc : forall l m, sum_sizes (l ++ [m]) = (sum_sizes l + m_size m)%N.
Proof.
  unfold sum_sizes. induction l as [|x r IH]; intros m; simpl.
  - lia.
  - rewrite IH. lia.
Qed.

Section Inv.
Variable cfg : config.

(* [Nat.max 1]: the first message always enters an empty batch, whatever batchSize is;
   under cfg_ok (1 <= batchSize) the bound is batchSize *)
Definition batch_ok (b : batch) : Prop :=
  b_bytes b = sum_sizes (b_msgs b) /\ b_msgs b <> [] /\
  length (b_msgs b) <= Nat.max 1 (batchSize cfg) /\
  (b_bytes b <= batchBytes cfg)%N.

(* sizes only; open queue, live timer, drained dead sender: wf_pw of WriterSteps *)
Definition pw_ok (pw : pwriter) : Prop :=
  (forall b, pw_curr pw = Some b ->
     batch_ok b /\ b_size b < batchSize cfg /\ (b_bytes b < batchBytes cfg)%N) /\
  (forall b, In b (pw_queue pw) -> batch_ok b) /\
  (forall sd, pw_snd pw = Some sd -> batch_ok (sd_batch sd)).

Lemma pw_ok_ext : forall pw pw', pw_curr pw' = pw_curr pw -> pw_queue pw' = pw_queue pw ->
  pw_snd pw' = pw_snd pw -> pw_ok pw -> pw_ok pw'.
Proof. intros pw pw' C Q S H. unfold pw_ok. rewrite C, Q, S. exact H. Qed.

Lemma add_msg_ok : forall b m,
  b_bytes b = sum_sizes (b_msgs b) ->
  (m_size m <= batchBytes cfg)%N ->
  (b_msgs b = [] \/ (b_size b < batchSize cfg /\ (b_bytes b + m_size m <= batchBytes cfg)%N)) ->
  batch_ok (add_msg b m).
Proof.
  intros b m Hb Hs Hc. unfold batch_ok, add_msg; cbn [b_bytes b_msgs].
  split; [rewrite sum_sizes_snoc, Hb; reflexivity|].
  split; [intros E; apply app_eq_nil in E; destruct E; discriminate|].
  rewrite app_length; cbn [length].
  split.
  - destruct Hc as [E|[H1 _]].
    + rewrite E; cbn [length]. lia.
    + unfold b_size in H1. lia.
  - destruct Hc as [E|[_ H2]].
    + rewrite E in Hb; simpl in Hb. lia.
    + exact H2.
Qed.

Lemma finish_ok : forall tp op nb fin snd q al aw b',
  (forall b, In b q -> batch_ok b) -> (forall sd, snd = Some sd -> batch_ok (sd_batch sd)) ->
  batch_ok b' ->
  pw_ok (if full cfg b' then mkPw tp op nb fin snd (q ++ [b']) None al aw
         else mkPw tp op nb fin snd q (Some b') al aw).
Proof.
  intros tp op nb fin snd q al aw b' Hq Hs Hb.
  destruct (full cfg b') eqn:F; unfold pw_ok; simpl.
  - split; [discriminate|]. split; [|exact Hs].
    intros b Hi. apply in_app_or in Hi. destruct Hi as [Hi|[<-|[]]]; auto.
  - split; [|split; [exact Hq|exact Hs]].
    intros b E; inversion E; subst b; clear E.
    unfold full in F. apply orb_false_iff in F. destruct F as [F1 F2].
    apply Nat.leb_gt in F1. apply N.leb_gt in F2. auto.
Qed.

Lemma pw_add_ok : forall pw m pw' k sp,
  pw_ok pw -> pw_open pw = true -> (m_size m <= batchBytes cfg)%N ->
  pw_add cfg pw m = (pw', k, sp) -> pw_ok pw'.
Proof.
  intros pw m pw' k sp Hok Hop Hsz Hadd.
  destruct pw as [tp op nb fin snd q cur al aw]. simpl in Hop. subst op.
  destruct Hok as [Hc [Hq Hs]]; simpl in Hc, Hq, Hs.
  unfold pw_add in Hadd. simpl in Hadd.
  destruct cur as [b|].
  - destruct (Hc b eq_refl) as [[Hb1 [Hb2 [Hb3 Hb4]]] [Hn Hby]].
    destruct (add_fits cfg b m) eqn:F; simpl in Hadd;
      inversion Hadd; subst pw' k sp; clear Hadd; apply finish_ok; auto.
    + apply add_msg_ok; auto. right. split; [exact Hn|].
      unfold add_fits in F. apply negb_true_iff in F.
      apply andb_false_iff in F. destruct F as [F|F].
      * apply Nat.ltb_ge in F. unfold b_size in F. destruct (b_msgs b); [congruence|simpl in F; lia].
      * apply N.ltb_ge in F. exact F.
    + intros x Hi. apply in_app_or in Hi. destruct Hi as [Hi|[<-|[]]]; auto.
      repeat split; auto.
    + apply add_msg_ok; simpl; auto.
  - simpl in Hadd. inversion Hadd; subst pw' k sp; clear Hadd.
    apply finish_ok; auto. apply add_msg_ok; simpl; auto.
Qed.

Definition pws_ok (pws : list pwriter) : Prop := forall pw, In pw pws -> pw_ok pw.

Lemma pws_ok_upd : forall pws p pw, pws_ok pws -> pw_ok pw -> pws_ok (upd pws p pw).
Proof.
  intros pws p pw Hok Hpw x Hi. apply upd_In in Hi. destruct Hi as [->|Hi]; auto.
Qed.

Lemma new_pw_ok : forall tp, pw_ok (new_pw tp).
Proof. intros tp. split; [discriminate|]. split; [intros b []|discriminate]. Qed.

Lemma assign_all_ok : forall pws wg ms pws' wg' refs',
  pws_ok pws -> (forall m, In m ms -> (m_size m <= batchBytes cfg)%N) ->
  assign_all cfg pws wg ms = (pws', wg', refs') -> pws_ok pws'.
Proof.
  intros pws wg ms pws' wg' refs' Hok Hsz.
  apply (assign_all_ind cfg (fun _ x _ _ => pws_ok x)); auto.
  - intros pre m post pws1 wg1 refs1 _ Ok1 _ pw Hi. apply in_app_or in Hi.
    destruct Hi as [Hi|[<-|[]]]; [auto|apply new_pw_ok].
  - intros pre m post pws1 wg1 refs1 E Ok1 j pw pw' k sp N O T PA. apply pws_ok_upd; auto.
    eapply pw_add_ok; eauto; [apply Ok1; eapply nth_error_In; eauto|apply Hsz; rewrite E; apply in_elt].
Qed.

Lemma flush_ok : forall pw, pw_ok pw -> pw_ok (flush pw).
Proof.
  intros pw Hok. destruct (pw_curr pw) as [b|] eqn:C; [|rewrite flush_none; auto].
  destruct Hok as (Hc & Hq & Hs). destruct (Hc b C) as (Hb & _). unfold flush, put. rewrite C.
  destruct (pw_open pw); (split; [discriminate|split; [|exact Hs]]); simpl; auto.
  intros x Hi. apply in_app_or in Hi. destruct Hi as [Hi|[<-|[]]]; auto.
Qed.

Lemma close_pw_ok : forall pw, pw_ok pw -> pw_ok (close_pw pw).
Proof.
  intros pw Hok. rewrite close_pw_eq. destruct (pw_open pw); [|exact Hok].
  eapply pw_ok_ext; [| | |exact (flush_ok pw Hok)]; reflexivity.
Qed.

Lemma timer_ok : forall pw k, pw_ok pw -> pw_ok (timer_pw pw k).
Proof.
  intros pw k Hok. destruct (timer_pw_cases pw k) as [[-> _]|[-> _]].
  - eapply pw_ok_ext; [| | |exact (flush_ok pw Hok)]; reflexivity.
  - eapply pw_ok_ext; [| | |exact Hok]; reflexivity.
Qed.

Definition att_ok (a : attempt) : Prop :=
  length (a_msgs a) <= Nat.max 1 (batchSize cfg) /\
  (sum_sizes (a_msgs a) <= batchBytes cfg)%N /\
  a_msgs a <> [].

Definition calls_ok (cs : list call) : Prop :=
  forall cl, In cl cs -> c_ph cl = CEntered ->
  forall m, In m (c_msgs cl) -> (m_size m <= batchBytes cfg)%N.

Definition C08_inv (s : state) : Prop :=
  pws_ok (s_pws s) /\ calls_ok (s_calls s) /\ (forall a, In a (s_journal s) -> att_ok a).

Lemma C08_inv_init : C08_inv init.
Proof. unfold C08_inv, pws_ok, calls_ok; simpl. split; [|split]; intros ? []. Qed.

Lemma calls_ok_snoc : forall cs c,
  calls_ok cs ->
  (c_ph c = CEntered -> forall m, In m (c_msgs c) -> (m_size m <= batchBytes cfg)%N) ->
  calls_ok (cs ++ [c]).
Proof.
  intros cs c Hok Hc cl Hi. apply in_app_or in Hi.
  destruct Hi as [Hi|[<-|[]]]; [apply Hok; exact Hi|exact Hc].
Qed.

Lemma calls_ok_upd : forall cs i c,
  calls_ok cs -> c_ph c <> CEntered -> calls_ok (upd cs i c).
Proof.
  intros cs i c Hok Hc cl Hi. apply upd_In in Hi.
  destruct Hi as [->|Hi]; [congruence|apply Hok; exact Hi].
Qed.

Lemma C08_inv_step : forall s l s', C08_inv s -> step cfg s l = Some s' -> C08_inv s'.
Proof.
  intros s l s' [Hp [Hc Hj]] H. apply step_Step in H.
  assert (U : forall p pw x, nth_error (s_pws s) p = Some pw -> (pw_ok pw -> pw_ok x) ->
            pws_ok (upd (s_pws s) p x)).
  { intros p pw x N Hx. apply pws_ok_upd; auto. apply Hx, Hp. eapply nth_error_In; eauto. }
  destruct H; unfold C08_inv; cbn [s_pws s_calls s_journal add_call ret_call with_pw with_pw_done];
    try (split; [exact Hp|split; [|exact Hj]];
         first [apply calls_ok_snoc|apply calls_ok_upd]; auto; simpl; discriminate).
  - (* Call, accepted: every message passed the size check *)
    split; [exact Hp|split; [|exact Hj]]. apply calls_ok_snoc; auto.
    intros _ m Hi. apply (validate_none cfg _ _ Val m Hi).
  - (* Assign *)
    split; [|split; [|exact Hj]].
    + eapply assign_all_ok; eauto. apply Hc; [eapply nth_error_In; eauto|exact Ph].
    + apply calls_ok_upd; auto. simpl; discriminate.
  - (* Timer *) split; [|auto]. eapply U; eauto. apply timer_ok.
  - (* Get *) split; [|auto]. eapply U; eauto. intros [H1 [H2 H3]]. unfold pw_ok; simpl.
    split; [exact H1|]. split; [intros x Hx; apply H2; rewrite Qu; right; exact Hx|].
    intros sd E; inversion E; subst sd; simpl. apply H2. rewrite Qu; left; reflexivity.
  - (* SenderExit *) split; [|auto]. eapply U; [eassumption|]. apply pw_ok_ext; reflexivity.
  - (* Attempt: the request carries the batch being sent *)
    assert (H3 : batch_ok b).
    { destruct (Hp pw (nth_error_In _ _ Np)) as [_ [_ H3]]. exact (H3 _ Sn). }
    split; [|split; [exact Hc|]].
    + eapply U; eauto. intros [H1 [H2 _]]. unfold pw_ok; simpl.
      split; [exact H1|]. split; [exact H2|].
      intros sd E; inversion E; subst sd; simpl. exact H3.
    + intros a Hi. apply in_app_or in Hi. destruct Hi as [Hi|[<-|[]]]; auto.
      destruct H3 as [B1 [B2 [B3 B4]]]. unfold att_ok; simpl.
      split; [exact B3|]. split; [rewrite <- B1; exact B4|exact B2].
  - (* BackoffDone *) split; [|auto]. eapply U; eauto. intros [H1 [H2 H3]]. unfold pw_ok; simpl.
    split; [exact H1|]. split; [exact H2|].
    intros sd E; inversion E; subst sd; simpl. exact (H3 _ Sn).
  - (* Finish *) split; [|auto]. eapply U; eauto. intros [H1 [H2 H3]]. unfold pw_ok; simpl.
    split; [exact H1|]. split; [exact H2|discriminate].
  - (* CloseMark *) split; [|auto].
    intros pw Hi. apply in_map_iff in Hi. destruct Hi as [x [<- Hx]].
    apply close_pw_ok. apply Hp; exact Hx.
  - exact (conj Hp (conj Hc Hj)).
Qed.

End Inv.

Lemma runs_inv_C08 : forall cfg ls s, runs cfg ls s -> C08_inv cfg s.
Proof.
  intros cfg ls s H. eapply runs_inv; [apply C08_inv_init|apply C08_inv_step|exact H].
Qed.

Lemma pw_ok_runs : forall cfg ls s p pw, runs cfg ls s -> nth_error (s_pws s) p = Some pw -> pw_ok cfg pw.
Proof. intros cfg ls s p pw Hr N. apply (runs_inv_C08 _ _ _ Hr). eapply nth_error_In; eauto. Qed.

Lemma att_ok_runs : forall cfg ls s a, runs cfg ls s -> In a (s_journal s) -> att_ok cfg a.
Proof. intros cfg ls s a Hr. apply (runs_inv_C08 _ _ _ Hr). Qed.
