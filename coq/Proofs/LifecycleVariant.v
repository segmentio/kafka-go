(* Proofs/LifecycleVariant.v — termination measure for Reader.Close.
   Once Close has executed r.stop() ([stopping]: closed, current reader context cancelled, r.stctx
   cancelled) every step that is neither an environment decision, nor the firing of a periodic
   ticker, nor a select branch that races a ready cancellation branch strictly decreases [mu]. *)
From Coq Require Import List Arith Bool Lia.
From KV Require Import Lib.LTS Model.Lifecycle Proofs.LifecycleBase.
Import ListNotations.

Fixpoint sumf {A} (r : A -> nat) (l : list A) {struct l} : nat :=
  match l with [] => 0 | x :: t => r x + sumf r t end.
Lemma sumf_app : forall A (r : A -> nat) l1 l2, sumf r (l1 ++ l2) = sumf r l1 + sumf r l2.
Proof. induction l1; intros; simpl; [reflexivity|rewrite IHl1; lia]. Qed.
Lemma sumf_upd : forall A (r : A -> nat) l i x y, nth_error l i = Some y ->
  sumf r (upd i x l) + r y = sumf r l + r x.
Proof.
  induction l; intros [|i] x y H; simpl in *; try discriminate.
  - inversion H; subst. lia.
  - specialize (IHl _ x _ H). lia.
Qed.
Lemma sumf_upd_le : forall A (r : A -> nat) l i x, sumf r (upd i x l) <= sumf r l + r x.
Proof. induction l; intros [|i] x; simpl; try lia. specialize (IHl i x). lia. Qed.
Lemma sumf_repeat0 : forall A (r : A -> nat) x, sumf r (repeat x 0) = 0.
Proof. reflexivity. Qed.

(* Ranks leave room for what a step starts: frk FInit = 7 > 4 + 2 (lookup helper); rrk 27 > 16 + 10, 16 > 5 + 10,
   grk 16 > 5 + 10 (Generation.Start adds a function at NRun = 10); 11 + trk > 10 (a commit attempt, lft <= 3);
   9 per commit request > 18 - 10; 2 per message > 1.  LCEnq, LFPush, LFPushErr raise [mu] but race a ready
   cancellation under [stopping]. *)
Definition crk (p : clphase) : nat :=
  match p with CLMark => 6 | CLCancel _ => 5 | CLStop _ => 4 | CLJoin _ => 3 | CLDone _ => 2 | CLMsgs _ => 1 | CLRet => 0 end.
Definition frk (f : fetcher) : nat :=
  match f_ph f with
  | FExit => 0 | FReadTop => 1 | FBackoff => 2 | FSendErr2 => 2 | FSendErr => 3 | FSending _ => 3
  | FLookup _ => 4 | FFetching => 4 | FOffsets => 5 | FInit => 7 end.
Definition krk (k : call) : nat :=
  match k_ph k with
  | PDone _ => 0 | PCWait (Some _) => 1 | PCWait None => 2 | PCSelect => 3 | PCCheck => 4 | PFSelect _ => 5 | PFLock => 6
  | PTAwait => 1 | PTReady => 2 end.
Definition rrk (r : rphase) : nat :=
  match r with
  | RNone => 0 | RExited => 0 | RDone => 1 | RCgWait => 2 | RCgClose => 3 | RNext _ => 4 | RIdle _ => 5
  | RRunErr => 6 | RStartU _ => 16 | RStartC _ => 27 | RSub _ => 28 end.
Definition grk (g : gphase) : nat :=
  match g with
  | GNone => 0 | GExited => 0
  | GLeaveReq LvExit | GLeaveReq LvExitOffer => 1
  | GLeaveConn LvExit | GLeaveConn LvExitOffer => 2
  | GOffer _ _ => 3
  | GLeaveReq (LvReport _) => 4 | GLeaveConn (LvReport _) => 5
  | GCloseWait _ WClosed => 3 | GClose _ WClosed => 4 | GPublish _ => 5
  | GOfetch => 16 | GSync => 17 | GJoin => 18 | GConnect => 19 | GBackoff => 20
  | GCloseWait _ WEnded => 20 | GClose _ WEnded => 21 | GWait _ => 22 end.
Definition trk (lft : nat) (bk : bool) : nat := 2 * lft + (if bk then 0 else 1).
Definition nrk (f : fn) : nat :=
  match n_ph f with
  | NExit => 0 | NRet => 1 | NUnWait => 2 | NUnCancel => 3
  | NRun => 10
  | NTry _ true lft bk => 2 + trk lft bk
  | NTry _ false lft bk => 11 + trk lft bk
  end.
Definition lrk (l : lagphase) : nat :=
  match l with LagOff => 0 | LagExit => 0 | LagTick => 1 | LagWait _ => 2 | LagStart => 5 end.
Definition irk (i : iphase) : nat := match i with IDone => 0 | IConn => 1 | IOrphan => 1 | IDial => 2 | ILookup => 2 end.

Definition mu (s : state) : nat :=
  sumf crk (closers s) + sumf frk (fetchers s) + sumf krk (calls s) + rrk (rph s) + grk (gph s)
  + sumf nrk (fns s) + lrk (lag s) + sumf irk (inners s) + 2 * length (msgs s) + 9 * length (commits s).

(* [cbn] must not turn [2 * n] and [9 * n] into towers of additions *)
Local Arguments Nat.mul : simpl never.

Lemma reply_krk : forall c ok s, sumf krk (calls (reply c ok s)) <= sumf krk (calls s).
Proof.
  intros. unfold reply. destruct (nth_error (calls s) c) eqn:E; [|apply le_n].
  destruct (k_ph c0) as [| | | |[rp|]| | |] eqn:P; try apply le_n.
  unfold set_call. cbn. pose proof (sumf_upd _ krk _ _ (mkCall (k_kind c0) (k_ctx c0) (PCWait (Some ok))) _ E) as U.
  assert (R1 : krk c0 = 2) by (unfold krk; rewrite P; reflexivity).
  change (krk (mkCall (k_kind c0) (k_ctx c0) (PCWait (Some ok)))) with 1 in U. lia.
Qed.
Lemma reply_all_krk : forall cs ok s, sumf krk (calls (reply_all cs ok s)) <= sumf krk (calls s).
Proof.
  induction cs; intros; simpl; [lia|]. etransitivity; [apply IHcs|apply reply_krk].
Qed.

Lemma stopping_step : forall s l s', stopping s = true -> step s l = Some s' -> stopping s' = true.
Proof.
  intros s l s' H St. unfold stopping in *. apply andb_true_iff in H as [H H3]. apply andb_true_iff in H as [H1 H2].
  pose proof (step_frame _ _ _ St) as F.
  rewrite (fr_closed _ _ _ F H1), (fr_curcan _ _ _ F H1 H2), (fr_stctx _ _ _ F H3). reflexivity.
Qed.

Ltac rank_fact rk ph :=
  repeat match goal with
  | P : ph ?f = _ |- _ =>
    lazymatch goal with R : rk f = _ |- _ => fail | _ => idtac end;
    let R := fresh "R" in pose proof (eq_refl (rk f)) as R; unfold rk in R at 2; rewrite P in R
  end.
Ltac rank_facts := rank_fact frk f_ph; rank_fact krk k_ph; rank_fact nrk n_ph.
Ltac upd_facts :=
  repeat match goal with
  | |- context [sumf ?r (upd ?i ?x ?l)] =>
    match goal with
    | H : nth_error l i = Some ?y |- _ =>
      let U := fresh "U" in pose proof (sumf_upd _ r l i x y H) as U;
      let z := fresh "z" in set (z := sumf r (upd i x l)) in *; clearbody z
    end
  end.

Ltac rw_fields := rw_field rph; rw_field gph; rw_field lag; rw_field msgs; rw_field commits; rw_field mid.

(* [Pr]: no cancellation branch the label could race is ready *)
Ltac use_progress Pr H2 H3 :=
  unfold progress, is_race, call_ctx, f_cancelled, fcancelled, fn_gen_done in Pr; cbn in Pr;
  rewrite ?H2, ?H3, ?orb_true_r in Pr; try discriminate;
  repeat match goal with E : nth_error _ _ = Some _ |- _ => rewrite E in Pr end;
  rewrite ?H2, ?H3, ?orb_true_r in Pr; cbn in Pr; try discriminate.
Ltac to_sums H1 :=
  unf; try rewrite reply_all_calls_only; rewrite ?H1; destr_goal; unfold mu; cbn; rw_fields; cbn;
  upd_facts; rewrite ?sumf_app, ?app_length; cbn in *; unfold trk in *.

Definition deep_label (l : label) : bool :=
  match l with
  | LRetCtx _ | LCClosed _ | LFSeeCancel _ | LGClose | LGLeaveCoord _ | LClCommit _ _ | LClSeeStop _ => true
  | _ => false
  end.

Theorem variant_proof : forall s l s', stopping s = true -> step s l = Some s' -> progress s l = true -> mu s' < mu s.
Proof.
  intros s l s' H St Pr. unfold stopping in H. apply andb_true_iff in H as [H H3]. apply andb_true_iff in H as [H1 H2].
  destruct (deep_label l) eqn:D.
  2: { destruct l; try discriminate D; try (cbn in Pr; discriminate);
       step_inv St; use_progress Pr H2 H3; rank_facts; to_sums H1; lia. }
  destruct l; try discriminate D; clear D.
  (* LClCommit, LClSeeStop: answering the waiting callers does not raise their ranks *)
  all: try (lazymatch type of St with step _ (LClCommit _ _) = _ => idtac | step _ (LClSeeStop _) = _ => idtac | _ => fail end;
    step_inv St; use_progress Pr H2 H3; rank_facts;
    unfold mu; unf; try rewrite reply_all_calls_only; rewrite ?H1; cbn;
    repeat match goal with |- context [calls (reply_all ?cs ?b ?x)] =>
      let L := fresh "L" in pose proof (reply_all_krk cs b x) as L; cbn in L;
      let zz := fresh "zz" in set (zz := sumf krk (calls (reply_all cs b x))) in *; clearbody zz end;
    rw_fields; cbn; upd_facts; cbn in *; try lia; destr_goal; cbn in *; try lia;
    rewrite ?R in *; repeat match goal with U : context [if ?b then _ else _] |- _ => destruct b end; unfold nrk, trk in *; cbn in *; lia).
  - step_inv St. destruct (k_ph c0) as [| | | |answer| | |] eqn:P; cbn in Heqb; try discriminate;
    use_progress Pr H2 H3; rank_facts; to_sums H1; try lia; destruct answer; lia.
  - step_inv St; use_progress Pr H2 H3; rank_facts; to_sums H1; try lia;
    match goal with P : k_ph _ = PCWait ?answer |- _ => destruct answer end; lia.
  - (* LFSeeCancel: the orphaned helper's phase is not known *)
    step_inv St; use_progress Pr H2 H3; rank_facts;
    unfold mu; unf; rewrite ?H1; cbn; rw_fields; cbn;
    repeat match goal with |- context [sumf irk (upd ?j ?x (inners ?s0))] =>
      let Ule := fresh "Ule" in pose proof (sumf_upd_le _ irk (inners s0) j x) as Ule;
      let zi := fresh "zi" in set (zi := sumf irk (upd j x (inners s0))) in *; clearbody zi end;
    upd_facts; cbn in *; lia.
  - step_inv St; use_progress Pr H2 H3; rank_facts; to_sums H1; try lia; destr_goal; cbn in *; lia.
  - step_inv St; use_progress Pr H2 H3; rank_facts; to_sums H1; try lia; destr_goal; cbn in *; lia.
Qed.
