(* Proofs/SchemaPrims.v — the decoder's primitives on a well-formed prefix, and the
   relation [reads] through which the round-trip theorems compose them. *)
From Coq Require Import List NArith ZArith Bool Lia.
From Coq Require Import ZifyN ZifyNat ZifyBool.
From KV Require Import Lib.Bits Lib.Bytes Lib.Varint Model.Schema Proofs.SchemaBase Proofs.SchemaDefs.
Import ListNotations.

Lemma firstn_app_exact {A} (a b : list A) : firstn (length a) (a ++ b) = a.
Proof. rewrite firstn_app, Nat.sub_diag, firstn_all. cbn. apply app_nil_r. Qed.
Lemma skipn_app_exact {A} (a b : list A) : skipn (length a) (a ++ b) = b.
Proof. rewrite skipn_app, Nat.sub_diag, skipn_all. reflexivity. Qed.

Lemma lenZ_app {A} (a b : list A) : lenZ (a ++ b) = (lenZ a + lenZ b)%Z.
Proof. unfold lenZ. rewrite app_length. lia. Qed.
Lemma lenZ_nonneg {A} (a : list A) : (0 <= lenZ a)%Z.
Proof. unfold lenZ. lia. Qed.

Lemma bytes_okb_spec l : bytes_okb l = true <-> bytes_ok l.
Proof.
  unfold bytes_okb, bytes_ok. rewrite forallb_forall, Forall_forall.
  unfold is_byteb, is_byte. split; intros H x Hx; specialize (H x Hx); lia.
Qed.

Lemma put_bes_length w z : length (put_bes w z) = w.
Proof. unfold put_bes. apply put_be_length. Qed.
Lemma put_bes_bytes w z : bytes_ok (put_bes w z).
Proof. unfold put_bes. apply put_be_bytes. Qed.

Lemma in_signedb_spec w z : in_signedb w z = true <-> in_signed w z.
Proof. unfold in_signedb, in_signed. rewrite andb_true_iff, Z.leb_le, Z.ltb_lt. tauto. Qed.

Lemma in_signed_2 z : (-32768 <= z < 32768)%Z -> in_signed 2 z.
Proof. unfold in_signed. change (pow256 2 / 2)%N with 32768%N. lia. Qed.
Lemma in_signed_4 z : (- ZM31 <= z < ZM31)%Z -> in_signed 4 z.
Proof. unfold in_signed, ZM31. change (pow256 4 / 2)%N with 2147483648%N. lia. Qed.

Lemma put_get_be bs : bytes_ok bs -> put_be (length bs) (get_be bs 0) = bs.
Proof.
  induction bs as [|b t IH] using rev_ind; intros Hok; [reflexivity|].
  apply Forall_app in Hok as [Ht Hb]. apply Forall_cons_iff in Hb as [Hb _]. unfold is_byte in Hb.
  rewrite app_length, Nat.add_comm, get_be_app. cbn [length Nat.add get_be put_be].
  rewrite N.add_comm, N.div_add, N.mod_add by discriminate.
  rewrite N.div_small, N.mod_small, N.add_0_l, IH by assumption. reflexivity.
Qed.

Lemma put_get_bes w bs : (0 < w)%nat -> bytes_ok bs -> length bs = w ->
  in_signed w (get_bes w bs) /\ put_bes w (get_bes w bs) = bs.
Proof.
  intros Hw Hok Hl. pose proof (get_be_lt bs Hok 0) as Hlt. pose proof (put_get_be bs Hok) as Hpg.
  rewrite Hl in Hlt, Hpg. unfold in_signed, put_bes, get_bes.
  set (u := get_be bs 0) in *. destruct w as [|w']; [lia|].
  assert (Heven : (pow256 (S w') = 2 * (pow256 (S w') / 2))%N).
  { rewrite pow256_S. replace (256 * pow256 w')%N with (128 * pow256 w' * 2)%N by lia.
    rewrite N.div_mul by discriminate. lia. }
  set (P := pow256 (S w')) in *.
  destruct (N.ltb_spec u (P / 2)); (split; [lia|rewrite <- Hpg; f_equal]).
  - rewrite Z.mod_small by lia. lia.
  - replace (Z.of_N u - Z.of_N P)%Z with (Z.of_N u + (-1) * Z.of_N P)%Z by lia.
    rewrite Z.mod_add, Z.mod_small by lia. lia.
Qed.

(* otherwise cbn and simpl evaluate these on numerals (put_be 4 x: four divisions) *)
Arguments put_be : simpl never.
Arguments put_bes : simpl never.
Arguments put_uvarint : simpl never.
Arguments get_bes : simpl never.
Arguments read_uvarint : simpl never.
Arguments read_int : simpl never.
Arguments read_alloc : simpl never.
Arguments read_n : simpl never.

Definition st (i : list N) (r : Z) (a : N) : dstate := {| d_in := i; d_remain := r; d_alloc := a |}.

Lemma read_z_app bs rest r al :
  (Z.of_nat (length bs) <= r)%Z ->
  read_z (Z.of_nat (length bs)) (st (bs ++ rest) r al) = Ok bs (st rest (r - Z.of_nat (length bs)) al).
Proof.
  intros Hr. unfold read_z, st. cbn [d_in d_remain d_alloc].
  destruct (Z.leb_spec (Z.of_nat (length bs)) 0) as [Hz|Hp].
  - assert (length bs = 0)%nat as Hl by lia. destruct bs; [|cbn in Hl; lia].
    cbn. f_equal. f_equal. lia.
  - destruct (Z.leb_spec r 0); [lia|].
    rewrite Z.min_l by lia. rewrite app_length.
    destruct (Z.ltb_spec (Z.of_nat (length bs + length rest)) (Z.of_nat (length bs))); [lia|].
    rewrite Z.ltb_irrefl. rewrite Nat2Z.id, firstn_app_exact, skipn_app_exact. reflexivity.
Qed.

Lemma read_n_app bs rest r al :
  (Z.of_nat (length bs) <= r)%Z ->
  read_n (length bs) (st (bs ++ rest) r al) = Ok bs (st rest (r - Z.of_nat (length bs)) al).
Proof. apply read_z_app. Qed.

Lemma read_int_put w z rest r al :
  (0 < w)%nat -> in_signed w z -> (Z.of_nat w <= r)%Z ->
  read_int w (st (put_bes w z ++ rest) r al) = Ok z (st rest (r - Z.of_nat w) al).
Proof.
  intros Hw Hz Hr. unfold read_int.
  rewrite <- (put_bes_length w z) at 1. rewrite read_n_app by (rewrite put_bes_length; lia). cbn [bind].
  rewrite get_put_bes, put_bes_length by assumption. reflexivity.
Qed.

Lemma lor_add_disjoint a b s : (a < 2 ^ s)%N -> N.lor a (b * 2 ^ s) = (a + b * 2 ^ s)%N.
Proof.
  intros Ha.
  assert (Hland : N.land a (b * 2 ^ s) = 0%N).
  { apply N.bits_inj_0. intros n. rewrite N.land_spec.
    destruct (N.lt_ge_cases n s) as [Hlt|Hge].
    - rewrite N.mul_pow2_bits_low by exact Hlt. apply andb_false_r.
    - replace a with (a mod 2 ^ s)%N by (apply N.mod_small; exact Ha).
      rewrite N.mod_pow2_bits_high by exact Hge. reflexivity. }
  rewrite <- N.lxor_lor by exact Hland. symmetry. apply N.add_nocarry_lxor. exact Hland.
Qed.

Lemma uvarint_enc_small fuel x : (x < 128)%N -> uvarint_enc fuel x = [x].
Proof.
  intros H. destruct fuel; cbn [uvarint_enc].
  - rewrite N.mod_small by lia. reflexivity.
  - destruct (N.ltb_spec x 128); [reflexivity|lia].
Qed.

Lemma uvarint_enc_length fuel : forall x, (1 <= length (uvarint_enc fuel x) <= S fuel)%nat.
Proof.
  induction fuel as [|f IH]; intros x; cbn [uvarint_enc].
  - cbn. lia.
  - destruct (N.ltb_spec x 128); cbn [length]; [lia|]. specialize (IH (x / 128)%N). lia.
Qed.

Lemma uvarint_enc_bytes fuel : forall x, bytes_ok (uvarint_enc fuel x).
Proof.
  induction fuel as [|f IH]; intros x; cbn [uvarint_enc].
  - constructor; [|constructor]. unfold is_byte. apply N.mod_lt. discriminate.
  - destruct (N.ltb_spec x 128).
    + constructor; [|constructor]. unfold is_byte. lia.
    + constructor; [|apply IH]. unfold is_byte.
      pose proof (N.mod_lt x 128 ltac:(discriminate)). lia.
Qed.

(* x = 128 q + m below the accumulator's weight P = 2^shift *)
Lemma low_septet q m acc P : (m < 128)%N -> (acc < P)%N -> (acc + (128 * q + m) * P < M64)%N ->
  (m * P < M64)%N /\ (acc + m * P < 128 * P)%N /\
  (acc + m * P + q * (128 * P) = acc + (128 * q + m) * P)%N.
Proof. intros Hm Hacc Hsum. split; [nia|]. split; [nia|ring]. Qed.

Lemma uvarint_loop_byte n acc shift b rest r al : (1 <= r)%Z ->
  uvarint_loop (S n) acc shift (st (b :: rest) r al) =
  if (b <? 128)%N then Ok (N.lor acc ((b * 2 ^ shift) mod M64)) (st rest (r - 1) al)
  else uvarint_loop n (N.lor acc (((b mod 128) * 2 ^ shift) mod M64)) (shift + 7) (st rest (r - 1) al).
Proof.
  intros Hr. cbn [uvarint_loop]. change (read_n 1 (st (b :: rest) r al)) with (read_n (length [b]) (st ([b] ++ rest) r al)).
  rewrite read_n_app by exact Hr. reflexivity.
Qed.

Lemma uvarint_loop_last n acc shift x rest r al :
  (x < 128)%N -> (acc < 2 ^ shift)%N -> (acc + x * 2 ^ shift < M64)%N -> (1 <= r)%Z ->
  uvarint_loop (S n) acc shift (st (x :: rest) r al) = Ok (acc + x * 2 ^ shift)%N (st rest (r - 1) al).
Proof.
  intros Hx Hacc Hsum Hr. rewrite uvarint_loop_byte by exact Hr. apply N.ltb_lt in Hx as Hx'.
  rewrite Hx', N.mod_small, lor_add_disjoint by (assumption || lia). reflexivity.
Qed.

(* [x] has at most 7*(fuel+1) bits; [acc] holds the [shift] bits read so far *)
Lemma uvarint_loop_enc fuel : forall x n acc shift rest r al,
  (x < 128 ^ N.of_nat (S fuel))%N ->
  (acc < 2 ^ shift)%N -> (acc + x * 2 ^ shift < M64)%N ->
  (length (uvarint_enc fuel x) <= n)%nat ->
  (Z.of_nat (length (uvarint_enc fuel x)) <= r)%Z ->
  uvarint_loop n acc shift (st (uvarint_enc fuel x ++ rest) r al) =
  Ok (acc + x * 2 ^ shift)%N (st rest (r - Z.of_nat (length (uvarint_enc fuel x))) al).
Proof.
  induction fuel as [|f IH]; intros x n acc shift rest r al Hx Hacc Hsum Hn Hr;
    destruct (N.ltb_spec x 128) as [Hlt|Hge].
  1, 3: rewrite uvarint_enc_small in * by exact Hlt; cbn [length app] in *;
    destruct n as [|n]; [lia|]; apply uvarint_loop_last; assumption || lia.
  - change (128 ^ N.of_nat 1)%N with 128%N in Hx. lia.
  - cbn [uvarint_enc] in *. apply N.ltb_ge in Hge. rewrite Hge in *. cbn [length app] in *.
    destruct n as [|n]; [lia|]. rewrite uvarint_loop_byte by lia.
    pose proof (N.mod_lt x 128 ltac:(discriminate)) as Hm.
    pose proof (N.div_mod x 128 ltac:(discriminate)) as Hxqm.
    set (q := (x / 128)%N) in *. set (m := (x mod 128)%N) in *.
    rewrite (Nat2N.inj_succ (S f)), N.pow_succ_r' in Hx. rewrite Hxqm in Hx, Hsum |- *.
    destruct (low_septet q m acc (2 ^ shift)%N Hm Hacc Hsum) as [H1 [H2 H3]].
    assert (HP : (2 ^ (shift + 7) = 128 * 2 ^ shift)%N)
      by (rewrite N.pow_add_r; change (2 ^ 7)%N with 128%N; lia).
    replace (m + 128 <? 128)%N with false by lia.
    replace ((m + 128) mod 128)%N with m
      by (change (m + 128)%N with (m + 1 * 128)%N; rewrite N.mod_add, N.mod_small by (assumption || discriminate); reflexivity).
    rewrite N.mod_small, lor_add_disjoint by assumption.
    assert (Hq : (q < 128 ^ N.of_nat (S f))%N) by (clear - Hx; lia).
    rewrite IH; [|exact Hq|rewrite HP; exact H2|rewrite HP, H3; exact Hsum|clear - Hn; lia|clear - Hr; lia].
    rewrite HP, H3. unfold st. do 2 f_equal. clear. lia.
Qed.

Lemma put_uvarint_length x : (1 <= length (put_uvarint x) <= 11)%nat.
Proof. unfold put_uvarint. apply uvarint_enc_length. Qed.

Lemma put_uvarint_bytes x : bytes_ok (put_uvarint x).
Proof. unfold put_uvarint. apply uvarint_enc_bytes. Qed.

Lemma read_uvarint_put x rest r al :
  (x < M64)%N -> (Z.of_nat (length (put_uvarint x)) <= r)%Z ->
  read_uvarint (st (put_uvarint x ++ rest) r al) =
  Ok x (st rest (r - Z.of_nat (length (put_uvarint x))) al).
Proof.
  intros Hx Hr. unfold read_uvarint. cbn [st d_remain].
  pose proof (put_uvarint_length x) as Hl.
  unfold put_uvarint in *. rewrite (N.mod_small x M64) in * by exact Hx.
  rewrite uvarint_loop_enc; try assumption.
  - rewrite N.mul_1_r. reflexivity.
  - eapply N.lt_trans; [exact Hx|]. reflexivity.
  - reflexivity.
  - rewrite N.mul_1_r. exact Hx.
  - destruct (Z.ltb_spec r 11); lia.
Qed.

Lemma s64_small x : (x < M63)%N -> s64 x = Z.of_N x.
Proof.
  unfold s64, M63, M64. intros H. rewrite N.mod_small by lia.
  destruct (N.ltb_spec x 9223372036854775808); lia.
Qed.

Lemma int_of_u64_small n : (Z.of_N n < ZM31)%Z -> int_of_u64 n = Z.of_N n.
Proof. intros H. apply s64_small. unfold M63, ZM31 in *. lia. Qed.

Lemma u64_small z : (0 <= z < ZM31)%Z -> u64 z = Z.to_N z.
Proof. intros H. unfold u64, ZM64, ZM31 in *. rewrite Z.mod_small by lia. reflexivity. Qed.

Lemma alloc_ok c n esize i r al :
  (0 <= n)%Z -> (Z.to_N n * esize <= max_alloc)%N -> (al + Z.to_N n * esize <= budget c)%N ->
  alloc c n esize (st i r al) = Ok tt (st i r (al + Z.to_N n * esize)).
Proof.
  intros Hn Hm Hb. unfold alloc, st. cbn [d_in d_remain d_alloc].
  destruct (Z.ltb_spec n 0); [lia|].
  destruct (N.ltb_spec max_alloc (Z.to_N n * esize)); [lia|].
  destruct (N.ltb_spec (budget c) (al + Z.to_N n * esize)); [lia|]. reflexivity.
Qed.

Lemma read_alloc_app c bs rest r al :
  (Z.of_nat (length bs) <= r)%Z -> (Z.of_nat (length bs) < ZM31)%Z ->
  (al + N.of_nat (length bs) <= budget c)%N ->
  read_alloc c (Z.of_nat (length bs)) (st (bs ++ rest) r al) =
  Ok bs (st rest (r - Z.of_nat (length bs)) (al + N.of_nat (length bs))).
Proof.
  intros Hr Hsmall Hb. unfold read_alloc. cbn [st d_remain].
  destruct (Z.ltb_spec (Z.of_nat (length bs)) 0); [lia|].
  destruct (Z.ltb_spec r (Z.of_nat (length bs))); [lia|]. cbn [orb].
  rewrite alloc_ok.
  - cbn [bind]. rewrite N.mul_1_r.
    replace (Z.to_N (Z.of_nat (length bs))) with (N.of_nat (length bs)) by lia.
    apply read_z_app. exact Hr.
  - lia.
  - unfold max_alloc, ZM31 in *. lia.
  - lia.
Qed.

Section Reads.
Variable c : cfg.

(* [p] on [bs] followed by anything, in a frame with room for [bs] and a budget with room for
   [da], returns [a], consumes exactly [bs] and allocates [da] *)
Definition reads {A} (p : dstate -> res A) (bs : list N) (a : A) (da : N) : Prop :=
  forall rest extra al, (0 <= extra)%Z -> (lenZ bs + extra < ZM31)%Z -> (al + da <= budget c)%N ->
    p (st (bs ++ rest) (lenZ bs + extra) al) = Ok a (st rest extra (al + da)).

(* the frame is an int32's worth *)
Lemma reads_bounded {A} (p : dstate -> res A) bs a d :
  ((lenZ bs < ZM31)%Z -> reads p bs a d) -> reads p bs a d.
Proof. intros H rest extra al He Hs. apply H; lia. Qed.

Lemma reads_ret {A} (a : A) : reads (Ok a) [] a 0.
Proof. intros rest extra al _ _ _. rewrite N.add_0_r. reflexivity. Qed.

Lemma reads_bind {A B} (p : dstate -> res A) (f : A -> dstate -> res B) b1 b2 a b d1 d2 :
  reads p b1 a d1 -> reads (f a) b2 b d2 -> reads (fun s => bind (p s) f) (b1 ++ b2) b (d1 + d2).
Proof.
  intros Hp Hf rest extra al He Hs Hb. pose proof (lenZ_nonneg b1). pose proof (lenZ_nonneg b2).
  rewrite lenZ_app in *. rewrite <- app_assoc, <- Z.add_assoc.
  cbv beta. rewrite Hp by lia. cbn [bind]. rewrite Hf by lia. rewrite N.add_assoc. reflexivity.
Qed.

Lemma reads_bind0 {A B} (p : dstate -> res A) (f : A -> dstate -> res B) b1 b2 a b d :
  reads p b1 a 0 -> reads (f a) b2 b d -> reads (fun s => bind (p s) f) (b1 ++ b2) b d.
Proof. intros Hp Hf. rewrite <- (N.add_0_l d). exact (reads_bind _ _ _ _ _ _ _ _ Hp Hf). Qed.

Lemma reads_bind_ret {A B} (p : dstate -> res A) (f : A -> dstate -> res B) bs a b d :
  reads p bs a d -> (forall s, f a s = Ok b s) -> reads (fun s => bind (p s) f) bs b d.
Proof. intros Hp Hf rest extra al He Hs Hb. cbv beta. rewrite Hp by assumption. apply Hf. Qed.

Lemma reads_ext {A} (p q : dstate -> res A) bs a d :
  (forall s, p s = q s) -> reads q bs a d -> reads p bs a d.
Proof. intros Hpq Hq rest extra al He Hs Hb. rewrite Hpq. apply Hq; assumption. Qed.

Lemma reads_room {A} (p q : dstate -> res A) bs a d :
  (forall s, (lenZ bs <= d_remain s)%Z -> p s = q s) -> reads q bs a d -> reads p bs a d.
Proof.
  intros Hpq Hq rest extra al He Hs Hb. rewrite Hpq; [apply Hq; assumption|]. cbn [st d_remain]. lia.
Qed.

Lemma reads_fuelled {A} (g : list N -> list N) (p : list N -> dstate -> res A) bs a d :
  (forall i, (length i < length (g i))%nat) ->
  (forall fuel, (length bs < length fuel)%nat -> reads (p fuel) bs a d) ->
  reads (fun s => p (g (d_in s)) s) bs a d.
Proof.
  intros Hg Hp rest extra al. cbv beta. cbn [st d_in]. apply Hp.
  specialize (Hg (bs ++ rest)). rewrite app_length in Hg. lia.
Qed.

Lemma reads_n bs : reads (read_n (length bs)) bs bs 0.
Proof.
  intros rest extra al He _ _. unfold lenZ. rewrite read_n_app, N.add_0_r by lia.
  do 2 f_equal. lia.
Qed.

Lemma reads_int w z : (0 < w)%nat -> in_signed w z -> reads (read_int w) (put_bes w z) z 0.
Proof.
  intros Hw Hz rest extra al He _ _. unfold lenZ. rewrite put_bes_length.
  rewrite read_int_put, N.add_0_r by (assumption || lia). do 2 f_equal. lia.
Qed.

Lemma reads_uvarint x : (x < M64)%N -> reads read_uvarint (put_uvarint x) x 0.
Proof.
  intros Hx rest extra al He _ _. unfold lenZ.
  rewrite read_uvarint_put, N.add_0_r by (assumption || lia). do 2 f_equal. lia.
Qed.

Lemma reads_read_alloc bs : reads (read_alloc c (Z.of_nat (length bs))) bs bs (N.of_nat (length bs)).
Proof.
  intros rest extra al He Hs Hb. unfold lenZ in *. rewrite read_alloc_app by lia.
  do 2 f_equal. lia.
Qed.

Lemma reads_alloc n esize : (Z.of_nat n < ZM31)%Z -> (esize <= 65536)%N ->
  reads (alloc c (Z.of_nat n) esize) [] tt (N.of_nat n * esize).
Proof.
  intros Hn He rest extra al _ _ Hb. replace (N.of_nat n) with (Z.to_N (Z.of_nat n)) in * by lia.
  rewrite alloc_ok; [reflexivity|lia| |exact Hb]. unfold max_alloc, ZM31 in *. nia.
Qed.
End Reads.
