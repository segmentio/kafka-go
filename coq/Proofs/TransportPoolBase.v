(* Proofs/TransportPoolBase.v — lookup / pop / close_all lemmas and TransportPool.pstep as a
   relation. *)
From Coq Require Import List ZArith Bool Arith.
From KV Require Import Lib.LTS Model.ConnMux Model.TransportPool Proofs.ConnMuxBase.
Import ListNotations.
Local Open Scope Z_scope.

Lemma cn_upd_conn : forall s c v c', cn (upd_conn s c v) c' = if Nat.eqb c c' then v else cn s c'.
Proof. reflexivity. Qed.
Lemma rq_upd_req : forall s r v r', rq (upd_req s r v) r' = if Nat.eqb r r' then v else rq s r'.
Proof. reflexivity. Qed.

Lemma mem_true : forall x l, mem x l = true -> In x l.
Proof.
  intros x l H. unfold mem in H. apply existsb_exists in H. destruct H as [y [I E]].
  apply Nat.eqb_eq in E. subst. exact I.
Qed.
Lemma mem_false : forall x l, mem x l = false -> ~ In x l.
Proof. exact existsb_eqb_false. Qed.

Lemma pop_group_spec : forall s g l c rest, pop_group s g l = Some (c, rest) ->
  In c l /\ (forall x, In x rest -> In x l) /\ (forall x, In x l -> x = c \/ In x rest) /\
  (NoDup l -> NoDup rest /\ ~ In c rest).
Proof.
  induction l as [|a l IH]; intros c rest H; simpl in H; [discriminate|].
  destruct (in_group s g a).
  - inversion H; subst. split; [left; reflexivity|]. split; [intros x X; right; exact X|].
    split; [intros x [E|X]; auto|].
    intros N. apply NoDup_cons_iff in N. exact (conj (proj2 N) (proj1 N)).
  - destruct (pop_group s g l) as [[c' l'']|] eqn:E; [|discriminate].
    inversion H; subst. destruct (IH c l'' eq_refl) as [A [B [C D]]].
    split; [right; exact A|]. split; [intros x [X|X]; [left; exact X|right; exact (B x X)]|].
    split; [intros x [X|X]; [right; left; exact X|destruct (C x X); [left|right; right]; assumption]|].
    intros N. apply NoDup_cons_iff in N. destruct N as [Na N]. destruct (D N) as [D1 D2].
    split; [constructor; [intros X; exact (Na (B a X))|exact D1]|].
    intros [X|X]; [subst; exact (Na A)|exact (D2 X)].
Qed.

Lemma remove_cid_spec : forall c l,
  ~ In c (remove_cid c l) /\ (forall x, In x (remove_cid c l) -> In x l) /\
  (NoDup l -> NoDup (remove_cid c l)).
Proof.
  induction l as [|a l [A [B C]]]; simpl.
  - repeat split; auto.
  - destruct (Nat.eqb a c) eqn:E.
    + repeat split; auto. intros N. inversion N; auto.
    + apply Nat.eqb_neq in E. repeat split.
      * intros [X|X]; [congruence|contradiction].
      * intros x [X|X]; auto.
      * intros N. inversion N; subst. constructor; auto.
Qed.

Lemma rq_close_all : forall l s r, rq (close_all s l) r = rq s r.
Proof. induction l as [|a l IH]; intros s r; [reflexivity|]. cbn [close_all]. rewrite IH. reflexivity. Qed.

Lemma nconn_close_all : forall l s, nconn (close_all s l) = nconn s.
Proof. induction l as [|a l IH]; intros s; [reflexivity|]. cbn [close_all]. rewrite IH. reflexivity. Qed.

Lemma close_all_cn : forall l s c,
  cn (close_all s l) c = cn s c \/ cn (close_all s l) c = set_cst (cn s c) CClosed.
Proof.
  induction l as [|a l IH]; intros s c; simpl; [left; reflexivity|].
  destruct (IH (upd_conn s a (set_cst (cn s a) CClosed)) c) as [H|H]; rewrite H, cn_upd_conn;
    destruct (Nat.eqb a c) eqn:E; try (apply Nat.eqb_eq in E; subst); auto.
Qed.

(* what a step can do to an existing connection: go on, use up an id without a request reaching
   the broker, send, or receive an answer to a request the broker saw *)
Inductive cmove (a b : conn) : Prop :=
| M_keep : idgen b = idgen a -> nex b = nex a -> bsent b = bsent a -> incl (cwire b) (cwire a) ->
    (forall r k, cst b = CSent r k -> cst a = CSent r k) -> (cst a = CClosed -> cst b = CClosed) ->
    cmove a b
| M_skip : idgen b = wrap32 (idgen a + 1) -> nex b = nex a + 1 -> bsent b = bsent a ->
    cwire b = cwire a -> (forall r k, cst b <> CSent r k) -> cst a <> CClosed -> cmove a b
| M_send r : idgen b = wrap32 (idgen a + 1) -> nex b = nex a + 1 ->
    bsent b = (nex a + 1, r) :: bsent a -> cwire b = cwire a -> cst b = CSent r (nex a + 1) ->
    cst a = CBusy r -> cmove a b
| M_answer k r : idgen b = idgen a -> nex b = nex a -> bsent b = bsent a -> cst b = cst a ->
    lookup_ord k (bsent a) = Some r -> cwire b = cwire a ++ [mkFrame (wrap32 k) r] -> cmove a b.

Ltac conn_fields :=
  cbn [cgrp cst idgen nex cwire bsent timer lastok set_cst set_timer set_lastok set_cwire
       bump_idgen add_bsent fresh_conn].

(* A sound over-approximation of [pstep] (only [pstep -> pstepR] is proved).  [P_conn] /
   [P_conn_resolve], for any label: c exists, stays in its loop if it was there, makes a [cmove],
   keeps PInv's "not closed => last exchange ok"; a value is resolved only after the id check. *)
Inductive pstepR (s : pstate) : plabel -> pstate -> Prop :=
| P_grab r g c rest : pop_group s g (idle s) = Some (c, rest) ->
    pstepR s (Grab r g)
      (upd_req (upd_conn (set_idle s rest) c (set_timer (cn s c) false)) r (mkReq (QHold c) None))
| P_connect r g :
    pstepR s (Connect r g)
      (upd_req (upd_conn (bump_nconn s) (nconn s) (fresh_conn g)) r (mkReq (QHold (nconn s)) None))
| P_connect_fail r : pstepR s (ConnectFail r) (upd_req s r (mkReq (QDone RErr) None))
| P_orphan r g :
    pstepR s (ConnectOrphan r g)
      (upd_req (release_or_close
                  (upd_conn (bump_nconn s) (nconn s) (set_cst (fresh_conn g) CResolved)) (nconn s))
               r (mkReq (QDone RErr) None))
| P_handoff r c : qph (rq s r) = QHold c -> cst (cn s c) = CLoop ->
    pstepR s (HandOff r)
      (upd_req (upd_conn s c (set_cst (cn s c) (CBusy r))) r (mkReq QAwait None))
| P_conn l c v : cn s c <> conn0 -> (cst (cn s c) = CLoop -> cst v = CLoop) -> cmove (cn s c) v ->
    ((cst (cn s c) <> CClosed -> lastok (cn s c) = true) -> cst v <> CClosed -> lastok v = true) ->
    pstepR s l (upd_conn s c v)
| P_conn_resolve l c r v x : cn s c <> conn0 -> (cst (cn s c) = CLoop -> cst v = CLoop) ->
    cmove (cn s c) v ->
    ((cst (cn s c) <> CClosed -> lastok (cn s c) = true) -> cst v <> CClosed -> lastok v = true) ->
    (forall f, x = RVal f ->
       exists k w, cst (cn s c) = CSent r k /\ cwire (cn s c) = f :: w /\ fid f = wrap32 k) ->
    pstepR s l (resolve (upd_conn s c v) r x)
| P_release c : cst (cn s c) = CResolved -> pstepR s (CRelease c) (release_or_close s c)
| P_timer_idle c : In c (idle s) ->
    pstepR s (IdleTimer c)
      (upd_conn (set_idle s (remove_cid c (idle s))) c (set_timer (set_cst (cn s c) CClosed) false))
| P_close_idle g :
    pstepR s (CloseIdle g)
      (close_all (add_gclosed (set_idle s (filter (fun c => negb (in_group s g c)) (idle s))) g)
                 (filter (in_group s g) (idle s)))
| P_await r v : prom (rq s r) = Some v ->
    pstepR s (Await r) (upd_req s r (mkReq (QDone v) None))
| P_cancel r : pstepR s (Cancel r) (upd_req s r (mkReq (QDone RErr) (prom (rq s r)))).

Lemma pstep_pstepR : forall s l s', pstep s l = Some s' -> pstepR s l s'.
Proof.
  intros s l s' H. destruct l; unfold pstep in H;
    repeat match type of H with
    | context [match ?x with _ => _ end] => destruct x eqn:?
    end; try discriminate; injection H as <-.
  all: try (constructor; auto; fail).
  all: try (apply P_timer_idle, mem_true; assumption).
  all: first [apply P_conn|apply P_conn_resolve]; conn_fields;
       try (intros E; rewrite E in *; discriminate); try congruence; auto;
       try (intros P _; apply P; congruence).
  all: try (eapply M_answer; conn_fields; eauto; fail).
  all: try (apply M_skip; conn_fields; congruence).
  all: try (apply M_keep; conn_fields; try congruence;
            try match goal with W : cwire _ = _ :: _ |- _ => rewrite W end;
            auto using incl_refl, incl_tl; fail).
  - apply (M_send _ _ r); conn_fields; auto.
  - intros f0 E. injection E as <-. exists k, l. repeat split; auto. apply Z.eqb_eq. assumption.
Qed.

Lemma release_or_close_cases : forall s c,
  release_or_close s c = upd_conn s c (set_cst (cn s c) CClosed) \/
  release_or_close s c =
    upd_conn (set_idle s (c :: idle s)) c (set_timer (set_cst (cn s c) CLoop) true).
Proof. intros s c. unfold release_or_close. destruct (mem (cgrp (cn s c)) (gclosed s)); auto. Qed.

Ltac pool_read :=
  unfold cn, rq in *;
  cbn [conns reqs upd_conn upd_req set_idle add_gclosed bump_nconn lookupG] in *.

(* one goal per outcome of [pstepR]; requesters and connection count read through [close_all] *)
Ltac pstep_cases H :=
  apply pstep_pstepR in H; destruct H; unfold resolve;
  try match goal with |- context [release_or_close ?s1 ?c1] =>
        destruct (release_or_close_cases s1 c1) as [-> | ->] end;
  rewrite ?rq_close_all, ?nconn_close_all.
