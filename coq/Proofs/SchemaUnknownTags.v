(* Proofs/SchemaUnknownTags.v — a decoder skips tagged fields it does not know:
   a flexible struct whose tag buffer carries, before and after the entries the schema
   knows, entries with ids the schema does not have, decodes to the same value as without
   them and consumes exactly the bytes of the struct. *)
From Coq Require Import List NArith ZArith Bool Lia.
From Coq Require Import ZifyN ZifyNat ZifyBool.
From KV Require Import Lib.Bits Lib.Bytes Lib.Varint Model.Schema
  Proofs.SchemaBase Proofs.SchemaDefs Proofs.SchemaPrims Proofs.SchemaEqns Proofs.SchemaRoundtrip Proofs.SchemaFrames.
Import ListNotations.

(* one tag-buffer entry: (tag id, payload bytes) *)
Definition unk := (Z * list N)%type.

Definition enc_unknown1 (p : unk) : list N :=
  put_uvarint (u64 (fst p)) ++ put_uvarint (N.of_nat (length (snd p))) ++ snd p.

Fixpoint enc_unknown (us : list unk) {struct us} : list N :=
  match us with [] => [] | p :: r => enc_unknown1 p ++ enc_unknown r end.

Fixpoint unknown_alloc (us : list unk) {struct us} : N :=
  match us with [] => 0%N | p :: r => (N.of_nat (length (snd p)) + unknown_alloc r)%N end.

(* ids the schema does not have, in the range of a Go int32 tag, payload made of bytes *)
Definition unknown_ok (tagged : list (Z * ty)) (us : list unk) : Prop :=
  Forall (fun p => ~ In (fst p) (map fst tagged) /\ (0 <= fst p < ZM31)%Z /\ bytes_ok (snd p)) us.

(* the tag buffer with unknown entries before and after the known ones *)
Definition tag_buffer (pre : list unk) (cnt : N) (bt : list N) (post : list unk) : list N :=
  put_uvarint (N.of_nat (length pre) + cnt + N.of_nat (length post)) ++
  enc_unknown pre ++ bt ++ enc_unknown post.

Lemma enc_unknown_bytes tagged us : unknown_ok tagged us -> bytes_ok (enc_unknown us).
Proof.
  induction us as [|p r IH]; intros H; [constructor|].
  apply Forall_cons_iff in H as [[_ [_ Hp]] Hr]. cbn [enc_unknown]. unfold enc_unknown1.
  repeat (apply Forall_app; split); try apply put_uvarint_bytes; [exact Hp|apply IH; exact Hr].
Qed.

Lemma enc_unknown_length us : (2 * length us <= length (enc_unknown us))%nat.
Proof.
  induction us as [|p r IH]; cbn [enc_unknown length]; [lia|].
  unfold enc_unknown1. rewrite !app_length.
  pose proof (put_uvarint_length (u64 (fst p))). pose proof (put_uvarint_length (N.of_nat (length (snd p)))). lia.
Qed.

Section Skip.
Variable c : cfg.

Lemma steps_unknown {X} (step : X -> dstate -> res X) (x : X) (ok : unk -> Prop) :
  (forall p, ok p -> reads c (step x) (enc_unknown1 p) x (N.of_nat (length (snd p)))) ->
  forall us, Forall ok us -> reads c (steps step (length us) x) (enc_unknown us) x (unknown_alloc us).
Proof.
  intros Hstep. induction us as [|p r IH]; intros Hok; [apply reads_ret|].
  apply Forall_cons_iff in Hok as [Hp Hr]. cbn [length steps enc_unknown unknown_alloc].
  eapply reads_bind; [apply Hstep; exact Hp|apply IH; exact Hr].
Qed.

Lemma skip_unknown D tagged ts us : unknown_ok tagged us ->
  reads c (steps (tag_step c D tagged) (length us) ts) (enc_unknown us) ts (unknown_alloc us).
Proof.
  apply steps_unknown. intros [id pl] [Hnot [Hid _]]. apply reads_tag_unknown; assumption.
Qed.

Lemma reads_steps_add {X} (step : X -> dstate -> res X) n1 n2 x x1 x2 b1 b2 d1 d2 :
  reads c (steps step n1 x) b1 x1 d1 -> reads c (steps step n2 x1) b2 x2 d2 ->
  reads c (steps step (n1 + n2) x) (b1 ++ b2) x2 (d1 + d2).
Proof.
  intros H1 H2. eapply reads_ext; [intros s; apply steps_add|]. eapply reads_bind; eassumption.
Qed.

Lemma reads_unknown_tags fields tagged fs ts br cnt bt pre post :
  schema_ok true (TStruct fields tagged) = true -> wfb true (TStruct fields tagged) (VStruct fs ts) = true ->
  enc_fields (encode true) fields fs = Some br ->
  enc_tags (encode true) tagged ts = Some (cnt, bt) ->
  unknown_ok tagged pre -> unknown_ok tagged post ->
  reads c (decode c true (TStruct fields tagged)) (br ++ tag_buffer pre cnt bt post)
    (canon (TStruct fields tagged) (VStruct fs ts))
    (alloc_fields alloc_of fields fs +
     (unknown_alloc pre + (alloc_tags alloc_of tagged ts + unknown_alloc post))).
Proof.
  intros Hok Hwf Ef Et Hpre Hpost.
  destruct (struct_parts_ok c true fields tagged Hok) as [HF [HT [Hids [Hnd _]]]].
  rewrite wfb_struct_eq in Hwf. apply andb_true_iff in Hwf as [Hwf Hwt]. rewrite canon_struct_eq.
  destruct (RT_fields c true fields HF fs br Hwf Ef) as [_ [_ Hdr]].
  destruct (RT_tags c true tagged Hnd tagged [] [] ts cnt bt eq_refl eq_refl HT Hids Hwt Et) as [_ [Hlt Hdt]].
  cbn [canon_tags app] in Hdt.
  pose proof (enc_unknown_length pre) as Hlpre. pose proof (enc_unknown_length post) as Hlpost.
  eapply reads_ext; [intros s; apply decode_struct_eq|].
  eapply reads_bind; [exact Hdr|]. cbv beta. cbn [negb]. unfold tag_buffer.
  set (total := (N.of_nat (length pre) + cnt + N.of_nat (length post))%N).
  apply reads_bounded. rewrite !lenZ_app. unfold lenZ. intros Hb.
  apply reads_bind0 with (a := total); [apply reads_uvarint; unfold total, M64, ZM31 in *; lia|].
  rewrite int_of_u64_small by (unfold total; lia).
  replace (Z.of_N total) with (Z.of_nat (length pre + (N.to_nat cnt + length post))) by (unfold total; lia).
  apply (reads_fuelled c (fun i => 0%N :: 0%N :: i)
           (fun fuel => tag_loop c (decode c true) tagged (canon_fields canon fields fs) fuel
                          (Z.of_nat (length pre + (N.to_nat cnt + length post))) (zeros_of tagged)));
    [intros i; cbn [length]; lia|].
  intros fuel Hf. rewrite !app_length in Hf. apply reads_counted_loop; [lia|].
  eapply reads_steps_add; [apply skip_unknown; exact Hpre|].
  eapply reads_steps_add; [exact Hdt|apply skip_unknown; exact Hpost].
Qed.

Theorem unknown_tags_skipped : forall fields tagged fs ts br cnt bt pre post,
  let t := TStruct fields tagged in
  let v := VStruct fs ts in
  schema_ok true t = true -> wfb true t v = true ->
  enc_fields (encode true) fields fs = Some br ->
  enc_tags (encode true) tagged ts = Some (cnt, bt) ->
  unknown_ok tagged pre -> unknown_ok tagged post ->
  let bs := br ++ tag_buffer pre cnt bt post in
  forall rest extra al, (0 <= extra)%Z -> (lenZ bs + extra < ZM31)%Z ->
    (al + alloc_of t v + unknown_alloc pre + unknown_alloc post <= budget c)%N ->
    decode c true t (st (bs ++ rest) (lenZ bs + extra) al)
    = Ok (canon t v) (st rest extra (al + alloc_of t v + unknown_alloc pre + unknown_alloc post)).
Proof.
  intros fields tagged fs ts br cnt bt pre post t v Hok Hwf Ef Et Hpre Hpost bs rest extra al He Hs Hb.
  pose proof (reads_unknown_tags fields tagged fs ts br cnt bt pre post Hok Hwf Ef Et Hpre Hpost rest extra al He Hs)
    as H.
  subst t v bs. rewrite alloc_struct_eq in *. rewrite H by lia. do 2 f_equal. lia.
Qed.
End Skip.

Lemma tag_buffer_plain : forall fields tagged fs ts br cnt bt,
  enc_fields (encode true) fields fs = Some br ->
  enc_tags (encode true) tagged ts = Some (cnt, bt) ->
  encode true (TStruct fields tagged) (VStruct fs ts) = Some (br ++ tag_buffer [] cnt bt []).
Proof.
  intros fields tagged fs ts br cnt bt Ef Et. rewrite encode_struct_eq, Ef, Et.
  unfold tag_buffer. cbn [length enc_unknown app N.of_nat]. rewrite N.add_0_l, N.add_0_r, app_nil_r. reflexivity.
Qed.

(* ---- the same through ReadResponse: tagged fields in the response HEADER's tag buffer (the
   client knows none) and unknown ones in the body's are skipped; the call returns the value
   the broker encoded and consumes exactly one frame ---- *)
Section Response.
Variable c : cfg.

Lemma reads_skip_step id pl : (0 <= id < ZM31)%Z ->
  reads c (skip_header_tags_step c)
    (put_uvarint (u64 id) ++ put_uvarint (N.of_nat (length pl)) ++ pl) tt (N.of_nat (length pl)).
Proof.
  intros Hid. unfold skip_header_tags_step. apply (reads_entry c (fun _ size s => _)); [exact Hid|]. intros Hl.
  rewrite int_of_u64_small, nat_N_Z by (rewrite nat_N_Z; exact Hl). apply (reads_body c (fun _ => tt)).
Qed.

Theorem response_unknown_tags : forall fields tagged fs ts br cnt bt hdr pre post corr rest,
  let t := TStruct fields tagged in
  let v := VStruct fs ts in
  schema_ok true t = true -> wfb true t v = true -> in_signed 4 corr ->
  enc_fields (encode true) fields fs = Some br ->
  enc_tags (encode true) tagged ts = Some (cnt, bt) ->
  unknown_ok [] hdr -> unknown_ok tagged pre -> unknown_ok tagged post ->
  let body := enc_i32 corr ++ (put_uvarint (N.of_nat (length hdr)) ++ enc_unknown hdr) ++
              br ++ tag_buffer pre cnt bt post in
  (Z.of_nat (length body) < ZM31)%Z ->
  (unknown_alloc hdr + alloc_of t v + unknown_alloc pre + unknown_alloc post <= budget c)%N ->
  read_response c true t (frame body ++ rest)
  = Ok (corr, canon t v) (st rest 0 (unknown_alloc hdr + alloc_of t v + unknown_alloc pre + unknown_alloc post)).
Proof.
  intros fields tagged fs ts br cnt bt hdr pre post corr rest t v Hok Hwf Hcorr Ef Et Hhdr Hpre Hpost body Hbl Hb.
  pose proof (reads_unknown_tags c fields tagged fs ts br cnt bt pre post Hok Hwf Ef Et Hpre Hpost) as Hdec.
  subst t v body. rewrite alloc_struct_eq in *.
  assert (Hh : reads c (read_header_tags c true)
                 (put_uvarint (N.of_nat (length hdr)) ++ enc_unknown hdr) tt (unknown_alloc hdr)).
  { unfold read_header_tags. pose proof (enc_unknown_length hdr) as Hlu.
    apply reads_bounded. rewrite lenZ_app. unfold lenZ. intros Hlen.
    apply reads_bind0 with (a := N.of_nat (length hdr)); [apply reads_uvarint; unfold M64, ZM31 in *; lia|].
    rewrite int_of_u64_small, nat_N_Z by lia.
    apply (reads_fuelled c (fun i => 0%N :: 0%N :: i) (fun fuel => header_tags c fuel (Z.of_nat (length hdr))));
      [intros i; cbn [length]; lia|].
    intros fuel Hf. eapply reads_ext; [intros s; apply header_tags_counted|].
    apply (reads_counted_loop c _ (fun _ => tt) _ _ tt tt); [lia|].
    apply (steps_unknown c (fun _ : unit => skip_header_tags_step c) tt) with (2 := Hhdr).
    intros [id pl] [_ [Hid _]]. apply reads_skip_step. exact Hid. }
  rewrite (read_response_framed c true _ corr _ _ _ _ _ rest Hcorr Hbl Hh Hdec) by lia.
  do 2 f_equal. lia.
Qed.
End Response.
