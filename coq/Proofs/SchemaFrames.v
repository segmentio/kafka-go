(* Proofs/SchemaFrames.v — request/response framing: what WriteResponse/WriteRequest
   emit is one well-formed frame, and ReadResponse on it returns the value and
   consumes exactly that frame. *)
From Coq Require Import List NArith ZArith Bool Lia.
From Coq Require Import ZifyN ZifyNat ZifyBool.
From KV Require Import Lib.Bits Lib.Bytes Lib.Varint Model.Schema
  Proofs.SchemaBase Proofs.SchemaDefs Proofs.SchemaPrims Proofs.SchemaEqns Proofs.SchemaRoundtrip.
Import ListNotations.

Lemma put_be_put_bes4 n : (Z.of_nat n < ZM31)%Z -> put_be 4 (N.of_nat n mod M32) = put_bes 4 (Z.of_nat n).
Proof.
  intros H. unfold put_bes. f_equal. change (pow256 4) with M32. unfold M32, ZM31 in *.
  rewrite N.mod_small by lia. rewrite Z.mod_small by lia. lia.
Qed.

Theorem frame_wellformed body : (Z.of_nat (length body) < ZM31)%Z ->
  frame body = put_bes 4 (Z.of_nat (length body)) ++ body /\
  length (frame body) = (4 + length body)%nat /\
  get_bes 4 (firstn 4 (frame body)) = Z.of_nat (length body).
Proof.
  intros H. unfold frame. rewrite put_be_put_bes4 by exact H.
  split; [reflexivity|split].
  - rewrite app_length, put_bes_length. reflexivity.
  - replace (firstn 4 (put_bes 4 (Z.of_nat (length body)) ++ body)) with (put_bes 4 (Z.of_nat (length body))).
    + apply get_put_bes; [lia|]. apply in_signed_4. unfold ZM31 in *. lia.
    + symmetry. rewrite <- (put_bes_length 4 (Z.of_nat (length body))) at 1. apply firstn_app_exact.
Qed.

Theorem write_response_shape flex t corr v f :
  write_response flex t corr v = Some f ->
  exists b, encode flex t v = Some b /\
    f = frame (enc_i32 corr ++ (if flex then put_uvarint 0 else []) ++ b).
Proof.
  unfold write_response. destruct (encode flex t v) as [b|]; [|discriminate].
  intros H. injection H as <-. exists b. split; reflexivity.
Qed.

Theorem write_request_shape flex t key ver corr client v f :
  write_request flex t key ver corr client v = Some f ->
  exists b, encode flex t v = Some b /\
    f = frame (enc_i16 key ++ enc_i16 ver ++ enc_i32 corr ++
               (if flex
                then (match client with [] => enc_i16 (-1) | _ => enc_i16 (lenZ client) ++ client end) ++ put_uvarint 0
                else enc_i16 (lenZ client) ++ client) ++ b).
Proof.
  unfold write_request. destruct (encode flex t v) as [b|]; [|discriminate].
  intros H. injection H as <-. exists b. split; reflexivity.
Qed.

Section Frames.
Variable c : cfg.

Lemma read_response_framed (flex : bool) t corr hb b v dh d rest :
  in_signed 4 corr ->
  (Z.of_nat (length (enc_i32 corr ++ hb ++ b)) < ZM31)%Z ->
  reads c (read_header_tags c flex) hb tt dh ->
  reads c (decode c flex t) b v d ->
  (dh + d <= budget c)%N ->
  read_response c flex t (frame (enc_i32 corr ++ hb ++ b) ++ rest) = Ok (corr, v) (st rest 0 (dh + d)).
Proof.
  intros Hcorr Hbl Hh Hd Hbud. destruct (frame_wellformed _ Hbl) as [-> _].
  unfold enc_i32 in *. rewrite !app_length, put_bes_length in *. rewrite <- !app_assoc.
  rewrite read_response_unfold. fold (st (put_bes 4 (Z.of_nat (4 + (length hb + length b))) ++ put_bes 4 corr ++ hb ++ b ++ rest) 4 0).
  rewrite read_int_put by (try (apply in_signed_4; unfold ZM31 in *); lia). cbn [bind st d_in d_alloc].
  fold (st (put_bes 4 corr ++ hb ++ b ++ rest) (Z.of_nat (4 + (length hb + length b))) 0).
  rewrite read_int_put by (try exact Hcorr; lia). cbn [bind].
  replace (Z.of_nat (4 + (length hb + length b)) - Z.of_nat 4)%Z with (lenZ hb + (lenZ b + 0))%Z by (unfold lenZ; lia).
  rewrite Hh by (unfold lenZ; lia). cbn [bind]. rewrite Hd by (unfold lenZ; lia). reflexivity.
Qed.

Lemma reads_header_tags_empty flex :
  reads c (read_header_tags c flex) (if flex then put_uvarint 0 else []) tt 0.
Proof.
  unfold read_header_tags. destruct flex; [|apply reads_ret].
  apply reads_bind_ret with (a := 0%N); [apply reads_uvarint|]; reflexivity.
Qed.

(* ReadResponse (WriteResponse v) = v, the rest of the stream untouched *)
Theorem response_roundtrip flex fields tagged corr v f rest :
  let t := TStruct fields tagged in
  schema_ok flex t = true -> wfb flex t v = true -> in_signed 4 corr ->
  write_response flex t corr v = Some f ->
  (Z.of_nat (length f) < ZM31)%Z ->
  (alloc_of t v <= budget c)%N ->
  read_response c flex t (f ++ rest) = Ok (corr, canon t v) (st rest 0 (alloc_of t v)).
Proof.
  intros t Hok Hwf Hcorr Hw Hlen Hb.
  apply write_response_shape in Hw as [b [Henc ->]].
  destruct (roundtrip c flex t Hok (andb_false_r _) v b Hwf Henc) as [_ [_ Hdec]].
  unfold frame in Hlen. rewrite app_length, put_be_length in Hlen.
  rewrite <- (N.add_0_l (alloc_of t v)).
  apply read_response_framed; [exact Hcorr|lia|apply reads_header_tags_empty|exact Hdec|exact Hb].
Qed.
End Frames.
