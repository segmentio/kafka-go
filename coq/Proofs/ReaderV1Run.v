(* Proofs/ReaderV1Run.v — C02, L1: a fetch response made of uncompressed v0 / v1 messages, cut at
   any legal byte position, is decoded by the model's Batch to exactly the wholly contained records
   at or after the fetch offset. *)
From Coq Require Import List NArith ZArith Bool Lia.
From Coq Require Import ZifyN ZifyNat ZifyBool.
From KV Require Import Lib.Bits Lib.Bytes Lib.Varint Model.MsgSetReader Model.ReaderModel Spec.FetchSpec
  Proofs.ReaderPrim Proofs.ReaderV2 Proofs.ReaderV1 Proofs.ReaderProofs.
Import ListNotations.
Open Scope Z_scope.

Definition item := (Z * record)%type.
Definition enc_item (it : item) : list N := mh (fst it) (snd it) ++ mb (snd it).
Definition stream (items : list item) : list N := flat_map enc_item items.
Definition item_ok (it : item) : Prop := msg_fits (fst it) (snd it).
Definition recs_of (items : list item) : list record := map snd items.

Lemma ztake_len_min j a : 0 <= j -> len (ztake j a) = Z.min j (len a).
Proof. intros H. unfold ztake, len. rewrite firstn_length. lia. Qed.

Lemma stream_cons tl it t : stream (it :: t) ++ tl = mh (fst it) (snd it) ++ mb (snd it) ++ stream t ++ tl.
Proof. unfold stream. cbn [flat_map]. unfold enc_item. rewrite <- !app_assoc. reflexivity. Qed.

Lemma stream_cons_len it t : len (stream (it :: t)) = len (mh (fst it) (snd it)) + len (mb (snd it)) + len (stream t).
Proof. change (stream (it :: t)) with (enc_item it ++ stream t). unfold enc_item. rewrite !len_app. reflexivity. Qed.

Lemma mh_pos (it : item) : item_ok it -> 0 < len (mh (fst it) (snd it)).
Proof. intros [Hf _]. rewrite mh_len by exact Hf. destruct (fst it =? 1); lia. Qed.

Lemma rev_nonempty' {A} (l : list A) : rev l <> [] -> l <> [].
Proof. intros H E. subst l. apply H. reflexivity. Qed.

Lemma last_off_app a : forall b d, b <> [] -> last_off (a ++ b) d = last_off b d.
Proof.
  induction a as [|x t IH]; intros b d Hb; [reflexivity|]. cbn [app last_off]. rewrite IH by exact Hb.
  destruct b; [contradiction|reflexivity].
Qed.

Lemma last_off_in : forall rs d, rs <> [] -> exists r, In r rs /\ r_off r = last_off rs d.
Proof.
  induction rs as [|x t IH]; intros d H; [contradiction|]. cbn [last_off].
  destruct t as [|y t'].
  - exists x. split; [left; reflexivity|reflexivity].
  - destruct (IH (r_off x) ltac:(discriminate)) as (r & Hr & He). exists r. split; [right; exact Hr|exact He].
Qed.

(* one call of readMessage with j bytes left, as a function of the messages alone.
   LCont: the messages are exhausted with j bytes of what follows them (the tail) left *)
Inductive lres := LDeliver (it : item) (items : list item) (j : Z) | LEnd | LCont (j : Z).

Fixpoint lg_read (mn : Z) (it : item) (items : list item) (j : Z) {struct items} : lres :=
  if j <? len (mb (snd it)) then LEnd
  else if r_off (snd it) <? mn then
    match items with
    | [] => LCont (j - len (mb (snd it)))
    | it2 :: t =>
      let j' := j - len (mb (snd it)) in
      if j' <? len (mh (fst it2) (snd it2)) then LEnd
      else lg_read mn it2 t (j' - len (mh (fst it2) (snd it2)))
    end
  else LDeliver it items (j - len (mb (snd it))).

Definition lg_bnd (mn : Z) (items : list item) (j : Z) : lres :=
  match items with
  | [] => LCont j
  | it :: t => if j <? len (mh (fst it) (snd it)) then LEnd else lg_read mn it t (j - len (mh (fst it) (snd it)))
  end.

(* the reader is inside message it, its header read, or at a boundary between messages *)
Inductive lpos := PIn (it : item) (items : list item) (j : Z) | PBnd (items : list item) (j : Z) (h : hdr).

Definition lstep (mn : Z) (P : lpos) : lres :=
  match P with PIn it items j => lg_read mn it items j | PBnd items j _ => lg_bnd mn items j end.
Definition pitems (P : lpos) : list item :=
  match P with PIn it items _ => it :: items | PBnd items _ _ => items end.
Definition pos_ok1 (P : lpos) : Prop :=
  Forall item_ok (pitems P) /\ 0 <= match P with PIn _ _ j => j | PBnd _ j _ => j end.

Lemma lg_read_split mn : forall items it j it' items' j',
  lg_read mn it items j = LDeliver it' items' j' ->
  exists sk, it :: items = sk ++ it' :: items' /\ Forall (fun x => r_off (snd x) < mn) sk /\ mn <= r_off (snd it').
Proof.
  induction items as [|it2 t IH]; intros it j it' items' j' H; cbn [lg_read] in H.
  - destruct (j <? _); [discriminate|]. destruct (r_off (snd it) <? mn) eqn:E; [discriminate|].
    injection H as <- <- _. exists []. split; [reflexivity|]. split; [constructor|lia].
  - destruct (j <? _); [discriminate|]. destruct (r_off (snd it) <? mn) eqn:E.
    + destruct (_ <? _) in H; [discriminate|]. destruct (IH _ _ _ _ _ H) as (sk & H1 & H2 & H3).
      exists (it :: sk). split; [cbn [app]; f_equal; exact H1|]. split; [constructor; [lia|exact H2]|exact H3].
    + injection H as <- <- _. exists []. split; [reflexivity|]. split; [constructor|lia].
Qed.

Lemma lstep_split mn P it' items' j' :
  lstep mn P = LDeliver it' items' j' ->
  exists sk, pitems P = sk ++ it' :: items' /\ Forall (fun x => r_off (snd x) < mn) sk /\ mn <= r_off (snd it').
Proof.
  destruct P as [it items j|[|it t] j h]; cbn [lstep pitems lg_bnd]; intros H;
    [exact (lg_read_split mn _ _ _ _ _ _ H)|discriminate|].
  destruct (_ <? _) in H; [discriminate|]. exact (lg_read_split mn _ _ _ _ _ _ H).
Qed.

(* the last message is never skipped when it is at or after mn: no continuation from inside
   readMessageV1 *)
Lemma lg_read_no_cont mn : forall items it j jc,
  mn <= last_off (recs_of (it :: items)) 0 -> lg_read mn it items j <> LCont jc.
Proof.
  induction items as [|it2 t IH]; intros it j jc Hl H; cbn [lg_read] in H.
  - destruct (j <? _); [discriminate|]. destruct (r_off (snd it) <? mn) eqn:E; [|discriminate].
    cbn [recs_of map last_off] in Hl. lia.
  - destruct (j <? _); [discriminate|]. destruct (r_off (snd it) <? mn) eqn:E; [|discriminate].
    destruct (_ <? _) in H; [discriminate|]. exact (IH it2 _ jc Hl H).
Qed.

Lemma lg_read_delivers mn : forall items it j n,
  len (mb (snd it)) + len (stream (firstn n items)) <= j ->
  (exists r, In r (snd it :: recs_of (firstn n items)) /\ mn <= r_off r) ->
  exists it' items' j', lg_read mn it items j = LDeliver it' items' j'.
Proof.
  induction items as [|it2 t IH]; intros it j n Hj (r & Hr & Hge).
  - rewrite firstn_nil in *. cbn [recs_of map stream flat_map] in *. change (len []) with 0 in Hj.
    cbn [lg_read]. replace (j <? len (mb (snd it))) with false by lia.
    destruct Hr as [<-|[]]. replace (r_off (snd it) <? mn) with false by lia. eauto.
  - cbn [lg_read]. pose proof (len_nonneg (stream (firstn n (it2 :: t)))).
    replace (j <? len (mb (snd it))) with false by lia.
    destruct (r_off (snd it) <? mn) eqn:E; [|eauto].
    destruct n as [|n]; cbn [firstn recs_of map] in Hr.
    { destruct Hr as [<-|[]]. lia. }
    destruct Hr as [<-|Hr]; [lia|].
    cbn [firstn] in Hj. rewrite stream_cons_len in Hj.
    pose proof (len_nonneg (stream (firstn n t))). pose proof (len_nonneg (mb (snd it2))).
    replace (j - len (mb (snd it)) <? len (mh (fst it2) (snd it2))) with false by lia.
    apply (IH it2 _ n); [lia|]. exists r. split; [exact Hr|exact Hge].
Qed.

(* what an unsuccessful readMessage leaves behind when the response is cut *)
Definition ended {A} (el : Z) (r : mres A) : Prop :=
  exists m', r = MErr EShort m' /\ msr_discard m' = None /\ m_lrem m' = 1 /\ m_elast m' = el.

Lemma ended_st {A} i c h el : @ended A el (MErr EShort (st i c h 1 el)).
Proof. exists (st i c h 1 el). split; [reflexivity|]. split; [apply discard_exact|]. auto. Qed.

Lemma ended_short {A} (c : M A) bs q q' h el :
  mshort c bs -> bs = q ++ q' -> q' <> [] -> ended el (c (st q 1 h 1 el)).
Proof. intros H He Hq. destruct (mshort_st c bs q q' 1 h 1 el H He Hq) as [i' ->]. apply ended_st. Qed.

Lemma ended_bind {A B} el (a : M A) (k : A -> M B) m : ended el (a m) -> ended el (bind a k m).
Proof. intros (m' & H1 & H2). exists m'. unfold bind. rewrite H1. auto. Qed.

Lemma codec_mhdr fmt r m : fmt = 0 \/ fmt = 1 -> codec_of (mhdr fmt r) m = MOk None m.
Proof. intros [-> | ->]; reflexivity. Qed.

Lemma read_header_legacy f ps bse fmt attr off ts size rest h lr el :
  lh_fits fmt attr off ts size ->
  read_header (S f) (stp ps bse (lh fmt attr off ts size ++ rest) 0 h lr el)
  = MOk tt (stp ps bse rest 1 (lhdr fmt attr off ts size) 1 el).
Proof.
  intros Hf. unfold read_header. rewrite top_stp. cbn [f_count Z.ltb Z.compare read_header_loop].
  unfold bind at 1. rewrite lheader_ok by exact Hf. rewrite top_stp. cbn [f_hdr f_count lhdr h_magic].
  destruct Hf as ([-> | ->] & _); reflexivity.
Qed.

Lemma read_header_msg f ps bse fmt r rest h lr el :
  msg_fits fmt r ->
  read_header (S f) (stp ps bse (mh fmt r ++ rest) 0 h lr el) = MOk tt (stp ps bse rest 1 (mhdr fmt r) 1 el).
Proof. intros Hf. exact (read_header_legacy f ps bse fmt 0 _ _ _ rest h lr el (mh_fits fmt r Hf)). Qed.

Lemma read_header_legacy_short f fmt attr off ts size q q' h el :
  lh_fits fmt attr off ts size -> lh fmt attr off ts size = q ++ q' -> q' <> [] ->
  ended el (read_header (S f) (st q 0 h 1 el)).
Proof.
  intros Hf He Hq. unfold read_header. rewrite top_st. cbn [f_count Z.ltb Z.compare read_header_loop].
  apply ended_bind. destruct (lheader_short fmt attr off ts size q q' 0 h 1 el Hf He Hq) as [i' ->]. apply ended_st.
Qed.

Definition vals (it : item) : Z * Z * list N * list N :=
  (r_off (snd it), r_ts (snd it), opt_bytes (r_key (snd it)), opt_bytes (r_val (snd it))).

Lemma msg_of_vals (r : record) : r_hdrs r = [] ->
  mkMsg (r_off r) (r_ts r) (opt_bytes (r_key r)) (opt_bytes (r_val r)) [] = msg_of r.
Proof. intros Hh. unfold msg_of. rewrite Hh. reflexivity. Qed.

Section Frames.
Variable decomp : Z -> list N -> option (list N).

Lemma read_v1_stp f mn ps bse i c h lr el : len i <> 0 ->
  read_v1 decomp (S f) mn (stp ps bse i c h lr el)
  = (read_header f ;;; v1_body decomp (read_v1 decomp f mn) mn) (stp ps bse i c h lr el).
Proof.
  intros Hl. cbn [read_v1 m_stack stp f_remain]. destruct (len i =? 0) eqn:E; [lia|reflexivity].
Qed.

Lemma read_v1_in f mn ps bse i c h lr el : len i <> 0 -> 0 < c ->
  read_v1 decomp (S f) mn (stp ps bse i c h lr el) = v1_body decomp (read_v1 decomp f mn) mn (stp ps bse i c h lr el).
Proof. intros Hl Hc. rewrite read_v1_stp by exact Hl. unfold bind. rewrite read_header_pending by exact Hc. reflexivity. Qed.

Lemma read_v1_pop f mn i c h el : len i = 0 -> ended el (read_v1 decomp (S (S f)) mn (st i c h 1 el)).
Proof.
  intros Hl. cbn [read_v1 m_stack st f_remain]. rewrite Hl. cbn [Z.eqb set_stack m_stack].
  eexists. split; [reflexivity|]. split; [reflexivity|]. auto.
Qed.

Lemma read_v1_msg f mn ps bse fmt r rest h el :
  msg_fits fmt r -> (1 <= f)%nat ->
  read_v1 decomp (S f) mn (stp ps bse (mh fmt r ++ mb r ++ rest) 0 h 1 el)
  = v1_body decomp (read_v1 decomp f mn) mn (stp ps bse (mb r ++ rest) 1 (mhdr fmt r) 1 el).
Proof.
  intros Hok Hf. destruct f as [|f]; [lia|]. rewrite read_v1_stp.
  - unfold bind. rewrite (read_header_msg f ps bse fmt r _ h 1 el Hok). reflexivity.
  - rewrite !len_app. pose proof (mh_pos (fmt, r) Hok). pose proof (len_nonneg (mb r)). pose proof (len_nonneg rest).
    cbn [fst snd] in *. lia.
Qed.

(* r carries the offset written on the wire, bse is the base offset of the frame; after the
   message the frame is popped if it is exhausted (unwindStack) *)
Lemma v1_body_msg again mn ps bse fmt r rest el :
  msg_fits fmt r -> small (r_off r + bse) ->
  v1_body decomp again mn (stp ps bse (mb r ++ rest) 1 (mhdr fmt r) 1 el) =
  let m' := mkMsr (unwind (mkFrame rest (len rest) bse 0 (mhdr fmt r) :: ps)) false 1 el in
  if r_off r + bse <? mn then again m'
  else MOk (r_off r + bse, r_ts r, opt_bytes (r_key r), opt_bytes (r_val r)) m'.
Proof.
  intros Hok Hsm. pose proof Hok as (Hfmt & _ & _ & Hk%fits29 & Hv%fits29 & Hts0 & _).
  unfold v1_body. rewrite top_stp. cbv zeta. cbn [f_hdr f_base].
  unfold bind at 1. rewrite codec_mhdr by exact Hfmt.
  change (h_first (mhdr fmt r)) with (r_off r). unfold small in Hsm. rewrite wrap64_small by lia.
  destruct (r_off r + bse <? mn); unfold mb; rewrite <- !app_assoc.
  - rewrite (step_stp _ _ (b32 (r_key r)) tt) by (apply mspec_lift, pspec_discard32, Hk).
    rewrite (step_stp _ _ (b32 (r_val r)) tt) by (apply mspec_lift, pspec_discard32, Hv).
    reflexivity.
  - rewrite (step_stp _ _ (b32 (r_key r)) (opt_bytes (r_key r))) by (apply mspec_lift, pspec_bytes32, Hk).
    rewrite (step_stp _ _ (b32 (r_val r)) (opt_bytes (r_val r))) by (apply mspec_lift, pspec_bytes32, Hv).
    cbn [app]. unfold bind at 1, mark_read, ret. cbn [m_stack stp f_count Z.eqb Pos.eqb f_hdr f_in f_remain f_base set_stack m_empty m_lrem m_elast].
    replace (if h_magic (mhdr fmt r) =? 2 then 0 else h_ts (mhdr fmt r)) with (r_ts r); [reflexivity|].
    unfold mhdr. cbn [h_magic h_ts]. destruct Hfmt as [E|E]; rewrite E; cbn [Z.eqb Pos.eqb]; [apply Hts0; exact E|reflexivity].
Qed.

Lemma msr_read_v1 fuel mn m0 ps bse i c h lr el :
  m_empty m0 = false -> read_header fuel m0 = MOk tt (stp ps bse i c h lr el) -> h_magic h = 0 \/ h_magic h = 1 ->
  msr_read decomp fuel mn m0
  = bind (read_v1 decomp fuel mn) (fun r => let '(o0, ts, k, v) := r in ret (mkMsg o0 ts k v [], -1))
         (stp ps bse i c h lr el).
Proof.
  intros Hemp Hhdr Hm. unfold msr_read. rewrite Hemp. unfold bind at 1. rewrite Hhdr.
  rewrite top_stp. cbn [f_hdr]. destruct Hm as [-> | ->]; reflexivity.
Qed.

End Frames.

Section Run.
Variable decomp : Z -> list N -> option (list N).
Variable tl : list N.    (* what follows the messages in the response (v2 batches, or nothing) *)

Definition in_st (it : item) (items : list item) (j el : Z) : msr :=
  st (ztake j (mb (snd it) ++ stream items ++ tl)) 1 (mhdr (fst it) (snd it)) 1 el.
Definition bnd_st (items : list item) (j : Z) (h : hdr) (el : Z) : msr :=
  st (ztake j (stream items ++ tl)) 0 h 1 el.
Definition pos_msr (P : lpos) (el : Z) : msr :=
  match P with PIn it items j => in_st it items j el | PBnd items j h => bnd_st items j h el end.

Lemma v1_body_spec again mn it items j el :
  item_ok it -> len (mb (snd it)) <= j ->
  v1_body decomp again mn (in_st it items j el) =
  if r_off (snd it) <? mn then again (bnd_st items (j - len (mb (snd it))) (mhdr (fst it) (snd it)) el)
  else MOk (vals it) (bnd_st items (j - len (mb (snd it))) (mhdr (fst it) (snd it)) el).
Proof.
  intros Hok Hj. unfold in_st. rewrite ztake_app_ge by exact Hj.
  rewrite (v1_body_msg decomp again mn [] 0 _ _ _ el Hok) by (rewrite Z.add_0_r; exact (proj1 (proj2 Hok))).
  cbv zeta. rewrite Z.add_0_r. reflexivity.
Qed.

Lemma v1_body_short again mn it items j el :
  item_ok it -> 0 <= j < len (mb (snd it)) ->
  ended el (v1_body decomp again mn (in_st it items j el)).
Proof.
  intros Hok Hj.
  unfold v1_body, in_st. rewrite top_st. cbv zeta. cbn [f_hdr].
  unfold bind at 1. rewrite codec_mhdr by exact (proj1 Hok).
  destruct (ztake_app_lt j (mb (snd it)) (stream items ++ tl) Hj) as (H1 & H2 & H3). rewrite H1.
  destruct (_ <? mn); (eapply ended_short; [|exact H2|exact H3]).
  - eapply mshort_skip, Hok.
  - eapply mshort_kv, Hok.
Qed.

Lemma read_header_bnd f it t j h el :
  item_ok it -> 0 <= j ->
  if j <? len (mh (fst it) (snd it)) then ended el (read_header (S f) (bnd_st (it :: t) j h el))
  else read_header (S f) (bnd_st (it :: t) j h el) = MOk tt (in_st it t (j - len (mh (fst it) (snd it))) el).
Proof.
  intros Hok Hj. unfold bnd_st. rewrite stream_cons. destruct (j <? _) eqn:Ej.
  - destruct (ztake_app_lt j (mh (fst it) (snd it)) (mb (snd it) ++ stream t ++ tl) ltac:(lia)) as (H1 & H2 & H3). rewrite H1.
    exact (read_header_legacy_short f _ _ _ _ _ _ _ h el (mh_fits _ _ Hok) H2 H3).
  - rewrite ztake_app_ge by lia. exact (read_header_msg f [] 0 _ _ _ h 1 el Hok).
Qed.

Lemma read_v1_bnd f mn it t j h el :
  item_ok it -> 0 <= j -> (1 <= f)%nat ->
  if j <? len (mh (fst it) (snd it)) then ended el (read_v1 decomp (S f) mn (bnd_st (it :: t) j h el))
  else read_v1 decomp (S f) mn (bnd_st (it :: t) j h el)
       = v1_body decomp (read_v1 decomp f mn) mn (in_st it t (j - len (mh (fst it) (snd it))) el).
Proof.
  intros Hok Hj Hf. destruct f as [|f]; [lia|].
  pose proof (mh_pos it Hok). pose proof (read_header_bnd f it t j h el Hok Hj) as Hh.
  destruct (Z.eq_dec j 0) as [-> | Hj0].
  - replace (0 <? len (mh (fst it) (snd it))) with true by lia. apply read_v1_pop. reflexivity.
  - unfold bnd_st at 1 2. rewrite (read_v1_stp decomp (S f) mn [] 0).
    2:{ rewrite ztake_len_min, stream_cons, !len_app by lia.
        pose proof (len_nonneg (mb (snd it))). pose proof (len_nonneg (stream t)). pose proof (len_nonneg tl). lia. }
    change (stp [] 0 (ztake j (stream (it :: t) ++ tl)) 0 h 1 el) with (bnd_st (it :: t) j h el).
    destruct (j <? len (mh (fst it) (snd it))); [apply ended_bind, Hh|]. unfold bind. rewrite Hh. reflexivity.
Qed.

Lemma v1_body_reads : forall items it j f mn el,
  Forall item_ok (it :: items) -> 0 <= j -> (length items + 2 <= f)%nat ->
  match lg_read mn it items j with
  | LDeliver it' items' j' =>
    v1_body decomp (read_v1 decomp f mn) mn (in_st it items j el)
    = MOk (vals it') (bnd_st items' j' (mhdr (fst it') (snd it')) el) /\ 0 <= j'
  | LEnd => ended el (v1_body decomp (read_v1 decomp f mn) mn (in_st it items j el))
  | LCont _ => True
  end.
Proof.
  induction items as [|it2 t IH]; intros it j f mn el Hall Hj Hf; apply Forall_cons_iff in Hall as [Hok Hall]; cbn [lg_read].
  all: destruct (j <? len (mb (snd it))) eqn:Ej; [apply v1_body_short; [exact Hok|lia]|].
  all: rewrite v1_body_spec by (try assumption; lia).
  all: destruct (r_off (snd it) <? mn); [|split; [reflexivity|lia]].
  - exact I.
  - cbv zeta. destruct f as [|f]; [lia|]. cbn [length] in Hf.
    pose proof (read_v1_bnd f mn it2 t (j - len (mb (snd it))) (mhdr (fst it) (snd it)) el (Forall_inv Hall) ltac:(lia) ltac:(lia)) as Hb.
    destruct (j - len (mb (snd it)) <? len (mh (fst it2) (snd it2))) eqn:Ej2; [exact Hb|].
    rewrite Hb. apply IH; [exact Hall|lia|lia].
Qed.

Lemma msr_in fuel mn it items j el m0 :
  Forall item_ok (it :: items) -> 0 <= j -> (length items + 3 <= fuel)%nat ->
  m_empty m0 = false -> read_header fuel m0 = MOk tt (in_st it items j el) ->
  match lg_read mn it items j with
  | LDeliver it' items' j' =>
    msr_read decomp fuel mn m0 = MOk (msg_of (snd it'), -1) (bnd_st items' j' (mhdr (fst it') (snd it')) el) /\ 0 <= j'
  | LEnd => ended el (msr_read decomp fuel mn m0)
  | LCont _ => True
  end.
Proof.
  intros Hall Hj Hf Hemp Hhdr. pose proof (Forall_inv Hall) as Hok.
  rewrite (msr_read_v1 decomp fuel mn m0 [] 0 _ _ _ _ _ Hemp Hhdr (proj1 Hok)).
  destruct fuel as [|[|f]]; try lia.
  destruct (Z.eq_dec j 0) as [-> | Hj0].
  - assert (E0 : lg_read mn it items 0 = LEnd).
    { destruct items; cbn [lg_read]; pose proof (mb_len_pos (snd it)); replace (0 <? len (mb (snd it))) with true by lia; reflexivity. }
    rewrite E0. apply ended_bind, read_v1_pop. reflexivity.
  - pose proof (v1_body_reads items it j (S f) mn el Hall Hj ltac:(lia)) as Hv.
    change (stp [] 0 (ztake j (mb (snd it) ++ stream items ++ tl)) 1 (mhdr (fst it) (snd it)) 1 el) with (in_st it items j el).
    assert (Hr : read_v1 decomp (S (S f)) mn (in_st it items j el)
                 = v1_body decomp (read_v1 decomp (S f) mn) mn (in_st it items j el)).
    { apply (read_v1_in decomp (S f) mn [] 0); [|lia]. rewrite ztake_len_min, !len_app by lia.
      pose proof (mb_len_pos (snd it)). pose proof (len_nonneg (stream items)). pose proof (len_nonneg tl). lia. }
    destruct (lg_read mn it items j) as [it' items' j'| |jc] eqn:El; [| |exact I].
    + destruct Hv as [Hv1 Hv2]. split; [|exact Hv2]. unfold bind. rewrite Hr, Hv1. unfold vals, ret.
      rewrite msg_of_vals; [reflexivity|].
      destruct (lg_read_split mn _ _ _ _ _ _ El) as (sk & E & _). rewrite E in Hall.
      apply Forall_app in Hall as [_ Hall]. apply (Forall_inv Hall).
    + apply ended_bind. rewrite Hr. exact Hv.
Qed.

Lemma msr_step fuel mn P el :
  pos_ok1 P -> (length (pitems P) + 2 <= fuel)%nat ->
  match lstep mn P with
  | LDeliver it' items' j' =>
    msr_read decomp fuel mn (pos_msr P el) = MOk (msg_of (snd it'), -1) (bnd_st items' j' (mhdr (fst it') (snd it')) el)
    /\ 0 <= j'
  | LEnd => ended el (msr_read decomp fuel mn (pos_msr P el))
  | LCont _ => True
  end.
Proof.
  intros [Hok Hj] Hf. destruct P as [it items j|[|it t] j h]; cbn [lstep pos_msr pitems lg_bnd length] in *.
  - apply (msr_in fuel mn it items j el _ Hok Hj); [lia|reflexivity|apply (read_header_pending fuel [] 0); lia].
  - exact I.
  - destruct fuel as [|f]; [lia|]. pose proof (read_header_bnd f it t j h el (Forall_inv Hok) Hj) as Hh.
    destruct (j <? len (mh (fst it) (snd it))) eqn:Ej.
    + unfold msr_read. cbn [m_empty bnd_st st]. apply ended_bind, Hh.
    + apply (msr_in (S f) mn it t _ el _ Hok); [lia|lia|reflexivity|exact Hh].
Qed.

End Run.

(* Batch.offset when a batch of v0 / v1 messages ends: emptyLastOffset is still -1 there, so the
   position can only rise to -1 + 1 = 0 *)
Definition lfinal (off : Z) : Z := if off <=? -1 then 0 else off.

Section Inv.
Variable o : Z.     (* the fetch offset = Conn.offset while the batch is open *)

(* the invariant of the run over the records [recs] still ahead, [tlrecs] behind them: offsets
   increase, the last of recs is at or after o, and every record at or after o is at or after
   the position *)
Definition linv (tlrecs recs : list record) (off : Z) : Prop :=
  0 <= o /\ o <= off /\ (exists lo, increasing lo (recs ++ tlrecs))
  /\ (recs <> [] -> o <= last_off recs 0)
  /\ (forall r, In r (recs ++ tlrecs) -> o <= r_off r -> off <= r_off r).

Lemma linv_last tlr recs off : linv tlr recs off -> recs <> [] -> off <= last_off recs 0.
Proof.
  intros (Ho0 & Ho & _ & Hl & HJ) Hne. specialize (Hl Hne).
  destruct (last_off_in recs 0 Hne) as (r & Hr & He). rewrite <- He in *. apply HJ; [apply in_or_app; left; exact Hr|assumption].
Qed.

Lemma lstep_no_cont tlr P off jc : linv tlr (recs_of (pitems P)) off -> pitems P <> [] -> lstep off P <> LCont jc.
Proof.
  intros HI Hne. assert (Hne' : recs_of (pitems P) <> []) by (destruct (pitems P); [contradiction|discriminate]).
  pose proof (linv_last _ _ off HI Hne') as Hl.
  destruct P as [it items j|[|it t] j h]; cbn [lstep pitems lg_bnd] in *.
  - exact (lg_read_no_cont off items it j jc Hl).
  - contradiction.
  - destruct (_ <? _); [discriminate|]. exact (lg_read_no_cont off t it _ jc Hl).
Qed.

Lemma linv_deliver tlr sk r recs' off :
  linv tlr (sk ++ r :: recs') off -> Forall (fun x => r_off x < off) sk -> off <= r_off r ->
  linv tlr recs' (r_off r + 1) /\ Forall (fun x => r_off x < o) sk.
Proof.
  intros (Ho0 & Ho & [lo Hi] & Hl & HJ) E2 E3.
  assert (Hinc' : increasing (r_off r + 1) (recs' ++ tlr)).
  { rewrite <- app_assoc in Hi. destruct (increasing_app_r sk _ _ Hi) as [lo2 H]. exact (proj2 H). }
  split.
  - split; [exact Ho0|]. split; [lia|]. split; [exists (r_off r + 1); exact Hinc'|]. split.
    + intros Hne. specialize (Hl ltac:(destruct sk; discriminate)).
      rewrite last_off_app in Hl by discriminate. destruct recs'; [contradiction|exact Hl].
    + intros x Hx _. apply (increasing_lb _ _ Hinc' x Hx).
  - apply Forall_forall. intros x Hx. pose proof (proj1 (Forall_forall _ _) E2 x Hx) as Hlt. cbn in Hlt.
    destruct (Z_lt_le_dec (r_off x) o) as [C|C]; [exact C|exfalso].
    specialize (HJ x ltac:(apply in_or_app; left; apply in_or_app; left; exact Hx) C). lia.
Qed.

End Inv.

Section Batch.
Variable decomp : Z -> list N -> option (list N).
Variable o : Z.

Definition LB (tl : list N) (P : lpos) (off : Z) : batch :=
  mkBatch (Some (pos_msr tl P (-1))) true o off (-1) None false.

Lemma batch_deliver f m m' off acc r :
  msr_read decomp (S f) off m = MOk (msg_of r, -1) m' -> m_lrem m' = 1 -> off <= r_off r -> o <= r_off r ->
  batch_run decomp (S f) (mkBatch (Some m) true o off (-1) None false) acc
  = batch_run decomp f (mkBatch (Some m') true o (r_off r + 1) (-1) None false) (msg_of r :: acc).
Proof.
  intros Hm Hl H1 H2. cbn [batch_run batch_read]. unfold batch_read1. cbn [b_err b_msgs b_off b_last b_late]. rewrite Hm.
  cbn [g_off msg_of set_b b_has_conn b_conn_off andb]. rewrite Hl. cbn [Z.eqb andb].
  replace (off <=? r_off r) with true by lia. replace (r_off r <? o) with false by lia. reflexivity.
Qed.

Lemma batch_ended f m off acc :
  ended (-1) (msr_read decomp (S f) off m) ->
  batch_run decomp (S f) (mkBatch (Some m) true o off (-1) None false) acc = Some (rev acc, EEOF, lfinal off).
Proof.
  intros (m' & Hm1 & Hm2 & Hm3 & Hm4). cbn [batch_run batch_read]. unfold batch_read1. cbn [b_err b_msgs b_off b_last b_late].
  rewrite Hm1, Hm2. cbn [negb andb]. rewrite Hm3, Hm4. cbn [Z.eqb andb set_b b_off]. unfold lfinal.
  destruct (off <=? -1); reflexivity.
Qed.

Lemma bnd_nil_done f j h off acc :
  batch_run decomp (S f) (LB [] (PBnd [] j h) off) acc = Some (rev acc, EEOF, lfinal off).
Proof.
  apply batch_ended. unfold msr_read, pos_msr, bnd_st. cbn [m_empty st stream flat_map app]. apply ended_bind.
  unfold read_header. rewrite top_st. cbn [f_count Z.ltb Z.compare read_header_loop]. apply ended_bind.
  unfold ztake. rewrite firstn_nil. apply ended_st.
Qed.

(* [run], the rest of a batch's run from position off with acc delivered, over the records [recs]
   with [tl] / [tlr] behind them: it stops inside (the response is cut), or goes on at the boundary
   in front of [tl] with fuel f' left, fuel <= f' + cnt.  ne = true: something was delivered. *)
Definition Res (ne : bool) (run : option (list msg * err * Z)) (fuel : nat) (acc : list msg)
           (recs : list record) (tl : list N) (tlr : list record) (off : Z) (cnt : nat) : Prop :=
  (exists ms x Rp Rs, run = Some (ms, EEOF, x) /\ (ne = true -> ms <> []) /\ recs = Rp ++ Rs
     /\ delivered o acc off Rp ms x /\ (forall r, In r (Rs ++ tlr) -> o <= r_off r -> x <= r_off r))
  \/ (exists j' h' off' acc' f',
       run = batch_run decomp f' (LB tl (PBnd [] j' h') off') acc'
       /\ (ne = true -> acc' <> []) /\ 0 <= j' /\ delivered o acc off recs (rev acc') off'
       /\ linv o tlr [] off' /\ (3 <= f')%nat /\ (fuel <= f' + cnt)%nat).

Lemma res_stop run fuel acc recs tl tlr off cnt :
  linv o tlr recs off -> run = Some (rev acc, EEOF, lfinal off) -> Res false run fuel acc recs tl tlr off cnt.
Proof.
  intros (Ho0 & Ho & _ & _ & HJ) Hrun. unfold lfinal in Hrun. replace (off <=? -1) with false in Hrun by lia.
  left. exists (rev acc), off, [], recs. split; [exact Hrun|]. split; [discriminate|]. split; [reflexivity|].
  split; [apply delivered_nil|exact HJ].
Qed.

Lemma res_nil fuel j h acc tl tlr off cnt :
  0 <= j -> linv o tlr [] off -> (3 <= fuel)%nat ->
  Res false (batch_run decomp fuel (LB tl (PBnd [] j h) off) acc) fuel acc [] tl tlr off cnt.
Proof.
  intros Hj HI Hf. right. exists j, h, off, acc, fuel.
  split; [reflexivity|]. split; [discriminate|]. split; [exact Hj|]. split; [apply delivered_nil|].
  split; [exact HI|]. lia.
Qed.

Lemma res_cons ne run f acc sk r recs' tl tlr off cnt cnt' :
  Forall (fun x => r_off x < o) sk -> o <= r_off r -> off <= r_off r -> (S cnt <= cnt')%nat ->
  Res false run f (msg_of r :: acc) recs' tl tlr (r_off r + 1) cnt ->
  Res ne run (S f) acc (sk ++ r :: recs') tl tlr off cnt'.
Proof.
  intros Hsk Hor Hoff Hc HR. pose proof (delivered_cons o acc off sk r Hsk Hor Hoff) as D1.
  assert (E : forall l, sk ++ r :: l = (sk ++ [r]) ++ l) by (intros l; rewrite <- app_assoc; reflexivity).
  destruct HR as [(ms & x & Rp & Rs & Hrun & _ & G1 & GD & G4)|(j' & h' & off' & acc' & f' & Hrun & _ & Hj & GD & G4 & G5 & G6)].
  - left. exists ms, x, (sk ++ r :: Rp), Rs. split; [exact Hrun|].
    split; [intros _; apply (delivered_nonempty o _ _ _ _ _ GD); discriminate|].
    split; [rewrite G1, <- app_assoc; reflexivity|]. split; [rewrite E; exact (delivered_app o _ _ _ _ _ _ _ _ D1 GD)|exact G4].
  - right. exists j', h', off', acc', f'. split; [exact Hrun|].
    split; [intros _; apply rev_nonempty', (delivered_nonempty o _ _ _ _ _ GD); discriminate|]. split; [exact Hj|].
    split; [rewrite E; exact (delivered_app o _ _ _ _ _ _ _ _ D1 GD)|]. split; [exact G4|]. split; [exact G5|lia].
Qed.

Lemma res_deliver ne f m m' off acc items sk it' items' tl tlr :
  items = sk ++ it' :: items' -> Forall (fun x => r_off (snd x) < off) sk -> off <= r_off (snd it') ->
  linv o tlr (recs_of items) off ->
  msr_read decomp (S f) off m = MOk (msg_of (snd it'), -1) m' -> m_lrem m' = 1 ->
  (linv o tlr (recs_of items') (r_off (snd it') + 1) ->
   Res false (batch_run decomp f (mkBatch (Some m') true o (r_off (snd it') + 1) (-1) None false) (msg_of (snd it') :: acc))
       f (msg_of (snd it') :: acc) (recs_of items') tl tlr (r_off (snd it') + 1) (length items')) ->
  Res ne (batch_run decomp (S f) (mkBatch (Some m) true o off (-1) None false) acc) (S f) acc (recs_of items) tl tlr off (length items).
Proof.
  intros -> E2 E3 HI Hm Hl Hrest. pose proof HI as (_ & Ho & _).
  unfold recs_of in HI |- *. rewrite map_app in HI |- *. cbn [map] in HI |- *.
  destruct (linv_deliver o tlr _ _ _ off HI (proj2 (Forall_map _ _ _) E2) E3) as [HI' Hsk].
  rewrite (batch_deliver f _ _ off acc (snd it') Hm Hl E3 ltac:(lia)).
  apply (res_cons ne _ f acc _ _ _ tl tlr off (length items')); [exact Hsk|lia|exact E3|rewrite app_length; cbn [length]; lia|].
  exact (Hrest HI').
Qed.

Lemma plain_res : forall fuel ne P off acc tl tlr,
  pos_ok1 P -> linv o tlr (recs_of (pitems P)) off -> (length (pitems P) + 3 <= fuel)%nat ->
  (ne = true -> exists it' items' j', lstep off P = LDeliver it' items' j') ->
  Res ne (batch_run decomp fuel (LB tl P off) acc) fuel acc (recs_of (pitems P)) tl tlr off (length (pitems P)).
Proof.
  induction fuel as [|f IH]; intros ne P off acc tl tlr Hok HI Hf Hne; [lia|].
  pose proof (msr_step decomp tl (S f) off P (-1) Hok ltac:(lia)) as Hs.
  destruct (lstep off P) as [it' items' j'| |jc] eqn:El.
  - destruct Hs as [Hs1 Hs2]. destruct (lstep_split off P it' items' j' El) as (sk & E1 & E2 & E3).
    apply (res_deliver ne f _ _ off acc _ sk it' items' tl tlr E1 E2 E3 HI Hs1 eq_refl). intros HI'.
    destruct Hok as [Hall _]. rewrite E1 in Hall, Hf. apply Forall_app in Hall as [_ [_ Hall]%Forall_cons_iff].
    rewrite app_length in Hf. cbn [length] in Hf.
    apply (IH false (PBnd items' j' (mhdr (fst it') (snd it')))); [split; assumption|exact HI'|cbn [pitems]; lia|discriminate].
  - destruct ne; [destruct (Hne eq_refl) as (? & ? & ? & H); discriminate|].
    apply res_stop; [exact HI|]. apply batch_ended, Hs.
  - destruct ne; [destruct (Hne eq_refl) as (? & ? & ? & H); discriminate|].
    destruct P as [it items j|[|it t] j h].
    + exfalso. exact (lstep_no_cont o tlr _ off jc HI ltac:(discriminate) El).
    + apply res_nil; [exact (proj2 Hok)|exact HI|cbn [pitems length] in Hf; lia].
    + exfalso. exact (lstep_no_cont o tlr _ off jc HI ltac:(discriminate) El).
Qed.

Lemma res_seq ne run fuel acc recs1 recs2 tl1 tl tlr1 tlr off c1 c2 :
  tlr1 = recs2 ++ tlr ->
  Res ne run fuel acc recs1 tl1 tlr1 off c1 ->
  (forall j' h' off' acc' f', 0 <= j' -> linv o tlr1 [] off' -> (3 <= f')%nat -> (fuel <= f' + c1)%nat ->
     Res false (batch_run decomp f' (LB tl1 (PBnd [] j' h') off') acc') f' acc' recs2 tl tlr off' c2) ->
  Res ne run fuel acc (recs1 ++ recs2) tl tlr off (c1 + c2).
Proof.
  intros -> [(ms & x & Rp & Rs & Hrun & Hne & G1 & GD & G4)|(j' & h' & off' & acc' & f' & Hrun & Hne & Hj & GD & G4 & G5 & G6)] Hrest.
  - left. exists ms, x, Rp, (Rs ++ recs2). split; [exact Hrun|]. split; [exact Hne|].
    split; [rewrite G1, <- app_assoc; reflexivity|]. split; [exact GD|].
    intros r Hr. apply G4. rewrite <- app_assoc in Hr. exact Hr.
  - destruct (Hrest j' h' off' acc' f' Hj G4 G5 G6) as
      [(ms & x & Rp & Rs & Hrun2 & _ & K1 & KD & K4)|(j2 & h2 & off2 & acc2 & f2 & Hrun2 & _ & Hj2 & KD & K4 & K5 & K6)].
    + left. exists ms, x, (recs1 ++ Rp), Rs. split; [rewrite Hrun; exact Hrun2|].
      split; [intros E; exact (delivered_nonempty o _ _ _ _ _ KD (Hne E))|].
      split; [rewrite K1, app_assoc; reflexivity|]. split; [exact (delivered_app o _ _ _ _ _ _ _ _ GD KD)|exact K4].
    + right. exists j2, h2, off2, acc2, f2. split; [rewrite Hrun; exact Hrun2|].
      split; [intros E; exact (rev_nonempty' _ (delivered_nonempty o _ _ _ _ _ KD (Hne E)))|]. split; [exact Hj2|].
      split; [exact (delivered_app o _ _ _ _ _ _ _ _ GD KD)|]. split; [exact K4|]. split; [exact K5|lia].
Qed.

End Batch.
