(* Proofs/ReaderWrapInner.v — C02, L1: reading the inner messages of a decompressed wrapper: a
   frame on top of the response's frame, offsets relative to the frame's base, never
   truncated; after the last inner message the frame is popped. *)
From Coq Require Import List NArith ZArith Bool Lia.
From Coq Require Import ZifyN ZifyNat ZifyBool.
From KV Require Import Lib.Bits Lib.Bytes Lib.Varint Model.MsgSetReader Model.ReaderModel Spec.FetchSpec
  Proofs.ReaderPrim Proofs.ReaderV2 Proofs.ReaderV1 Proofs.ReaderV1Run Proofs.ReaderWrap.
Import ListNotations.
Open Scope Z_scope.

(* with every byte of the remaining messages there, a call never ends short, and the bytes of
   what it leaves are there *)
Lemma lg_read_whole mn : forall items it j,
  len (mb (snd it)) + len (stream items) <= j ->
  match lg_read mn it items j with
  | LDeliver _ items' j' => len (stream items') <= j'
  | LEnd => False
  | LCont _ => True
  end.
Proof.
  induction items as [|it2 t IH]; intros it j Hj; cbn [lg_read].
  - change (len (stream [])) with 0 in Hj. replace (j <? len (mb (snd it))) with false by lia.
    destruct (r_off (snd it) <? mn); [exact I|change (len (stream [])) with 0; lia].
  - pose proof (len_nonneg (stream (it2 :: t))). replace (j <? len (mb (snd it))) with false by lia.
    destruct (r_off (snd it) <? mn); [|lia].
    rewrite stream_cons_len in Hj.
    pose proof (len_nonneg (stream t)). pose proof (len_nonneg (mb (snd it2))).
    cbv zeta. replace (j - len (mb (snd it)) <? len (mh (fst it2) (snd it2))) with false by lia. apply IH. lia.
Qed.

Lemma lg_bnd_whole mn items J :
  len (stream items) <= J ->
  match lg_bnd mn items J with
  | LDeliver _ items' j' => len (stream items') <= j'
  | LEnd => False
  | LCont _ => True
  end.
Proof.
  intros HJ. destruct items as [|it t]; [exact I|]. cbn [lg_bnd].
  rewrite stream_cons_len in HJ.
  pose proof (len_nonneg (stream t)). pose proof (len_nonneg (mb (snd it))).
  replace (J <? len (mh (fst it) (snd it))) with false by lia. apply lg_read_whole. lia.
Qed.

Section Inner.
Variable ps : list frame.      (* the frames below (the response's frame) *)
Variable bse : Z.              (* the base offset of the decompressed frame *)

Notation W := (wire bse).

Definition inner_ok (it : item) : Prop := item_ok (W it) /\ small (r_off (snd it)).

Definition iin (it : item) (items : list item) (el : Z) : msr :=
  stp ps bse (mb (snd it) ++ stream (map W items)) 1 (mhdr (fst it) (snd (W it))) 1 el.
Definition ibnd (items : list item) (h : hdr) (el : Z) : msr :=
  mkMsr (unwind (mkFrame (stream (map W items)) (len (stream (map W items))) bse 0 h :: ps)) false 1 el.

Lemma ibnd_nonempty items h el : items <> [] -> ibnd items h el = stp ps bse (stream (map W items)) 0 h 1 el.
Proof.
  intros Hne. destruct items as [|it t]; [contradiction|].
  unfold ibnd, stp. f_equal. cbn [map]. pose proof (stream_nonempty (W it) (map W t)).
  destruct ps as [|p0 ps']; [reflexivity|]. cbn [unwind f_count f_remain]. cbn [Z.eqb andb].
  replace (len (stream (W it :: map W t)) =? 0) with false by lia. reflexivity.
Qed.

Lemma mh_wire_len (it : item) : len (mh (fst it) (snd (W it))) = len (mh (fst it) (snd it)).
Proof.
  unfold mh. rewrite !len_app. unfold i64, i32, i8. rewrite !put_bes_len.
  destruct (fst it =? 1); rewrite ?len_app, ?put_bes_len; reflexivity.
Qed.

Lemma enc_item_wire_len (it : item) : len (enc_item (W it)) = len (enc_item it).
Proof.
  unfold enc_item. rewrite !len_app. change (fst (W it)) with (fst it). change (mb (snd (W it))) with (mb (snd it)).
  rewrite mh_wire_len. reflexivity.
Qed.

Lemma stream_map_len items : len (stream (map W items)) = len (stream items).
Proof.
  induction items as [|it t IH]; [reflexivity|]. cbn [map].
  change (stream (W it :: map W t)) with (enc_item (W it) ++ stream (map W t)).
  change (stream (it :: t)) with (enc_item it ++ stream t). rewrite !len_app, IH, enc_item_wire_len. reflexivity.
Qed.

Variable decomp : Z -> list N -> option (list N).

Lemma inner_body again mn it items el :
  inner_ok it ->
  v1_body decomp again mn (iin it items el) =
  if r_off (snd it) <? mn then again (ibnd items (mhdr (fst it) (snd (W it))) el)
  else MOk (vals it) (ibnd items (mhdr (fst it) (snd (W it))) el).
Proof.
  intros [Hok Hsm].
  assert (Hoff : r_off (snd (W it)) + bse = r_off (snd it)) by (cbn [snd wire shiftr r_off]; lia).
  unfold iin. rewrite (v1_body_msg decomp again mn ps bse (fst it) (snd (W it)) _ el Hok) by (rewrite Hoff; exact Hsm).
  cbv zeta. rewrite Hoff. reflexivity.
Qed.

Lemma read_v1_ibnd f mn it t h el :
  inner_ok it -> (1 <= f)%nat ->
  read_v1 decomp (S f) mn (ibnd (it :: t) h el) = v1_body decomp (read_v1 decomp f mn) mn (iin it t el).
Proof.
  intros [Hok _] Hf. rewrite ibnd_nonempty by discriminate. cbn [map].
  change (stream (W it :: map W t)) with (enc_item (W it) ++ stream (map W t)). unfold enc_item. rewrite <- app_assoc.
  apply (read_v1_msg decomp f mn ps bse _ _ _ h el Hok Hf).
Qed.

Lemma inner_reads : forall items it j f mn el,
  Forall inner_ok (it :: items) -> len (mb (snd it)) + len (stream items) <= j -> (length items + 2 <= f)%nat ->
  match lg_read mn it items j with
  | LDeliver it' items' _ =>
    v1_body decomp (read_v1 decomp f mn) mn (iin it items el) = MOk (vals it') (ibnd items' (mhdr (fst it') (snd (W it'))) el)
  | _ => True
  end.
Proof.
  induction items as [|it2 t IH]; intros it j f mn el Hall Hj Hf; apply Forall_cons_iff in Hall as [Hok Hall]; cbn [lg_read].
  - change (len (stream [])) with 0 in Hj. replace (j <? len (mb (snd it))) with false by lia.
    rewrite inner_body by exact Hok. destruct (r_off (snd it) <? mn); [exact I|reflexivity].
  - pose proof (len_nonneg (stream (it2 :: t))). replace (j <? len (mb (snd it))) with false by lia.
    rewrite inner_body by exact Hok. destruct (r_off (snd it) <? mn); [|reflexivity].
    rewrite stream_cons_len in Hj.
    pose proof (len_nonneg (stream t)). pose proof (len_nonneg (mb (snd it2))).
    cbv zeta. replace (j - len (mb (snd it)) <? len (mh (fst it2) (snd it2))) with false by lia.
    destruct f as [|f]; [lia|]. cbn [length] in Hf. rewrite (read_v1_ibnd f mn it2 t) by (try lia; apply (Forall_inv Hall)).
    apply IH; [exact Hall|lia|lia].
Qed.

Lemma inner_bnd_reads items J f mn h el :
  Forall inner_ok items -> len (stream items) <= J -> (length items + 2 <= f)%nat ->
  match lg_bnd mn items J with
  | LDeliver it' items' _ =>
    read_v1 decomp f mn (ibnd items h el) = MOk (vals it') (ibnd items' (mhdr (fst it') (snd (W it'))) el)
  | _ => True
  end.
Proof.
  intros Hall HJ Hf. destruct items as [|it t]; [exact I|]. cbn [lg_bnd].
  rewrite stream_cons_len in HJ.
  pose proof (len_nonneg (stream t)). pose proof (len_nonneg (mb (snd it))).
  replace (J <? len (mh (fst it) (snd it))) with false by lia.
  destruct f as [|f]; [lia|]. cbn [length] in Hf. rewrite (read_v1_ibnd f mn it t) by (try lia; apply (Forall_inv Hall)).
  apply inner_reads; [exact Hall|lia|lia].
Qed.

End Inner.
