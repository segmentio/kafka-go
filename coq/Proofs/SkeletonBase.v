(* Proofs/SkeletonBase.v — how the Skeleton* files show that the checker discriminates. *)
From Coq Require Import List Bool.
From KV Require Import Model.DRF Model.SkeletonAssumptions.

(* A fact list is rejected as soon as ONE assumption of the table fails on it.  Evaluating
   [calls_ok] itself would run every assumption standing before the failing one over all facts. *)
Lemma calls_ok_rejects : forall calls accs asms k a,
  nth_error asms k = Some a -> assumption_ok calls accs a = false -> calls_ok calls accs asms = false.
Proof.
  intros calls accs asms k a Hk Ha. unfold calls_ok.
  destruct (forallb (assumption_ok calls accs) asms) eqn:E; [|reflexivity].
  rewrite forallb_forall in E. rewrite <- Ha. symmetry. apply E. eapply nth_error_In; eassumption.
Qed.

(* [rejected_by k]: the k-th entry (from 0) of the family's table in Model/SkeletonAssumptions.v
   fails on these facts; the callers name its tag (W7, R10, ...).  The goal's head
   [<family>_assumptions_hold] is unfolded by hand: unification through it evaluates the lists. *)
Ltac rejected_by k :=
  lazymatch goal with |- ?holds _ _ = false => unfold holds end;
  eapply (calls_ok_rejects _ _ _ k); [reflexivity | vm_compute; reflexivity].
