(* Proofs/GroupReaderCover.v — C03_delivered_before_covered (StartOffset = FirstOffset): every OffsetCommit
   request covers only records already delivered to some member; its consequence at quiescence. *)
From Coq Require Import List NArith ZArith Bool Lia.
From Coq Require Import ZifyN ZifyNat ZifyBool.
From KV Require Import Lib.LTS Model.GroupReader Proofs.GroupReaderBase Proofs.GroupReaderCommit.
Import ListNotations.
Open Scope Z_scope.

Definition Dl (h : list event) (t : tp) (x : Z) : Prop := exists r v, In (EvDeliver r v t x) h.
Definition cov (h : list event) (t : tp) (c : Z) : Prop := forall x, 0 <= x < c -> Dl h t x.

Lemma Dl_mono : forall es h t x, Dl h t x -> Dl (es ++ h) t x.
Proof. intros es h t x [r [v H]]; exists r, v; apply in_or_app; right; exact H. Qed.
Lemma cov_mono : forall es h t c, cov h t c -> cov (es ++ h) t c.
Proof. intros es h t c H x Hx; apply Dl_mono; apply H; exact Hx. Qed.
Lemma cov_le : forall h t c c', cov h t c -> c' <= c -> cov h t c'.
Proof. intros h t c c' H L x Hx; apply H; lia. Qed.

Definition covq (h : list event) (_ : nat) (t : tp) (c : Z) : Prop := cov h t c.
Definition P_cov := P_sent covq.

Lemma covq_mono : forall es h r t c, covq h r t c -> covq (es ++ h) r t c.
Proof. intros es h r t c. apply cov_mono. Qed.

(* Everything below an offset about to be read, queued or handed out is covered (delivered to some
   member), or its predecessor is still on the way to this member.  rf: offsets fetched for the next
   subscription; rr: a reader at n: n-1 covered, queued in this version, or delivered to r; rq: a queued
   (v, t, o): likewise o-1, or FetchMessage's version filter will drop it ([doomed]); re: a waiting
   FetchMessage took its version snapshot no later than now. *)
Definition start_ok (h : list event) (t : tp) (st : Z) : Prop := st = FirstOffset \/ (0 <= st /\ cov h t st).

Definition rf (h : list event) (p : phase) : Prop :=
  match p with PFetched _ _ offs => forall t st, In (t, st) offs -> start_ok h t st | _ => True end.
Definition rr (h : list event) (r : nat) (ver : N) (q : list (N * tp * Z)) (rs : list preader) : Prop :=
  forall p, In p rs ->
    match pr_next p with
    | None => start_ok h (pr_tp p) (pr_start p)
    | Some n => cov h (pr_tp p) n \/ In (ver, pr_tp p, n - 1) q \/ In (EvDeliver r ver (pr_tp p) (n - 1)) h
    end.
Definition doomed (f : fetcher) (ver v : N) : Prop :=
  match f with FWait snap => (v < snap)%N | FIdle => (v < ver)%N end.
Definition rq (h : list event) (r : nat) (f : fetcher) (ver : N) (q : list (N * tp * Z)) : Prop :=
  forall q1 v t o q2, q = q1 ++ (v, t, o) :: q2 ->
    cov h t o \/ In (v, t, o - 1) q1 \/ In (EvDeliver r v t (o - 1)) h \/ doomed f ver v.
Definition re (f : fetcher) (ver : N) : Prop :=
  match f with FWait snap => (snap <= ver)%N | FIdle => True end.

Definition rinv (h : list event) (r : nat) (x : rstate) : Prop :=
  rf h (rd_phase x) /\ rr h r (rd_version x) (rd_msgs x) (rd_readers x) /\
  rq h r (rd_fetch x) (rd_version x) (rd_msgs x) /\ re (rd_fetch x) (rd_version x).

(* globally: committed offsets are covered, and deliveries are gap-free from 0 *)
Definition ginv (h : list event) (cm : amap) : Prop :=
  (forall t c, lookup cm t = Some c -> cov h t c) /\
  (forall r v t o, In (EvDeliver r v t o) h -> cov h t (o + 1)).

Definition inv_cov (s : state) : Prop :=
  ginv (st_hist s) (co_committed (st_co s)) /\ forall r, rinv (st_hist s) r (st_rd s r).

Lemma start_ok_mono : forall es h t st, start_ok h t st -> start_ok (es ++ h) t st.
Proof. intros es h t st [H|[H1 H2]]; [left; exact H|right; split; [exact H1|apply cov_mono; exact H2]]. Qed.
Lemma rf_mono : forall es h p, rf h p -> rf (es ++ h) p.
Proof. intros es h [] H; cbn in *; auto. intros t st Hin; apply start_ok_mono; eapply H; eauto. Qed.
Lemma rr_mono : forall es h r ver q rs, rr h r ver q rs -> rr (es ++ h) r ver q rs.
Proof.
  intros es h r ver q rs H p Hin. specialize (H p Hin). destruct (pr_next p).
  - destruct H as [H|[H|H]]; [left; apply cov_mono; exact H|right; left; exact H|right; right; apply in_or_app; right; exact H].
  - apply start_ok_mono; exact H.
Qed.
Lemma rq_mono : forall es h r f ver q, rq h r f ver q -> rq (es ++ h) r f ver q.
Proof.
  intros es h r f ver q H q1 v t o q2 E. destruct (H q1 v t o q2 E) as [A|[A|[A|A]]];
    [left; apply cov_mono; exact A|right; left; exact A|right; right; left; apply in_or_app; right; exact A|right; right; right; exact A].
Qed.
Lemma rinv_mono : forall es h r x, rinv h r x -> rinv (es ++ h) r x.
Proof.
  intros es h r x (C & D & E & F). repeat split; [apply rf_mono|apply rr_mono|apply rq_mono|]; assumption.
Qed.

Definition no_deliver (es : list event) : Prop :=
  forall e, In e es -> match e with EvDeliver _ _ _ _ => False | _ => True end.
Lemma ginv_mono : forall es h cm, no_deliver es -> ginv h cm -> ginv (es ++ h) cm.
Proof.
  intros es h cm Hn [A B]; split.
  - intros t c H; apply cov_mono; eapply A; eauto.
  - intros r v t o H. apply in_app_or in H. destruct H as [H|H].
    + specialize (Hn _ H). contradiction.
    + apply cov_mono; eapply B; eauto.
Qed.

Lemma find_reader_In : forall rs t p, find_reader rs t = Some p -> In p rs /\ pr_tp p = t.
Proof.
  induction rs as [|p0 rs IH]; intros t p H; cbn in H; [discriminate|].
  destruct (tp_eqb t (pr_tp p0)) eqn:E.
  - inversion H; subst. apply tp_eqb_eq in E. split; [left; reflexivity|symmetry; exact E].
  - destruct (IH _ _ H) as [A B]. split; [right; exact A|exact B].
Qed.
Lemma set_reader_In : forall rs t n p', In p' (set_reader rs t n) ->
  In p' rs \/ exists p, find_reader rs t = Some p /\ p' = {| pr_tp := pr_tp p; pr_start := pr_start p; pr_next := n |}.
Proof.
  induction rs as [|p0 rs IH]; intros t n p' H; cbn in H; [destruct H|].
  cbn [find_reader]. destruct (tp_eqb t (pr_tp p0)) eqn:E.
  - destruct H as [H|H]; [right; exists p0; split; [reflexivity|symmetry; exact H]|left; right; exact H].
  - destruct H as [H|H]; [left; left; exact H|].
    destruct (IH _ _ _ H) as [A|[p [A B]]]; [left; right; exact A|right; exists p; split; assumption].
Qed.

Lemma handed_Dl : forall h r m, handed h r m = true -> exists v, In (EvDeliver r v (fst m) (snd m)) h.
Proof.
  intros h r m H. unfold handed in H. apply existsb_exists in H. destruct H as [e [Hin He]].
  destruct e; cbn in He; try discriminate. apply andb_true_iff in He. destruct He as [He H3].
  apply andb_true_iff in He. destruct He as [H1 H2].
  apply Nat.eqb_eq in H1. apply tp_eqb_eq in H2. apply Z.eqb_eq in H3.
  exists v. rewrite H1, H2, H3. exact Hin.
Qed.

Ltac comp_tac :=
  first [ assumption | exact I | apply rf_mono; assumption | apply rr_mono; assumption | apply rq_mono; assumption
        | match goal with |- rr _ _ _ _ [] => intros ? [] end ].

Ltac rcbn := cbn [rd_commits rd_stash rd_phase rd_version rd_msgs rd_readers rd_fetch rd_waiting rd_loop
  with_group with_msgs with_fetch with_commits with_readers with_loop rf re].

Lemma rq_doomed_weaken : forall h r f f' ver ver' q,
  (forall v, doomed f ver v -> doomed f' ver' v) -> rq h r f ver q -> rq h r f' ver' q.
Proof.
  intros h r f f' ver ver' q Hd H q1 v t o q2 E. destruct (H q1 v t o q2 E) as [A|[A|[A|A]]]; auto.
Qed.

(* e is the delivery of the head of the queue, or the head is of an older version *)
Lemma rr_dequeue : forall h r ver v t z q rs e,
  rr h r ver ((v, t, z) :: q) rs -> (v = ver -> e = EvDeliver r ver t z) -> rr (e :: h) r ver q rs.
Proof.
  intros h r ver v t z q rs e H He p Hin. specialize (H p Hin).
  destruct (pr_next p); [|apply (start_ok_mono [_]); exact H]. destruct H as [A|[[A|A]|A]].
  - left; apply (cov_mono [_]); exact A.
  - inversion A; subst. right; right. left. apply He. reflexivity.
  - right; left; exact A.
  - right; right; right; exact A.
Qed.

Lemma rq_dequeue : forall h r f ver v t z q e,
  rq h r f ver ((v, t, z) :: q) -> e = EvDeliver r v t z \/ doomed FIdle ver v ->
  (forall v', doomed f ver v' -> doomed FIdle ver v') -> rq (e :: h) r FIdle ver q.
Proof.
  intros h r f ver v t z q e H He Hd q1 v' t' o q2 Eq.
  destruct (H ((v, t, z) :: q1) v' t' o q2) as [A|[[A|A]|[A|A]]].
  - rewrite Eq; reflexivity.
  - left; apply (cov_mono [_]); exact A.
  - inversion A; subst. destruct He as [->|Hv]; [right; right; left; left; reflexivity|right; right; right; exact Hv].
  - right; left; exact A.
  - right; right; left; right; exact A.
  - right; right; right; apply Hd; exact A.
Qed.

Lemma app_snoc_split : forall (A : Type) (q q1 q2 : list A) (a b : A),
  q ++ [a] = q1 ++ b :: q2 ->
  (q2 = [] /\ q = q1 /\ a = b) \/ (exists q2', q2 = q2' ++ [a] /\ q = q1 ++ b :: q2').
Proof.
  intros A q q1 q2 a b H. destruct (@exists_last _ (b :: q2)) as [q' [x Hx]]; [discriminate|].
  destruct q2 as [|y q2].
  - left. apply app_inj_tail in H. destruct H; auto.
  - right. destruct (@exists_last _ (y :: q2)) as [q2' [x' Hx']]; [discriminate|].
    rewrite Hx' in H. change (q1 ++ b :: q2' ++ [x']) with (q1 ++ (b :: q2') ++ [x']) in H.
    rewrite app_assoc in H. apply app_inj_tail in H. destruct H as [H1 H2]. subst x'.
    exists q2'. split; [exact Hx'|exact H1].
Qed.

Lemma resolve_nonneg : forall st hw, 0 <= st -> resolve_start st hw = st.
Proof.
  intros st hw H. unfold resolve_start, FirstOffset, LastOffset.
  destruct (st =? -2) eqn:E1; [lia|]. destruct (st =? -1) eqn:E2; [lia|].
  destruct (st <? 0) eqn:E3; [lia|reflexivity].
Qed.

Lemma ginv_commit : forall h cm cm' r mid g offs z b,
  ginv h cm -> all_Q covq h r offs -> (cm' = cm \/ cm' = store cm offs) ->
  ginv ([EvOffsetCommit r mid g offs z b] ++ h) cm'.
Proof.
  intros h cm cm' r mid g offs z b [A B] Hc Hcm. apply ginv_mono; [intros e [<-|[]]; exact I|]. split.
  - intros t c L. destruct Hcm as [->| ->]; [eapply A; eauto|].
    rewrite lookup_store in L. destruct (lookup offs t) eqn:Lo.
    + inversion L; subst. eapply Hc. apply lookup_In; exact Lo.
    + eapply A; eauto.
  - exact B.
Qed.

Lemma ginv_replies : forall h cm r ws w res es w' pre,
  replies r ws w res = (es, w') -> ginv (pre ++ h) cm -> ginv ((es ++ pre) ++ h) cm.
Proof.
  intros h cm r ws w res es w' pre Hrep H. rewrite <- app_assoc. apply ginv_mono; [|exact H].
  intros e He. destruct (replies_events _ _ _ _ _ _ Hrep e He) as [id [_ ->]]. exact I.
Qed.

Lemma step_cov : forall cfg s l s', cfg_start cfg = FirstOffset -> flow covq s ->
  inv_cov s -> step cfg s l = Some s' -> inv_cov s'.
Proof.
  intros cfg s l s' Hfirst Hfl [Hg Hr] H.
  destruct (step_kind _ _ _ _ H) as (r & x' & c' & hw' & es & K & Hrd & Hco & _ & Hh). clear H.
  assert (M : ginv (es ++ st_hist s) (co_committed c') /\ rinv (es ++ st_hist s) r x').
  { pose proof (Hr r) as Hx. pose proof (proj2 (Hfl r)) as Hs. revert Hx Hs K.
    (* the moved member x: Ic (rf), Id (rr), Ie (rq), Iw (re); Hs: its stash is covered *)
    generalize (st_rd s r) as x. intros x (Ic & Id & Ie & Iw) Hs K.
    destruct K;
      (split; [try (match goal with E : co_committed _ = co_committed _ |- _ => rewrite E end);
               try solve [apply ginv_mono; [each_event|exact Hg]]
              |unfold rinv; rcbn; refine (conj _ (conj _ (conj _ _))); try comp_tac]).
    - (* LOffsetFetch: rf *)
      intros t0 st Hin. apply in_map_iff in Hin. destruct Hin as [t1 [Heq Hin]]. inversion Heq; subst.
      apply start_ok_mono. unfold start_of_raw, fetch_raw. rewrite Hfirst.
      destruct (lookup (co_committed (st_co s)) t0) eqn:L; [|left; reflexivity].
      destruct (z <? 0) eqn:Zn; [left; reflexivity|right; split; [lia|apply (proj1 Hg); exact L]].
    - (* LSubscribe: rr, rq, re *)
      intros p Hin. apply in_map_iff in Hin. destruct Hin as [[t0 st] [<- Hin]]. cbn.
      rewrite H in Ic. eapply Ic; eauto.
    - eapply rq_doomed_weaken; [|exact Ie]. intros v; unfold doomed; destruct (rd_fetch x); lia.
    - unfold re in *. destruct (rd_fetch x); [exact I|lia].
    - destruct H as [(_ & -> & _)|(_ & -> & _)]; [exact Id|intros ? []].
    - (* LReaderInit: rr *)
      intros p' Hin. apply set_reader_In in Hin. destruct Hin as [Hin|[p0 [Hf ->]]].
      + exact (rr_mono [_] _ _ _ _ _ Id p' Hin).
      + rewrite H in Hf; inversion Hf; subst p0. cbn [pr_next pr_tp]. left.
        destruct (find_reader_In _ _ _ H) as [Hp _]. specialize (Id p Hp). rewrite H0 in Id.
        apply (cov_mono [_]). destruct Id as [St|[St Hc]].
        * rewrite St. cbn. intros y Hy; lia.
        * rewrite resolve_nonneg by exact St. exact Hc.
    - (* LReaderEmit: rr, rq *)
      intros p' Hin. apply set_reader_In in Hin. destruct Hin as [Hin|[p0 [Hf ->]]].
      + specialize (Id p' Hin). destruct (pr_next p'); [|exact Id].
        destruct Id as [A|[A|A]]; [left; exact A|right; left; apply in_or_app; left; exact A|right; right; exact A].
      + rewrite H in Hf; inversion Hf; subst p0. cbn [pr_next pr_tp]. right; left.
        destruct (find_reader_In _ _ _ H) as [_ Ht]. rewrite Ht. replace (n + 1 - 1) with n by lia.
        apply in_or_app; right; left; reflexivity.
    - intros q1 v t0 o q2 Eq. apply app_snoc_split in Eq. destruct Eq as [[-> [<- Heq]]|[q2' [-> Heq]]].
      + inversion Heq; subst. destruct (find_reader_In _ _ _ H) as [Hp Ht]. specialize (Id p Hp).
        rewrite H0, Ht in Id. destruct Id as [A|[A|A]]; auto.
      + exact (Ie q1 v t0 o q2' Heq).
    - eapply rq_doomed_weaken; [|exact Ie]. rewrite H. intros v Hd; exact Hd.
    - apply N.le_refl.
    - (* LFetchRecv: ginv, rr, rq *)
      destruct (snap <=? v)%N eqn:Es; [|apply ginv_mono; [each_event|exact Hg]].
      rewrite H in Ie, Iw. cbn in Iw.
      assert (Hc : cov (st_hist s) t o).
      { destruct (Ie [] v t o q H0) as [A|[[]|[A|A]]]; [exact A| |cbn in A; lia].
        replace o with (o - 1 + 1) by lia. eapply (proj2 Hg); exact A. }
      split.
      + intros t0 c L. apply cov_mono. eapply (proj1 Hg); exact L.
      + intros r0 v0 t0 o0 [Hin|Hin].
        * inversion Hin; subst. intros y Hy. destruct (Z.eq_dec y o0) as [->|Hne].
          -- exists r0, v0; left; reflexivity.
          -- apply (Dl_mono [_]). apply Hc; lia.
        * apply (cov_mono [_]). eapply (proj2 Hg); exact Hin.
    - rewrite H in Iw. cbn in Iw. rewrite H0 in Id. apply (rr_dequeue _ _ _ _ _ _ _ _ _ Id).
      destruct (snap <=? v)%N eqn:Es; [intros <-; reflexivity|intros ->; lia].
    - rewrite H in Ie, Iw. rewrite H0 in Ie. cbn in Iw.
      apply (rq_dequeue _ _ _ _ _ _ _ _ _ Ie); [|cbn; intros; lia].
      destruct (snap <=? v)%N eqn:Es; [left; reflexivity|right; cbn; lia].
    - rewrite H in Ie, Iw. cbn in Iw. eapply rq_doomed_weaken; [|exact Ie]. intros v Hd; cbn in *; lia.
    - apply ginv_mono; [|exact Hg]. destruct H0 as [(_ & _ & ->)|(_ & _ & ->)]; each_event.
    - (* the commit is over / retry: an OffsetCommit request carries the stash *)
      destruct H2 as [(-> & -> & _)|(mid & g & z & b & -> & -> & _)]; (eapply ginv_replies; [exact H0|]);
        [exact Hg|]. eapply ginv_commit; [exact Hg|exact Hs|destruct b; [right|left]; reflexivity].
    - eapply ginv_commit; [exact Hg|exact Hs|destruct b; [right|left]; reflexivity]. }
  destruct M as [Mg Mr]. unfold inv_cov. rewrite Hco, Hh. split; [exact Mg|].
  intros r0. rewrite Hrd. unfold upd.
  destruct (Nat.eqb r0 r) eqn:Er; [apply Nat.eqb_eq in Er; subst r0; exact Mr|apply rinv_mono, Hr].
Qed.


Lemma init_cov : inv_cov init.
Proof.
  split.
  - split; cbn; [intros; discriminate|intros; contradiction].
  - intros r. unfold rinv; cbn. refine (conj _ (conj _ (conj _ _))); try exact I.
    + intros ? [].
    + intros q1 v t o q2 Eq. destruct q1; discriminate Eq.
Qed.

Lemma cov_call : forall s r msgs es, ginv (st_hist s) (co_committed (st_co s)) ->
  forallb (handed (st_hist s) r) msgs = true -> all_Q covq (es ++ st_hist s) r (makeCommits msgs).
Proof.
  intros s r msgs es G E t c Hc. apply makeCommits_In in Hc. apply cov_mono.
  rewrite forallb_forall in E. specialize (E _ Hc). apply handed_Dl in E. destruct E as [v Hv]. cbn in Hv.
  replace c with (c - 1 + 1) by lia. eapply (proj2 G); exact Hv.
Qed.

Lemma cov_run : forall cfg ls s, cfg_start cfg = FirstOffset -> run (step cfg) init ls = Some s ->
  (flow covq s /\ hist_ok P_cov (st_hist s)) /\ inv_cov s.
Proof.
  intros cfg ls s Hf.
  apply (@inv_run _ _ (step cfg) (fun y => (flow covq y /\ hist_ok P_cov (st_hist y)) /\ inv_cov y)).
  - intros x l x' [Hx Hi] H. split; [|exact (step_cov cfg x l x' Hf (proj1 Hx) Hi H)].
    apply (flow_step covq covq_mono cfg x l x' Hx H).
    intros r msgs es _ E _. apply cov_call; [exact (proj1 Hi)|exact E].
  - split; [split; [|exact I]|exact init_cov]. intros r. split; [intros rq []|intros t c []].
Qed.


(* a partition reader whose member's queue is empty has had everything below its next offset
   delivered (to some member) *)
Theorem drained_reader_delivered : forall cfg ls s, cfg_start cfg = FirstOffset ->
  run (step cfg) init ls = Some s ->
  forall r p n, In p (rd_readers (st_rd s r)) -> pr_next p = Some n -> rd_msgs (st_rd s r) = [] ->
  forall x, 0 <= x < n -> exists r' v, In (EvDeliver r' v (pr_tp p) x) (st_hist s).
Proof.
  intros cfg ls s Hf Hrun r p n Hp Hn Hq x Hx.
  destruct (cov_run cfg ls s Hf Hrun) as [_ [[Ga Gb] Hr]].
  destruct (Hr r) as (_ & D & _ & _). specialize (D p Hp). rewrite Hn, Hq in D.
  destruct D as [A|[[]|A]].
  - exact (A x Hx).
  - specialize (Gb _ _ _ _ A). apply Gb. lia.
Qed.

Definition assignment_covers_existing (existing : list tp) (g : N) (h : list event) : Prop :=
  forall t, In t existing -> exists r mid asg, In (EvAssign r mid g asg) h /\ In t asg.

(* member r has drained partition t: its reader of t stands at the high watermark, nothing is
   queued *)
Definition drained (s : state) (r : nat) (t : tp) : Prop :=
  exists p, In p (rd_readers (st_rd s r)) /\ pr_tp p = t /\
            pr_next p = Some (hw_of (st_hw s) t) /\ rd_msgs (st_rd s r) = [].
