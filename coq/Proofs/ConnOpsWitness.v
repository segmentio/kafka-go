(* Proofs/ConnOpsWitness.v — the concrete responses of the regression instances of C11 / C17 (an
   error code in a produce or fetch response followed by another exchange, a fetch with
   highWaterMark = offset, cut frames) and what they are checked with: a boolean [wt], the complete
   fetch exchange, a sweep for the kind of error under a cut.  116 = "t" is the topic of [fresh]. *)
From Coq Require Import List NArith ZArith Bool Lia.
From KV Require Import Lib.Bits Lib.Bytes Model.Legacy Model.ConnOps.
From KV Require Import Proofs.ConnOpsBase Proofs.ConnOpsCodec Proofs.ConnOpsProofs.
Import ListNotations.
Open Scope Z_scope.

(* well-formedness of a concrete wire value by evaluation: [wt] itself does not evaluate (its
   leaves are inequalities in Prop under a Forall), its boolean twin does *)
Fixpoint wtb (t : ty) (v : wval) {struct t} : bool :=
  match t, v with
  | TI8, WZ z => in_signedb 1 z
  | TI16, WZ z => in_signedb 2 z
  | TI32, WZ z => in_signedb 4 z
  | TI64, WZ z => in_signedb 8 z
  | TBool, WZ z => (z =? 0) || (z =? 1)
  | TStr, WS None | TByt, WS None | TArr _, WL None | TUnit, WU => true
  | TStr, WS (Some b) => bytes_okb b && (Z.of_nat (length b) <? 32768)
  | TByt, WS (Some b) => bytes_okb b && (Z.of_nat (length b) <? ZM31)
  | TArr t', WL (Some l) => forallb (wtb t') l && (Z.of_nat (length l) <? ZM31)
  | TPair a b, WP x y => wtb a x && wtb b y
  | _, _ => false
  end.

Lemma in_signedb_sound w z : in_signedb w z = true -> in_signed w z.
Proof. unfold in_signedb, in_signed. lia. Qed.
Lemma bytes_okb_sound b : bytes_okb b = true -> bytes_ok b.
Proof.
  intros H. apply Forall_forall. intros x Hx.
  apply (proj1 (forallb_forall _ _) H) in Hx. unfold is_byteb in Hx. unfold is_byte. lia.
Qed.

Lemma wtb_sound t : forall v, wtb t v = true -> wt t v.
Proof.
  induction t; intros [z|[b|]|[l|]|x y|]; cbn [wtb wt]; try discriminate; try exact (fun _ => I);
    try apply in_signedb_sound; intros H.
  - lia.
  - apply andb_true_iff in H as [Hb Hl]. split; [apply bytes_okb_sound; exact Hb|lia].
  - apply andb_true_iff in H as [Hb Hl]. split; [apply bytes_okb_sound; exact Hb|lia].
  - apply andb_true_iff in H as [Ha Hl]. split; [|lia].
    apply Forall_forall. intros x Hx. apply IHt. exact (proj1 (forallb_forall _ _) Ha x Hx).
  - apply andb_true_iff in H as [Hx Hy]. split; [apply IHt1; exact Hx|apply IHt2; exact Hy].
Qed.

Lemma well_formed_by_eval a v w :
  wtb (resp_ty a v) w = true -> single_topic_partition a v w -> well_formed a v w.
Proof. intros H S. split; [apply wtb_sound; exact H|exact S]. Qed.

Definition topic_t : wval := WS (Some [116%N]).
Definition one_tp (part : wval) : wval := WL (Some [WP topic_t (WL (Some [part]))]).

Definition hb : op := mkOp AHeartbeat 0 0.
Definition hb_frame (id : Z) : list N := frame id (enc TI16 (WZ 0)).

(* produce: partition error code 6 *)
Definition w_produce_v2 : wval :=
  WP (one_tp (WP (WZ 0) (WP (WZ 6) (WP (WZ 5) (WZ 7))))) (WZ 0).
Definition w_produce_v7 : wval :=
  WP (one_tp (WP (WZ 0) (WP (WZ 6) (WP (WZ 5) (WP (WZ 7) (WZ 0)))))) (WZ 0).
Definition w_produce_v2_thr6 : wval :=
  WP (one_tp (WP (WZ 0) (WP (WZ 6) (WP (WZ 5) (WZ 7))))) (WZ 6).
(* fetch v5 / v10: partition error code 1, no aborted transactions, empty message set;
   v10 top-level error 6; v2 partition error with a non-empty (opaque) message set *)
Definition fetch_part_v5 (e : Z) : wval :=
  WP (WZ 0) (WP (WZ e) (WP (WZ 10) (WP (WZ 10) (WP (WZ 0) (WP (WL (Some [])) (WS (Some []))))))).
Definition w_fetch_v5 : wval := WP (WZ 0) (one_tp (fetch_part_v5 1)).
Definition w_fetch_v10_part : wval := WP (WZ 0) (WP (WZ 0) (WP (WZ 0) (one_tp (fetch_part_v5 1)))).
Definition w_fetch_v10_top : wval := WP (WZ 0) (WP (WZ 6) (WP (WZ 0) (one_tp (fetch_part_v5 0)))).
Definition w_fetch_v2 : wval :=
  WP (WZ 0) (one_tp (WP (WZ 0) (WP (WZ 1) (WP (WZ 10) (WS (Some [1%N; 2%N; 3%N])))))).

(* after the Kafka error the next operation succeeds and nothing is left in the stream *)
Definition then_next_ok (a : api) (v : N) (off : Z) (w : wval) (code : Z) : Prop :=
  conn_run (fresh [116%N]) [mkOp a v off; hb] (frame 1 (enc (resp_ty a v) w) ++ hb_frame 2)
  = (mkConn false 2 [116%N] (match a with AFetch => off | _ => -1 end),
     [RErr (EKafka code); ROk (VZ 0)], []).

(* fetch with highWaterMark = offset and a non-empty message set: the set is discarded *)
Definition msgset_v1 : list N :=
  put_bes 8 7 ++ put_bes 4 24 ++ put_bes 4 0 ++ [1%N; 0%N] ++ put_bes 8 1000
  ++ put_bes 4 (-1) ++ put_bes 4 2 ++ [97%N; 98%N].
Definition w_fetch_ok_v2 : wval :=
  WP (WZ 0) (one_tp (WP (WZ 0) (WP (WZ 0) (WP (WZ 100) (WS (Some msgset_v1)))))).
Lemma fetch_full_ok :
  conn_do (fresh [116%N]) (mkOp AFetch 2 7) (frame 1 (enc (resp_ty AFetch 2) w_fetch_ok_v2))
  = (mkConn false 1 [116%N] 7, ROk (VL [VZ 0; VZ 100]), []).
Proof. vm_compute. reflexivity. Qed.

Definition w_apiversions : wval := WP (WZ 0) (WL (Some [WP (WZ 0) (WP (WZ 0) (WZ 7))])).

(* the cuts at which only the kind of the error is in question (io.EOF, not
   io.ErrUnexpectedEOF) are few and are swept by evaluation *)
Lemma eof_cuts_by_sweep st o f lo n :
  forallb (fun k => match conn_do st o (firstn k f) with
                    | (st', RErr EEOF, _) => closed st'
                    | _ => false
                    end) (seq lo n) = true ->
  forall k, (lo <= k < lo + n)%nat ->
  exists st' s', conn_do st o (firstn k f) = (st', RErr EEOF, s') /\ closed st' = true.
Proof.
  intros H k Hk. apply in_seq in Hk. apply (proj1 (forallb_forall _ _) H) in Hk.
  destruct (conn_do st o (firstn k f)) as [[st' [x|[]]] s']; try discriminate Hk. eauto.
Qed.
