(* Proofs/LifecycleSafe.v — the Close calls by rank (statements executed) and what each rank has established *)
From Coq Require Import List Arith Bool Lia.
From KV Require Import Lib.LTS Model.Lifecycle Proofs.LifecycleBase.
Import ListNotations.

Definition crank (p : clphase) : nat :=
  match p with CLMark => 0 | CLCancel _ => 1 | CLStop _ => 2 | CLJoin _ => 3 | CLDone _ => 4 | CLMsgs _ => 5 | CLRet => 6 end.
Definition cl_at (n : nat) (s : state) : Prop := exists k p, nth_error (closers s) k = Some p /\ n <= crank p.

Lemma cl_at_mono : forall n m s, m <= n -> cl_at n s -> cl_at m s.
Proof. intros n m s H (k & p & H1 & H2). exists k, p. split; auto. lia. Qed.

(* what a Close call has established after its n-th statement: closed set, r.cancel(), r.stop(),
   r.join.Wait(), <-r.done *)
Definition holds_at (n : nat) (s : state) : Prop :=
  match n with
  | 1 => closed s = true | 2 => curcan s = true | 3 => stctx s = true | 4 => all_exited s = true
  | 5 => c_group (cfg s) = true -> rdone s = true | _ => True
  end.
Definition inv1 (s : state) : Prop := forall n, 1 <= n -> cl_at n s -> holds_at n s.
Lemma inv1_at : forall s m n, inv1 s -> cl_at m s -> 1 <= n <= m -> holds_at n s.
Proof. intros s m n I C H. apply I; [lia|]. apply (cl_at_mono m); [lia|exact C]. Qed.

Lemma cl_at_same_closers : forall n s s', closers s' = closers s -> cl_at n s' -> cl_at n s.
Proof. intros n s s' E (k & p & H1 & H2). exists k, p. rewrite <- E. auto. Qed.

Lemma all_exited_nth : forall s i f, all_exited s = true -> nth_error (fetchers s) i = Some f -> f_ph f = FExit.
Proof.
  intros s i f H E. unfold all_exited in H. pose proof (forallb_nth _ _ _ _ _ H E) as F.
  unfold fdone in F. destruct (f_ph f); try discriminate; reflexivity.
Qed.

Ltac fexit_contra :=
  match goal with
  | H : all_exited ?s = true, E : nth_error (fetchers ?s) ?i = Some ?f, P : f_ph ?f = _ |- _ =>
    let Q := fresh in pose proof (all_exited_nth s i f H E) as Q; rewrite P in Q; discriminate
  end.

Lemma all_exited_upd_exit : forall s i f, all_exited s = true -> all_exited (set_fetchers (upd i f (fetchers s)) s) = true \/ fdone f = false.
Proof.
  intros. destruct (fdone f) eqn:E; [left|right; auto]. unfold all_exited in *. cbn. apply forallb_upd; auto.
Qed.

Lemma inv1_init : forall c, inv1 (init c).
Proof. intros c n _ (k & p & H1 & _). destruct k; discriminate. Qed.

Lemma cl_at_app_mark : forall n s s', 1 <= n -> closers s' = closers s ++ [CLMark] -> cl_at n s' -> cl_at n s.
Proof.
  intros n s s' Hn E (k & p & H1 & H2). rewrite E in H1.
  destruct (Nat.lt_ge_cases k (length (closers s))).
  - rewrite nth_error_app1 in H1 by auto. exists k, p. auto.
  - rewrite nth_error_app2 in H1 by auto. destruct (k - length (closers s)) as [|[|]]; cbn in H1; try discriminate.
    inversion H1; subst. cbn in H2. lia.
Qed.

Lemma cl_at_upd : forall n s s' k p p', nth_error (closers s) k = Some p -> closers s' = upd k p' (closers s) ->
  cl_at n s' -> cl_at n s \/ (n <= crank p' /\ ~ n <= crank p).
Proof.
  intros n s s' k p p' E U (j & q & H1 & H2). rewrite U, nth_upd in H1.
  destruct (Nat.eqb_spec k j).
  - subst j. rewrite E in H1. inversion H1; subst q.
    destruct (le_lt_dec n (crank p)); [left; exists k, p; auto|right; split; auto; lia].
  - left. exists j, q. auto.
Qed.

Lemma exited_step : forall s l s', step s l = Some s' -> closed s = true -> all_exited s = true -> all_exited s' = true.
Proof.
  intros s l s' St Hc Hx. destruct (fetch_label l) eqn:F.
  - destruct l; try discriminate F; step_inv St; unf; rewrite ?Hc in *; try discriminate; try fexit_contra; exact Hx.
  - unfold all_exited. rewrite (fr_fetch _ _ _ (step_frame _ _ _ St) F). exact Hx.
Qed.

Lemma close_step : forall s k s', step s (LCloseStep k) = Some s' ->
  exists p p', nth_error (closers s) k = Some p /\ closers s' = upd k p' (closers s) /\ crank p' = S (crank p) /\
    holds_at (crank p') s'.
Proof.
  intros s k s' St. step_inv St; (eexists _, _; split; [reflexivity|]; split; [reflexivity|]; split; [reflexivity|]); cbn; auto.
  (* <-r.done with a group: the guard of the step is rdone *)
  intros G. rewrite G in Heqb. exact Heqb.
Qed.

Lemma cl_at_step : forall s l s' n, step s l = Some s' -> 1 <= n -> cl_at n s' ->
  cl_at n s \/ holds_at n s'.
Proof.
  intros s l s' n St Hn C. destruct (close_label l) eqn:L.
  - destruct l; try discriminate L.
    + left. apply cl_at_app_mark with (s' := s'); auto. step_inv St. reflexivity.
    + destruct (close_step _ _ _ St) as (p & p' & Hp & U & R & E).
      destruct (cl_at_upd _ _ _ _ _ _ Hp U C) as [|[A B]]; [left; assumption|right].
      replace n with (crank p') by lia. exact E.
  - left. apply cl_at_same_closers with (s' := s'); [apply (fr_close _ _ _ (step_frame _ _ _ St) L)|exact C].
Qed.

Lemma cl_at_keeps : forall s l s' n, step s l = Some s' -> cl_at n s -> cl_at n s'.
Proof.
  intros s l s' n St (j & q & Hj & Hq). destruct (close_label l) eqn:L.
  - destruct l; try discriminate L.
    + exists j, q. split; [|exact Hq]. step_inv St. cbn. rewrite nth_error_app1; [exact Hj|eapply nth_some_lt; eauto].
    + destruct (close_step _ _ _ St) as (p & p' & Hp & U & R & _). unfold cl_at. rewrite U.
      destruct (Nat.eqb_spec k j) as [->|N].
      * exists j, p'. split; [eapply nth_upd_eq; eauto|]. rewrite Hj in Hp. injection Hp as ->. lia.
      * exists j, q. rewrite nth_upd_neq; auto.
  - destruct (fr_close _ _ _ (step_frame _ _ _ St) L) as (E & _). exists j, q. rewrite E. auto.
Qed.

Lemma inv1_step : forall s l s', inv1 s -> step s l = Some s' -> inv1 s'.
Proof.
  intros s l s' I St n Hn C. destruct (cl_at_step _ _ _ n St Hn C) as [C'|]; [|assumption].
  pose proof (step_frame _ _ _ St) as F. pose proof (I n Hn C') as H.
  assert (Hc : closed s = true) by exact (inv1_at s n 1 I C' ltac:(lia)).
  destruct n as [|[|[|[|[|[|n]]]]]]; cbn in *; auto; [apply F, H|apply F; auto|apply F, H| |].
  - exact (exited_step _ _ _ St Hc H).
  - rewrite (fr_cfg _ _ _ F). intros G. apply (fr_rdone _ _ _ F), H, G.
Qed.
