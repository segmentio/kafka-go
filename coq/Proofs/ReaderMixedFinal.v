(* Proofs/ReaderMixedFinal.v — C02, L1: a response that begins with uncompressed v0 / v1 messages
   and goes on with v2 batches (the layout of a partition whose message format was upgraded), for
   every fetch offset inside the v0 / v1 part and every legal cut.  Corollaries of ReaderWrapFinal,
   which holds the general results: these are its responses whose v0 / v1 batches are all plain. *)
From Coq Require Import List NArith ZArith Bool Lia.
From KV Require Import Lib.Bits Lib.Bytes Model.MsgSetReader Model.ReaderModel Spec.FetchSpec
  Proofs.ReaderV1Run Proofs.ReaderV1Final Proofs.ReaderV2Run Proofs.ReaderProofs Proofs.ReaderWrapFinal.
Import ListNotations.
Open Scope Z_scope.

Section Mixed.
Variable compress : Z -> list N -> list N.
Variable decomp : Z -> list N -> option (list N).
Hypothesis decomp_law : forall c x, decomp c (compress c x) = Some x.

Lemma lgc_of_legacy lg : Forall legacy_ok lg -> Forall (lgc_ok compress) lg.
Proof.
  apply Forall_impl. intros b (Hf & Hc & Hm). split; [exact Hf|]. split; [exact Hm|left; exact Hc].
Qed.

Theorem batch_decode_exact_legacy_then_v2 log lg v2 o k hwm :
  log_ok log -> layout_ok log (lg ++ v2) ->
  Forall legacy_ok lg -> Forall (fun b => pb_fmt b = 2) v2 -> Forall (v2ok compress) v2 -> 0 <= o ->
  from_offset lg o <> [] -> valid_cut compress (lg ++ v2) o k -> hwm <> o ->
  forall fuel, (length (all_items (from_offset lg o)) + tokens [] v2 + 5 <= fuel)%nat ->
  exists ms f,
    fetch_run decomp fuel o hwm (fetch_response compress (lg ++ v2) o k) (Z.of_nat k) false = Some (ms, EEOF, f)
    /\ fetch_ok log o ms f.
Proof.
  intros H1 H2 H3. apply (batch_decode_exact_legacy_wrapped_then_v2 compress decomp decomp_law o log lg v2 k hwm H1 H2 (lgc_of_legacy lg H3)).
Qed.

Theorem progress_legacy_then_v2 log lg v2 o k hwm :
  log_ok log -> layout_ok log (lg ++ v2) ->
  Forall legacy_ok lg -> Forall (fun b => pb_fmt b = 2) v2 -> Forall (v2ok compress) v2 -> 0 <= o ->
  from_offset lg o <> [] -> valid_cut compress (lg ++ v2) o k -> hwm <> o ->
  forall fuel ms e f, (length (all_items (from_offset lg o)) + tokens [] v2 + 5 <= fuel)%nat ->
  fetch_run decomp fuel o hwm (fetch_response compress (lg ++ v2) o k) (Z.of_nat k) false = Some (ms, e, f) ->
  ms <> [].
Proof.
  intros H1 H2 H3. apply (progress_legacy_wrapped_then_v2 compress decomp decomp_law o log lg v2 k hwm H1 H2 (lgc_of_legacy lg H3)).
Qed.

Theorem contract_legacy_then_v2 log lg v2 k hwm fuel g :
  log_ok log -> layout_ok log (lg ++ v2) ->
  Forall legacy_ok lg -> Forall (fun b => pb_fmt b = 2) v2 -> Forall (v2ok compress) v2 -> 0 <= g_conn g ->
  from_offset lg (g_conn g) <> [] -> valid_cut compress (lg ++ v2) (g_conn g) k -> hwm <> g_conn g ->
  (length (all_items (from_offset lg (g_conn g))) + tokens [] v2 + 5 <= fuel)%nat ->
  ev_ok (fetch_run decomp fuel) log g
        (GFetch (FData hwm (fetch_response compress (lg ++ v2) (g_conn g) k) (Z.of_nat k) false)).
Proof.
  intros H1 H2 H3 H4 H5 H6 H7 H8 H9 H10.
  apply contract_of_decode, batch_decode_exact_legacy_then_v2; assumption.
Qed.

End Mixed.
