(* Proofs/ConnMuxBase.v — int32 wrap arithmetic; what every step of ConnMux.step satisfies. *)
From Coq Require Import List ZArith Bool Arith Lia.
From KV Require Import Lib.LTS Model.ConnMux.
Import ListNotations.
Local Open Scope Z_scope.

Section GenLTS.
  Variables (S L : Type).
  Variable stp : S -> L -> option S.
  Fixpoint grun (s : S) (ls : list L) {struct ls} : option S :=
    match ls with
    | [] => Some s
    | l :: ls' => match stp s l with Some s' => grun s' ls' | None => None end
    end.
  Lemma grun_app : forall ls1 ls2 s,
    grun s (ls1 ++ ls2) = match grun s ls1 with Some s' => grun s' ls2 | None => None end.
  Proof. exact (run_app S L stp). Qed.
End GenLTS.
Arguments grun {S L} stp s ls.

Lemma wrap32_succ : forall n, wrap32 (wrap32 n + 1) = wrap32 (n + 1).
Proof.
  intros n. unfold wrap32.
  replace ((n + 2147483648) mod 4294967296 - 2147483648 + 1 + 2147483648)
    with ((n + 2147483648) mod 4294967296 + 1) by lia.
  rewrite Zplus_mod_idemp_l. f_equal. f_equal. lia.
Qed.

Lemma wrap32_inj : forall a b,
  wrap32 a = wrap32 b -> -4294967296 < a - b < 4294967296 -> a = b.
Proof.
  intros a b H Hd. unfold wrap32 in H.
  pose proof (Z.div_mod (a + 2147483648) 4294967296 ltac:(lia)) as Ha.
  pose proof (Z.div_mod (b + 2147483648) 4294967296 ltac:(lia)) as Hb.
  assert (E : (a + 2147483648) mod 4294967296 = (b + 2147483648) mod 4294967296) by lia.
  lia.
Qed.

Lemma thr_upd : forall s t u th,
  thr (upd_thread s t th) u = if Nat.eqb t u then th else thr s u.
Proof. reflexivity. Qed.

Lemma thr_upd_same : forall s t th, thr (upd_thread s t th) t = th.
Proof. intros. rewrite thr_upd, Nat.eqb_refl. reflexivity. Qed.

(* A sound over-approximation of [step] (only [step -> stepR] is proved): guards kept where an
   invariant needs them, labels with the same effect share a constructor. *)
Inductive stepR (s : state) : label -> state -> Prop :=
| R_enter t k : ph (thr s t) = Idle ->
    stepR s (Enter t k)
      (upd_thread (set_inflight s (inflight s + 1)) t (mkThread Entered k 0 0 false None))
| R_lockw t : ph (thr s t) = Entered ->
    stepR s (LockW t) (upd_thread (set_wlock s (Some t)) t (set_ph (thr s t) WLocked))
| R_send t : ph (thr s t) = WLocked ->
    stepR s (Send t true true)
      (upd_thread (set_wlock (bump_id s) None) t
         (mkThread Waiting (knd (thr s t)) (next_id (bump_id s)) (nsend (bump_id s)) true None))
| R_send_fail t d : ph (thr s t) = WLocked ->
    stepR s (Send t false d)
      (upd_thread (set_inflight (set_closed (set_wlock (bump_id s) None)) (inflight s - 1)) t
         (mkThread (Failed EWrite) (knd (thr s t)) (next_id (bump_id s)) (nsend (bump_id s)) d None))
| R_arrive t : reached (thr s t) = true -> closed s = false -> ~ In t (answered s) ->
    stepR s (Arrive t) (add_answered (set_wire s (wire s ++ [mkFrame (rid (thr s t)) t])) t)
| R_lockr t : ph (thr s t) = Waiting ->
    stepR s (LockR t) (upd_thread (set_rlock s (Some t)) t (set_ph (thr s t) Peeking))
| R_peek_own t f w : ph (thr s t) = Peeking -> wire s = f :: w -> fid f = rid (thr s t) ->
    stepR s (PeekOwn t)
      (upd_thread (add_consumed (set_inflight (set_wire s w) (inflight s - 1)) f) t
         (mkThread Reading (knd (thr s t)) (rid (thr s t)) (seqn (thr s t)) (reached (thr s t)) (Some f)))
| R_peek_alone t : ph (thr s t) = Peeking ->
    stepR s (PeekOther t)
      (upd_thread (set_inflight (set_rlock s None) (inflight s - 1)) t
         (set_ph (thr s t) (Failed ENoProgress)))
| R_peek_retry t : ph (thr s t) = Peeking ->
    stepR s (PeekOther t) (upd_thread (set_rlock s None) t (set_ph (thr s t) Waiting))
| R_peek_fail l t : ph (thr s t) = Peeking -> stepR s l (peek_fail s t)
| R_peek_garbage t : ph (thr s t) = Peeking -> misaligned s = true ->
    stepR s (PeekGarbage t) (upd_thread (set_inflight s (inflight s - 1)) t (set_ph (thr s t) Reading))
| R_finish l t r : ph (thr s t) = Reading \/ ph (thr s t) = InBatch ->
    stepR s l (finish_read s t r)
| R_batch_open t : ph (thr s t) = Reading ->
    stepR s (BatchOpen t) (upd_thread s t (set_ph (thr s t) InBatch))
| R_same l : stepR s l s
| R_user_close : stepR s UserClose (set_closed s)
| R_lost : stepR s Lost (set_wire s []).

Lemma existsb_eqb_false : forall t l, existsb (Nat.eqb t) l = false -> ~ In t l.
Proof.
  intros t l H I. assert (existsb (Nat.eqb t) l = true).
  { apply existsb_exists. exists t. split; [exact I|apply Nat.eqb_refl]. }
  congruence.
Qed.

Lemma finish_read_eq : forall s t r, finish_read s t r =
  upd_thread (match r with
              | ROk | RKafka => set_rlock s None
              | RKafkaLeft => set_misaligned (set_rlock s None)
              | RFatal => set_wire (set_closed (set_rlock s None)) []
              end) t
    (set_ph (thr s t) (match r with RFatal => Failed ERead | _ => Done r end)).
Proof. intros s t r. unfold finish_read. destruct r, (knd (thr s t)); reflexivity. Qed.

Ltac simp_state :=
  cbn [threads lookup ph knd rid seqn reached got set_ph fid fown
       next_id nsend inflight wire rlock wlock closed misaligned answered consumed
       upd_thread set_inflight set_wire set_rlock set_wlock set_closed set_misaligned
       bump_id add_answered add_consumed] in *.

Lemma step_stepR : forall s l s', step s l = Some s' -> stepR s l s'.
Proof.
  intros s l s' H. destruct l; unfold step in H;
    repeat match type of H with
    | context [match ?x with _ => _ end] => destruct x eqn:?
    end; try discriminate; injection H as <-.
  all: try (constructor; auto; fail).
  - (* Send ok: the model only allows delivered = true *)
    destruct delivered; [constructor; assumption|discriminate].
  - repeat match goal with E : _ && _ = true |- _ => apply andb_prop in E; destruct E end.
    constructor; [assumption|apply negb_true_iff; assumption|].
    apply existsb_eqb_false, negb_true_iff. assumption.
  - match goal with E : _ && (fid _ =? _) = true |- _ => apply andb_prop in E; destruct E as [_ E] end.
    constructor; [assumption..|apply Z.eqb_eq; assumption].
  - apply (R_finish _ _ t RFatal). auto.
  - apply (R_finish _ _ t RFatal). auto.
Qed.

(* one goal per outcome of [stepR], post-state fields computed, threads read through [lookup] *)
Ltac step_cases H :=
  apply step_stepR in H; destruct H; unfold peek_fail in *;
  repeat match goal with
  | r : rres |- _ => rewrite (finish_read_eq _ _ r) in *; destruct r
  end;
  rewrite ?finish_read_eq in *;
  try match goal with D : ph _ = Reading \/ _ |- _ => destruct D end;
  unfold thr in *; simp_state.

Ltac case_eqb :=
  repeat match goal with
  | |- context [if Nat.eqb ?t ?u then _ else _] =>
    let E := fresh "E" in destruct (Nat.eqb t u) eqn:E;
    [apply Nat.eqb_eq in E; subst|apply Nat.eqb_neq in E]
  | H : context [if Nat.eqb ?t ?u then _ else _] |- _ =>
    let E := fresh "E" in destruct (Nat.eqb t u) eqn:E;
    [apply Nat.eqb_eq in E; subst|apply Nat.eqb_neq in E]
  end.
