(* Proofs/GroupBalancersLeader.v — the group leader's glue: extractTopics and
   assignTopicPartitions composed with the balancers *)
From Coq Require Import List NArith ZArith Bool Arith Lia Permutation Sorted.
From KV Require Import Model.GroupBalancers Proofs.GroupBalancersBase Proofs.GroupBalancersRange
  Proofs.GroupBalancersProofs Proofs.GroupBalancersRackGlobal.
Import ListNotations.

Lemma add_topics_in acc l x : In x (add_topics acc l) <-> In x acc \/ In x l.
Proof.
  unfold add_topics. revert acc. induction l as [|t l IH]; intros acc; cbn [fold_left In]; [tauto|].
  rewrite IH. destruct (existsb (bytes_eqb t) acc) eqn:E.
  - apply existsb_eqb_in in E. split; [tauto|]. intros [H|[<-|H]]; tauto.
  - rewrite in_app_iff. cbn [In]. tauto.
Qed.

Lemma add_topics_nodup acc l : NoDup acc -> NoDup (add_topics acc l).
Proof.
  unfold add_topics. revert acc. induction l as [|t l IH]; intros acc H; cbn [fold_left]; [exact H|].
  apply IH. destruct (existsb (bytes_eqb t) acc) eqn:E; [exact H|].
  apply NoDup_snoc; [exact H|]. intros Hin. apply existsb_eqb_in in Hin. congruence.
Qed.

Lemma extract_topics_raw_flat ms : extract_topics_raw ms = add_topics [] (flat_map m_topics ms).
Proof. unfold extract_topics_raw, add_topics. symmetry. apply fold_left_flat_map. Qed.

Lemma sort_bytes_perm l : Permutation (sort_bytes l) l.
Proof. apply (isort_perm (fun x : bytes => x)); reflexivity. Qed.

Lemma sort_bytes_sorted l : NoDup l -> StronglySorted (fun a b => bytes_ltb a b = true) (sort_bytes l).
Proof. intros H. apply (isort_sorted (fun x : bytes => x)); [reflexivity..|]. rewrite map_id. exact H. Qed.

Lemma extract_topics_spec ms :
  (forall t, In t (extract_topics ms) <-> exists m, In m ms /\ In t (m_topics m)) /\
  NoDup (extract_topics ms) /\
  StronglySorted (fun a b => bytes_ltb a b = true) (extract_topics ms).
Proof.
  unfold extract_topics. rewrite extract_topics_raw_flat.
  assert (Hnd : NoDup (add_topics [] (flat_map m_topics ms))) by (apply add_topics_nodup; constructor).
  split; [|split].
  - intros t. rewrite <- in_flat_map. transitivity (In t (add_topics [] (flat_map m_topics ms))).
    + split; apply Permutation_in; [apply sort_bytes_perm|apply Permutation_sym, sort_bytes_perm].
    + rewrite add_topics_in. cbn [In]. tauto.
  - eapply Permutation_NoDup; [apply Permutation_sym, sort_bytes_perm|exact Hnd].
  - apply sort_bytes_sorted. exact Hnd.
Qed.

Lemma extract_topics_subscribed ms t :
  existsb (bytes_eqb t) (extract_topics ms) = existsb (subscribes t) ms.
Proof.
  apply eq_true_iff_eq. rewrite existsb_eqb_in, (proj1 (extract_topics_spec ms)), existsb_exists.
  split; intros [m [Hm H]]; exists m; [rewrite subscribes_iff|rewrite <- subscribes_iff]; tauto.
Qed.

Lemma find_partitions_read t cluster topics :
  find_partitions t (read_partitions cluster topics) =
  if existsb (bytes_eqb t) topics then find_partitions t cluster else [].
Proof.
  unfold find_partitions, read_partitions.
  induction cluster as [|p cl IH]; cbn [filter map]; [destruct (existsb _ topics); reflexivity|].
  destruct (bytes_eqb_spec (p_topic p) t) as [E|N].
  - rewrite E. destruct (existsb (bytes_eqb t) topics) eqn:Et; cbn [filter].
    + rewrite E, bytes_eqb_refl. cbn [map]. f_equal. exact IH.
    + exact IH.
  - destruct (existsb (bytes_eqb (p_topic p)) topics); cbn [filter]; [|exact IH].
    rewrite bytes_eqb_neq by exact N. exact IH.
Qed.

Lemma find_partitions_app t a b :
  find_partitions t (a ++ b) = find_partitions t a ++ find_partitions t b.
Proof. unfold find_partitions. rewrite filter_app, map_app. reflexivity. Qed.

Lemma find_partitions_flat_map {A} t (f : A -> list partition) l :
  find_partitions t (flat_map f l) = flat_map (fun x => find_partitions t (f x)) l.
Proof.
  induction l as [|x l IH]; [reflexivity|]. cbn [flat_map]. rewrite find_partitions_app, IH. reflexivity.
Qed.

Lemma topic_missing_nil cluster t : topic_exists cluster t = false -> find_partitions t cluster = [].
Proof.
  unfold topic_exists, find_partitions. induction cluster as [|p cl IH]; [reflexivity|].
  cbn [existsb filter]. destruct (bytes_eqb (p_topic p) t); cbn [orb]; [discriminate|exact IH].
Qed.

Lemma find_partitions_single t t' cluster :
  find_partitions t (match broker_read cluster [t'] with Some ps => ps | None => [] end) =
  if bytes_eqb t t' then find_partitions t cluster else [].
Proof.
  unfold broker_read. cbn [forallb]. rewrite andb_true_r.
  destruct (topic_exists cluster t') eqn:E.
  - rewrite find_partitions_read. cbn [existsb]. rewrite orb_false_r. reflexivity.
  - destruct (bytes_eqb_spec t t') as [->|]; [|reflexivity].
    rewrite (topic_missing_nil _ _ E). reflexivity.
Qed.

Lemma find_partitions_read_each t cluster topics : NoDup topics ->
  find_partitions t (read_each cluster topics) =
  if existsb (bytes_eqb t) topics then find_partitions t cluster else [].
Proof.
  unfold read_each. rewrite find_partitions_flat_map.
  induction topics as [|t' l IH]; intros Hnd; [reflexivity|].
  inversion Hnd; subst. cbn [flat_map existsb]. rewrite find_partitions_single, IH by assumption.
  destruct (bytes_eqb_spec t t') as [->|N]; cbn [orb app]; [|reflexivity].
  destruct (existsb (bytes_eqb t') l) eqn:E; [|apply app_nil_r].
  apply existsb_eqb_in in E. contradiction.
Qed.

Lemma broker_read_missing cluster topics : broker_read cluster topics = None ->
  exists t, In t topics /\ topic_exists cluster t = false.
Proof.
  unfold broker_read. destruct (forallb (topic_exists cluster) topics) eqn:E; [discriminate|].
  intros _. induction topics as [|t l IH]; [discriminate|]. cbn [forallb] in E.
  destruct (topic_exists cluster t) eqn:Et.
  - destruct (IH E) as [t' [H1 H2]]. exists t'. split; [right; exact H1|exact H2].
  - exists t. split; [left; reflexivity|exact Et].
Qed.

Lemma find_partitions_leader ms cluster t :
  find_partitions t (leader_partitions ms cluster) =
  if existsb (subscribes t) ms then find_partitions t cluster else [].
Proof.
  unfold leader_partitions. rewrite <- extract_topics_subscribed.
  destruct (extract_topics_spec ms) as [_ [Hnd _]].
  destruct (broker_read cluster (extract_topics ms)) as [ps|] eqn:E.
  - unfold broker_read in E. destruct (forallb _ _); [|discriminate]. inversion E; subst.
    apply find_partitions_read.
  - destruct (Nat.ltb_spec 1 (length (extract_topics ms))) as [Hl|Hl].
    + apply find_partitions_read_each. exact Hnd.
    + destruct (broker_read_missing _ _ E) as [t0 [Hin Hmiss]].
      destruct (extract_topics ms) as [|t1 [|t2 l]]; [destruct Hin| |cbn in Hl; lia].
      destruct Hin as [->|[]]. cbn [existsb find_partitions filter map]. rewrite orb_false_r.
      destruct (bytes_eqb_spec t t0) as [->|]; [|reflexivity].
      rewrite (topic_missing_nil _ _ Hmiss). reflexivity.
Qed.

Lemma exact_partition_leader ms cluster a :
  exact_partition ms (leader_partitions ms cluster) a -> exact_partition ms cluster a.
Proof.
  intros [H1 [H2 H3]]. split; [exact H1|]. split; [exact H2|].
  intros t. specialize (H3 t). rewrite find_partitions_leader in H3.
  destruct (existsb (subscribes t) ms); exact H3.
Qed.

Lemma even_loads_leader ms cluster a :
  even_loads ms (leader_partitions ms cluster) a -> even_loads ms cluster a.
Proof.
  intros H t m1 m2 I1 I2 T1 T2. specialize (H t m1 m2 I1 I2 T1 T2). cbv zeta in *.
  rewrite find_partitions_leader in H.
  assert (E : existsb (subscribes t) ms = true)
    by (apply existsb_exists; exists m1; rewrite subscribes_iff; tauto).
  rewrite E in H. exact H.
Qed.

Definition balancer_result (ms : list member) (ps : list partition) (a : list triple) : Prop :=
  a = range_assign ms ps \/ a = rr_assign ms ps \/
  (exists zo ro, rack_orders_ok zo ro ps /\ rack_assign zo ro ms ps = Some a).

Lemma balancer_partition ms ps a : wf_group ms -> balancer_result ms ps a -> exact_partition ms ps a.
Proof.
  intros H [->|[->|[zo [ro [Ho E]]]]];
    [apply range_partition|apply rr_partition|eapply rack_partition]; eassumption.
Qed.

Lemma balancer_even ms ps a : wf_group ms -> balancer_result ms ps a -> even_loads ms ps a.
Proof.
  intros H [->|[->|[zo [ro [Ho E]]]]]; [apply range_even|apply rr_even|eapply rack_even]; eassumption.
Qed.

Definition leader_result (ms : list member) (cluster : list partition) : list triple -> Prop :=
  balancer_result ms (leader_partitions ms cluster).

Lemma leader_result_partition ms cluster : wf_group ms ->
  forall a, leader_result ms cluster a -> exact_partition ms cluster a.
Proof. intros H a Ha. apply exact_partition_leader, balancer_partition; assumption. Qed.

Lemma leader_result_even ms cluster : wf_group ms ->
  forall a, leader_result ms cluster a -> even_loads ms cluster a.
Proof. intros H a Ha. apply even_loads_leader, balancer_even; assumption. Qed.

Lemma leader_one_holder ms cluster a t p : wf_group ms -> leader_result ms cluster a ->
  NoDup (find_partitions t cluster) -> In p (find_partitions t cluster) ->
  (exists m, In m ms /\ In t (m_topics m)) ->
  exists m, In m ms /\ In t (m_topics m) /\ In p (assigned a (m_id m) t) /\
    forall m', In m' ms -> In p (assigned a (m_id m') t) -> m' = m.
Proof.
  intros H Ha Hnd Hp [m [Hm Ht]].
  apply (exactly_one_holder ms cluster); auto using leader_result_partition.
  apply existsb_exists. exists m. rewrite subscribes_iff. tauto.
Qed.
