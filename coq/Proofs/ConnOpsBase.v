(* Proofs/ConnOpsBase.v — the readers of Model/Legacy.v as a class closed under bind and
   loops ([reader]), and the two invariants every member has:
   [good]  (a) the reader consumes a prefix c of the stream;
           (b) unless it failed on the stream itself (io.EOF / io.ErrUnexpectedEOF), the remaining
               size went down by exactly |c| and the run depends on c only (locality);
           (c) on the stream cut anywhere inside c it fails with io.EOF / io.ErrUnexpectedEOF;
   [safe]  on a stream that holds at least the announced size it never fails on the stream. *)
From Coq Require Import List NArith ZArith Bool Lia.
From Coq Require Import ZifyN ZifyNat ZifyBool.
From KV Require Import Lib.Bits Lib.Bytes Model.Legacy.
Import ListNotations.
Open Scope Z_scope.

Definition transport (e : err) : bool :=
  match e with EEOF | EUnexpEOF => true | _ => false end.
Definition rtransport {A} (r : sum A err) : bool :=
  match r with inr e => transport e | inl _ => false end.

Definition good {A} (p : P A) : Prop :=
  forall sz s r sz' s', p sz s = (r, sz', s') ->
  exists c, s = c ++ s' /\
    (rtransport r = false ->
       sz' = sz - Z.of_nat (length c) /\ forall rest, p sz (c ++ rest) = (r, sz', rest)) /\
    (forall k, (k < length c)%nat ->
       exists e sz2 s2, p sz (firstn k c) = (inr e, sz2, s2) /\ transport e = true).

Definition safe {A} (p : P A) : Prop :=
  forall sz s r sz' s', p sz s = (r, sz', s') -> sz <= Z.of_nat (length s) ->
  rtransport r = false /\ sz' <= Z.of_nat (length s').

Lemma firstn_exact {A} (a b : list A) n : length a = n -> firstn n (a ++ b) = a.
Proof.
  intros H. rewrite firstn_app, H, Nat.sub_diag. cbn [firstn]. rewrite app_nil_r.
  apply firstn_all2. lia.
Qed.
Lemma skipn_exact {A} (a b : list A) n : length a = n -> skipn n (a ++ b) = b.
Proof.
  intros H. rewrite skipn_app, H, Nat.sub_diag. cbn [skipn]. rewrite skipn_all2 by lia. reflexivity.
Qed.
Lemma firstn_app_lt {A} k (c1 c2 : list A) : (k < length c1)%nat -> firstn k (c1 ++ c2) = firstn k c1.
Proof.
  intros H. rewrite firstn_app. replace (k - length c1)%nat with 0%nat by lia.
  cbn. apply app_nil_r.
Qed.
Lemma firstn_app_ge {A} k (c1 c2 : list A) :
  (length c1 <= k)%nat -> firstn k (c1 ++ c2) = c1 ++ firstn (k - length c1) c2.
Proof. intros H. rewrite firstn_app. rewrite firstn_all2 by lia. reflexivity. Qed.

(* the leaves: a reader that takes [m sz] bytes c off the stream and returns [v sz c], or
   fails with io.EOF / io.ErrUnexpectedEOF (consuming nothing, or everything) when the stream
   is shorter.  [m] = 0: it does not touch the stream. *)
Definition takes {A} (p : P A) (m : Z -> nat) (v : Z -> list N -> sum A err) : Prop :=
  forall sz s,
    ((m sz <= length s)%nat ->
       p sz s = (v sz (firstn (m sz) s), sz - Z.of_nat (m sz), skipn (m sz) s)) /\
    ((length s < m sz)%nat ->
       exists e sz', transport e = true /\ (p sz s = (inr e, sz', s) \/ p sz s = (inr e, sz', []))).

Lemma good_takes A (p : P A) m v : takes p m v -> good p.
Proof.
  intros T sz s r sz' s' H.
  assert (Hcut : forall c k, (k < m sz)%nat ->
            exists e sz2 s2, p sz (firstn k c) = (inr e, sz2, s2) /\ transport e = true).
  { intros c k Hk. destruct (proj2 (T sz (firstn k c))) as (e & sz2 & Ht & [E|E]);
      [rewrite firstn_length; lia| |]; eauto 6. }
  destruct (le_lt_dec (m sz) (length s)) as [Hl|Hl].
  - rewrite (proj1 (T sz s) Hl) in H. inversion H; subst r sz' s'; clear H.
    assert (Hlen : length (firstn (m sz) s) = m sz) by (apply firstn_length_le; exact Hl).
    exists (firstn (m sz) s). split; [symmetry; apply firstn_skipn|]. split.
    + intros _. split; [lia|]. intros rest.
      rewrite (proj1 (T sz _)) by (rewrite app_length; lia).
      rewrite firstn_exact, skipn_exact by exact Hlen. reflexivity.
    + intros k Hk. apply Hcut. lia.
  - destruct (proj2 (T sz s) Hl) as (e & sz2 & Ht & [E|E]); rewrite E in H;
      inversion H; subst r sz' s'; clear H.
    + exists []. split; [reflexivity|]. split; [cbn; rewrite Ht; discriminate|]. cbn. intros k Hk. lia.
    + exists s. split; [symmetry; apply app_nil_r|]. split; [cbn; rewrite Ht; discriminate|].
      intros k Hk. apply Hcut. lia.
Qed.

(* every read is bounded by the remaining size *)
Lemma safe_takes A (p : P A) m v : takes p m v ->
  (forall sz, m sz = 0%nat \/ Z.of_nat (m sz) <= sz) -> (forall sz c, rtransport (v sz c) = false) ->
  safe p.
Proof.
  intros T Hm Hv sz s r sz' s' H Hl.
  rewrite (proj1 (T sz s)) in H by (destruct (Hm sz); lia).
  inversion H; subst. split; [apply Hv|]. rewrite skipn_length. lia.
Qed.

Lemma takes_pure A (p : P A) (v : Z -> sum A err) :
  (forall sz s, p sz s = (v sz, sz, s)) -> takes p (fun _ => 0%nat) (fun sz _ => v sz).
Proof. intros H sz s. split; [intros _; rewrite H, Z.sub_0_r; reflexivity|intros Hl; inversion Hl]. Qed.

Lemma takes_ret A (a : A) : takes (ret a) (fun _ => 0%nat) (fun _ _ => inl a).
Proof. apply (takes_pure _ _ (fun _ => inl a)). reflexivity. Qed.
Lemma takes_fail A (e : err) : takes (@fail A e) (fun _ => 0%nat) (fun _ _ => inr e).
Proof. apply (takes_pure _ _ (fun _ => inr e)). reflexivity. Qed.
Lemma takes_get_sz : takes get_sz (fun _ => 0%nat) (fun sz _ => inl sz).
Proof. apply (takes_pure _ _ (fun sz => inl sz)). reflexivity. Qed.
Lemma takes_guard_short n :
  takes (guard_short n) (fun _ => 0%nat) (fun sz _ => if sz <? n then inr EShort else inl tt).
Proof.
  apply (takes_pure _ _ (fun sz => if sz <? n then inr EShort else inl tt)).
  intros sz s. unfold guard_short. destruct (sz <? n); reflexivity.
Qed.

Lemma takes_peek_read n :
  takes (peek_read n) (fun sz => if sz <? Z.of_nat n then 0%nat else n)
        (fun sz c => if sz <? Z.of_nat n then inr EShort else inl c).
Proof.
  intros sz s. unfold peek_read. destruct (sz <? Z.of_nat n).
  - split; [intros _; rewrite Z.sub_0_r; reflexivity|intros Hl; inversion Hl].
  - destruct (Nat.ltb_spec (length s) n); split; intros Hl; try lia; [|reflexivity].
    exists EEOF, sz. auto.
Qed.

Lemma bufio_discard_spec n s :
  (n < 0 /\ bufio_discard n s = (0, Some ENegCount, s)) \/
  (0 <= n <= Z.of_nat (length s) /\ bufio_discard n s = (n, None, skipn (Z.to_nat n) s)) \/
  (0 <= n /\ Z.of_nat (length s) < n /\ bufio_discard n s = (Z.of_nat (length s), Some EEOF, [])).
Proof.
  unfold bufio_discard.
  destruct (Z.ltb_spec n 0); [left; auto|].
  destruct (Z.leb_spec n (Z.of_nat (length s))); [right; left; auto|right; right; auto].
Qed.

Lemma discardN_min n sz s :
  discardN n sz s =
  match bufio_discard (Z.min n sz) s with
  | (k, None, s') => (if n <=? sz then inl tt else inr EShort, sz - k, s')
  | (k, Some e, s') => (inr e, sz - k, s')
  end.
Proof.
  unfold discardN. destruct (Z.leb_spec n sz); [rewrite Z.min_l by lia|rewrite Z.min_r by lia];
    destruct (bufio_discard _ s) as [[k [e|]] s']; reflexivity.
Qed.
Lemma takes_discardN n :
  takes (discardN n) (fun sz => Z.to_nat (Z.min n sz))
        (fun sz _ => if Z.min n sz <? 0 then inr ENegCount
                     else if n <=? sz then inl tt else inr EShort).
Proof.
  intros sz s. rewrite discardN_min. set (m := Z.min n sz).
  destruct (bufio_discard_spec m s) as [[H0 E]|[[H0 E]|[H0 [H1 E]]]]; rewrite E; split; intros Hl; try lia.
  - replace (Z.to_nat m) with 0%nat by lia. destruct (Z.ltb_spec m 0); [reflexivity|lia].
  - rewrite Z2Nat.id by lia. destruct (Z.ltb_spec m 0); [lia|reflexivity].
  - exists EEOF. eauto.
Qed.

Lemma takes_readNewBytes n :
  takes (readNewBytes n) (fun sz => if 0 <? n then Z.to_nat (Z.min n sz) else 0%nat)
        (fun sz c => if 0 <? n
                     then if Z.min n sz <? 0 then inr EPanic else if sz <? n then inr EShort else inl c
                     else inl []).
Proof.
  intros sz s. unfold readNewBytes. destruct (Z.ltb_spec 0 n) as [Hn|Hn].
  2:{ split; [intros _; rewrite Z.sub_0_r; reflexivity|intros Hl; inversion Hl]. }
  replace (if sz <? n then sz else n) with (Z.min n sz) by (destruct (Z.ltb_spec sz n); lia).
  destruct (Z.ltb_spec (Z.min n sz) 0) as [Hneg|Hneg].
  { replace (Z.to_nat (Z.min n sz)) with 0%nat by lia.
    split; [intros _; rewrite Z.sub_0_r; reflexivity|intros Hl; inversion Hl]. }
  destruct (Z.leb_spec (Z.min n sz) (Z.of_nat (length s))); split; intros Hl; try lia.
  - rewrite Z2Nat.id by lia. destruct (sz <? n); reflexivity.
  - exists (match s with [] => EEOF | _ => EUnexpEOF end). eexists.
    split; [destruct s; reflexivity|right; reflexivity].
Qed.

Lemma good_discardN n : good (discardN n).
Proof. exact (good_takes _ _ _ _ (takes_discardN n)). Qed.
Lemma safe_discardN n : safe (discardN n).
Proof.
  apply (safe_takes _ _ _ _ (takes_discardN n)); [lia|].
  intros sz _. destruct (_ <? 0); [reflexivity|]. destruct (n <=? sz); reflexivity.
Qed.

Lemma good_bind A B (p : P A) (f : A -> P B) : good p -> (forall a, good (f a)) -> good (bind p f).
Proof.
  intros Hp Hf sz s r sz' s' H. unfold bind in H.
  destruct (p sz s) as [[ra sz1] s1] eqn:Ep.
  destruct (Hp _ _ _ _ _ Ep) as (c1 & Hs & Hb & Hd).
  destruct ra as [a|e].
  - destruct (Hf a _ _ _ _ _ H) as (c2 & Hs2 & Hb2 & Hd2).
    destruct (Hb eq_refl) as [Hsz1 Hloc1].
    exists (c1 ++ c2). split; [subst s s1; apply app_assoc|]. split.
    + intros Hr. destruct (Hb2 Hr) as [Hsz2 Hloc2]. split.
      * rewrite app_length. lia.
      * intros rest. unfold bind. rewrite <- app_assoc, Hloc1. apply Hloc2.
    + intros k Hk. rewrite app_length in Hk.
      destruct (Nat.lt_ge_cases k (length c1)) as [Hlt|Hge].
      * destruct (Hd k Hlt) as (e & sz2 & s2 & He & Ht).
        exists e, sz2, s2. split; [|exact Ht].
        unfold bind. rewrite firstn_app_lt by exact Hlt. rewrite He. reflexivity.
      * destruct (Hd2 (k - length c1)%nat ltac:(lia)) as (e & sz2 & s2 & He & Ht).
        exists e, sz2, s2. split; [|exact Ht].
        unfold bind. rewrite firstn_app_ge by exact Hge. rewrite Hloc1. exact He.
  - inversion H; subst r sz' s'. exists c1. split; [exact Hs|]. split.
    + intros Hr. destruct (Hb Hr) as [Hsz1 Hloc1]. split; [exact Hsz1|].
      intros rest. unfold bind. rewrite Hloc1. reflexivity.
    + intros k Hk. destruct (Hd k Hk) as (e' & sz2 & s2 & He & Ht).
      exists e', sz2, s2. split; [|exact Ht]. unfold bind. rewrite He. reflexivity.
Qed.

Lemma safe_bind A B (p : P A) (f : A -> P B) : safe p -> (forall a, safe (f a)) -> safe (bind p f).
Proof.
  intros Hp Hf sz s r sz' s' H Hl. unfold bind in H.
  destruct (p sz s) as [[[a|e] sz1] s1] eqn:Ep; destruct (Hp _ _ _ _ _ Ep Hl) as [Hr Hl1].
  - eapply Hf; eassumption.
  - inversion H; subst. auto.
Qed.

(* expectZeroSize, skipRemainingOnKafkaError and try_short wrap a reader p in the same way: when
   p stopped with an outcome of the selected kind ([sel r] = what is reported in its place) the
   rest of the response is discarded first; any other outcome is passed on, looked at together
   with the remaining size *)
Definition then_drain {A B} (sel : sum A err -> option (sum B err)) (pass : sum A err -> Z -> sum B err)
  (p : P A) : P B := fun sz s =>
  let '(r, sz1, s1) := p sz s in
  match sel r with
  | Some out =>
      match discardN sz1 sz1 s1 with
      | (inl _, sz2, s2) => (out, sz2, s2)
      | (inr e, sz2, s2) => (inr e, sz2, s2)
      end
  | None => (pass r sz1, sz1, s1)
  end.

(* an error on the stream is never selected and passes unchanged; nothing else becomes one *)
Definition drain_ok {A B} (sel : sum A err -> option (sum B err)) (pass : sum A err -> Z -> sum B err) : Prop :=
  (forall e sz1, transport e = true -> sel (inr e) = None /\ pass (inr e) sz1 = inr e) /\
  (forall r sz1, rtransport r = false -> rtransport (pass r sz1) = false) /\
  (forall r out, sel r = Some out -> rtransport r = false /\ rtransport out = false).

Section Drain.
  Context {A B : Type} (sel : sum A err -> option (sum B err)) (pass : sum A err -> Z -> sum B err).
  Hypothesis ok : drain_ok sel pass.

  Lemma good_then_drain (p : P A) : good p -> good (then_drain sel pass p).
  Proof.
    destruct ok as (sel_transport & pass_other & sel_other).
    intros Hp sz s r sz' s' H. unfold then_drain in H.
    destruct (p sz s) as [[ra sz1] s1] eqn:Ep.
    destruct (Hp _ _ _ _ _ Ep) as (c1 & Hs & Hb & Hd).
    assert (Hpass : forall k, (k < length c1)%nat ->
       exists e sz2 s2, then_drain sel pass p sz (firstn k c1) = (inr e, sz2, s2) /\ transport e = true).
    { intros k Hk. destruct (Hd k Hk) as (e & sz2 & s2 & He & Ht). exists e, sz2, s2.
      split; [|exact Ht]. unfold then_drain. rewrite He.
      destruct (sel_transport e sz2 Ht) as [-> ->]. reflexivity. }
    destruct (sel ra) as [out|] eqn:Esel.
    - (* the remainder is discarded *)
      destruct (sel_other _ _ Esel) as [Hra Hout].
      destruct (Hb Hra) as [Hsz1 Hloc1].
      destruct (discardN sz1 sz1 s1) as [[rd sz2] s2] eqn:Ed.
      destruct (good_discardN sz1 _ _ _ _ _ Ed) as (c2 & Hs2 & Hb2 & Hd2).
      assert (Hr' : r = match rd with inl _ => out | inr e => inr e end /\ sz' = sz2 /\ s' = s2)
        by (destruct rd; inversion H; auto).
      destruct Hr' as (Hr' & ? & ?). subst sz' s'.
      exists (c1 ++ c2). split; [subst s s1; apply app_assoc|]. split.
      + intros Hrt.
        assert (Hrd : rtransport rd = false) by (destruct rd; [reflexivity|subst r; exact Hrt]).
        destruct (Hb2 Hrd) as [Hsz2 Hloc2]. split; [rewrite app_length; lia|].
        intros rest. unfold then_drain. rewrite <- app_assoc, Hloc1, Esel, Hloc2.
        subst r. destruct rd; reflexivity.
      + intros k Hk. rewrite app_length in Hk.
        destruct (Nat.lt_ge_cases k (length c1)) as [Hlt|Hge].
        * rewrite firstn_app_lt by exact Hlt. apply Hpass. exact Hlt.
        * destruct (Hd2 (k - length c1)%nat ltac:(lia)) as (e & sz3 & s3 & He & Ht).
          exists e, sz3, s3. split; [|exact Ht].
          unfold then_drain. rewrite firstn_app_ge by exact Hge. rewrite Hloc1, Esel, He. reflexivity.
    - inversion H; subst r sz' s'. exists c1. split; [exact Hs|]. split; [|exact Hpass].
      intros Hr. assert (Hra : rtransport ra = false).
      { destruct ra as [a|e]; [reflexivity|]. destruct (transport e) eqn:Et; [|exact Et].
        destruct (sel_transport e sz1 Et) as [_ Ep']. rewrite Ep' in Hr. exact Hr. }
      destruct (Hb Hra) as [Hsz Hloc]. split; [exact Hsz|].
      intros rest. unfold then_drain. rewrite Hloc, Esel. reflexivity.
  Qed.

  Lemma safe_then_drain (p : P A) : safe p -> safe (then_drain sel pass p).
  Proof.
    destruct ok as (_ & pass_other & sel_other).
    intros Hp sz s r sz' s' H Hl. unfold then_drain in H.
    destruct (p sz s) as [[ra sz1] s1] eqn:Ep. destruct (Hp _ _ _ _ _ Ep Hl) as [Hr Hl1].
    destruct (sel ra) as [out|] eqn:Esel; [|inversion H; subst; auto].
    destruct (discardN sz1 sz1 s1) as [[rd sz2] s2] eqn:Ed.
    destruct (safe_discardN _ _ _ _ _ _ Ed Hl1) as [Hrd Hl2].
    destruct rd; inversion H; subst; [split; [apply (sel_other _ _ Esel)|exact Hl2]|auto].
  Qed.
End Drain.

Definition zero_or_unread {A} (r : sum A err) (sz1 : Z) : sum A err :=
  match r with inl a => if sz1 =? 0 then inl a else inr (EUnread sz1) | inr e => inr e end.
Definition sel_kafka {A} (r : sum A err) : option (sum A err) :=
  match r with inr (EKafka c) => Some (inr (EKafka c)) | _ => None end.
Definition sel_short {A} (r : sum A err) : option (sum (option A) err) :=
  match r with inr EShort => Some (inl None) | _ => None end.
Definition pass_some {A} (r : sum A err) (_ : Z) : sum (option A) err :=
  match r with inl a => inl (Some a) | inr e => inr e end.

Lemma expectZeroSize_drain A (p : P A) sz s :
  expectZeroSize p sz s = then_drain (fun _ => None) zero_or_unread p sz s.
Proof.
  unfold expectZeroSize, then_drain. destruct (p sz s) as [[[a|e] sz1] s1]; [|reflexivity].
  cbn. destruct (sz1 =? 0); reflexivity.
Qed.
Lemma skipRemaining_drain A (p : P A) sz s :
  skipRemainingOnKafkaError p sz s = then_drain sel_kafka (fun r _ => r) p sz s.
Proof.
  unfold skipRemainingOnKafkaError, then_drain. destruct (p sz s) as [[[a|[]] sz1] s1]; reflexivity.
Qed.
Lemma try_short_drain A (p : P A) sz s : try_short p sz s = then_drain sel_short pass_some p sz s.
Proof. unfold try_short, then_drain. destruct (p sz s) as [[[a|[]] sz1] s1]; reflexivity. Qed.

Lemma zero_or_unread_ok A : drain_ok (fun _ : sum A err => @None (sum A err)) zero_or_unread.
Proof.
  split; [auto|]. split; [|discriminate].
  intros [a|e] sz1 H; [cbn; destruct (sz1 =? 0); reflexivity|exact H].
Qed.
Lemma sel_kafka_ok A : drain_ok (@sel_kafka A) (fun r _ => r).
Proof.
  split; [intros [] sz1 H; try discriminate H; auto|]. split; [auto|].
  intros [a|[]] out H; inversion H; auto.
Qed.
Lemma sel_short_ok A : drain_ok (@sel_short A) pass_some.
Proof.
  split; [intros [] sz1 H; try discriminate H; auto|]. split; [intros [a|e] sz1 H; exact H|].
  intros [a|[]] out H; inversion H; auto.
Qed.

Lemma good_ext A (p q : P A) : (forall sz s, p sz s = q sz s) -> good q -> good p.
Proof.
  intros E Hq sz s r sz' s' H. rewrite E in H. destruct (Hq _ _ _ _ _ H) as (c & Hs & Hb & Hd).
  exists c. split; [exact Hs|]. split.
  - intros Hr. destruct (Hb Hr) as [Hsz Hloc]. split; [exact Hsz|]. intros rest. rewrite E. apply Hloc.
  - intros k Hk. rewrite E. apply Hd, Hk.
Qed.
Lemma safe_ext A (p q : P A) : (forall sz s, p sz s = q sz s) -> safe q -> safe p.
Proof. intros E Hq sz s r sz' s' H. rewrite E in H. exact (Hq _ _ _ _ _ H). Qed.
Lemma good_drained A B sel pass (p : P A) (w : P B) :
  drain_ok sel pass -> (forall sz s, w sz s = then_drain sel pass p sz s) -> good p -> good w.
Proof. intros ok E Hp. apply (good_ext _ _ _ E). apply good_then_drain; assumption. Qed.
Lemma safe_drained A B sel pass (p : P A) (w : P B) :
  drain_ok sel pass -> (forall sz s, w sz s = then_drain sel pass p sz s) -> safe p -> safe w.
Proof. intros ok E Hp. apply (safe_ext _ _ _ E). apply safe_then_drain; assumption. Qed.

(* what read.go / discard.go build their parsers from.  [C] = the errors a parser may raise
   itself ([fail]) *)
Inductive reader (C : err -> bool) : forall {A}, P A -> Prop :=
| r_ret A (a : A) : reader C (ret a)
| r_fail A e : C e = true -> reader C (@fail A e)
| r_get_sz : reader C get_sz
| r_bind A B (p : P A) (f : A -> P B) : reader C p -> (forall a, reader C (f a)) -> reader C (bind p f)
| r_peek_read n : reader C (peek_read n)
| r_guard_short n : reader C (guard_short n)
| r_readNewBytes n : reader C (readNewBytes n)
| r_discardN n : reader C (discardN n)
| r_expectZeroSize A (p : P A) : reader C p -> reader C (expectZeroSize p)
| r_skipRemaining A (p : P A) : reader C p -> reader C (skipRemainingOnKafkaError p)
| r_try_short A (p : P A) : reader C p -> reader C (try_short p)
| r_ext A (p q : P A) : (forall sz s, p sz s = q sz s) -> reader C q -> reader C p.

Theorem good_reader C A (p : P A) : reader C p -> good p.
Proof.
  induction 1.
  - exact (good_takes _ _ _ _ (takes_ret A a)).
  - exact (good_takes _ _ _ _ (takes_fail A e)).
  - exact (good_takes _ _ _ _ takes_get_sz).
  - apply good_bind; assumption.
  - exact (good_takes _ _ _ _ (takes_peek_read n)).
  - exact (good_takes _ _ _ _ (takes_guard_short n)).
  - exact (good_takes _ _ _ _ (takes_readNewBytes n)).
  - apply good_discardN.
  - exact (good_drained _ _ _ _ _ _ (zero_or_unread_ok A) (expectZeroSize_drain A p) IHreader).
  - exact (good_drained _ _ _ _ _ _ (sel_kafka_ok A) (skipRemaining_drain A p) IHreader).
  - exact (good_drained _ _ _ _ _ _ (sel_short_ok A) (try_short_drain A p) IHreader).
  - exact (good_ext _ _ _ H IHreader).
Qed.

Theorem safe_reader C A (p : P A) :
  (forall e, C e = true -> transport e = false) -> reader C p -> safe p.
Proof.
  intros HC. induction 1; eauto using safe_bind, safe_discardN, safe_ext.
  - apply (safe_takes _ _ _ _ (takes_ret A a)); auto.
  - apply (safe_takes _ _ _ _ (takes_fail A e)); [auto|]. intros _ _. exact (HC e H).
  - apply (safe_takes _ _ _ _ takes_get_sz); auto.
  - apply (safe_takes _ _ _ _ (takes_peek_read n)); intros sz; destruct (Z.ltb_spec sz (Z.of_nat n)); auto.
  - apply (safe_takes _ _ _ _ (takes_guard_short n)); [auto|]. intros sz _. destruct (sz <? n); reflexivity.
  - apply (safe_takes _ _ _ _ (takes_readNewBytes n)); intros sz; destruct (0 <? n); auto; [lia|].
    intros c. destruct (_ <? 0); [reflexivity|]. destruct (sz <? n); reflexivity.
  - exact (safe_drained _ _ _ _ _ _ (zero_or_unread_ok A) (expectZeroSize_drain A p) IHreader).
  - exact (safe_drained _ _ _ _ _ _ (sel_kafka_ok A) (skipRemaining_drain A p) IHreader).
  - exact (safe_drained _ _ _ _ _ _ (sel_short_ok A) (try_short_drain A p) IHreader).
Qed.

Section Derived.
  Variable C : err -> bool.
  Local Hint Constructors reader : core.

  Lemma reader_if A (b : bool) (p q : P A) : reader C p -> reader C q -> reader C (if b then p else q).
  Proof. destruct b; auto. Qed.
  Lemma reader_pmap A B (f : A -> B) (p : P A) : reader C p -> reader C (pmap f p).
  Proof. unfold pmap. auto. Qed.
  Lemma reader_rep A (p : P A) : reader C p -> forall n, reader C (rep n p).
  Proof. intros Hp n. induction n as [|n IH]; cbn [rep]; auto. Qed.
  Lemma reader_read_int w : reader C (read_int w).
  Proof. unfold read_int. auto. Qed.
  Lemma reader_readStringWith A (cb : Z -> P A) : (forall n, reader C (cb n)) -> reader C (readStringWith cb).
  Proof. intros H. unfold readStringWith, readInt16. auto using reader_read_int. Qed.
  Lemma reader_readBytesWith A (cb : Z -> P A) : (forall n, reader C (cb n)) -> reader C (readBytesWith cb).
  Proof. intros H. unfold readBytesWith, readArrayLen, readInt32. auto using reader_read_int. Qed.
  Lemma reader_discardString : reader C discardString.
  Proof. apply reader_readStringWith. intros n. unfold discard_cb. apply reader_if; auto. Qed.
  Lemma reader_readArrayWith A (cb : P A) : reader C cb -> reader C (readArrayWith cb).
  Proof. intros H. unfold readArrayWith, readInt32. auto using reader_read_int, reader_rep. Qed.
  Lemma reader_read_ty t : reader C (read_ty t).
  Proof.
    induction t; cbn [read_ty];
      unfold readInt8, readInt16, readInt32, readInt64, readBool, readString, readBytes, readNewString;
      auto using reader_pmap, reader_read_int, reader_readStringWith, reader_readBytesWith,
        reader_readArrayWith.
  Qed.
End Derived.

Lemma varint_scan_stop s sz shift acc : sz <= 0 ->
  varint_scan s sz shift acc = (inr (if sz <? 0 then EPanic else EShort), sz, s).
Proof.
  intros H. destruct s; cbn [varint_scan]; destruct (Z.ltb_spec sz 0); try reflexivity;
    destruct (Z.eqb_spec sz 0); try reflexivity; lia.
Qed.
Lemma varint_scan_nil sz shift acc : 0 < sz -> varint_scan [] sz shift acc = (inr EEOF, sz, []).
Proof.
  intros H. cbn [varint_scan]. destruct (Z.ltb_spec sz 0); [lia|]. destruct (Z.eqb_spec sz 0); [lia|reflexivity].
Qed.
Lemma varint_scan_cons b t sz shift acc : 0 < sz ->
  varint_scan (b :: t) sz shift acc =
  let acc' := N.lor acc (if (shift <? 64)%N then ((N.land b 127 * 2 ^ shift) mod M64)%N else 0%N) in
  if (b <? 128)%N then (inl acc', sz - 1, t) else varint_scan t (sz - 1) (shift + 7)%N acc'.
Proof.
  intros H. cbn [varint_scan]. destruct (Z.ltb_spec sz 0); [lia|]. destruct (Z.eqb_spec sz 0); [lia|reflexivity].
Qed.

(* readVarInt as a loop of the same leaves: look at the remaining size, take one byte, go on while
   its high bit is set.  Every round takes a byte off the remaining size, so sz + 1 rounds do (the
   branch without fuel is then never reached with sz > 0; its value is arbitrary). *)
Fixpoint varint_loop (fuel : nat) (shift acc : N) {struct fuel} : P N :=
  n <- get_sz ;;
  if n <? 0 then fail EPanic else if n =? 0 then fail EShort else
  match fuel with
  | O => fail EShort
  | S f =>
      bs <- peek_read 1 ;;
      let b := hd 0%N bs in
      let acc' := N.lor acc (if (shift <? 64)%N then ((N.land b 127 * 2 ^ shift) mod M64)%N else 0%N) in
      if (b <? 128)%N then ret acc' else varint_loop f (shift + 7)%N acc'
  end.

Lemma varint_loop_scan fuel : forall s sz shift acc, sz < Z.of_nat fuel ->
  varint_loop fuel shift acc sz s = varint_scan s sz shift acc.
Proof.
  induction fuel as [|f IH]; intros s sz shift acc Hf; cbn [varint_loop]; unfold bind at 1, get_sz.
  - (* no fuel: sz < 0 *)
    rewrite varint_scan_stop by lia. destruct (Z.ltb_spec sz 0); [reflexivity|lia].
  - destruct (Z.ltb_spec sz 0); [rewrite varint_scan_stop by lia; destruct (Z.ltb_spec sz 0); [reflexivity|lia]|].
    destruct (Z.eqb_spec sz 0); [rewrite varint_scan_stop by lia; destruct (Z.ltb_spec sz 0); [lia|reflexivity]|].
    unfold bind, peek_read. destruct (Z.ltb_spec sz (Z.of_nat 1)); [lia|].
    destruct s as [|b t]; cbn [length Nat.ltb Nat.leb firstn skipn hd].
    + rewrite varint_scan_nil by lia. reflexivity.
    + rewrite varint_scan_cons by lia. cbv zeta. destruct (b <? 128)%N; [reflexivity|].
      apply IH. lia.
Qed.

Lemma readVarInt_loop sz s :
  readVarInt sz s = (n <- get_sz ;; pmap unzigzag64 (varint_loop (S (Z.to_nat n)) 0 0)) sz s.
Proof.
  unfold bind at 1, get_sz, pmap, bind. rewrite varint_loop_scan by lia.
  unfold readVarInt, ret. destruct (varint_scan s sz 0 0) as [[[x|e] sz1] s1]; reflexivity.
Qed.
Lemma reader_readVarInt C : C EPanic = true -> C EShort = true -> reader C readVarInt.
Proof.
  intros HP HS.
  assert (L : forall fuel shift acc, reader C (varint_loop fuel shift acc)).
  { induction fuel as [|f IH]; intros shift acc; cbn [varint_loop];
      (apply r_bind; [apply r_get_sz|]; intros m; do 2 (apply reader_if; [apply r_fail; assumption|])).
    - apply r_fail, HS.
    - apply r_bind; [apply r_peek_read|]. intros bs. apply reader_if; [apply r_ret|apply IH]. }
  apply (r_ext _ _ _ _ readVarInt_loop). apply r_bind; [apply r_get_sz|]. intros n. apply reader_pmap, L.
Qed.
