(* Proofs/RecordsSet.v — items and record sets of the reference codec round-trip, for every
   compression function that has a left inverse. *)
From Coq Require Import List NArith ZArith Bool Lia.
From Coq Require Import ZifyN ZifyNat ZifyBool.
From KV Require Import Lib.Bits Lib.Bytes Lib.Crc Spec.RecordFormat Proofs.RecordsCodec.
Import ListNotations.
Open Scope Z_scope.

Section Codec.
Variable comp decomp : N -> list N -> list N.
Hypothesis decomp_comp : forall c b, decomp c (comp c b) = b.

Definition wf_batch (b : batch2) : Prop :=
  in_i64 (b_base b) /\ in_i32 (b_epoch b) /\ -32768 <= b_attrs b < 32768 /\ in_i32 (b_last b) /\
  in_i64 (b_first b) /\ in_i64 (b_max b) /\ in_i64 (b_pid b) /\ -32768 <= b_pepoch b < 32768 /\
  in_i32 (b_seq b) /\ small (b_recs b) /\ Forall wf_rec (b_recs b) /\
  9 + zlen (batch_tail comp b) < ZM31.

Lemma wf_batch_base b : wf_batch b -> in_i64 (b_base b).
Proof. intros H. apply H. Qed.
Lemma wf_batch_recs b : wf_batch b -> Forall wf_rec (b_recs b).
Proof. intros H. apply H. Qed.
Lemma wf_batch_size b : wf_batch b -> 9 + zlen (batch_tail comp b) < ZM31.
Proof. intros H. apply H. Qed.

Lemma payload_raw b :
  (if (codec_of (b_attrs b) =? 0)%N then batch_payload comp b
   else decomp (codec_of (b_attrs b)) (batch_payload comp b)) = concat (map enc_rec (b_recs b)).
Proof. unfold batch_payload. destruct (codec_of (b_attrs b) =? 0)%N; [reflexivity|apply decomp_comp]. Qed.

Lemma dec_enc_batch_body b : wf_batch b ->
  dec_batch_body decomp (b_base b)
    (put_bes 4 (b_epoch b) ++ put_bes 1 2 ++ put_be 4 (crc32c (batch_tail comp b)) ++ batch_tail comp b)
  = Some b.
Proof.
  intros (Hb & He & Ha & Hl & Hf & Hm & Hp & Hpe & Hs & Hn & Hr & _). unfold dec_batch_body.
  rewrite get_int32_put, get_int8_put by auto with range.
  change (negb (2 =? 2)) with false. cbv iota.
  rewrite take_app by apply put_be_length. rewrite bytes_eqb_refl. cbn [negb].
  unfold batch_tail.
  rewrite get_int16_put, get_int32_put, !get_int64_put, get_int16_put, !get_int32_put by auto with range.
  rewrite zlen_ltb0, to_nat_zlen.
  cbn zeta. rewrite payload_raw, dec_enc_recs by exact Hr. destruct b; reflexivity.
Qed.

Lemma split_enc_batch b rest : wf_batch b ->
  split_item (enc_batch comp b ++ rest) =
  Some (b_base b,
        put_bes 4 (b_epoch b) ++ put_bes 1 2 ++ put_be 4 (crc32c (batch_tail comp b)) ++ batch_tail comp b,
        rest).
Proof.
  intros Hwf. pose proof (wf_batch_base b Hwf) as Hb. pose proof (wf_batch_size b Hwf) as Hsz.
  unfold split_item, enc_batch. rewrite <- !app_assoc.
  pose proof (zlen_nonneg (batch_tail comp b)).
  rewrite get_int64_put, get_int32_put by auto with range.
  destruct (Z.ltb_spec (9 + zlen (batch_tail comp b)) 0); [lia|].
  rewrite !app_assoc. rewrite take_app; [reflexivity|].
  rewrite !app_length, put_be_length. unfold put_bes. rewrite !put_be_length. unfold zlen. lia.
Qed.

(* the magic byte is the fifth byte of the body *)
Lemma nth4_app (a : list N) x t : length a = 4%nat -> nth_error (a ++ x :: t) 4 = Some x.
Proof.
  intros H. rewrite nth_error_app2 by lia. rewrite H. reflexivity.
Qed.

Definition wf_wrap (magic off attrs ts : Z) (inner : list msg) : Prop :=
  wf_msg {| m_magic := magic; m_off := off; m_attrs := attrs; m_ts := ts; m_key := None;
            m_val := Some (comp (codec_of attrs) (concat (map enc_msg inner))) |} /\
  codec_of attrs <> 0%N /\ Forall wf_msg inner /\ forallb plain inner = true.

Definition wf_item (it : item) : Prop :=
  match it with
  | IMsg m => wf_msg m /\ plain m = true
  | IWrap magic off attrs ts inner => wf_wrap magic off attrs ts inner
  | IBatch b => wf_batch b
  end.

Lemma msg_magic_byte m : wf_msg m -> exists x, put_bes 1 (m_magic m) = [x] /\ (x <= 1)%N.
Proof. intros ([-> | ->] & _); [exists 0%N|exists 1%N]; split; (reflexivity || lia). Qed.

(* a message's magic byte is 0 or 1: dec_item_body does not take it for a batch *)
Lemma msg_magic_not_2 m : wf_msg m ->
  exists x, nth_error (put_be 4 (crc32_ieee (msg_body m)) ++ msg_body m) 4 = Some x /\ (x =? 2)%N = false.
Proof.
  intros Hm. destruct (msg_magic_byte m Hm) as (x & Hx & Hle). unfold msg_body. rewrite Hx. cbn [app].
  exists x. split; [apply nth4_app, put_be_length|apply N.eqb_neq; lia].
Qed.

Lemma dec_enc_item it : wf_item it ->
  exists off body, (forall rest, split_item (enc_item comp it ++ rest) = Some (off, body, rest)) /\
                   dec_item_body decomp off body = Some it.
Proof.
  destruct it as [m|magic off attrs ts inner|b]; cbn [wf_item enc_item].
  - intros [Hm Hp]. eexists _, _. split; [intros rest; apply split_enc_msg, Hm|].
    unfold dec_item_body. destruct (msg_magic_not_2 m Hm) as (x & -> & ->).
    rewrite dec_enc_msg_body, Hp by exact Hm. reflexivity.
  - intros (Hm & Hc & Hin & Hpl). unfold enc_wrap. eexists _, _.
    split; [intros rest; apply split_enc_msg, Hm|].
    unfold dec_item_body. destruct (msg_magic_not_2 _ Hm) as (x & -> & ->).
    rewrite dec_enc_msg_body by exact Hm. unfold plain at 1. cbn [m_attrs m_key m_val m_magic m_off m_ts].
    destruct (N.eqb_spec (codec_of attrs) 0); [contradiction|].
    cbn zeta. rewrite decomp_comp, dec_enc_msgs, Hpl by (try exact Hin; lia). reflexivity.
  - intros Hb. eexists _, _. split; [intros rest; apply split_enc_batch, Hb|].
    unfold dec_item_body.
    replace (nth_error _ 4) with (Some 2%N).
    2:{ symmetry. change (put_bes 1 2) with [2%N]. cbn [app]. apply nth4_app. unfold put_bes. apply put_be_length. }
    cbn [N.eqb Pos.eqb]. rewrite dec_enc_batch_body by exact Hb. reflexivity.
Qed.

Lemma enc_item_len it : (26 <= length (enc_item comp it))%nat.
Proof.
  destruct it as [m|magic off attrs ts inner|b]; cbn [enc_item]; [apply enc_msg_len..|].
  unfold enc_batch, batch_tail. rewrite !app_length. unfold put_bes. rewrite !put_be_length. lia.
Qed.

Lemma dec_items_S f bs : bs <> [] ->
  dec_items decomp (S f) bs =
  match split_item bs with
  | Some (off, body, rest) =>
    match dec_item_body decomp off body with
    | Some it => match dec_items decomp f rest with Some its => Some (it :: its) | None => None end
    | None => None
    end
  | None => None
  end.
Proof. destruct bs; [contradiction|reflexivity]. Qed.

Lemma dec_enc_items its : forall fuel, Forall wf_item its ->
  (length (enc_items comp its) <= fuel)%nat ->
  dec_items decomp fuel (enc_items comp its) = Some its.
Proof.
  unfold enc_items.
  induction its as [|it its IH]; intros fuel H Hf.
  - destruct fuel; reflexivity.
  - apply Forall_cons_iff in H as [Hi Hs]. cbn [map concat] in *.
    destruct (dec_enc_item it Hi) as (off & body & Hsplit & Hdec).
    pose proof (enc_item_len it). rewrite app_length in Hf.
    destruct fuel as [|fuel]; [lia|].
    rewrite dec_items_S by (apply nonempty_app; lia).
    rewrite Hsplit, Hdec, IH by (assumption || lia). reflexivity.
Qed.

(* the reference decoder reads back what the reference encoder wrote *)
Theorem dec_enc_set its : Forall wf_item its -> zlen (enc_items comp its) < ZM31 ->
  dec_set decomp (enc_set comp its) = Some its.
Proof.
  intros H Hsz. unfold dec_set, enc_set.
  pose proof (zlen_nonneg (enc_items comp its)).
  rewrite get_int32_put by auto with range.
  rewrite Z.eqb_refl. apply dec_enc_items; [exact H|lia].
Qed.

End Codec.
