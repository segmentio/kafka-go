(* Proofs/ConnReadersProofs.v — the response direction of the hand-written Conn codec.
   (1) every response grammar of the Conn (ConnOps.resp_ty) is the grammar the translator
       regenerates from /repo's protocol package for that (api key, version), read without its
       nullable flags ([legacy_of]);
   (2) the two consumer-group blobs: their hand-written readers run along the reference encoding
       of their grammar (ConnOpsCodec.runs) and return what was encoded (the assignment up to its
       map normalisation). *)
From Coq Require Import List NArith ZArith Bool Lia.
From Coq Require Import ZifyN ZifyNat ZifyBool.
From KV Require Import Lib.Bits Lib.Bytes Model.Legacy Model.ConnOps Model.ConnReaders Proofs.ConnOpsCodec.
From KV Require Model.Schema Gen.Schemas.
Import ListNotations.
Open Scope Z_scope.

(* a schema of the generic model as a descriptor of the Legacy reader: nullable flags, element
   sizes and (absent in these versions) tagged fields dropped; RECORDS are BYTES (int32 size and
   the bytes) *)
(* int widths other than 1, 2, 4 (only 8 occurs) and FLOAT64 read as int64 *)
Fixpoint legacy_of (t : Schema.ty) {struct t} : ty :=
  match t with
  | Schema.TBool => TBool
  | Schema.TInt 1 => TI8 | Schema.TInt 2 => TI16 | Schema.TInt 4 => TI32 | Schema.TInt _ => TI64
  | Schema.TFloat64 => TI64
  | Schema.TString _ => TStr
  | Schema.TBytes _ => TByt
  | Schema.TArray _ _ e => TArr (legacy_of e)
  | Schema.TStruct fs _ =>
     tup ((fix go (l : list Schema.ty) : list ty :=
             match l with [] => [] | x :: r => legacy_of x :: go r end) fs)
  | Schema.TMarker => TUnit
  | Schema.TRecords _ => TByt
  end.

Definition key_of (a : api) : Z :=
  match a with
  | AProduce => 0 | AFetch | AFetchRead _ => 1 | AListOffsets => 2
  | AMetadata | ABrokers | AController => 3
  | AOffsetCommit => 8 | AOffsetFetch => 9 | AFindCoordinator => 10 | AJoinGroup => 11
  | AHeartbeat => 12 | ALeaveGroup => 13 | ASyncGroup => 14 | AListGroups => 16
  | ASaslHandshake => 17 | AApiVersions => 18 | ACreateTopics => 19 | ADeleteTopics => 20
  | ASaslAuthenticate => 36
  end.

(* every (operation, version) whose response the Conn reads *)
Definition conn_responses : list (api * N) :=
  [(AProduce, 2); (AProduce, 3); (AProduce, 7); (AFetch, 2); (AFetch, 5); (AFetch, 10);
   (AListOffsets, 1); (AMetadata, 1); (AMetadata, 6); (ABrokers, 1); (AController, 1);
   (AFindCoordinator, 0); (AJoinGroup, 1); (AJoinGroup, 2); (ASyncGroup, 0); (AHeartbeat, 0);
   (ALeaveGroup, 0); (AOffsetCommit, 2); (AOffsetFetch, 1); (AListGroups, 1);
   (ACreateTopics, 0); (ACreateTopics, 1); (ACreateTopics, 2); (ADeleteTopics, 0); (ADeleteTopics, 1);
   (AApiVersions, 0); (ASaslHandshake, 0); (ASaslHandshake, 1); (ASaslAuthenticate, 0)]%N.

Fixpoint lty_eqb (a b : ty) {struct a} : bool :=
  match a, b with
  | TI8, TI8 | TI16, TI16 | TI32, TI32 | TI64, TI64 | TBool, TBool | TStr, TStr | TByt, TByt
  | TUnit, TUnit => true
  | TArr x, TArr y => lty_eqb x y
  | TPair x1 x2, TPair y1 y2 => lty_eqb x1 y1 && lty_eqb x2 y2
  | _, _ => false
  end.
Lemma lty_eqb_eq : forall a b, lty_eqb a b = true -> a = b.
Proof.
  induction a; destruct b; cbn [lty_eqb]; intros H; try discriminate; try reflexivity.
  - f_equal. apply IHa, H.
  - apply andb_prop in H as [H1 H2]. f_equal; [apply IHa1, H1|apply IHa2, H2].
Qed.

Definition generated_ok (av : api * N) : bool :=
  match Schema.lookup_schema Schemas.schemas true (key_of (fst av)) (Z.of_N (snd av)) with
  | Some (false, t) => lty_eqb (legacy_of t) (resp_ty (fst av) (snd av))
  | _ => false
  end.
Lemma all_generated_ok : forallb generated_ok conn_responses = true.
Proof. vm_compute. reflexivity. Qed.

Definition str_of (x : wval) : list N := match x with WS (Some b) => b | _ => [] end.
Lemma runs_string x : wt TStr x -> runs readString (enc TStr x) (str_of x).
Proof. destruct x as [|o| | |]; try contradiction. apply runs_readString. Qed.
Lemma dec_strings l : Forall (wt TStr) l -> map VB (map str_of l) = map (dec_val TStr) l.
Proof.
  intros H. rewrite map_map. apply map_ext_in. intros x Hx.
  apply (proj1 (Forall_forall _ _) H) in Hx. destruct x as [|[b|]| | |]; try contradiction; reflexivity.
Qed.

(* groupMetadata.readFrom: readInt16, readStringArray, readBytes, along the encoding *)
Theorem runs_group_metadata w : wt t_group_metadata w ->
  runs read_group_metadata (enc t_group_metadata w) (dec_val t_group_metadata w).
Proof.
  unfold t_group_metadata. cbn [tup]. intros Hwt.
  destruct w as [| | |w1 w2|]; try contradiction. destruct Hwt as [Hv Hwt].
  destruct w1 as [v| | | |]; try contradiction. destruct w2 as [| | |w2 w3|]; try contradiction.
  destruct Hwt as [Ha Hu]. destruct w2 as [| |ol| |]; try contradiction. destruct w3 as [|ou| | |]; try contradiction.
  change (runs read_group_metadata (put_bes 2 v ++ enc (TArr TStr) (WL ol) ++ enc TByt (WS ou))
            (VP (VZ v) (VP (dec_val (TArr TStr) (WL ol)) (dec_val TByt (WS ou))))).
  unfold read_group_metadata, readStringArray, readInt16.
  apply (runs_bind _ _ _ _ _ _ _ _ (runs_read_int 2 v ltac:(lia) Hv)).
  apply (runs_bind _ _ _ _ _ _ _ _ (runs_array _ TStr _ str_of runs_string ol Ha)).
  rewrite <- (app_nil_r (enc TByt (WS ou))). apply (runs_bind _ _ _ _ _ _ _ _ (runs_readBytes ou Hu)).
  replace (dec_val (TArr TStr) (WL ol)) with (VL (map VB match ol with Some l => map str_of l | None => [] end)).
  - destruct ou; apply runs_ret.
  - destruct ol as [l|]; [|reflexivity]. cbn [dec_val]. f_equal. apply dec_strings, Ha.
Qed.

Definition entry_val (e : list N * list Z) : val := VP (VB (fst e)) (VL (map VZ (snd e))).
Definition entry_of_val (v : val) : list N * list Z :=
  match v with
  | VP (VB k) (VL l) => (k, map zof l)
  | _ => ([], [])
  end.
Definition t_assignment_entry : ty := tup [TStr; TArr TI32].
(* what groupAssignment.readFrom returns for a decoded (reflective) value: the map with
   "a later entry of the same topic replaces the earlier one" *)
Definition assignment_of (v : val) : val :=
  match v with
  | VP ver (VP (VL es) u) =>
    VP ver (VP (VL (map entry_val (map_of_entries (map entry_of_val es)))) u)
  | _ => v
  end.

Lemma runs_int32 x : wt TI32 x -> runs readInt32 (enc TI32 x) (zof (dec_val TI32 x)).
Proof. destruct x; try contradiction. intros Hz. exact (runs_read_int 4 z ltac:(lia) Hz). Qed.
(* one entry of readMapStringInt32 *)
Lemma runs_entry x : wt t_assignment_entry x ->
  runs (k <- readString ;; vs <- readArrayWith readInt32 ;; ret (k, vs))
       (enc t_assignment_entry x) (entry_of_val (dec_val t_assignment_entry x)).
Proof.
  unfold t_assignment_entry. cbn [tup]. intros Hwt.
  destruct x as [| | |x1 x2|]; try contradiction. destruct Hwt as [Hk Hv].
  destruct x1 as [|ok| | |]; try contradiction. destruct x2 as [| |ovs| |]; try contradiction.
  change (enc (TPair TStr (TArr TI32)) (WP (WS ok) (WL ovs))) with (enc TStr (WS ok) ++ enc (TArr TI32) (WL ovs)).
  apply (runs_bind _ _ _ _ _ _ _ _ (runs_readString ok Hk)).
  rewrite <- (app_nil_r (enc (TArr TI32) (WL ovs))).
  apply (runs_bind _ _ _ _ _ _ _ _ (runs_array _ TI32 _ _ runs_int32 ovs Hv)).
  destruct ok, ovs as [vs|]; cbn [dec_val entry_of_val map]; rewrite ?map_map; apply runs_ret.
Qed.

(* groupAssignment.readFrom: readInt16, readMapStringInt32 entry by entry, readBytes *)
Theorem runs_group_assignment w : wt t_group_assignment w ->
  runs read_group_assignment (enc t_group_assignment w) (assignment_of (dec_val t_group_assignment w)).
Proof.
  unfold t_group_assignment. cbn [tup]. fold t_assignment_entry. intros Hwt.
  destruct w as [| | |w1 w2|]; try contradiction. destruct Hwt as [Hv Hwt].
  destruct w1 as [v| | | |]; try contradiction. destruct w2 as [| | |w2 w3|]; try contradiction.
  destruct Hwt as [Ha Hu]. destruct w2 as [| |ol| |]; try contradiction. destruct w3 as [|ou| | |]; try contradiction.
  change (enc _ _) with (put_bes 2 v ++ enc (TArr t_assignment_entry) (WL ol) ++ enc TByt (WS ou)).
  change (dec_val _ _) with (VP (VZ v) (VP (dec_val (TArr t_assignment_entry) (WL ol)) (dec_val TByt (WS ou)))).
  (* the blob is not empty: groupAssignment.readFrom goes on to read it *)
  intros k rest Hk. unfold read_group_assignment, bind at 1, get_sz.
  destruct (Z.eqb_spec (Z.of_nat (length (put_bes 2 v ++ enc (TArr t_assignment_entry) (WL ol) ++ enc TByt (WS ou))) + k) 0)
    as [E|_]; [rewrite app_length, put_bes_length in E; lia|].
  revert k rest Hk. unfold readInt16, readMapStringInt32.
  apply (runs_bind _ _ _ _ _ _ _ _ (runs_read_int 2 v ltac:(lia) Hv)).
  apply (runs_bind _ _ _ _ _ _ _ _ (runs_array _ _ _ _ runs_entry ol Ha)).
  rewrite <- (app_nil_r (enc TByt (WS ou))). apply (runs_bind _ _ _ _ _ _ _ _ (runs_readBytes ou Hu)).
  destruct ol as [es|], ou; cbn [dec_val assignment_of map]; rewrite ?map_map; apply runs_ret.
Qed.

Lemma map_put_fresh k v m : ~ In k (map fst m) -> map_put k v m = m ++ [(k, v)].
Proof.
  induction m as [|[k' v'] m IH]; intros H; cbn [map_put app]; [reflexivity|].
  cbn [map fst In] in H. destruct (list_eq_dec N.eq_dec k k') as [E|_]; [exfalso; apply H; left; symmetry; exact E|].
  rewrite IH by (intros Hi; apply H; right; exact Hi). reflexivity.
Qed.
Lemma fold_map_put_nodup es : forall acc, NoDup (map fst (acc ++ es)) ->
  fold_left (fun m e => map_put (fst e) (snd e) m) es acc = acc ++ es.
Proof.
  induction es as [|[k v] es IH]; intros acc H; cbn [fold_left]; [rewrite app_nil_r; reflexivity|].
  cbn [fst snd]. rewrite map_put_fresh.
  - rewrite IH; rewrite <- app_assoc; [reflexivity|exact H].
  - rewrite map_app in H. cbn [map fst] in H. apply NoDup_remove_2 in H.
    intros Hi. apply H. apply in_or_app. left. exact Hi.
Qed.
