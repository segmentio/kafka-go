(* Proofs/TransportPoolOwn.v — per-connection request numbering and the own-response
   invariant of the transport pool. *)
From Coq Require Import List ZArith Bool Arith Lia Sorted.
From KV Require Import Lib.LTS Model.ConnMux Model.TransportPool Proofs.ConnMuxBase Proofs.ConnMuxProofs
  Proofs.TransportPoolBase Proofs.TransportPoolProofs.
Import ListNotations.
Local Open Scope Z_scope.

(* one connection: ordinals (newest first in [bsent]) strictly increasing within 1..nex, wire id =
   wrapped ordinal; the request being read and every unread frame belong to a request that was sent *)
Record CInv (a : conn) : Prop := mkCInv {
  c_id : idgen a = wrap32 (nex a) /\ 0 <= nex a;
  c_sorted : StronglySorted Z.gt (map fst (bsent a));
  c_range : Forall (fun k => 1 <= k <= nex a) (map fst (bsent a));
  c_cur : forall r k, cst a = CSent r k -> lookup_ord k (bsent a) = Some r;
  c_wire : forall f, In f (cwire a) ->
           exists k, fid f = wrap32 k /\ lookup_ord k (bsent a) = Some (fown f)
}.

Lemma lookup_ord_in : forall k l r, lookup_ord k l = Some r -> In k (map fst l).
Proof.
  induction l as [|[k' r'] l IH]; intros r H; cbn in *; [discriminate|].
  destruct (Z.eqb_spec k' k); [left; assumption|right; eauto].
Qed.

Lemma c_sent : forall a k r, CInv a -> lookup_ord k (bsent a) = Some r -> 1 <= k <= nex a.
Proof.
  intros a k r I H. pose proof (c_range a I) as F. rewrite Forall_forall in F.
  apply F. eapply lookup_ord_in; eauto.
Qed.

(* a connection that comes into being: connect() has used id 1 for its ApiVersions handshake *)
Definition newborn (b : conn) : Prop :=
  idgen b = 1 /\ nex b = 1 /\ bsent b = [] /\ cwire b = [] /\ forall r k, cst b <> CSent r k.

Lemma cmove_refl : forall a, cmove a a.
Proof. intros a. apply M_keep; auto. apply incl_refl. Qed.

Lemma step_conn : forall s l s', pstep s l = Some s' -> forall c,
  cmove (cn s c) (cn s' c) \/ (c = nconn s /\ newborn (cn s' c)).
Proof.
  intros s l s' H c'. pstep_cases H;
    try match goal with |- context [close_all ?s1 ?l] =>
          destruct (close_all_cn l s1 c') as [->| ->] end;
    pool_read; rewrite ?Nat.eqb_refl.
  all: case_eqb; try (left; apply cmove_refl).
  all: try (right; split; [reflexivity|repeat split; discriminate]).
  (* P_conn / P_conn_resolve carry their move; the rest keep *)
  all: left; try assumption.
  all: apply M_keep; conn_fields; solve [reflexivity|congruence|apply incl_refl].
Qed.

Lemma CInv_newborn : forall b, newborn b -> CInv b.
Proof.
  intros b (A & B & C & D & E). constructor; rewrite ?A, ?B, ?C, ?D.
  - split; [reflexivity|lia].
  - constructor.
  - constructor.
  - intros r k X. destruct (E r k X).
  - intros f [].
Qed.

Lemma CInv_move : forall a b, CInv a -> cmove a b -> CInv b.
Proof.
  intros a b I M. destruct (c_id a I) as [Id N0].
  assert (Up : Forall (fun k => 1 <= k <= nex a + 1) (map fst (bsent a)))
    by (eapply Forall_impl; [|apply (c_range a I)]; cbn; lia).
  destruct M as [A B C D E _|A B C D E _|r A B C D E _|k r A B C E L D];
    constructor; rewrite ?A, ?B, ?C, ?D; try apply I; try assumption;
    try (rewrite Id, wrap32_succ; split; [reflexivity|lia]).
  - intros r k X. apply (c_cur a I), E, X.
  - intros f X. apply (c_wire a I), D, X.
  - intros r k X. destruct (E r k X).
  - (* send: sorted, the new ordinal is above all earlier ones *)
    cbn [map fst]. constructor; [apply I|]. eapply Forall_impl; [|apply (c_range a I)].
    intros x X. cbn beta in X. lia.
  - cbn [map fst]. constructor; [lia|exact Up].
  - intros r' k X. rewrite E in X. injection X as <- <-. cbn [lookup_ord]. rewrite Z.eqb_refl. reflexivity.
  - (* send: older frames keep their entry, the new ordinal is fresh *)
    intros f X. destruct (c_wire a I f X) as [k [K1 K2]]. exists k. split; [exact K1|].
    cbn [lookup_ord]. destruct (Z.eqb_spec (nex a + 1) k); [|exact K2].
    pose proof (c_sent a k _ I K2). lia.
  - intros r' k' X. rewrite E in X. apply (c_cur a I), X.
  - intros f X. apply in_app_or in X. destruct X as [X|[<-|[]]]; [apply (c_wire a I), X|].
    exists k. split; [reflexivity|exact L].
Qed.

Definition conn_ext (a b : conn) : Prop :=
  nex a <= nex b /\
  forall k r, lookup_ord k (bsent a) = Some r -> lookup_ord k (bsent b) = Some r.

Lemma cmove_ext : forall a b, CInv a -> cmove a b -> conn_ext a b.
Proof.
  intros a b I [A B C D E _|A B C D E _|r A B C D E _|k r A B C E L D]; unfold conn_ext; rewrite B, C;
    (split; [lia|auto]).
  intros k r' X. cbn [lookup_ord]. destruct (Z.eqb_spec (nex a + 1) k); [|exact X].
  pose proof (c_sent a k _ I X). lia.
Qed.

Lemma cmove_closed : forall a b, cmove a b -> cst a = CClosed ->
  cst b = CClosed /\ bsent b = bsent a.
Proof. intros a b [A B C D E F|A B C D E F|r A B C D E F|k r A B C E L D] X; split; auto; congruence. Qed.

Definition NInv (s : pstate) : Prop := forall c, CInv (cn s c).

(* the conclusion of C06_transport_own_response *)
Definition val_ok (s : pstate) (r : rqid) (f : frame) : Prop :=
  fown f = r /\ exists c k, fid f = wrap32 k /\ lookup_ord k (bsent (cn s c)) = Some r.

(* in r's promise channel or already returned *)
Definition delivered (s : pstate) (r : rqid) (f : frame) : Prop :=
  prom (rq s r) = Some (RVal f) \/ qph (rq s r) = QDone (RVal f).

Definition bounded (s : pstate) : Prop := forall c, nex (cn s c) < ID_BOUND.

Definition OwnP (s : pstate) : Prop :=
  bounded s -> forall r f, delivered s r f -> val_ok s r f.

(* a value reaches a caller through its promise, resolved by the run loop of the connection
   reading the answer, after the correlation-id check *)
Lemma step_delivered : forall s l s' r f, pstep s l = Some s' -> delivered s' r f ->
  delivered s r f \/
  exists c k w, cst (cn s c) = CSent r k /\ cwire (cn s c) = f :: w /\ fid f = wrap32 k.
Proof.
  intros s l s' r0 f0 H. unfold delivered.
  pstep_cases H; pool_read; case_eqb; cbn [prom qph];
    auto; intros [D|D]; try discriminate D; auto.
  - injection D as ->. right.
    match goal with V : forall f, _ = RVal f -> _ |- _ => destruct (V f0 eq_refl) as [k [w X]] end.
    exists c, k, w. exact X.
  - injection D as ->. left. left. assumption.
Qed.

Lemma OwnP_step : forall s l s', PInv s -> NInv s -> OwnP s -> pstep s l = Some s' -> OwnP s'.
Proof.
  intros s l s' PI NI O H B' r f D.
  assert (Ext : forall c, conn_ext (cn s c) (cn s' c)).
  { intros c. destruct (step_conn s l s' H c) as [M|[-> (_ & N & _)]]; [exact (cmove_ext _ _ (NI c) M)|].
    unfold conn_ext. rewrite (p_fresh s PI (nconn s) (le_n _)), N. split; [cbn; lia|discriminate]. }
  assert (B : bounded s).
  { intros c. destruct (Ext c) as [E _]. pose proof (B' c). lia. }
  assert (Mono : val_ok s r f -> val_ok s' r f).
  { intros [A [c [k [K1 K2]]]]. split; [exact A|]. exists c, k. split; [exact K1|].
    apply (Ext c), K2. }
  apply Mono. destruct (step_delivered s l s' r f H D) as [D0|(c & k & w & Cs & W & Fk)].
  - exact (O B r f D0).
  - (* the frame answers a request of ordinal k' with the same wrapped id: k' = k *)
    destruct (c_wire _ (NI c) f) as [k' [Fk' Lk']]; [rewrite W; left; reflexivity|].
    pose proof (c_cur _ (NI c) r k Cs) as Lk.
    pose proof (c_sent _ k _ (NI c) Lk). pose proof (c_sent _ k' _ (NI c) Lk'). pose proof (B c).
    assert (k' = k) by (apply wrap32_inj; [congruence|]; unfold ID_BOUND in *; lia).
    subst k'. split; [congruence|]. exists c, k. auto.
Qed.

Lemma OwnP_run : forall ls s, prun pinit ls = Some s -> PInv s /\ NInv s /\ OwnP s.
Proof.
  intros ls s. apply (inv_run _ _ pstep (fun x => PInv x /\ NInv x /\ OwnP x)).
  - intros x l x' [A [B C]] St. split; [eapply PInv_step; eauto|]. split; [|eapply OwnP_step; eauto].
    intros c. destruct (step_conn x l x' St c) as [M|[_ N]];
      [exact (CInv_move _ _ (B c) M)|exact (CInv_newborn _ N)].
  - split; [exact PInv_init|split].
    + intros c. change (CInv conn0).
      constructor; [split; [reflexivity|apply Z.le_refl]|constructor|constructor|discriminate|intros f []].
    + intros _ r f [H|H]; discriminate H.
Qed.

Lemma pool_exclusive : forall ls s, prun pinit ls = Some s ->
  (forall r r' c, qph (rq s r) = QHold c -> qph (rq s r') = QHold c -> r = r') /\
  (forall r c, qph (rq s r) = QHold c -> cst (cn s c) = CLoop /\ ~ In c (idle s)) /\
  NoDup (idle s) /\
  (forall c, In c (idle s) -> cst (cn s c) = CLoop /\ lastok (cn s c) = true).
Proof.
  intros ls s H. pose proof (PInv_run ls s H) as P. split; [exact (p_excl s P)|split; [|split]].
  - intros r c Q. destruct (p_hold s P r c Q) as [A [B _]]. exact (conj A B).
  - exact (p_nodup s P).
  - intros c X. destruct (p_idle s P c X) as [A _]. split; [exact A|].
    apply (p_ok s P). rewrite A. discriminate.
Qed.

Lemma nconn_mono : forall s l s', pstep s l = Some s' -> (nconn s <= nconn s')%nat.
Proof.
  intros s l s' H. pstep_cases H; cbn [nconn upd_req upd_conn set_idle add_gclosed bump_nconn]; lia.
Qed.

(* CClosed is final: such a connection never carries another request *)
Lemma closed_conn_step : forall s l s' c, pstep s l = Some s' ->
  (c < nconn s)%nat -> cst (cn s c) = CClosed ->
  (c < nconn s')%nat /\ cst (cn s' c) = CClosed /\ bsent (cn s' c) = bsent (cn s c).
Proof.
  intros s l s' c H L C. split; [pose proof (nconn_mono s l s' H); lia|].
  destruct (step_conn s l s' H c) as [M|[-> _]]; [|lia].
  exact (cmove_closed _ _ M C).
Qed.
