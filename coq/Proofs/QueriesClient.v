(* Proofs/QueriesClient.v — Client.ListOffsets (listoffset.go): what is reported for one
   (topic, partition) depends only on the requests and the response entries of that key.  Both
   loops of the function — the first prepares one PartitionOffsets per requested key (lo_prepare),
   the second applies the response entries (lo_apply_topics) — are followed slot by slot. *)
From Coq Require Import List NArith ZArith Bool.
From KV Require Import Lib.Bits Model.Queries Proofs.QueriesSpec Proofs.QueriesMerge.
Import ListNotations. Open Scope Z_scope.

Lemma tp_eqb_eq (a b : str * Z) : tp_eqb a b = true <-> a = b.
Proof.
  destruct a as [a1 a2], b as [b1 b2]. unfold tp_eqb. cbn [fst snd].
  rewrite andb_true_iff, str_eqb_eq, Z.eqb_eq. split.
  - intros [-> ->]. reflexivity.
  - intros H. inversion H. auto.
Qed.

Lemma tp_eqb_refl (a : str * Z) : tp_eqb a a = true.
Proof. apply tp_eqb_eq. reflexivity. Qed.

Lemma tpmap_get_set {V} (m : list (str * Z * V)) k v k' :
  tpmap_get (tpmap_set m k v) k' = if tp_eqb k k' then Some v else tpmap_get m k'.
Proof.
  induction m as [|[k0 v0] m IH].
  - reflexivity.
  - cbn [tpmap_set]. destruct (tp_eqb k0 k) eqn:E.
    + apply tp_eqb_eq in E. subst k0. cbn [tpmap_get].
      destruct (tp_eqb k k'); reflexivity.
    + cbn [tpmap_get]. destruct (tp_eqb k0 k') eqn:E2.
      * destruct (tp_eqb k k') eqn:E3; [|reflexivity].
        apply tp_eqb_eq in E2. apply tp_eqb_eq in E3. subst.
        rewrite tp_eqb_refl in E. discriminate.
      * apply IH.
Qed.

Definition po_or_zero (o : option part_offsets) : part_offsets :=
  match o with Some po => po | None => po_zero end.

(* the successive values of one map slot; outer None = panic *)
Fixpoint po_run (o : option part_offsets) (es : list resp_part) {struct es}
  : option (option part_offsets) :=
  match es with
  | [] => Some o
  | p :: r => match po_apply (po_or_zero o) p with
              | None => None
              | Some po' => po_run (Some po') r
              end
  end.

Lemma po_run_app : forall es1 es2 o,
  po_run o (es1 ++ es2) = match po_run o es1 with None => None | Some o' => po_run o' es2 end.
Proof.
  induction es1 as [|p r IH]; intros es2 o.
  - reflexivity.
  - cbn [app po_run]. destruct (po_apply (po_or_zero o) p); [apply IH | reflexivity].
Qed.

Lemma po_run_some : forall es x o',
  po_run (Some x) es = Some o' -> o' = po_apply_all x es.
Proof.
  induction es as [|p r IH]; intros x o' H.
  - cbn in H. injection H as <-. reflexivity.
  - cbn [po_run po_or_zero] in H. cbn [po_apply_all].
    destruct (po_apply x p); [apply IH; exact H | discriminate].
Qed.

Lemma po_run_spec : forall es o o',
  po_run o es = Some o' ->
  o' = match es with [] => o | p :: r => po_apply_all (po_or_zero o) (p :: r) end.
Proof.
  intros [|p r] o o' H; cbn [po_run] in H; [injection H; auto|]. cbn [po_apply_all].
  destruct (po_apply (po_or_zero o) p); [apply po_run_some; exact H | discriminate].
Qed.

(* the entries of topic t's list that concern key k; [part] is the partition of an entry *)
Definition key_entries {A} (part : A -> Z) (t : str) (l : list A) (k : str * Z) : list A :=
  if str_eqb t (fst k) then filter (fun x => part x =? snd k) l else [].

Lemma key_entries_nil {A} (part : A -> Z) t k : key_entries part t [] k = [].
Proof. unfold key_entries. destruct (str_eqb t (fst k)); reflexivity. Qed.

Lemma key_entries_cons {A} (part : A -> Z) t x l k :
  key_entries part t (x :: l) k =
  if tp_eqb (t, part x) k then x :: key_entries part t l k else key_entries part t l k.
Proof.
  unfold key_entries, tp_eqb. cbn [fst snd filter].
  destruct (str_eqb t (fst k)); [destruct (part x =? snd k)|]; reflexivity.
Qed.

Lemma lo_apply_parts_run : forall ps m0 t m k,
  lo_apply_parts m0 t ps = Some m ->
  po_run (tpmap_get m0 k) (key_entries rp_partition t ps k) = Some (tpmap_get m k).
Proof.
  induction ps as [|p r IH]; intros m0 t m k H; cbn [lo_apply_parts] in H.
  - injection H as <-. rewrite key_entries_nil. reflexivity.
  - fold (po_or_zero (tpmap_get m0 (t, rp_partition p))) in H.
    destruct (po_apply _ p) as [po'|] eqn:Ea; [|discriminate].
    specialize (IH _ _ _ k H). rewrite tpmap_get_set in IH. rewrite key_entries_cons.
    destruct (tp_eqb (t, rp_partition p) k) eqn:E; [|exact IH].
    apply tp_eqb_eq in E. rewrite E in Ea. cbn [po_run]. rewrite Ea. exact IH.
Qed.

Lemma entries_for_cons t ts k :
  entries_for (t :: ts) k = key_entries rp_partition (fst t) (snd t) k ++ entries_for ts k.
Proof. reflexivity. Qed.

Lemma lo_apply_topics_run : forall ts m0 m k,
  lo_apply_topics m0 ts = Some m ->
  po_run (tpmap_get m0 k) (entries_for ts k) = Some (tpmap_get m k).
Proof.
  induction ts as [|t r IH]; intros m0 m k H.
  - cbn in H. injection H as <-. reflexivity.
  - cbn [lo_apply_topics] in H.
    destruct (lo_apply_parts m0 (fst t) (snd t)) as [m'|] eqn:Ep; [|discriminate].
    rewrite entries_for_cons, po_run_app.
    rewrite (lo_apply_parts_run _ _ _ _ k Ep). apply IH. exact H.
Qed.

(* the slot of partition p after the first loop has seen the timestamps tss requested for it, in
   order; no request leaves the slot as it was (absent stays absent) *)
Definition po_req_run (o : option part_offsets) (p : Z) (tss : list Z) : option part_offsets :=
  match tss with
  | [] => o
  | _ => Some (fold_left po_request tss (match o with Some po => po | None => po_fresh p end))
  end.

Lemma po_req_run_app o p a b :
  po_req_run (po_req_run o p a) p b = po_req_run o p (a ++ b).
Proof.
  destruct a as [|x a]; [reflexivity|].
  destruct b as [|y b].
  - rewrite app_nil_r. reflexivity.
  - unfold po_req_run. cbn [app]. f_equal.
    change (x :: a ++ y :: b) with ((x :: a) ++ (y :: b)).
    rewrite fold_left_app. reflexivity.
Qed.

Definition prep_step (t : str * list (Z * Z)) (m : list (str * Z * part_offsets)) (r : Z * Z) :=
  let key := (fst t, fst r) in
  let po := match tpmap_get m key with Some po => po | None => po_fresh (fst r) end in
  tpmap_set m key (po_request po (snd r)).

Lemma prep_inner : forall rs t m0 k,
  tpmap_get (fold_left (prep_step t) rs m0) k
  = po_req_run (tpmap_get m0 k) (snd k) (map snd (key_entries fst (fst t) rs k)).
Proof.
  induction rs as [|r rs IH]; intros t m0 k; [rewrite key_entries_nil; reflexivity|].
  cbn [fold_left]. rewrite IH. unfold prep_step. cbn zeta. rewrite tpmap_get_set, key_entries_cons.
  destruct (tp_eqb (fst t, fst r) k) eqn:E; [|reflexivity].
  apply tp_eqb_eq in E. subst k. cbn [map snd].
  destruct (map snd (key_entries fst (fst t) rs (fst t, fst r))); reflexivity.
Qed.

Lemma requested_ts_cons t u k :
  requested_ts (t :: u) k = map snd (key_entries fst (fst t) (snd t) k) ++ requested_ts u k.
Proof. unfold requested_ts, key_entries. cbn [flat_map]. destruct (str_eqb (fst t) (fst k)); reflexivity. Qed.

Lemma prep_outer : forall u m0 k,
  tpmap_get (fold_left (fun m t => fold_left (prep_step t) (snd t) m) u m0) k
  = po_req_run (tpmap_get m0 k) (snd k) (requested_ts u k).
Proof.
  induction u as [|t u IH]; intros m0 k.
  - reflexivity.
  - cbn [fold_left]. rewrite IH, prep_inner, po_req_run_app, requested_ts_cons. reflexivity.
Qed.
