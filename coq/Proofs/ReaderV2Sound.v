(* Proofs/ReaderV2Sound.v — C02, L1 (offsets): what the abstract reader of
   ReaderV2Run.v delivers from an ordered sequence of v2 batches is exactly the wholly
   contained records at or after the fetch offset, and the final offset separates them from
   the rest. *)
From Coq Require Import List NArith ZArith Bool Lia.
From Coq Require Import ZifyN ZifyNat ZifyBool.
From KV Require Import Lib.Bits Model.MsgSetReader Model.ReaderModel Spec.FetchSpec
  Proofs.ReaderPrim Proofs.ReaderV2 Proofs.ReaderV2Run Proofs.ReaderProofs.
Import ListNotations.
Open Scope Z_scope.

Section Sound.
Variable compress : Z -> list N -> list N.
Variable o : Z.     (* the fetch offset *)

Notation rec_step := (rec_step compress).
Notation bstep := (bstep compress).
Notation step1 := (step1 compress).
Notation cstep := (cstep compress).

(* batches in increasing, disjoint offset ranges, records inside their batch's range *)
Fixpoint chain (lo : Z) (bs : list pbatch) {struct bs} : Prop :=
  match bs with
  | [] => True
  | b :: t => lo <= pb_base b /\ 0 <= pb_lod b /\ increasing (pb_base b) (pb_recs b)
              /\ Forall (fun r => r_off r <= pb_base b + pb_lod b) (pb_recs b)
              /\ chain (pb_base b + pb_lod b + 1) t
  end.

Lemma chain_lb bs : forall lo r, chain lo bs -> In r (flat_map pb_recs bs) -> lo <= r_off r.
Proof.
  induction bs as [|b t IH]; intros lo r Hc Hr; [destruct Hr|].
  destruct Hc as (H1 & H2 & H3 & H4 & H5). cbn [flat_map] in Hr. apply in_app_or in Hr as [Hr|Hr].
  - pose proof (increasing_lb _ _ H3 r Hr). lia.
  - specialize (IH _ r H5 Hr). lia.
Qed.

Definition remp (p : apos) : list record := a_rs p ++ flat_map pb_recs (a_bs p).

(* remp p: the records not yet passed.  The invariant of a run: Batch.offset is never below the
   fetch offset; the records left in the current batch increase from lo_rs and lie below lo_bs,
   where the chain of batches to come starts (two bounds: the current batch was entered, the next
   not); emptyLastOffset, and lastOffset resp. the end of the current batch's range, are below
   them, so that an io.EOF never moves the offset past a record; and Batch.offset is at or below
   every remaining record at or after the fetch offset: none was skipped *)
Definition pos_inv (p : apos) : Prop :=
  o <= a_off p
  /\ exists lo_rs lo_bs,
      increasing lo_rs (a_rs p) /\ chain lo_bs (a_bs p)
      /\ (forall r, In r (a_rs p) -> r_off r < lo_bs)
      /\ a_el p < lo_rs /\ a_el p < lo_bs
      /\ (a_rs p = [] -> a_last p < lo_bs)
      /\ (a_rs p <> [] -> pb_base (a_b p) + pb_lod (a_b p) < lo_bs)
      /\ (forall r, In r (remp p) -> o <= r_off r -> a_off p <= r_off r).

Lemma inv_lb p : pos_inv p -> forall r, In r (remp p) -> a_el p < r_off r.
Proof.
  intros (_ & lo_rs & lo_bs & H1 & H2 & H3 & H4 & H5 & _) r Hr. unfold remp in Hr.
  apply in_app_or in Hr as [Hr|Hr].
  - pose proof (increasing_lb _ _ H1 r Hr). lia.
  - pose proof (chain_lb _ _ r H2 Hr). lia.
Qed.

Lemma inv_rec_step md md0 lr0 b r rs' bs j j0 hdr off last el r0 p' :
  pos_inv (mkPos b (r :: rs') bs j0 hdr off last el md0 lr0) ->
  rec_step md b r rs' bs j off el = ARec r0 p' ->
  r0 = r /\ pos_inv p' /\ remp p' = rs' ++ flat_map pb_recs bs /\ r_off r < a_off p' /\ off <= a_off p'.
Proof.
  intros (Ho & lo_rs & lo_bs & H1 & H2 & H3 & H4 & H5 & H6 & H7 & H8) Hs.
  cbn [a_b a_rs a_bs a_j a_hdr a_off a_last a_el a_mode a_lr] in *.
  destruct (rec_step_inv compress _ _ _ _ _ _ _ _ _ _ Hs) as (E0 & E1 & E2 & E3 & E4 & E5 & E6 & E7 & E8 & E9 & E10).
  subst r0. split; [reflexivity|].
  destruct H1 as [Hr1 Hr2]. specialize (H7 ltac:(discriminate)).
  assert (Hoff : r_off r < a_off p' /\ off <= a_off p'
                 /\ (forall x, In x (rs' ++ flat_map pb_recs bs) -> o <= r_off x -> a_off p' <= r_off x)).
  { rewrite E9. cbv zeta.
    assert (Hx : forall x, In x (rs' ++ flat_map pb_recs bs) -> r_off r + 1 <= r_off x).
    { intros x Hx. apply in_app_or in Hx as [Hx|Hx].
      - pose proof (increasing_lb _ _ Hr2 x Hx). lia.
      - pose proof (chain_lb _ _ x H2 Hx). specialize (H3 r (or_introl eq_refl)). lia. }
    set (off1 := if off <=? r_off r then r_off r + 1 else off) in *.
    assert (Ho1 : off <= off1 /\ r_off r + 1 <= off1 /\ (off1 = off \/ off1 = r_off r + 1))
      by (unfold off1; destruct (off <=? r_off r) eqn:?; lia).
    clearbody off1.
    destruct ((len (erecs b rs') =? 0) && _) eqn:Ej.
    - assert (Hnil : rs' = []).
      { destruct rs' as [|r1 t]; [reflexivity|exfalso]. rewrite erecs_cons, len_app in Ej.
        pose proof (enc_record_nonempty (pb_base b) (pb_ts b) r1). pose proof (len_nonneg (erecs b t)). lia. }
      rewrite Hnil in *. split; [lia|]. split; [lia|].
      intros x Hx0 _. cbn [app] in Hx0. pose proof (chain_lb _ _ x H2 Hx0). lia.
    - split; [lia|]. split; [lia|].
      intros x Hx' Hox. specialize (Hx x Hx').
      assert (off <= r_off x) by (apply H8; [unfold remp; cbn [a_rs a_bs]; right; exact Hx'|exact Hox]).
      lia. }
  destruct Hoff as (Hf1 & Hf2 & Hf3).
  assert (Hrem : remp p' = rs' ++ flat_map pb_recs bs) by (unfold remp; rewrite E2, E3; reflexivity).
  split; [|split; [exact Hrem|split; [exact Hf1|exact Hf2]]].
  split; [lia|]. exists (r_off r + 1), lo_bs. rewrite E1, E2, E3, E5, E8.
  split; [exact Hr2|]. split; [exact H2|]. split; [intros x Hx; apply H3; right; exact Hx|].
  split; [lia|]. split; [lia|]. split; [intros _; lia|]. split; [intros _; lia|].
  rewrite Hrem. exact Hf3.
Qed.

Lemma step1_rec_in_batch p r rs' r0 p' : pos_inv p -> a_rs p = r :: rs' -> step1 p = ARec r0 p' ->
  remp p = r0 :: remp p' /\ pos_inv p' /\ r_off r0 < a_off p' /\ a_off p <= a_off p'.
Proof.
  intros HI Hrs Hs. destruct p as [b rs bs j hdr off last el md lr]. cbn [a_rs] in Hrs. subst rs.
  unfold ReaderV2Run.step1 in Hs. cbn [a_b a_rs a_bs a_j a_off a_el a_mode] in Hs.
  assert (Hs' : exists md' jj, rec_step md' b r rs' bs jj off el = ARec r0 p').
  { destruct md; [eexists _, _; exact Hs| |eexists _, _; exact Hs].
    destruct (cstep_inv compress _ _ _ _ _ _ _ _ _ Hs) as [_ Hs']. eexists _, _. exact Hs'. }
  destruct Hs' as (md' & jj & Hs').
  destruct (inv_rec_step md' md lr b r rs' bs jj j hdr off last el r0 p' HI Hs') as (E0 & HI' & Hrem & Hlt & Hle).
  subst r0. unfold remp at 1. cbn [a_rs a_bs a_off]. rewrite Hrem. auto.
Qed.

Lemma step1_end_in_batch p r rs' x : a_rs p = r :: rs' -> step1 p = AEnd x -> x = eoff_in (a_off p) (a_el p).
Proof.
  intros Hrs Hs. unfold ReaderV2Run.step1 in Hs. rewrite Hrs in Hs.
  destruct (a_mode p);
    [apply (rec_step_end compress _ _ _ _ _ _ _ _ _ Hs)|apply (cstep_end compress _ _ _ _ _ _ _ _ Hs)
    |apply (rec_step_end compress _ _ _ _ _ _ _ _ _ Hs)].
Qed.

Lemma inv_enter b t j off last el lo :
  o <= off -> chain lo (b :: t) -> pb_recs b <> [] -> el < pb_base b ->
  (forall x, In x (flat_map pb_recs (b :: t)) -> o <= r_off x -> off <= r_off x) ->
  pos_inv (enter compress b t j off last el).
Proof.
  intros Ho (C1 & C2 & C3 & C4 & C5) Hne Hel HJ. split; [exact Ho|].
  exists (pb_base b), (pb_base b + pb_lod b + 1). unfold enter. cbn [a_b a_rs a_bs a_off a_last a_el].
  split; [exact C3|]. split; [exact C5|].
  split; [intros x Hx; pose proof (proj1 (Forall_forall _ _) C4 x Hx) as Hx'; cbn beta in Hx'; lia|].
  split; [lia|]. split; [lia|]. split; [intros H; contradiction|]. split; [intros _; lia|]. exact HJ.
Qed.

(* at a batch boundary: record-less batches are passed, the first batch with records is entered *)
Lemma inv_bstep : forall bs j off last el r0 p' lo_bs,
  o <= off -> chain lo_bs bs -> el < lo_bs -> last < lo_bs ->
  (forall r, In r (flat_map pb_recs bs) -> o <= r_off r -> off <= r_off r) ->
  bstep bs j off last el = ARec r0 p' ->
  flat_map pb_recs bs = r0 :: remp p' /\ pos_inv p' /\ r_off r0 < a_off p' /\ off <= a_off p'.
Proof.
  induction bs as [|b t IH]; intros j off last el r0 p' lo_bs Ho Hc Hel Hlast HJ Hs; [discriminate Hs|].
  rewrite (bstep_cons compress) in Hs. destruct (j <? 61); [discriminate|].
  pose proof Hc as (C1 & C2 & _ & _ & C5).
  destruct (pb_recs b) as [|r rs'] eqn:Er.
  - cbn [flat_map] in *. rewrite Er in *. cbn [app] in *.
    apply (IH (j - 61) off last (pb_base b + pb_lod b) r0 p' (pb_base b + pb_lod b + 1)); try assumption; lia.
  - apply (step1_rec_in_batch (enter compress b t (j - 61) off last el) r rs'); [|exact Er|exact Hs].
    apply (inv_enter b t (j - 61) off last el lo_bs); [exact Ho|exact Hc|rewrite Er; discriminate|lia|exact HJ].
Qed.

Lemma step1_rec p r0 p' : pos_inv p -> step1 p = ARec r0 p' ->
  remp p = r0 :: remp p' /\ pos_inv p' /\ r_off r0 < a_off p' /\ a_off p <= a_off p'.
Proof.
  intros HI Hs. destruct (a_rs p) as [|r rs'] eqn:Ers; [|apply (step1_rec_in_batch p r rs' r0 p' HI Ers Hs)].
  destruct HI as (Ho & lo_rs & lo_bs & H1 & H2 & H3 & H4 & H5 & H6 & H7 & H8).
  unfold ReaderV2Run.step1 in Hs. unfold remp in *. rewrite Ers in *. cbn [app] in *.
  apply (inv_bstep (a_bs p) (a_j p) (a_off p) (a_last p) (a_el p) r0 p' lo_bs Ho H2 H5 (H6 eq_refl) H8 Hs).
Qed.

Lemma bstep_end : forall bs j off last el x lo_bs,
  chain lo_bs bs -> el < lo_bs -> last < lo_bs ->
  (forall r, In r (flat_map pb_recs bs) -> o <= r_off r -> off <= r_off r) ->
  bstep bs j off last el = AEnd x ->
  off <= x /\ forall r, In r (flat_map pb_recs bs) -> o <= r_off r -> x <= r_off r.
Proof.
  induction bs as [|b t IH]; intros j off last el x lo_bs Hc Hel Hlast HJ Hs.
  - cbn [bstep] in Hs. injection Hs as <-. split; [apply eoff0_ge|intros r []].
  - rewrite (bstep_cons compress) in Hs. pose proof Hc as (C1 & C2 & C3 & C4 & C5).
    pose proof (chain_lb (b :: t) lo_bs) as Hall. specialize (fun r => Hall r Hc).
    destruct (j <? 61).
    + injection Hs as <-. split; [apply eoff0_ge|].
      intros r Hr Hor. specialize (Hall r Hr). apply eoff0_least; [exact (HJ r Hr Hor)|lia|lia].
    + destruct (pb_recs b) as [|r1 rs'] eqn:Er.
      * cbn [flat_map] in *. rewrite Er in *. cbn [app] in *.
        apply (IH (j - 61) off last (pb_base b + pb_lod b) x (pb_base b + pb_lod b + 1)); try assumption; lia.
      * pose proof (step1_end_in_batch (enter compress b t (j - 61) off last el) r1 rs' x Er Hs) as Hx.
        unfold enter in Hx. cbn [a_off a_el] in Hx. subst x. split; [apply eoff_in_ge|].
        intros r Hr Hor. specialize (Hall r Hr). apply eoff_in_least; [exact (HJ r Hr Hor)|lia].
Qed.

Lemma step1_end p x : pos_inv p -> step1 p = AEnd x ->
  a_off p <= x /\ forall r, In r (remp p) -> o <= r_off r -> x <= r_off r.
Proof.
  intros HI Hs. pose proof (inv_lb p HI) as Hlb.
  destruct HI as (Ho & lo_rs & lo_bs & H1 & H2 & H3 & H4 & H5 & H6 & H7 & H8).
  destruct (a_rs p) as [|r rs'] eqn:Ers.
  - unfold ReaderV2Run.step1 in Hs. unfold remp in *. rewrite Ers in *. cbn [app] in *.
    apply (bstep_end (a_bs p) (a_j p) (a_off p) (a_last p) (a_el p) x lo_bs); try assumption.
    apply H6. reflexivity.
  - rewrite (step1_end_in_batch p r rs' x Ers Hs). split; [apply eoff_in_ge|].
    intros y Hy Hoy. apply eoff_in_least; [exact (H8 y Hy Hoy)|exact (Hlb y Hy)].
Qed.

(* Batch.ReadMessage: skips records below o, then delivers one or stops *)
Lemma a_read_spec : forall fuel p, pos_inv p ->
  match a_read compress o fuel p with
  | ADeliver r p' => exists sk, remp p = sk ++ r :: remp p' /\ Forall (fun x => r_off x < o) sk
                                /\ o <= r_off r /\ pos_inv p' /\ a_off p <= a_off p'
                                /\ Forall (fun x => r_off x < a_off p') (sk ++ [r])
  | AStop x => exists sk rest, remp p = sk ++ rest /\ Forall (fun x => r_off x < o) sk
                               /\ a_off p <= x /\ (forall r, In r rest -> o <= r_off r -> x <= r_off r)
  | AOut => True
  end.
Proof.
  induction fuel as [|f IH]; intros p HI; [exact I|].
  cbn [a_read]. destruct (step1 p) as [r p1|x] eqn:Es.
  - destruct (step1_rec p r p1 HI Es) as (E1 & HI1 & Hlt & Hle).
    destruct (r_off r <? o) eqn:Er.
    + specialize (IH p1 HI1). destruct (a_read compress o f p1) as [r2 p2|x2|]; [| |exact I].
      * destruct IH as (sk & F1 & F2 & F3 & F4 & F5 & F6).
        exists (r :: sk). rewrite E1, F1. split; [reflexivity|]. split; [constructor; [lia|exact F2]|].
        split; [exact F3|]. split; [exact F4|]. split; [lia|].
        cbn [app]. constructor; [lia|exact F6].
      * destruct IH as (sk & rest & F1 & F2 & F3 & F4).
        exists (r :: sk), rest. rewrite E1, F1. split; [reflexivity|]. split; [constructor; [lia|exact F2]|].
        split; [lia|exact F4].
    + exists []. cbn [app]. split; [exact E1|]. split; [constructor|]. split; [lia|]. split; [exact HI1|].
      split; [exact Hle|]. constructor; [exact Hlt|constructor].
  - destruct (step1_end p x HI Es) as [E1 E2]. exists [], (remp p). cbn [app].
    split; [reflexivity|]. split; [constructor|]. split; [exact E1|exact E2].
Qed.

Lemma a_run_spec : forall fuel p acc ms x, pos_inv p -> a_run compress o fuel p acc = Some (ms, x) ->
  exists Rp Rs, remp p = Rp ++ Rs /\ delivered o acc (a_off p) Rp ms x
                /\ (forall r, In r Rs -> o <= r_off r -> x <= r_off r).
Proof.
  induction fuel as [|f IH]; intros p acc ms x HI Hrun; [discriminate|].
  cbn [a_run] in Hrun. pose proof (a_read_spec (S f) p HI) as Hr.
  destruct (a_read compress o (S f) p) as [r p1|x1|]; [| |discriminate].
  - (* a record was delivered after the skipped ones: the rest of the run goes on from there *)
    destruct Hr as (sk & F1 & F2 & F3 & F4 & F5 & F6).
    destruct (IH p1 (msg_of r :: acc) ms x F4 Hrun) as (Rp & Rs & G1 & GD & G4).
    exists ((sk ++ [r]) ++ Rp), Rs. split; [rewrite F1, G1, <- !app_assoc; reflexivity|]. split; [|exact G4].
    apply (delivered_app o acc (a_off p) (sk ++ [r]) (msg_of r :: acc) (a_off p1)); [|exact GD].
    split; [|split; [exact F6|exact F5]].
    rewrite filter_app, (filter_all_false _ sk) by (eapply Forall_impl; [|exact F2]; cbn; intros; lia).
    cbn [app filter rev]. replace (o <=? r_off r) with true by lia. reflexivity.
  - injection Hrun as <- <-. destruct Hr as (sk & rest & F1 & F2 & F3 & F4).
    exists sk, rest. split; [exact F1|]. split; [|exact F4]. split; [|split; [|exact F3]].
    + rewrite (filter_all_false _ sk) by (eapply Forall_impl; [|exact F2]; cbn; intros; lia).
      unfold mm. cbn. rewrite app_nil_r. reflexivity.
    + pose proof (proj1 HI). eapply Forall_impl; [|exact F2]. cbn. intros. lia.
Qed.

(* the records left of the current batch are all present *)
Definition covered (p : apos) : Prop :=
  match a_rs p with
  | [] => True
  | _ => match a_mode p with
         | MPending => plen_of compress (a_b p) <= a_j p
         | _ => len (erecs (a_b p) (a_rs p)) <= a_j p
         end
  end.

Lemma covered_step p r rs' : a_rs p = r :: rs' -> covered p ->
  exists p', step1 p = ARec r p' /\ a_rs p' = rs' /\ covered p'.
Proof.
  intros Hrs Hc. unfold covered in Hc. unfold ReaderV2Run.step1. rewrite Hrs in *.
  set (b := a_b p) in *. set (L := len (enc_record (pb_base b) (pb_ts b) r)).
  pose proof (len_nonneg (erecs b rs')) as Hn.
  assert (Hgo : forall md jj, md <> MPending -> len (erecs b (r :: rs')) <= jj ->
            exists p', rec_step md b r rs' (a_bs p) jj (a_off p) (a_el p) = ARec r p' /\ a_rs p' = rs' /\ covered p').
  { intros md jj Hmd Hjj. rewrite erecs_cons, len_app in Hjj. fold L in Hjj.
    unfold ReaderV2Run.rec_step. cbv zeta. fold L. replace (jj <? L) with false by lia.
    eexists. split; [reflexivity|]. cbn [a_rs]. split; [reflexivity|].
    unfold covered. cbn [a_rs a_mode a_b a_j]. destruct rs'; [exact I|]. destruct md; [lia|contradiction|lia]. }
  destruct (a_mode p).
  - apply Hgo; [discriminate|exact Hc].
  - unfold ReaderV2Run.cstep. fold b. replace (a_j p <? plen_of compress b) with false by lia.
    destruct (Hgo MInside (a_j p - plen_of compress b + len (erecs b (r :: rs'))) ltac:(discriminate) ltac:(lia)) as (p' & H1 & H2 & H3).
    exists p'. split; [exact H1|]. split; [exact H2|exact H3].
  - apply Hgo; [discriminate|exact Hc].
Qed.

Lemma a_read_delivers : forall rs p fuel,
  a_rs p = rs -> covered p -> (exists r, In r rs /\ o <= r_off r) -> (length rs <= fuel)%nat ->
  exists r p', a_read compress o fuel p = ADeliver r p'.
Proof.
  induction rs as [|r rs' IH]; intros p fuel Hrs Hc (r0 & Hin & Hge) Hf; [destruct Hin|].
  destruct fuel as [|f]; [cbn [length] in Hf; lia|]. cbn [a_read].
  destruct (covered_step p r rs' Hrs Hc) as (p' & Hs & Hrs' & Hc'). rewrite Hs.
  destruct (r_off r <? o) eqn:E.
  - destruct Hin as [<-|Hin]; [lia|].
    apply (IH p' f Hrs' Hc'); [exists r0; auto|cbn [length] in Hf; lia].
  - exists r, p'. reflexivity.
Qed.

Lemma a_run_nonempty fuel p acc ms x :
  pos_inv p -> a_run compress o fuel p acc = Some (ms, x) ->
  (exists r p', a_read compress o fuel p = ADeliver r p') -> ms <> [].
Proof.
  intros HI Hrun (r & p' & Hr). destruct fuel as [|f]; [discriminate|].
  cbn [a_run] in Hrun. pose proof (a_read_spec (S f) p HI) as Hsp. rewrite Hr in Hrun, Hsp.
  destruct Hsp as (sk & _ & _ & _ & HI' & _).
  destruct (a_run_spec f p' (msg_of r :: acc) ms x HI' Hrun) as (Rp & Rs & _ & GD & _).
  apply (delivered_nonempty _ _ _ _ _ _ GD). discriminate.
Qed.

End Sound.
