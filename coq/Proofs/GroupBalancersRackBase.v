(* Proofs/GroupBalancersRackBase.v — sums over member ids and the hand-out loop of
   RackAffinityGroupBalancer.assignTopic *)
From Coq Require Import List NArith ZArith Bool Arith Lia Permutation.
From KV Require Import Model.GroupBalancers Proofs.GroupBalancersBase.
Import ListNotations.

Definition sumf (F : bytes -> nat) (ids : list bytes) : nat := list_sum (map F ids).

Lemma sumf_cons F a l : sumf F (a :: l) = F a + sumf F l.
Proof. reflexivity. Qed.

Lemma sumf_ext_in F G ids : (forall i, In i ids -> F i = G i) -> sumf F ids = sumf G ids.
Proof. intros H. unfold sumf. f_equal. apply map_ext_in. exact H. Qed.

Lemma sumf_add F G ids : sumf (fun i => F i + G i) ids = sumf F ids + sumf G ids.
Proof. induction ids as [|a l IH]; [reflexivity|]. rewrite !sumf_cons, IH. lia. Qed.

Lemma sumf_const k ids : sumf (fun _ => k) ids = k * length ids.
Proof. induction ids as [|a l IH]; [cbn; lia|]. rewrite sumf_cons, IH. cbn [length]. lia. Qed.

Lemma sumf_le F G ids : (forall i, In i ids -> F i <= G i) -> sumf F ids <= sumf G ids.
Proof.
  induction ids as [|a l IH]; intros H; [reflexivity|]. rewrite !sumf_cons.
  specialize (H a (or_introl eq_refl)) as Ha. specialize (IH (fun i Hi => H i (or_intror Hi))). lia.
Qed.

Lemma sumf_update F F' c ids : NoDup ids -> In c ids -> (forall i, i <> c -> F' i = F i) ->
  sumf F' ids + F c = sumf F ids + F' c.
Proof.
  induction ids as [|a l IH]; intros Hnd Hin Hext; [destruct Hin|].
  inversion Hnd; subst. rewrite !sumf_cons.
  destruct (bytes_eq_dec a c) as [->|Hne].
  - rewrite (sumf_ext_in F' F l); [lia|]. intros i Hi. apply Hext. intros ->. contradiction.
  - rewrite (Hext a Hne). destruct Hin as [Hin|Hin]; [contradiction|].
    specialize (IH H2 Hin Hext). lia.
Qed.

Lemma sumf_perm F l l' : Permutation l l' -> sumf F l = sumf F l'.
Proof.
  induction 1; rewrite ?sumf_cons; try lia; reflexivity.
Qed.

Lemma sumf_app F l l' : sumf F (l ++ l') = sumf F l + sumf F l'.
Proof. induction l as [|a l IH]; [reflexivity|]. cbn [app]. rewrite !sumf_cons, IH. lia. Qed.

Lemma sumf_bound_one F B c ids : In c ids -> (forall i, In i ids -> F i <= B) ->
  sumf F ids + B <= F c + B * length ids.
Proof.
  intros Hin HB. apply in_split in Hin. destruct Hin as [l1 [l2 ->]].
  rewrite sumf_app, sumf_cons, app_length. cbn [length].
  rewrite Nat.mul_add_distr_l, Nat.mul_succ_r, <- !sumf_const.
  assert (H1 : sumf F l1 <= sumf (fun _ => B) l1)
    by (apply sumf_le; intros; apply HB, in_or_app; auto).
  assert (H2 : sumf F l2 <= sumf (fun _ => B) l2)
    by (apply sumf_le; intros; apply HB, in_or_app; cbn; auto).
  lia.
Qed.

Definition ind (cs : list bytes) (k : nat) (i : bytes) : nat :=
  if in_dec bytes_eq_dec i cs then k else 0.

Lemma ind_in cs k i : In i cs -> ind cs k i = k.
Proof. intros H. unfold ind. destruct (in_dec bytes_eq_dec i cs); [reflexivity|contradiction]. Qed.

Lemma ind_notin cs k i : ~ In i cs -> ind cs k i = 0.
Proof. intros H. unfold ind. destruct (in_dec bytes_eq_dec i cs); [contradiction|reflexivity]. Qed.

Lemma ind_le cs k i : ind cs k i <= k.
Proof. unfold ind. destruct (in_dec bytes_eq_dec i cs); lia. Qed.

Lemma ind_cons c cs k i : ~ In c cs ->
  ind (c :: cs) k i = (if bytes_eq_dec i c then k else 0) + ind cs k i.
Proof.
  intros Hn. destruct (bytes_eq_dec i c) as [->|Hne].
  - rewrite ind_in, ind_notin by (cbn; auto). lia.
  - destruct (in_dec bytes_eq_dec i cs) as [Hi|Hi].
    + rewrite !ind_in by (cbn; auto). reflexivity.
    + rewrite !ind_notin; [reflexivity|exact Hi|]. intros [E|E]; [congruence|contradiction].
Qed.

Lemma sumf_ind cs k ids : NoDup ids -> NoDup cs -> incl cs ids ->
  sumf (ind cs k) ids = k * length cs.
Proof.
  intros Hnd. induction cs as [|c cs IH]; intros Hcs Hinc.
  - rewrite (sumf_ext_in _ (fun _ => 0)) by (intros; apply ind_notin; intros []). rewrite sumf_const. cbn. lia.
  - inversion Hcs; subst.
    rewrite (sumf_ext_in _ _ _ (fun i _ => ind_cons c cs k i H1)), sumf_add, IH;
      [|assumption|intros x Hx; apply Hinc; right; exact Hx].
    pose proof (sumf_update (fun _ => 0) (fun i => if bytes_eq_dec i c then k else 0) c ids Hnd
                  (Hinc c (or_introl eq_refl))) as E.
    cbv beta in E. destruct (bytes_eq_dec c c); [|congruence]. rewrite sumf_const in E.
    assert (forall i, i <> c -> (if bytes_eq_dec i c then k else 0) = 0)
      by (intros i Hi; destruct (bytes_eq_dec i c); congruence).
    specialize (E H). cbn [length]. lia.
Qed.

(* [deal], [deal_extra] and [hand_out] only ever append to the assignment: their effect is
   [appends ops], and the lemmas on [grp] apply *)
Notation appends := (grp fst snd).

Definition Lf (asg : amap Z) (i : bytes) : nat := length (aget i asg).

Lemma Lf_aappend asg c xs i :
  Lf (aappend c xs asg) i = Lf asg i + (if bytes_eq_dec i c then length xs else 0).
Proof.
  unfold Lf. rewrite aget_aappend.
  destruct (bytes_eqb_spec i c), (bytes_eq_dec i c); try congruence.
  - apply app_length.
  - lia.
Qed.

Definition blocks (ops : list (bytes * list Z)) (cs : list bytes) (k : nat) (xs : list Z) : Prop :=
  map fst ops = cs /\ flat_map snd ops = xs /\ Forall (fun op => length (snd op) = k) ops.

Lemma Lf_appends_blocks ops cs k xs asg i : blocks ops cs k xs -> NoDup cs ->
  Lf (appends ops asg) i = Lf asg i + ind cs k i.
Proof.
  intros [<- [_ Hk]]. clear xs. revert asg.
  induction ops as [|[c b] ops IH]; intros asg Hnd; cbn [fold_left grp map fst snd].
  - rewrite ind_notin by intros []. lia.
  - cbn [map fst] in Hnd. apply NoDup_cons_iff in Hnd. destruct Hnd as [Hc Hnd].
    apply Forall_cons_iff in Hk. destruct Hk as [Hb Hk]. cbn [snd] in Hb.
    fold (appends ops (aappend c b asg)). rewrite (IH Hk _ Hnd), Lf_aappend, (ind_cons c _ k i Hc), Hb. lia.
Qed.

Lemma take_opt_some {A} k (l : list A) : k <= length l ->
  take_opt k l = Some (firstn k l, skipn k l).
Proof. intros H. unfold take_opt. destruct (Nat.leb_spec k (length l)); [reflexivity|lia]. Qed.

Section HandOut.
Variable ids : list bytes.
Hypothesis ids_nd : NoDup ids.
Variables T R P : nat.
Hypothesis PMR : P = length ids * T + R.

(* with all loads <= T+1, [over] is how many members sit at T+1 *)
Definition tot (asg : amap Z) := sumf (Lf asg) ids.
Definition over (asg : amap Z) := sumf (fun i => Lf asg i - T) ids.
Definition capped (asg : amap Z) := sumf (fun i => Nat.min (Lf asg i) T) ids.
Definition cnt_le (asg : amap Z) (l : list bytes) := sumf (fun i => if Lf asg i <=? T then 1 else 0) l.

Lemma tot_split asg : tot asg = capped asg + over asg.
Proof.
  unfold tot, capped, over. rewrite <- sumf_add. apply sumf_ext_in. intros i _. lia.
Qed.

Lemma tot_avalues asg : NoDup (akeys asg) -> incl (akeys asg) ids -> tot asg = length (avalues asg).
Proof.
  intros Hnd Hinc. rewrite <- (Permutation_length (flat_map_order_perm asg ids Hnd ids_nd Hinc)).
  symmetry. apply length_flat_map.
Qed.

Lemma tot_aappend asg c xs : In c ids -> tot (aappend c xs asg) = tot asg + length xs.
Proof.
  intros Hc. unfold tot.
  pose proof (sumf_update (Lf asg) (Lf (aappend c xs asg)) c ids ids_nd Hc) as E.
  rewrite Lf_aappend in E. destruct (bytes_eq_dec c c); [|congruence].
  assert (forall i, i <> c -> Lf (aappend c xs asg) i = Lf asg i).
  { intros i Hi. rewrite Lf_aappend. destruct (bytes_eq_dec i c); [congruence|lia]. }
  specialize (E H). lia.
Qed.

Lemma over_aappend asg c xs : In c ids ->
  over (aappend c xs asg) + (Lf asg c - T) = over asg + (Lf asg c + length xs - T).
Proof.
  intros Hc. unfold over.
  pose proof (sumf_update (fun i => Lf asg i - T) (fun i => Lf (aappend c xs asg) i - T) c ids ids_nd Hc) as E.
  cbv beta in E. rewrite Lf_aappend in E. destruct (bytes_eq_dec c c); [|congruence].
  apply E. intros i Hi. rewrite Lf_aappend. destruct (bytes_eq_dec i c); [congruence|]. f_equal. lia.
Qed.

Lemma capped_bound asg c : In c ids -> capped asg + T <= Nat.min (Lf asg c) T + T * length ids.
Proof.
  intros Hc. apply (sumf_bound_one (fun i => Nat.min (Lf asg i) T) T c ids Hc). intros; lia.
Qed.

Definition hands_out (asg : amap Z) (remaining : list Z) (res : option (amap Z)) : Prop :=
  exists ops, res = Some (appends ops asg) /\
    incl (map fst ops) ids /\ flat_map snd ops = remaining /\
    (forall i, In i ids -> T <= Lf (appends ops asg) i <= T + 1).

Lemma hands_out_cons asg c hd tl res : In c ids ->
  hands_out (aappend c hd asg) tl res -> hands_out asg (hd ++ tl) res.
Proof.
  intros Hc [ops [E [Hk [Hv Hb]]]]. exists ((c, hd) :: ops). split; [exact E|]. split.
  - intros x [<-|Hx]; [exact Hc|apply Hk; exact Hx].
  - split; [|exact Hb]. cbn [flat_map snd]. rewrite Hv. reflexivity.
Qed.

(* Invariant of the hand-out loop: [tot + |remaining| = P], [over + rem = R] (members above T
   are exactly the bumps spent), everybody is at most T+1, members already passed are at least T,
   and enough members at most T are still to come to spend [rem].  With [n] the load of the next
   member this gives |remaining| >= T - n + rem, which is what the slice needs. *)
Lemma hand_out_ok : forall suf asg remaining rem,
  NoDup (map m_id suf) -> incl (map m_id suf) ids ->
  tot asg + length remaining = P ->
  over asg + rem = R ->
  (forall i, In i ids -> Lf asg i <= T + 1) ->
  (forall i, In i ids -> ~ In i (map m_id suf) -> T <= Lf asg i) ->
  rem <= cnt_le asg (map m_id suf) ->
  hands_out asg remaining (hand_out suf T asg remaining rem).
Proof.
  induction suf as [|m suf IH]; intros asg remaining rem Hnd Hinc Htot Hover Hle Hge Hrem.
  - cbn [hand_out]. exists [].
    assert (rem = 0) by (unfold cnt_le in Hrem; cbn in Hrem; lia). subst rem.
    assert (Hc : capped asg = T * length ids).
    { unfold capped. rewrite (sumf_ext_in _ (fun _ => T)); [apply sumf_const|].
      intros i Hi. specialize (Hge i Hi (fun x => x)). lia. }
    pose proof (tot_split asg) as Ht.
    assert (length remaining = 0) by lia.
    destruct remaining; [|discriminate].
    split; [reflexivity|]. split; [intros x []|]. split; [reflexivity|].
    intros i Hi. split; [apply Hge; [exact Hi|intros []]|apply Hle; exact Hi].
  - cbn [map] in Hnd, Hinc, Hrem. apply NoDup_cons_iff in Hnd; destruct Hnd as [Hnotin Hnd'].
    set (c := m_id m) in *.
    assert (Hc : In c ids) by (apply Hinc; left; reflexivity).
    assert (Hinc' : incl (map m_id suf) ids) by (intros x Hx; apply Hinc; right; exact Hx).
    cbn [hand_out]. fold c. change (length (aget c asg)) with (Lf asg c). set (n := Lf asg c) in *.
    pose proof (tot_split asg) as Ht. pose proof (capped_bound asg c Hc) as Hcb. fold n in Hcb.
    assert (HnT1 : n <= T + 1) by (apply Hle; exact Hc).
    unfold cnt_le in Hrem. rewrite sumf_cons in Hrem. fold (cnt_le asg (map m_id suf)) in Hrem.
    fold n in Hrem.
    assert (Hroom : T - n + rem <= length remaining) by lia.
    assert (Hother : forall i, In i ids -> ~ In i (map m_id suf) -> i <> c -> T <= Lf asg i).
    { intros i Hi Hni Hne. apply Hge; [exact Hi|]. cbn [map In]. fold c.
      intros [E|E]; [congruence|contradiction]. }
    assert (Hskip : forall rem', rem' <= cnt_le asg (map m_id suf) -> T <= n -> over asg + rem' = R ->
              hands_out asg remaining (hand_out suf T asg remaining rem')).
    { intros rem' Hr' HTn Ho'. apply IH; try assumption.
      intros i Hi Hni. destruct (bytes_eq_dec i c) as [->|Hne]; [exact HTn|auto]. }
    (* the member takes d > 0 partitions, reaching T (rem' = rem) or T+1 (rem' = rem - 1) *)
    assert (Htake : forall d rem', n <= T -> T <= n + d <= T + 1 -> rem' + (n + d - T) = rem ->
              rem' <= cnt_le asg (map m_id suf) ->
              hands_out asg remaining
                match take_opt d remaining with
                | None => None
                | Some (hd, tl) => hand_out suf T (aappend c hd asg) tl rem'
                end).
    { intros d rem' HnT Hd Hr' Hc'.
      assert (Hdl : d <= length remaining) by lia. rewrite (take_opt_some _ _ Hdl).
      rewrite <- (firstn_skipn d remaining) at 1.
      set (hd := firstn d remaining). set (tl := skipn d remaining).
      assert (Hhd : length hd = d) by (apply firstn_length_le; exact Hdl).
      assert (Htl : length tl + d = length remaining) by (unfold tl; rewrite skipn_length; lia).
      pose proof (tot_aappend asg c hd Hc) as Ht'. pose proof (over_aappend asg c hd Hc) as Ho'.
      fold n in Ho'. rewrite Hhd in Ht', Ho'.
      assert (HLc : forall i, Lf (aappend c hd asg) i = Lf asg i + (if bytes_eq_dec i c then d else 0))
        by (intros i; rewrite Lf_aappend, Hhd; reflexivity).
      apply (hands_out_cons _ _ _ _ _ Hc), IH; try assumption; try lia.
      - intros i Hi. rewrite HLc. destruct (bytes_eq_dec i c) as [->|]; [fold n; lia|].
        specialize (Hle i Hi). lia.
      - intros i Hi Hni. rewrite HLc. destruct (bytes_eq_dec i c) as [->|Hne]; [fold n; lia|].
        specialize (Hother i Hi Hni Hne). lia.
      - replace (cnt_le (aappend c hd asg) (map m_id suf)) with (cnt_le asg (map m_id suf)); [exact Hc'|].
        apply sumf_ext_in. intros i Hi. rewrite HLc.
        destruct (bytes_eq_dec i c) as [->|]; [contradiction|]. rewrite Nat.add_0_r. reflexivity. }
    revert Hrem. destruct (Nat.leb_spec n T) as [HnT|HnT]; intros Hrem; cbn [andb].
    + destruct (Nat.ltb_spec 0 rem) as [Hr|Hr].
      * replace (0 <? T - n + 1) with true by (symmetry; apply Nat.ltb_lt; lia).
        apply Htake; lia.
      * rewrite Nat.add_0_r. destruct (Nat.ltb_spec 0 (T - n)); [apply Htake|apply Hskip]; lia.
    + cbn [Nat.ltb Nat.leb]. apply Hskip; lia.
Qed.
End HandOut.
