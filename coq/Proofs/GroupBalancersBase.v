(* Proofs/GroupBalancersBase.v — byte strings, association maps, grouping and sorting
   lemmas behind Properties/C14.v *)
From Coq Require Import List NArith ZArith Bool Arith Lia Permutation Sorted.
From KV Require Import Model.GroupBalancers.
Import ListNotations.

Lemma bytes_eqb_spec a b : reflect (a = b) (bytes_eqb a b).
Proof.
  revert b. induction a as [|x a IH]; intros [|y b]; cbn [bytes_eqb]; try (constructor; congruence).
  destruct (N.eqb_spec x y); cbn [andb].
  - destruct (IH b); constructor; congruence.
  - constructor; congruence.
Qed.

Lemma bytes_eqb_refl a : bytes_eqb a a = true.
Proof. destruct (bytes_eqb_spec a a); congruence. Qed.

Lemma bytes_eqb_sym a b : bytes_eqb a b = bytes_eqb b a.
Proof. destruct (bytes_eqb_spec a b), (bytes_eqb_spec b a); congruence. Qed.

Lemma bytes_eqb_neq a b : a <> b -> bytes_eqb a b = false.
Proof. destruct (bytes_eqb_spec a b); congruence. Qed.

Lemma existsb_eqb_in t (l : list bytes) : existsb (bytes_eqb t) l = true <-> In t l.
Proof.
  rewrite existsb_exists. split.
  - intros [x [H1 H2]]. destruct (bytes_eqb_spec t x); congruence.
  - intros H. exists t. split; [exact H|apply bytes_eqb_refl].
Qed.

Definition bytes_eq_dec (a b : bytes) : {a = b} + {a <> b}.
Proof. destruct (bytes_eqb_spec a b); [left|right]; assumption. Defined.

Lemma bytes_ltb_irrefl a : bytes_ltb a a = false.
Proof.
  induction a as [|x a IH]; cbn [bytes_ltb]; [reflexivity|].
  rewrite N.ltb_irrefl, N.eqb_refl. exact IH.
Qed.

Lemma bytes_ltb_cons x a y b :
  bytes_ltb (x :: a) (y :: b) = true <-> (x < y)%N \/ (x = y /\ bytes_ltb a b = true).
Proof.
  cbn [bytes_ltb]. destruct (N.ltb_spec x y), (N.eqb_spec x y); split; try tauto; try discriminate;
    intros [?|[? ?]]; try lia; try contradiction; assumption.
Qed.

Lemma bytes_ltb_trans a b c : bytes_ltb a b = true -> bytes_ltb b c = true -> bytes_ltb a c = true.
Proof.
  revert b c. induction a as [|x a IH]; intros [|y b] [|z c]; try (cbn [bytes_ltb]; congruence).
  rewrite !bytes_ltb_cons. intros [H1|[-> H1]] [H2|[-> H2]]; [left; lia|left; exact H1|left; exact H2|].
  right. split; [reflexivity|]. eapply IH; eassumption.
Qed.

Lemma bytes_ltb_total a b : bytes_ltb a b = false -> bytes_ltb b a = false -> a = b.
Proof.
  revert b. induction a as [|x a IH]; intros [|y b]; cbn [bytes_ltb]; try congruence.
  destruct (N.ltb_spec x y), (N.eqb_spec x y), (N.ltb_spec y x), (N.eqb_spec y x);
    try congruence; try lia.
  intros H1 H2. subst. f_equal. apply IH; assumption.
Qed.

Lemma bytes_ltb_asym a b : bytes_ltb a b = true -> bytes_ltb b a = false.
Proof.
  intros H. destruct (bytes_ltb b a) eqn:E; [|reflexivity].
  pose proof (bytes_ltb_trans _ _ _ H E) as H2. rewrite bytes_ltb_irrefl in H2. discriminate.
Qed.

Lemma flat_map_ext_in {A B} (f g : A -> list B) l :
  (forall a, In a l -> f a = g a) -> flat_map f l = flat_map g l.
Proof.
  induction l as [|a l IH]; intros H; [reflexivity|]. cbn [flat_map].
  rewrite (H a (or_introl eq_refl)), IH; [reflexivity|]. intros; apply H; right; assumption.
Qed.

Lemma flat_map_singleton {A B} (f : A -> B) l : flat_map (fun a => [f a]) l = map f l.
Proof. induction l as [|a l IH]; [reflexivity|]. cbn [flat_map map app]. rewrite IH. reflexivity. Qed.

Lemma flat_map_map_out {A B C} (g : B -> C) (h : A -> list B) l :
  flat_map (fun i => map g (h i)) l = map g (flat_map h l).
Proof.
  induction l as [|a l IH]; cbn [flat_map]; [reflexivity|]. rewrite map_app, IH. reflexivity.
Qed.

Lemma flat_map_flat_map {A B C} (f : B -> list C) (g : A -> list B) l :
  flat_map f (flat_map g l) = flat_map (fun a => flat_map f (g a)) l.
Proof. induction l as [|a l IH]; [reflexivity|]. cbn [flat_map]. rewrite flat_map_app, IH. reflexivity. Qed.

Lemma fold_left_flat_map {A B C} (f : A -> C -> A) (g : B -> list C) l : forall a,
  fold_left f (flat_map g l) a = fold_left (fun a b => fold_left f (g b) a) l a.
Proof.
  induction l as [|b l IH]; intros a; cbn [flat_map fold_left]; [reflexivity|].
  rewrite fold_left_app. apply IH.
Qed.

Lemma fold_left_map {A B C} (f : A -> C -> A) (h : B -> C) l : forall a,
  fold_left f (map h l) a = fold_left (fun a x => f a (h x)) l a.
Proof. induction l as [|b l IH]; intros a; [reflexivity|]. apply IH. Qed.

Lemma filter_of_map {A B} (q : B -> bool) (h : A -> B) l :
  filter q (map h l) = map h (filter (fun x => q (h x)) l).
Proof.
  induction l as [|a l IH]; [reflexivity|]. cbn [map filter]. rewrite IH.
  destruct (q (h a)); reflexivity.
Qed.

Lemma flat_map_nil {A B} (l : list A) : flat_map (fun _ => @nil B) l = [].
Proof. induction l; auto. Qed.

Lemma length_flat_map {A B} (f : A -> list B) l :
  length (flat_map f l) = list_sum (map (fun a => length (f a)) l).
Proof. induction l as [|a l IH]; [reflexivity|]. cbn [flat_map map list_sum]. rewrite app_length, IH. reflexivity. Qed.

Lemma filter_all {A} (p : A -> bool) l : (forall a, In a l -> p a = true) -> filter p l = l.
Proof.
  induction l as [|a l IH]; intros H; [reflexivity|]. cbn [filter].
  rewrite (H a (or_introl eq_refl)), IH; [reflexivity|]. intros; apply H; right; assumption.
Qed.

Lemma filter_none {A} (p : A -> bool) l : (forall a, In a l -> p a = false) -> filter p l = [].
Proof.
  induction l as [|a l IH]; intros H; [reflexivity|]. cbn [filter].
  rewrite (H a (or_introl eq_refl)). apply IH. intros; apply H; right; assumption.
Qed.

Lemma perm_juggle {A} (a h b f : list A) : Permutation ((a ++ h) ++ (b ++ f)) ((a ++ b) ++ (h ++ f)).
Proof.
  rewrite <- !app_assoc. apply Permutation_app_head. rewrite !app_assoc.
  apply Permutation_app_tail. apply Permutation_app_comm.
Qed.

Lemma NoDup_firstn {A} n (l : list A) : NoDup l -> NoDup (firstn n l).
Proof.
  intros H. rewrite <- (firstn_skipn n l) in H. revert H. generalize (skipn n l).
  induction (firstn n l) as [|a f IH]; intros r H; [constructor|]. cbn [app] in H.
  inversion H; subst. constructor; [|eapply IH; eassumption].
  intros Hin. apply H2. apply in_or_app. left. exact Hin.
Qed.

Lemma NoDup_map_inj {A B} (f : A -> B) l a b :
  NoDup (map f l) -> In a l -> In b l -> f a = f b -> a = b.
Proof.
  induction l as [|x l IH]; cbn [map In]; [tauto|]. intros Hnd Ha Hb E.
  apply NoDup_cons_iff in Hnd. destruct Hnd as [Hx Hnd].
  destruct Ha as [->|Ha], Hb as [->|Hb]; [reflexivity| | |auto].
  - exfalso. apply Hx. rewrite E. apply in_map. exact Hb.
  - exfalso. apply Hx. rewrite <- E. apply in_map. exact Ha.
Qed.

Lemma NoDup_map_filter {A B} (f : A -> B) p (l : list A) : NoDup (map f l) -> NoDup (map f (filter p l)).
Proof.
  induction l as [|a l IH]; cbn [map filter]; intros H; [constructor|].
  inversion H; subst. destruct (p a); cbn [map]; [|auto].
  constructor; [|auto]. intros Hin. apply H2. apply in_map_iff in Hin.
  destruct Hin as [x [E Hx]]. apply filter_In in Hx. rewrite <- E. apply in_map. tauto.
Qed.

Lemma NoDup_snoc {A} (l : list A) x : NoDup l -> ~ In x l -> NoDup (l ++ [x]).
Proof.
  intros H Hn. apply NoDup_rev in H. rewrite <- (rev_involutive (l ++ [x])).
  apply NoDup_rev. rewrite rev_app_distr. constructor; [rewrite <- in_rev; exact Hn|exact H].
Qed.

Lemma filter_perm {A} p (l l' : list A) : Permutation l l' -> Permutation (filter p l) (filter p l').
Proof.
  induction 1; cbn [filter]; try (destruct (p x); auto; fail).
  - constructor.
  - destruct (p x), (p y); auto. apply perm_swap.
  - etransitivity; eassumption.
Qed.

Lemma filter_partition_perm {A} (p : A -> bool) l :
  Permutation (filter p l ++ filter (fun x => negb (p x)) l) l.
Proof.
  induction l as [|a l IH]; [constructor|]. cbn [filter]. destruct (p a); cbn [negb app].
  - constructor. exact IH.
  - apply Permutation_sym, Permutation_cons_app, Permutation_sym. exact IH.
Qed.

Lemma NoDup_map_pair {A B C} (f : A -> B) (c : C) l :
  NoDup (map f l) -> NoDup (map (fun a => (f a, c)) l).
Proof.
  induction l as [|a l IH]; cbn [map]; intros H; [constructor|].
  inversion H; subst. constructor; [|auto].
  intros Hi. apply H2. apply in_map_iff in Hi. destruct Hi as [x [E Hx]].
  apply in_map_iff. exists x. split; [congruence|exact Hx].
Qed.

Lemma existsb_filter {A} (p : A -> bool) l :
  existsb p l = match filter p l with [] => false | _ :: _ => true end.
Proof. induction l as [|a l IH]; [reflexivity|]. cbn [existsb filter]. destruct (p a); [reflexivity|exact IH]. Qed.

Lemma firstn_In_incl {A} n (l : list A) x : In x (firstn n l) -> In x l.
Proof. intros H. rewrite <- (firstn_skipn n l). apply in_or_app. left. exact H. Qed.

Lemma NoDup_app_intro {A} (l1 l2 : list A) :
  NoDup l1 -> NoDup l2 -> (forall x, In x l1 -> ~ In x l2) -> NoDup (l1 ++ l2).
Proof.
  induction l1 as [|a l1 IH]; cbn [app]; intros H1 H2 H; [exact H2|].
  inversion H1; subst. constructor.
  - rewrite in_app_iff. intros [Hi|Hi]; [tauto|]. apply (H a); [left; reflexivity|exact Hi].
  - apply IH; [assumption|assumption|]. intros x Hx. apply H. right. exact Hx.
Qed.

Lemma firstn_app_skipn {A} n m (l : list A) : firstn n l ++ firstn m (skipn n l) = firstn (n + m) l.
Proof.
  revert l. induction n as [|n IH]; intros l; [reflexivity|].
  destruct l as [|a l]; cbn [firstn skipn app plus].
  - rewrite firstn_nil. reflexivity.
  - f_equal. apply IH.
Qed.

Lemma skipn_skipn' {A} x y (l : list A) : skipn x (skipn y l) = skipn (y + x) l.
Proof.
  revert l. induction y as [|y IH]; intros l; [reflexivity|].
  destruct l as [|a l]; cbn [skipn plus]; [apply skipn_nil|apply IH].
Qed.

Section AMap.
Context {V : Type}.
Implicit Types (m : amap V) (k : bytes) (vs : list V).

Definition akeys m : list bytes := map fst m.

Lemma aget_aappend k k' vs m :
  aget k (aappend k' vs m) = if bytes_eqb k k' then aget k m ++ vs else aget k m.
Proof.
  induction m as [|[k0 l] r IH]; cbn [aappend aget].
  - destruct (bytes_eqb_spec k k'); reflexivity.
  - destruct (bytes_eqb_spec k' k0) as [->|N0]; cbn [aget].
    + destruct (bytes_eqb_spec k k0); reflexivity.
    + destruct (bytes_eqb_spec k k0) as [->|N1].
      * rewrite bytes_eqb_neq by congruence. reflexivity.
      * exact IH.
Qed.

Lemma amem_iff k m : amem k m = true <-> In k (akeys m).
Proof.
  unfold akeys. induction m as [|[k0 l] r IH]; cbn [amem map fst In]; [split; [discriminate|tauto]|].
  destruct (bytes_eqb_spec k k0) as [->|N0]; [tauto|].
  rewrite IH. split; [auto|]. intros [H|H]; [congruence|exact H].
Qed.

Lemma akeys_aappend k vs m :
  akeys (aappend k vs m) = if amem k m then akeys m else akeys m ++ [k].
Proof.
  unfold akeys. induction m as [|[k0 l] r IH]; cbn [aappend amem map fst app]; [reflexivity|].
  destruct (bytes_eqb k k0); cbn [map fst]; [reflexivity|]. rewrite IH.
  destruct (amem k r); reflexivity.
Qed.

Lemma In_akeys_aappend k vs m x : In x (akeys (aappend k vs m)) <-> x = k \/ In x (akeys m).
Proof.
  rewrite akeys_aappend. destruct (amem k m) eqn:E.
  - apply amem_iff in E. split; [auto|]. intros [->|H]; assumption.
  - rewrite in_app_iff. cbn [In]. intuition.
Qed.

Lemma NoDup_akeys_aappend k vs m : NoDup (akeys m) -> NoDup (akeys (aappend k vs m)).
Proof.
  intros H. rewrite akeys_aappend. destruct (amem k m) eqn:E; [exact H|].
  apply NoDup_snoc; [exact H|]. rewrite <- amem_iff. congruence.
Qed.

Lemma aget_notin k m : ~ In k (akeys m) -> aget k m = [].
Proof.
  unfold akeys. induction m as [|[k0 l] r IH]; cbn [aget map fst]; [reflexivity|].
  intros H. destruct (bytes_eqb_spec k k0) as [->|N0].
  - exfalso. apply H. left. reflexivity.
  - apply IH. intros H1. apply H. right. exact H1.
Qed.

Lemma aget_in k l m : NoDup (akeys m) -> In (k, l) m -> aget k m = l.
Proof.
  unfold akeys. induction m as [|[k0 l0] r IH]; cbn [aget map fst In]; [tauto|].
  intros Hnd H. inversion Hnd; subst.
  destruct H as [H|H].
  - inversion H; subst. rewrite bytes_eqb_refl. reflexivity.
  - destruct (bytes_eqb_spec k k0) as [->|N0].
    + exfalso. apply H2. apply (in_map fst) in H. exact H.
    + apply IH; assumption.
Qed.

Lemma aget_aremove k k' m : NoDup (akeys m) ->
  aget k (aremove k' m) = if bytes_eqb k k' then [] else aget k m.
Proof.
  unfold akeys. induction m as [|[k0 l] r IH]; cbn [aremove aget map fst]; intros Hnd.
  - destruct (bytes_eqb k k'); reflexivity.
  - inversion Hnd; subst.
    destruct (bytes_eqb_spec k' k0) as [->|N0].
    + destruct (bytes_eqb_spec k k0) as [->|N1]; [|reflexivity].
      apply aget_notin. exact H1.
    + cbn [aget]. destruct (bytes_eqb_spec k k0) as [->|N1].
      * rewrite bytes_eqb_neq by congruence. reflexivity.
      * apply IH. exact H2.
Qed.

Lemma aget_aset k k' vs m :
  aget k (aset k' vs m) = if bytes_eqb k k' then vs else aget k m.
Proof.
  induction m as [|[k0 l] r IH]; cbn [aset aget].
  - destruct (bytes_eqb k k'); reflexivity.
  - destruct (bytes_eqb_spec k' k0) as [->|N0]; cbn [aget].
    + destruct (bytes_eqb_spec k k0); reflexivity.
    + destruct (bytes_eqb_spec k k0) as [->|N1].
      * rewrite bytes_eqb_neq by congruence. reflexivity.
      * exact IH.
Qed.

Lemma akeys_aset_in k vs m : In k (akeys m) -> akeys (aset k vs m) = akeys m.
Proof.
  unfold akeys. induction m as [|[k0 l] r IH]; cbn [aset map fst]; [intros []|].
  intros H. destruct (bytes_eqb_spec k k0) as [->|N0]; cbn [map fst]; [reflexivity|].
  f_equal. apply IH. destruct H; congruence.
Qed.

Lemma akeys_aremove_incl k m x : In x (akeys (aremove k m)) -> In x (akeys m).
Proof.
  unfold akeys. induction m as [|[k0 l] r IH]; cbn [aremove map fst]; [tauto|].
  destruct (bytes_eqb k k0); cbn [map fst In]; intuition.
Qed.

Lemma NoDup_akeys_aremove k m : NoDup (akeys m) -> NoDup (akeys (aremove k m)).
Proof.
  unfold akeys. induction m as [|[k0 l] r IH]; cbn [aremove map fst]; [auto|].
  intros H. inversion H; subst. destruct (bytes_eqb k k0); [assumption|].
  cbn [map fst]. constructor; [|auto].
  intros Hin. apply H2. apply (akeys_aremove_incl k r). exact Hin.
Qed.

Lemma akeys_aremove_neq k k' m : k' <> k -> In k' (akeys m) -> In k' (akeys (aremove k m)).
Proof.
  unfold akeys. intros Hne. induction m as [|[k0 l] r IH]; cbn [aremove map fst In]; [tauto|].
  destruct (bytes_eqb_spec k k0) as [->|N0]; cbn [map fst In]; intuition congruence.
Qed.

Definition avalues m : list V := concat (map snd m).

Lemma avalues_aappend k vs m : Permutation (avalues (aappend k vs m)) (avalues m ++ vs).
Proof.
  unfold avalues. induction m as [|[k0 l] r IH]; cbn [aappend map snd concat].
  - rewrite app_nil_r. reflexivity.
  - destruct (bytes_eqb k k0); cbn [map snd concat].
    + rewrite <- !app_assoc. apply Permutation_app_head. apply Permutation_app_comm.
    + rewrite <- app_assoc. apply Permutation_app_head. exact IH.
Qed.

Lemma avalues_split k m : NoDup (akeys m) -> In k (akeys m) ->
  Permutation (avalues m) (aget k m ++ avalues (aremove k m)).
Proof.
  unfold avalues, akeys. induction m as [|[k0 l] r IH]; cbn [aremove aget map fst snd concat In]; [tauto|].
  intros Hnd H. inversion Hnd; subst.
  destruct (bytes_eqb_spec k k0) as [->|N0]; [reflexivity|].
  cbn [map snd concat]. rewrite IH; [|assumption|destruct H; congruence].
  rewrite !app_assoc. apply Permutation_app_tail. apply Permutation_app_comm.
Qed.

Lemma avalues_aset k vs m : NoDup (akeys m) -> In k (akeys m) ->
  Permutation (avalues (aset k vs m)) (vs ++ avalues (aremove k m)).
Proof.
  unfold avalues, akeys. induction m as [|[k0 l] r IH]; cbn [aremove aset map fst snd concat In]; [tauto|].
  intros Hnd H. inversion Hnd; subst.
  destruct (bytes_eqb_spec k k0) as [->|N0]; [reflexivity|].
  cbn [map snd concat]. rewrite IH; [|assumption|destruct H; congruence].
  rewrite !app_assoc. apply Permutation_app_tail. apply Permutation_app_comm.
Qed.

(* "if len(rest) == 0 { delete(m, k) } else { m[k] = rest }" for a present key *)
Definition put_rest k (rest : list V) m : amap V :=
  match rest with [] => aremove k m | _ :: _ => aset k rest m end.

Section PutRest.
Variables (k : bytes) (rest : list V) (m : amap V).
Hypothesis m_nd : NoDup (akeys m).
Hypothesis k_in : In k (akeys m).

Lemma NoDup_akeys_put_rest : NoDup (akeys (put_rest k rest m)).
Proof.
  unfold put_rest. destruct rest; [apply NoDup_akeys_aremove, m_nd|].
  rewrite akeys_aset_in by exact k_in. exact m_nd.
Qed.

Lemma akeys_put_rest_incl x : In x (akeys (put_rest k rest m)) -> In x (akeys m).
Proof.
  unfold put_rest. destruct rest; [apply akeys_aremove_incl|].
  rewrite akeys_aset_in by exact k_in. auto.
Qed.

Lemma akeys_put_rest_neq k' : k' <> k -> In k' (akeys m) -> In k' (akeys (put_rest k rest m)).
Proof.
  unfold put_rest. destruct rest; [apply akeys_aremove_neq|].
  rewrite akeys_aset_in by exact k_in. auto.
Qed.

Lemma aget_put_rest_neq k' : k' <> k -> aget k' (put_rest k rest m) = aget k' m.
Proof.
  intros Hne. unfold put_rest. destruct rest.
  - rewrite aget_aremove by exact m_nd. rewrite bytes_eqb_neq by exact Hne. reflexivity.
  - rewrite aget_aset. rewrite bytes_eqb_neq by exact Hne. reflexivity.
Qed.

Lemma avalues_put_rest : Permutation (avalues (put_rest k rest m)) (rest ++ avalues (aremove k m)).
Proof. unfold put_rest. destruct rest; [reflexivity|]. apply avalues_aset; assumption. Qed.
End PutRest.

Definition amap_over (ids : list bytes) m : Prop := NoDup (akeys m) /\ incl (akeys m) ids.

Lemma amap_over_put_rest ids k rest m :
  amap_over ids m -> In k (akeys m) -> amap_over ids (put_rest k rest m).
Proof.
  intros [Hnd Hinc] Hk. split; [apply NoDup_akeys_put_rest; assumption|].
  intros x Hx. apply Hinc. eapply akeys_put_rest_incl; eassumption.
Qed.

End AMap.

(* The Go loop "for a in l { m[key a] = append(m[key a], val a...) }": the bucket of k ends
   up holding the values of the elements with key k, in order. *)
Section Group.
Context {A V : Type} (key : A -> bytes) (val : A -> list V).

Definition grp (l : list A) (acc : amap V) : amap V :=
  fold_left (fun acc a => aappend (key a) (val a) acc) l acc.

Lemma grp_app l l' acc : grp (l ++ l') acc = grp l' (grp l acc).
Proof. apply fold_left_app. Qed.

Lemma aget_grp k l acc :
  aget k (grp l acc) = aget k acc ++ flat_map val (filter (fun a => bytes_eqb (key a) k) l).
Proof.
  unfold grp. revert acc. induction l as [|a l IH]; intros acc; cbn [fold_left filter].
  - symmetry. apply app_nil_r.
  - rewrite IH, aget_aappend, (bytes_eqb_sym k (key a)).
    destruct (bytes_eqb (key a) k); cbn [flat_map]; [symmetry; apply app_assoc|reflexivity].
Qed.

Lemma aget_grp_other k l acc : ~ In k (map key l) -> aget k (grp l acc) = aget k acc.
Proof.
  intros Hn. rewrite aget_grp, filter_none; [apply app_nil_r|].
  intros a Ha. apply bytes_eqb_neq. intros E. apply Hn. rewrite <- E. apply in_map. exact Ha.
Qed.

Lemma NoDup_akeys_grp l acc : NoDup (akeys acc) -> NoDup (akeys (grp l acc)).
Proof.
  unfold grp. revert acc. induction l as [|a l IH]; intros acc H; cbn [fold_left]; [exact H|].
  apply IH. apply NoDup_akeys_aappend. exact H.
Qed.

Lemma akeys_grp l acc x :
  In x (akeys (grp l acc)) <-> In x (akeys acc) \/ In x (map key l).
Proof.
  unfold grp. revert acc. induction l as [|a l IH]; intros acc; cbn [fold_left map In]; [tauto|].
  rewrite IH, In_akeys_aappend. intuition.
Qed.

Lemma amap_over_grp ids l acc : amap_over ids acc -> incl (map key l) ids -> amap_over ids (grp l acc).
Proof.
  intros [Hnd Hinc] Hl. split; [apply NoDup_akeys_grp, Hnd|].
  intros x Hx. apply akeys_grp in Hx. destruct Hx; auto.
Qed.

Lemma avalues_grp l acc : Permutation (avalues (grp l acc)) (avalues acc ++ flat_map val l).
Proof.
  unfold grp. revert acc. induction l as [|a l IH]; intros acc; cbn [fold_left flat_map].
  - rewrite app_nil_r. reflexivity.
  - rewrite IH, avalues_aappend. rewrite <- app_assoc. reflexivity.
Qed.

Lemma group_perm ks : forall l, NoDup ks -> (forall a, In a l -> In (key a) ks) ->
  Permutation (flat_map (fun k => filter (fun a => bytes_eqb (key a) k) l) ks) l.
Proof.
  induction ks as [|k ks IH]; intros l Hnd Hin.
  - destruct l as [|a l]; [constructor|]. destruct (Hin a (or_introl eq_refl)).
  - inversion Hnd; subst. cbn [flat_map].
    set (l' := filter (fun a => negb (bytes_eqb (key a) k)) l).
    rewrite (flat_map_ext_in _ (fun k' => filter (fun a => bytes_eqb (key a) k') l') ks).
    + rewrite (IH l' H2); [apply filter_partition_perm|].
      intros a Ha. apply filter_In in Ha. destruct Ha as [Ha Hne].
      destruct (Hin a Ha) as [E|H]; [|exact H]. rewrite E, bytes_eqb_refl in Hne. discriminate.
    + intros k' Hk'. unfold l'. clear - Hk' H1.
      induction l as [|a l IHl]; [reflexivity|]. cbn [filter].
      destruct (bytes_eqb_spec (key a) k') as [E|N].
      * rewrite bytes_eqb_neq by (intros E'; apply H1; congruence). cbn [negb filter].
        rewrite E, bytes_eqb_refl. f_equal. exact IHl.
      * destruct (negb (bytes_eqb (key a) k)); cbn [filter]; [rewrite bytes_eqb_neq by exact N|]; exact IHl.
Qed.
End Group.

Lemma aget_entries {V} z (m : amap V) : NoDup (akeys m) ->
  aget z m = flat_map snd (filter (fun e => bytes_eqb (fst e) z) m).
Proof.
  unfold akeys. induction m as [|[k l] r IH]; cbn [aget map fst filter]; intros Hnd; [reflexivity|].
  apply NoDup_cons_iff in Hnd. destruct Hnd as [Hk Hnd]. rewrite (bytes_eqb_sym z k).
  destruct (bytes_eqb_spec k z) as [->|N]; [|apply IH, Hnd].
  cbn [flat_map snd]. rewrite filter_none; [symmetry; apply app_nil_r|].
  intros e He. apply bytes_eqb_neq. intros E. apply Hk. rewrite <- E. apply in_map, He.
Qed.

Lemma flat_map_order_perm {V} (m : amap V) order :
  NoDup (akeys m) -> NoDup order -> incl (akeys m) order ->
  Permutation (flat_map (fun z => aget z m) order) (avalues m).
Proof.
  intros Hnd Hno Hinc. rewrite (flat_map_ext_in _ _ order (fun z _ => aget_entries z m Hnd)).
  rewrite <- flat_map_flat_map. unfold avalues. rewrite <- flat_map_concat_map.
  apply Permutation_flat_map, (group_perm fst); [exact Hno|]. intros e He. apply Hinc, in_map, He.
Qed.

Definition subscribes (t : bytes) (m : member) : bool :=
  existsb (fun t' => bytes_eqb t' t) (m_topics m).

Definition wf_group (ms : list member) : Prop :=
  NoDup (map m_id ms) /\ forall m, In m ms -> NoDup (m_topics m).

Lemma subscribes_iff t m : subscribes t m = true <-> In t (m_topics m).
Proof.
  unfold subscribes. rewrite existsb_exists. split.
  - intros [x [H1 H2]]. destruct (bytes_eqb_spec x t); congruence.
  - intros H. exists t. split; [exact H|apply bytes_eqb_refl].
Qed.

Lemma filter_eq_nodup t (l : list bytes) : NoDup l ->
  filter (fun t' => bytes_eqb t' t) l = if existsb (fun t' => bytes_eqb t' t) l then [t] else [].
Proof.
  induction l as [|x l IH]; cbn [filter existsb]; [reflexivity|].
  intros H. inversion H; subst. destruct (bytes_eqb_spec x t) as [->|N0]; cbn [orb].
  - rewrite IH by assumption.
    destruct (existsb (fun t' => bytes_eqb t' t) l) eqn:E; [|reflexivity].
    exfalso. apply H2. apply existsb_exists in E. destruct E as [y [Hy1 Hy2]].
    destruct (bytes_eqb_spec y t); congruence.
  - apply IH. assumption.
Qed.

(* the (topic, member) pairs in the order the two loops of findMembersByTopic visit them *)
Definition subscriptions (ms : list member) : list (bytes * member) :=
  flat_map (fun m => map (fun t => (t, m)) (m_topics m)) ms.

Lemma group_by_topic_grp ms :
  group_by_topic ms = grp fst (fun p => [snd p]) (subscriptions ms) [].
Proof.
  unfold group_by_topic. generalize (@nil (bytes * list member)).
  induction ms as [|m ms IH]; intros acc; [reflexivity|].
  cbn [fold_left subscriptions flat_map]. rewrite grp_app, <- IH. f_equal.
  symmetry. apply fold_left_map.
Qed.

Lemma in_subscriptions ms t m : In (t, m) (subscriptions ms) <-> In m ms /\ In t (m_topics m).
Proof.
  unfold subscriptions. rewrite in_flat_map. split.
  - intros [m' [Hm' H]]. apply in_map_iff in H. destruct H as [t' [[= -> ->] Ht]]. auto.
  - intros [Hm Ht]. exists m. split; [exact Hm|]. apply in_map_iff. exists t. auto.
Qed.

Lemma aget_group_by_topic t ms : wf_group ms ->
  aget t (group_by_topic ms) = filter (subscribes t) ms.
Proof.
  intros [_ H]. rewrite group_by_topic_grp, aget_grp, flat_map_singleton. cbn [aget app].
  induction ms as [|m ms IH]; [reflexivity|]. cbn [subscriptions flat_map filter].
  fold (subscriptions ms). rewrite filter_app, map_app, IH by (intros; apply H; right; assumption).
  rewrite filter_of_map, map_map. cbn [fst snd].
  rewrite filter_eq_nodup by (apply H; left; reflexivity). fold (subscribes t m).
  destruct (subscribes t m); reflexivity.
Qed.

Lemma NoDup_akeys_group_by_topic ms : NoDup (akeys (group_by_topic ms)).
Proof. rewrite group_by_topic_grp. apply NoDup_akeys_grp. constructor. Qed.

Lemma akeys_group_by_topic ms t :
  In t (akeys (group_by_topic ms)) <-> exists m, In m ms /\ In t (m_topics m).
Proof.
  rewrite group_by_topic_grp, akeys_grp, in_map_iff. cbn [akeys map In]. split.
  - intros [[]|[[t' m] [<- H]]]. exists m. apply in_subscriptions, H.
  - intros [m H]. right. exists (t, m). split; [reflexivity|apply in_subscriptions, H].
Qed.

(* sort.Slice on members and sort.Strings on topics are modelled by the same insertion sort
   on a byte-string key: [ins] is any function with the two defining equations *)
Section InsertionSort.
Context {A : Type} (key : A -> bytes) (ins : A -> list A -> list A).
Hypothesis ins_nil : forall x, ins x [] = [x].
Hypothesis ins_cons : forall x y t,
  ins x (y :: t) = if bytes_ltb (key y) (key x) then y :: ins x t else x :: y :: t.

Definition key_lt (a b : A) : Prop := bytes_ltb (key a) (key b) = true.

Lemma ins_perm x l : Permutation (ins x l) (x :: l).
Proof.
  induction l as [|y l IH]; [rewrite ins_nil; reflexivity|]. rewrite ins_cons.
  destruct (bytes_ltb (key y) (key x)); [|reflexivity]. rewrite IH. apply perm_swap.
Qed.

Lemma isort_perm l : Permutation (fold_right ins [] l) l.
Proof.
  induction l as [|x l IH]; cbn [fold_right]; [reflexivity|]. rewrite ins_perm, IH. reflexivity.
Qed.

Lemma ins_sorted x l :
  StronglySorted key_lt l -> ~ In (key x) (map key l) -> StronglySorted key_lt (ins x l).
Proof.
  induction l as [|y l IH]; cbn [map In]; intros Hs Hn.
  - rewrite ins_nil. constructor; constructor.
  - rewrite ins_cons. inversion Hs as [|? ? Hs' Hy]; subst.
    destruct (bytes_ltb (key y) (key x)) eqn:E.
    + constructor; [apply IH; [assumption|tauto]|].
      rewrite Forall_forall. intros z Hz.
      apply (Permutation_in _ (ins_perm x l)) in Hz. destruct Hz as [<-|Hz]; [exact E|].
      rewrite Forall_forall in Hy. apply Hy. exact Hz.
    + (* the order is total on distinct keys *)
      assert (Hxy : key_lt x y).
      { unfold key_lt. destruct (bytes_ltb (key x) (key y)) eqn:E2; [reflexivity|].
        exfalso. apply Hn. left. apply bytes_ltb_total; assumption. }
      constructor; [exact Hs|]. constructor; [exact Hxy|].
      rewrite Forall_forall in *. intros z Hz. unfold key_lt in *.
      eapply bytes_ltb_trans; [exact Hxy|apply Hy; exact Hz].
Qed.

Lemma isort_sorted l : NoDup (map key l) -> StronglySorted key_lt (fold_right ins [] l).
Proof.
  induction l as [|x l IH]; cbn [fold_right map]; intros H; [constructor|].
  inversion H; subst. apply ins_sorted; [apply IH; assumption|].
  intros Hin. apply H2. eapply Permutation_in; [|exact Hin].
  apply Permutation_map, isort_perm.
Qed.

Lemma sorted_perm_eq l l' :
  StronglySorted key_lt l -> StronglySorted key_lt l' -> Permutation l l' -> l = l'.
Proof.
  revert l'. induction l as [|a l IH]; intros l' Hs Hs' Hp.
  - apply Permutation_nil in Hp. congruence.
  - destruct l' as [|a' l']; [apply Permutation_sym, Permutation_nil in Hp; discriminate|].
    inversion Hs; subst. inversion Hs'; subst.
    rewrite Forall_forall in *.
    assert (a = a').
    { assert (Ha : In a (a' :: l')) by (eapply Permutation_in; [exact Hp|left; reflexivity]).
      assert (Ha' : In a' (a :: l)) by (eapply Permutation_in; [apply Permutation_sym; exact Hp|left; reflexivity]).
      destruct Ha as [Ha|Ha]; [congruence|]. destruct Ha' as [Ha'|Ha']; [congruence|].
      exfalso. pose proof (H2 _ Ha') as P1. pose proof (H4 _ Ha) as P2. unfold key_lt in *.
      rewrite (bytes_ltb_asym _ _ P1) in P2. discriminate. }
    subst a'. f_equal. apply IH; [assumption|assumption|].
    eapply Permutation_cons_inv. exact Hp.
Qed.

Lemma isort_perm_eq l l' : NoDup (map key l) -> Permutation l l' ->
  fold_right ins [] l = fold_right ins [] l'.
Proof.
  intros Hnd Hp. apply sorted_perm_eq.
  - apply isort_sorted. exact Hnd.
  - apply isort_sorted. eapply Permutation_NoDup; [apply Permutation_map; exact Hp|exact Hnd].
  - rewrite !isort_perm. exact Hp.
Qed.
End InsertionSort.

Definition id_lt : member -> member -> Prop := key_lt m_id.

Lemma sort_members_perm l : Permutation (sort_members l) l.
Proof. apply (isort_perm m_id); reflexivity. Qed.

Lemma sort_members_sorted l : NoDup (map m_id l) -> StronglySorted id_lt (sort_members l).
Proof. apply (isort_sorted m_id); reflexivity. Qed.

Lemma sort_members_perm_eq l l' : NoDup (map m_id l) -> Permutation l l' ->
  sort_members l = sort_members l'.
Proof. apply (isort_perm_eq m_id); reflexivity. Qed.

Lemma aget_map_values {V W} (f : list V -> list W) k (m : amap V) : f [] = [] ->
  aget k (map (fun e => (fst e, f (snd e))) m) = f (aget k m).
Proof.
  intros Hf. induction m as [|[k0 l] r IH]; cbn [map aget fst snd]; [auto|].
  destruct (bytes_eqb k k0); auto.
Qed.

Lemma akeys_map_values {V W} (f : list V -> list W) (m : amap V) :
  akeys (map (fun e => (fst e, f (snd e))) m) = akeys m.
Proof. unfold akeys. rewrite map_map. reflexivity. Qed.

Definition subscribers (t : bytes) (ms : list member) : list member :=
  sort_members (filter (subscribes t) ms).

Lemma aget_find_members_by_topic t ms : wf_group ms ->
  aget t (find_members_by_topic ms) = subscribers t ms.
Proof.
  intros H. unfold find_members_by_topic, subscribers.
  rewrite (aget_map_values sort_members) by reflexivity.
  rewrite aget_group_by_topic by exact H. reflexivity.
Qed.

Lemma subscribers_perm t ms ms' : wf_group ms -> Permutation ms ms' ->
  subscribers t ms = subscribers t ms'.
Proof.
  intros [H _] Hp. unfold subscribers. apply sort_members_perm_eq.
  - apply NoDup_map_filter. exact H.
  - apply filter_perm. exact Hp.
Qed.

Lemma wf_group_perm ms ms' : wf_group ms -> Permutation ms ms' -> wf_group ms'.
Proof.
  intros [H1 H2] Hp. split.
  - eapply Permutation_NoDup; [apply Permutation_map; exact Hp|exact H1].
  - intros m Hm. apply H2. eapply Permutation_in; [apply Permutation_sym; exact Hp|exact Hm].
Qed.

Lemma in_subscribers t ms m : In m (subscribers t ms) <-> In m ms /\ In t (m_topics m).
Proof.
  unfold subscribers. split.
  - intros H. apply (Permutation_in _ (sort_members_perm _)) in H.
    apply filter_In in H. rewrite subscribes_iff in H. exact H.
  - intros H. apply (Permutation_in _ (Permutation_sym (sort_members_perm _))).
    apply filter_In. rewrite subscribes_iff. exact H.
Qed.

Lemma NoDup_ids_subscribers t ms : NoDup (map m_id ms) -> NoDup (map m_id (subscribers t ms)).
Proof.
  intros H. unfold subscribers.
  eapply Permutation_NoDup; [apply Permutation_map, Permutation_sym, sort_members_perm|].
  apply NoDup_map_filter. exact H.
Qed.
