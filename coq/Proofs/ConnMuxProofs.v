(* Proofs/ConnMuxProofs.v — invariants of the ConnMux transition system and the lemmas
   behind the C06 theorems about the legacy Conn. *)
From Coq Require Import List ZArith Bool Arith Lia.
From KV Require Import Lib.LTS Model.ConnMux Proofs.ConnMuxBase.
Import ListNotations.
Local Open Scope Z_scope.

(* doRequest's critical section has not run *)
Definition presend (p : phase) : bool :=
  match p with Idle | Entered | WLocked => true | _ => false end.

(* the number of int32 values *)
Definition ID_BOUND : Z := 4294967296.

(* ordinals: 0 until the request is written, then in 1..nsend, the id being the wrapped ordinal;
   every frame is tagged with the call whose request it answers *)
Record Inv (s : state) : Prop := mkInv {
  i_id : next_id s = wrap32 (nsend s) /\ 0 <= nsend s;
  i_pre : forall t, presend (ph (thr s t)) = true ->
          seqn (thr s t) = 0 /\ reached (thr s t) = false;
  i_post : forall t, presend (ph (thr s t)) = false ->
           1 <= seqn (thr s t) <= nsend s /\ rid (thr s t) = wrap32 (seqn (thr s t));
  i_inj : forall t u, presend (ph (thr s t)) = false -> presend (ph (thr s u)) = false ->
          seqn (thr s t) = seqn (thr s u) -> t = u;
  i_frames : forall f, In f (consumed s ++ wire s) ->
             reached (thr s (fown f)) = true /\ fid f = rid (thr s (fown f)) /\
             In (fown f) (answered s);
  i_nodup : NoDup (map fown (consumed s ++ wire s))
}.

Lemma NoDup_snoc : forall (A : Type) (l : list A) x, NoDup l -> ~ In x l -> NoDup (l ++ [x]).
Proof.
  induction l as [|a l IH]; intros x H N; simpl.
  - constructor; [intros []|constructor].
  - inversion H; subst. constructor.
    + rewrite in_app_iff. intros [I|[I|[]]]; [contradiction|subst; apply N; left; reflexivity].
    + apply IH; [assumption|intros I; apply N; right; exact I].
Qed.

Lemma NoDup_app_l : forall (A : Type) (l l' : list A), NoDup (l ++ l') -> NoDup l.
Proof.
  induction l as [|a l IH]; intros l' H; [constructor|].
  simpl in H. inversion H; subst. constructor.
  - intros I. apply H2. apply in_or_app. left; exact I.
  - eapply IH; eauto.
Qed.

Lemma NoDup_drop_mid : forall (A : Type) (l : list A) x l', NoDup (l ++ x :: l') -> NoDup (l ++ l').
Proof. intros. eapply NoDup_remove_1; eauto. Qed.

Lemma presend_false_of_reached : forall s t, Inv s -> reached (thr s t) = true -> presend (ph (thr s t)) = false.
Proof.
  intros s t I R. destruct (presend (ph (thr s t))) eqn:E; [|reflexivity].
  destruct (i_pre s I t E) as [_ R']. congruence.
Qed.

Lemma Inv_init : Inv init.
Proof.
  constructor.
  - split; [reflexivity|apply Z.le_refl].
  - intros t _. split; reflexivity.
  - intros t H. discriminate.
  - intros t u H. discriminate.
  - intros f [].
  - constructor.
Qed.

Definition same_num (a b : thread) : Prop :=
  seqn a = seqn b /\ rid a = rid b /\ reached a = reached b /\ presend (ph a) = presend (ph b).

Lemma step_num : forall s l s', step s l = Some s' ->
  (nsend s' = nsend s /\ next_id s' = next_id s /\
   forall u, same_num (thr s u) (thr s' u) \/
             (ph (thr s u) = Idle /\ presend (ph (thr s' u)) = true /\
              seqn (thr s' u) = 0 /\ reached (thr s' u) = false)) \/
  (exists t, ph (thr s t) = WLocked /\
     nsend s' = nsend s + 1 /\ next_id s' = wrap32 (next_id s + 1) /\
     presend (ph (thr s' t)) = false /\ seqn (thr s' t) = nsend s + 1 /\
     rid (thr s' t) = wrap32 (next_id s + 1) /\
     forall u, u <> t -> thr s' u = thr s u).
Proof.
  intros s l s' H. step_cases H.
  all: try match goal with W : ph (lookup _ ?t) = WLocked |- _ =>
         right; exists t; rewrite Nat.eqb_refl; repeat split; auto;
         intros u N; apply Nat.eqb_neq in N; rewrite Nat.eqb_sym, N; reflexivity end.
  all: left; split; [reflexivity|split; [reflexivity|intros u]]; case_eqb;
       try (left; repeat split; reflexivity).
  all: try match goal with E : ph _ = Idle |- _ => right; repeat split; auto end.
  all: left; repeat split; try reflexivity;
       match goal with Hp : ph _ = _ |- _ => rewrite Hp; reflexivity end.
Qed.

Lemma step_frames : forall s l s', step s l = Some s' ->
  (answered s' = answered s /\
   ((consumed s' = consumed s /\ (wire s' = wire s \/ wire s' = [])) \/
    (exists f, wire s = f :: wire s' /\ consumed s' = consumed s ++ [f]))) \/
  (exists t, closed s = false /\ wire s' = wire s ++ [mkFrame (rid (thr s t)) t] /\
     consumed s' = consumed s /\ reached (thr s t) = true /\ ~ In t (answered s) /\
     answered s' = t :: answered s /\ threads s' = threads s).
Proof.
  intros s l s' H. step_cases H.
  all: try match goal with N : ~ In ?t (answered _) |- _ => right; exists t; repeat split; auto end.
  all: left; split; [reflexivity|]; eauto.
Qed.

Lemma Inv_step : forall s l s', Inv s -> step s l = Some s' -> Inv s'.
Proof.
  intros s l s' I H. destruct (i_id s I) as [Id0 Id1].
  (* the frames, still in terms of the threads of s *)
  assert (Fr : NoDup (map fown (consumed s' ++ wire s')) /\
               forall f, In f (consumed s' ++ wire s') ->
                 reached (thr s (fown f)) = true /\ fid f = rid (thr s (fown f)) /\
                 In (fown f) (answered s')).
  { pose proof (i_nodup s I) as N.
    destruct (step_frames s l s' H) as [[A K]|[t [_ [Ew [Ec [R [NA [A _]]]]]]]].
    - assert (E : exists w, consumed s ++ wire s = (consumed s' ++ wire s') ++ w).
      { destruct K as [[-> [->| ->]]|[f [-> ->]]].
        - exists []. rewrite app_nil_r. reflexivity.
        - exists (wire s). rewrite app_nil_r. reflexivity.
        - exists []. rewrite app_nil_r, <- app_assoc. reflexivity. }
      destruct E as [w E]. rewrite E, map_app in N. split; [eapply NoDup_app_l; exact N|].
      intros f Hf. rewrite A. apply (i_frames s I). rewrite E. apply in_or_app. left; exact Hf.
    - rewrite Ew, Ec, app_assoc, map_app, A. split.
      + apply NoDup_snoc; [exact N|]. intros Hin. apply in_map_iff in Hin.
        destruct Hin as [f [Ef Hf]]. apply NA. cbn in Ef. rewrite <- Ef. apply (i_frames s I f Hf).
      + intros f Hf. apply in_app_or in Hf. destruct Hf as [Hf|[<-|[]]].
        * destruct (i_frames s I f Hf) as [X [Y Z]]. repeat split; auto. right; exact Z.
        * repeat split; auto. left; reflexivity. }
  destruct Fr as [N' Fr].
  destruct (step_num s l s' H) as [[Gn [Gi T]]|[t0 [W [Gn [Gi [P0 [S0 [R0 One]]]]]]]].
  - (* no request sent *)
    assert (Old : forall u, presend (ph (thr s' u)) = false -> same_num (thr s u) (thr s' u)).
    { intros u P. destruct (T u) as [X|[_ [X _]]]; [exact X|congruence]. }
    constructor; try exact N'.
    + rewrite Gn, Gi. split; assumption.
    + intros u P. destruct (T u) as [[S1 [_ [S3 S4]]]|[_ [_ X]]]; [|exact X].
      rewrite <- S1, <- S3. apply (i_pre s I). congruence.
    + intros u P. destruct (Old u P) as [S1 [S2 [_ S4]]].
      rewrite Gn, <- S1, <- S2. apply (i_post s I). congruence.
    + intros u v Pu Pv E. destruct (Old u Pu) as [U1 [_ [_ U4]]]. destruct (Old v Pv) as [V1 [_ [_ V4]]].
      apply (i_inj s I); congruence.
    + intros f Hf. destruct (Fr f Hf) as [R [Ei A]].
      destruct (T (fown f)) as [[_ [S2 [S3 _]]]|[C _]].
      * rewrite <- S3, <- S2. auto.
      * pose proof (presend_false_of_reached s _ I R) as P. rewrite C in P. discriminate.
  - (* t0 sends *)
    assert (Old : forall u, presend (ph (thr s' u)) = false -> u <> t0 ->
                    presend (ph (thr s u)) = false /\ thr s' u = thr s u).
    { intros u P Nu. rewrite (One u Nu) in P. split; [exact P|exact (One u Nu)]. }
    constructor; try exact N'.
    + rewrite Gn, Gi, Id0, wrap32_succ. split; [reflexivity|lia].
    + intros u P. destruct (Nat.eq_dec u t0) as [->|Nu]; [congruence|].
      rewrite (One u Nu) in *. apply (i_pre s I u P).
    + intros u P. destruct (Nat.eq_dec u t0) as [->|Nu].
      * rewrite S0, R0, Gn, Id0, wrap32_succ. split; [lia|reflexivity].
      * destruct (Old u P Nu) as [P' ->]. destruct (i_post s I u P'). split; [lia|assumption].
    + intros u v Pu Pv E.
      destruct (Nat.eq_dec u t0) as [->|Nu]; destruct (Nat.eq_dec v t0) as [->|Nv]; auto.
      * destruct (Old v Pv Nv) as [P' Ev]. rewrite Ev in E. destruct (i_post s I v P'). lia.
      * destruct (Old u Pu Nu) as [P' Eu]. rewrite Eu in E. destruct (i_post s I u P'). lia.
      * destruct (Old u Pu Nu) as [Pu' Eu]. destruct (Old v Pv Nv) as [Pv' Ev].
        rewrite Eu, Ev in E. apply (i_inj s I); assumption.
    + intros f Hf. destruct (Fr f Hf) as [R [Ei A]].
      rewrite One; [auto|]. intros E.
      pose proof (presend_false_of_reached s _ I R) as P. rewrite E, W in P. discriminate.
Qed.

Lemma Inv_run : forall ls s, run init ls = Some s -> Inv s.
Proof. intros ls s H. eapply (inv_run _ _ step Inv); [|exact Inv_init|exact H]. intros; eapply Inv_step; eauto. Qed.
