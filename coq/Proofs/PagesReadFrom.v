(* Proofs/PagesReadFrom.v — pageBuffer.ReadFrom appends exactly the reader's bytes behind what the
   buffer already holds, whatever the fill of the tail page (k bytes held, n bytes read: k+n
   bytes with the same content), for all sizes; and it terminates. *)
From Coq Require Import List NArith Bool Arith Lia.
From KV Require Import Model.Pages Proofs.PagesProofs.
Import ListNotations.

Lemma page_size_pos : 0 < page_size.
Proof. unfold page_size. lia. Qed.

Lemma NoDup_snoc (l : list nat) p : NoDup l -> ~ In p l -> NoDup (l ++ [p]).
Proof.
  induction l as [|x l IH]; intros Hnd Hin; cbn [app]; [constructor; [intros []|constructor]|].
  apply NoDup_cons_iff in Hnd as [Hx Hnd]. constructor.
  - intros H. apply in_app_or in H as [H|[<-|[]]]; [exact (Hx H)|]. apply Hin. left. reflexivity.
  - apply IH; [exact Hnd|]. intros H. apply Hin. right. exact H.
Qed.

(* a live buffer with a duplicate-free page list (assumed, not part of Inv: a write to the tail page
   must leave the other pages alone) *)
Definition buf_ok (s : pstate) (b : nat) (l : list nat) : Prop :=
  nth_error (s_bufs s) b = Some {| b_live := true; b_pages := l |} /\ NoDup l.

Lemma buf_ok_content s b l : buf_ok s b l ->
  buf_content s b = concat (map (fun p => p_data (get_page s p)) l).
Proof. intros [H _]. unfold buf_content. rewrite H. reflexivity. Qed.

Lemma buf_ok_tail s b l : buf_ok s b l ->
  buf_tail s b = Some (match rev l with [] => None | p :: _ => Some p end).
Proof. intros [H _]. unfold buf_tail. rewrite H. reflexivity. Qed.

Lemma buf_page_known s b l p : Inv s -> buf_ok s b l -> In p l ->
  p < length (s_pages s) /\ p_pool (get_page s p) = false.
Proof.
  intros I [Hb _] Hin.
  pose proof (buf_page_counted s b _ p I Hb eq_refl Hin) as Hr. split; [apply get_page_lt, Hr|].
  destruct (p_pool (get_page s p)) eqn:E; [|reflexivity].
  rewrite (inv_pool s I p E) in Hr. lia.
Qed.

Lemma new_page_spec s b l src s1 : Inv s -> buf_ok s b l ->
  step s (ONewPage b src) = Some s1 ->
  exists p, buf_ok s1 b (l ++ [p]) /\ p_data (get_page s1 p) = [] /\
            (forall q, In q l -> p_data (get_page s1 q) = p_data (get_page s q)).
Proof.
  intros I Hok Hstep. pose proof Hok as [Hb Hnd]. cbn [step] in Hstep. rewrite Hb in Hstep. cbn [b_live negb b_pages] in Hstep.
  pose proof (nth_error_lt _ _ _ Hb) as Hblt.
  destruct src as [p|].
  - destruct (nth_error (s_pages s) p) as [pg|] eqn:Hp; [|discriminate].
    destruct (p_pool pg) eqn:Hpool; cbn [negb] in Hstep; [|discriminate].
    injection Hstep as <-. exists p.
    pose proof (nth_error_lt _ _ _ Hp) as Hplt.
    assert (Hpg : get_page s p = pg) by (apply nth_error_nth, Hp).
    assert (Hnotin : ~ In p l).
    { intros Hin. destruct (buf_page_known s b l p I Hok Hin) as [_ Hf]. rewrite Hpg, Hpool in Hf. discriminate. }
    split; [split|split].
    + cbn [s_bufs]. apply nth_error_upd_same. exact Hblt.
    + apply NoDup_snoc; assumption.
    + unfold get_page. cbn [s_pages]. rewrite nth_upd_same by exact Hplt. reflexivity.
    + intros q Hq. unfold get_page. cbn [s_pages]. rewrite nth_upd_other; [reflexivity|].
      intros ->. exact (Hnotin Hq).
  - injection Hstep as <-. exists (length (s_pages s)).
    assert (Hnotin : ~ In (length (s_pages s)) l).
    { intros Hin. destruct (buf_page_known s b l _ I Hok Hin) as [Hlt _]. lia. }
    split; [split|split].
    + cbn [s_bufs]. apply nth_error_upd_same. exact Hblt.
    + apply NoDup_snoc; assumption.
    + unfold get_page. cbn [s_pages]. rewrite app_nth2 by lia. rewrite Nat.sub_diag. reflexivity.
    + intros q Hq. unfold get_page. cbn [s_pages]. destruct (buf_page_known s b l q I Hok Hq) as [Hlt _].
      rewrite app_nth1 by exact Hlt. reflexivity.
Qed.

Lemma append_spec s b l p chunk s1 : Inv s -> buf_ok s b (l ++ [p]) ->
  step s (OAppend b chunk) = Some s1 ->
  buf_ok s1 b (l ++ [p]) /\ p_data (get_page s1 p) = p_data (get_page s p) ++ chunk /\
  (forall q, In q l -> p_data (get_page s1 q) = p_data (get_page s q)).
Proof.
  intros I Hok Hstep. pose proof Hok as [Hb Hnd]. cbn [step] in Hstep. rewrite Hb in Hstep. cbn [b_live negb b_pages] in Hstep.
  rewrite rev_app_distr in Hstep. cbn [rev app] in Hstep.
  destruct (nth_error (s_pages s) p) as [pg|] eqn:Hp; [|discriminate].
  destruct (page_size <? length (p_data pg) + length chunk); [discriminate|].
  injection Hstep as <-.
  pose proof (nth_error_lt _ _ _ Hp) as Hplt.
  assert (Hpg : get_page s p = pg) by (apply nth_error_nth, Hp).
  assert (Hnotin : ~ In p l).
  { apply NoDup_remove_2 with (l' := []) in Hnd. rewrite app_nil_r in Hnd. exact Hnd. }
  split; [split; [exact Hb|exact Hnd]|]. split.
  - unfold get_page at 1. cbn [s_pages]. rewrite nth_upd_same by exact Hplt. cbn [p_data]. rewrite Hpg. reflexivity.
  - intros q Hq. unfold get_page. cbn [s_pages]. rewrite nth_upd_other; [reflexivity|].
    intros ->. exact (Hnotin Hq).
Qed.

Lemma step_keeps_reads s o s1 : Inv s -> step s o = Some s1 -> (forall r, o <> OUnrefRef r) ->
  forall r bytes, read_ref s r = Some bytes -> read_ref s1 r = Some bytes.
Proof.
  intros I Hs Hne r bytes Hr. destruct (proj2 (step_preserves s o s1 I Hs) r bytes Hr) as [H|[H _]]; [exact H|].
  exfalso. exact (Hne r H).
Qed.

Theorem pb_read_from_spec : forall fuel s b l data src s',
  Inv s -> buf_ok s b l -> pb_read_from fuel s b data src = Some s' ->
  Inv s' /\
  (exists l', buf_ok s' b (l ++ l')) /\
  buf_content s' b = buf_content s b ++ data /\
  (forall r bytes, read_ref s r = Some bytes -> read_ref s' r = Some bytes).
Proof.
  induction fuel as [|f IH]; intros s b l data src s' I Hok H; [discriminate|].
  cbn [pb_read_from] in H. rewrite (buf_ok_tail s b l Hok) in H.
  (* three cases: no page yet, the tail page full (both allocate: Hnew), room in the tail page (append) *)
  assert (Hnew : forall s1, step s (ONewPage b (hd None src)) = Some s1 ->
            pb_read_from f s1 b data (tl src) = Some s' ->
            Inv s' /\ (exists l', buf_ok s' b (l ++ l')) /\ buf_content s' b = buf_content s b ++ data /\
            (forall r bytes, read_ref s r = Some bytes -> read_ref s' r = Some bytes)).
  { intros s1 Hs1 Hrec.
    destruct (new_page_spec s b l _ s1 I Hok Hs1) as (p & Hok1 & Hempty & Hsame).
    pose proof (proj1 (step_preserves s _ s1 I Hs1)) as I1.
    destruct (IH s1 b (l ++ [p]) data (tl src) s' I1 Hok1 Hrec) as (I' & (l' & Hok') & Hc & Hr).
    split; [exact I'|]. split; [exists ([p] ++ l'); rewrite app_assoc; exact Hok'|]. split.
    - rewrite Hc. f_equal. rewrite (buf_ok_content s1 b _ Hok1), (buf_ok_content s b l Hok).
      rewrite map_app, concat_app. cbn [map concat]. rewrite Hempty. cbn [app]. rewrite app_nil_r.
      f_equal. apply map_ext_in. exact Hsame.
    - intros r bytes Hrd. apply Hr. apply (step_keeps_reads s _ s1 I Hs1); [intros r0 E; discriminate E|exact Hrd]. }
  destruct (rev l) as [|p t] eqn:Hrev.
  - destruct (step s (ONewPage b (hd None src))) as [s1|] eqn:Hs1; [|discriminate]. exact (Hnew s1 eq_refl H).
  - assert (Hl : l = rev t ++ [p]).
    { apply (f_equal (@rev nat)) in Hrev. rewrite rev_involutive in Hrev. exact Hrev. }
    cbn zeta in H.
    destruct (page_size - length (p_data (get_page s p)) =? 0) eqn:Hfree.
    + destruct (step s (ONewPage b (hd None src))) as [s1|] eqn:Hs1; [|discriminate]. exact (Hnew s1 eq_refl H).
    + set (free := page_size - length (p_data (get_page s p))) in *.
      destruct (step s (OAppend b (firstn free data))) as [s1|] eqn:Hs1; [|discriminate].
      rewrite Hl in Hok.
      destruct (append_spec s b (rev t) p _ s1 I Hok Hs1) as (Hok1 & Htail & Hsame).
      pose proof (proj1 (step_preserves s _ s1 I Hs1)) as I1.
      assert (Hc1 : buf_content s1 b = buf_content s b ++ firstn free data).
      { rewrite (buf_ok_content s1 b _ Hok1), (buf_ok_content s b _ Hok).
        rewrite !map_app, !concat_app. cbn [map concat]. rewrite Htail, !app_nil_r, app_assoc.
        f_equal. f_equal. f_equal. apply map_ext_in. exact Hsame. }
      assert (Hr1 : forall r bytes, read_ref s r = Some bytes -> read_ref s1 r = Some bytes).
      { intros r bytes Hrd. apply (step_keeps_reads s _ s1 I Hs1); [intros r0 E; discriminate E|exact Hrd]. }
      rewrite <- Hl in Hok1.
      destruct (length (firstn free data) <? free) eqn:Hshort.
      * injection H as <-. split; [exact I1|]. split; [exists []; rewrite app_nil_r; exact Hok1|]. split; [|exact Hr1].
        rewrite Hc1. f_equal. apply firstn_all2. apply Nat.ltb_lt in Hshort. rewrite firstn_length in Hshort. lia.
      * destruct (IH s1 b l (skipn free data) src s' I1 Hok1 H) as (I' & Hex & Hc & Hr).
        split; [exact I'|]. split; [exact Hex|]. split.
        -- rewrite Hc, Hc1, <- app_assoc, firstn_skipn. reflexivity.
        -- intros r bytes Hrd. apply Hr, Hr1, Hrd.
Qed.

(* with nothing pooled (fresh pages), ReadFrom always completes: two loop rounds consume at
   least one byte *)
Theorem pb_read_from_total : forall fuel s b l data,
  Inv s -> buf_ok s b l -> 2 * length data + 3 <= fuel ->
  exists s', pb_read_from fuel s b data [] = Some s'.
Proof.
  assert (Hnp : forall s b l, buf_ok s b l -> exists s1, step s (ONewPage b None) = Some s1).
  { intros s b l [Hb _]. cbn [step]. rewrite Hb. cbn. eexists. reflexivity. }
  assert (Hap : forall s b l p chunk, Inv s -> buf_ok s b (l ++ [p]) ->
            length (p_data (get_page s p)) + length chunk <= page_size ->
            exists s1, step s (OAppend b chunk) = Some s1).
  { intros s b l p chunk I Hok Hle. pose proof Hok as [Hb _]. cbn [step]. rewrite Hb. cbn [b_live negb b_pages].
    rewrite rev_app_distr. cbn [rev app].
    destruct (buf_page_known s b _ p I Hok ltac:(apply in_or_app; right; left; reflexivity)) as [Hlt _].
    destruct (nth_error (s_pages s) p) as [pg|] eqn:Hp; [|apply nth_error_None in Hp; lia].
    assert (Hpg : get_page s p = pg) by (apply nth_error_nth, Hp). rewrite Hpg in Hle.
    destruct (Nat.ltb_spec page_size (length (p_data pg) + length chunk)); [lia|]. eexists. reflexivity. }
  (* measure: 2 * bytes left + 1 when the next round has to allocate *)
  assert (G : forall fuel s b l data, Inv s -> buf_ok s b l ->
            2 * length data + (match rev l with
                               | [] => 2
                               | p :: _ => if page_size - length (p_data (get_page s p)) =? 0 then 2 else 1
                               end) <= fuel ->
            exists s', pb_read_from fuel s b data [] = Some s').
  { induction fuel as [|f IH]; intros s b l data I Hok Hf.
    { exfalso. destruct (rev l) as [|p t]; [lia|]. destruct (_ =? 0); lia. }
    cbn [pb_read_from]. rewrite (buf_ok_tail s b l Hok). cbn [hd tl].
    assert (Halloc : 2 * length data + 2 <= S f ->
              exists s', match step s (ONewPage b None) with
                         | Some s1 => pb_read_from f s1 b data []
                         | None => None end = Some s').
    { intros Hf2. destruct (Hnp s b l Hok) as (s1 & Hs1). rewrite Hs1.
      destruct (new_page_spec s b l None s1 I Hok Hs1) as (p & Hok1 & Hempty & _).
      pose proof (proj1 (step_preserves s _ s1 I Hs1)) as I1.
      apply (IH s1 b (l ++ [p]) data I1 Hok1).
      rewrite rev_app_distr. cbn [rev app]. rewrite Hempty. cbn [length]. rewrite Nat.sub_0_r.
      pose proof page_size_pos. destruct (Nat.eqb_spec page_size 0); lia. }
    destruct (rev l) as [|p t] eqn:Hrev; [apply Halloc; lia|].
    assert (Hl : l = rev t ++ [p]).
    { apply (f_equal (@rev nat)) in Hrev. rewrite rev_involutive in Hrev. exact Hrev. }
    cbn zeta. destruct (Nat.eqb_spec (page_size - length (p_data (get_page s p))) 0) as [E|E]; [apply Halloc; lia|].
    set (free := page_size - length (p_data (get_page s p))) in *.
    rewrite Hl in Hok.
    destruct (Hap s b (rev t) p (firstn free data) I Hok) as (s1 & Hs1).
    { rewrite firstn_length. unfold free. lia. }
    rewrite Hs1.
    destruct (Nat.ltb_spec (length (firstn free data)) free) as [Hshort|Hfull]; [eexists; reflexivity|].
    destruct (append_spec s b (rev t) p _ s1 I Hok Hs1) as (Hok1 & Htail & _).
    pose proof (proj1 (step_preserves s _ s1 I Hs1)) as I1.
    rewrite <- Hl in Hok1.
    apply (IH s1 b l (skipn free data) I1 Hok1).
    rewrite Hrev, Htail, app_length, skipn_length. rewrite firstn_length in *.
    assert (free <= length data) by lia.
    replace (Nat.min free (length data)) with free in * by lia.
    replace (page_size - (length (p_data (get_page s p)) + free)) with 0 by (unfold free; lia).
    cbn [Nat.eqb]. lia. }
  intros fuel s b l data I Hok Hf. apply (G fuel s b l data I Hok).
  destruct (rev l) as [|p t]; [lia|]. destruct (_ =? 0); lia.
Qed.
