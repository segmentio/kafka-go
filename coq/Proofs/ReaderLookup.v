(* Proofs/ReaderLookup.v — C02: the dialled partition is the configured one, whatever the order in
   which the Metadata answer lists the partitions. *)
From Coq Require Import List ZArith Lia Permutation.
From KV Require Import Model.ReaderLookup.
Import ListNotations.
Open Scope Z_scope.

Lemma lookup_partition_id id ds d : lookup_partition id ds = Some d -> pd_id d = id /\ In d ds.
Proof.
  induction ds as [|x t IH]; [discriminate|]. cbn [lookup_partition].
  destruct (pd_id x =? id) eqn:E; intros H.
  - injection H as <-. split; [lia|left; reflexivity].
  - destruct (IH H) as [H1 H2]. split; [exact H1|right; exact H2].
Qed.

Lemma lookup_partition_found id ds : (exists d, In d ds /\ pd_id d = id) -> exists d, lookup_partition id ds = Some d.
Proof.
  intros (d & Hin & Hid). induction ds as [|x t IH]; [destruct Hin|]. cbn [lookup_partition].
  destruct (pd_id x =? id) eqn:E; [eexists; reflexivity|].
  destruct Hin as [->|Hin]; [lia|apply IH, Hin].
Qed.

Theorem lookup_partition_permutation id ds ds' :
  NoDup (map pd_id ds) -> Permutation ds ds' -> lookup_partition id ds' = lookup_partition id ds.
Proof.
  intros Hnd Hp.
  assert (Hnd' : NoDup (map pd_id ds')) by (eapply Permutation_NoDup; [apply Permutation_map; exact Hp|exact Hnd]).
  assert (Huniq : forall l, NoDup (map pd_id l) -> forall a b, In a l -> In b l -> pd_id a = pd_id b -> a = b).
  { induction l as [|x t IH]; intros Hn a b Ha Hb He; [destruct Ha|].
    cbn [map] in Hn. apply NoDup_cons_iff in Hn as [Hx Hn].
    destruct Ha as [->|Ha]; destruct Hb as [->|Hb]; try reflexivity.
    - exfalso. apply Hx. rewrite He. apply in_map. exact Hb.
    - exfalso. apply Hx. rewrite <- He. apply in_map. exact Ha.
    - apply IH; assumption. }
  destruct (lookup_partition id ds) as [d|] eqn:E.
  - destruct (lookup_partition_id id ds d E) as [Hid Hin].
    destruct (lookup_partition_found id ds') as [d' E']; [exists d; split; [eapply Permutation_in; eassumption|exact Hid]|].
    rewrite E'. f_equal. destruct (lookup_partition_id id ds' d' E') as [Hid' Hin'].
    apply (Huniq ds' Hnd'); [exact Hin'|eapply Permutation_in; eassumption|lia].
  - destruct (lookup_partition id ds') as [d'|] eqn:E'; [|reflexivity]. exfalso.
    destruct (lookup_partition_id id ds' d' E') as [Hid' Hin'].
    destruct (lookup_partition_found id ds) as [d E2]; [exists d'; split; [eapply Permutation_in; [apply Permutation_sym; exact Hp|exact Hin']|exact Hid']|].
    rewrite E in E2. discriminate.
Qed.

(* taking the descriptor by its POSITION in the list is not the same function: *)
Example position_is_not_id :
  nth_error [mkPD 1 2; mkPD 0 1] 0 = Some (mkPD 1 2) /\ lookup_partition 0 [mkPD 1 2; mkPD 0 1] = Some (mkPD 0 1).
Proof. split; reflexivity. Qed.
