(* Proofs/SkeletonConn.v — the synchronisation-skeleton assumptions of Model/ConnMux.v and of
   conn_do in Model/ConnOps.v (conn.go, batch.go) hold of /repo's CURRENT source. *)
From Coq Require Import List String Bool.
From KV Require Import Model.DRF Model.SkeletonAssumptions Gen.Skeleton Proofs.SkeletonBase.
Import ListNotations.
Open Scope string_scope.

Lemma conn_skeleton_ok : conn_assumptions_hold calls accesses = true.
Proof. vm_compute. reflexivity. Qed.

(* the checker discriminates:
   1. the read lock taken while still holding the write lock (lock order);
   2. correlationID++ outside wlock;
   3. a third place releasing the handed-over read lock;
   4. peeking the response header without rlock;
   5. waitResponse before the request was written;
   6. inflight turned into a plain counter. *)
Lemma conn_skeleton_rejects :
  conn_assumptions_hold
    (mkCall "Conn.waitResponse" "lock(Conn.rlock)" HCall [("Conn.wlock", MW)] [] ["Conn.doRequest"] [] false "x"
     :: filter (fun k => negb (String.eqb (k_callee k) "lock(Conn.rlock)")) calls) accesses = false /\
  conn_assumptions_hold calls (mkAcc "Conn" "correlationID" KWrite "Conn.doRequest" [] false "x" :: accesses) = false /\
  conn_assumptions_hold (mkCall "Conn.ReadBatchWith" "unlock(?lock)" HCall [] [] ["Conn.waitResponse"] [] false "x" :: calls) accesses = false /\
  conn_assumptions_hold
    (mkCall "Conn.waitResponse" "Conn.peekResponseSizeAndID" HCall [] [] [] [] false "x"
     :: filter (fun k => negb (String.eqb (k_callee k) "Conn.peekResponseSizeAndID")) calls) accesses = false /\
  conn_assumptions_hold (mkCall "Conn.do" "Conn.waitResponse" HCall [] [] [] [] false "x" :: calls) accesses = false /\
  conn_assumptions_hold calls (mkAcc "Conn" "inflight" KWrite "Conn.enter" [] false "x" :: accesses) = false.
Proof.
  repeat apply conj.
  - rejected_by 13. (* K5 *)
  - rejected_by 9. (* K3 *)
  - rejected_by 24. (* K7 *)
  - rejected_by 16. (* K6 *)
  - rejected_by 29. (* K8 *)
  - rejected_by 0. (* K1 *)
Qed.
