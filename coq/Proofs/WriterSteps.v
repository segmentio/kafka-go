(* Proofs/WriterSteps.v — what the Writer's invariants share: the six shapes of a step
   ([stepped]; [pwstep] = the goroutines of one partition writer), batchMessages one message
   at a time ([assigned]), and the well-formedness every run keeps ([wf_pw], [wf_state]). *)
From Coq Require Import List NArith Bool Arith Lia.
From KV Require Import Lib.LTS Model.Writer Proofs.WriterStmts Proofs.WriterBase.
Import ListNotations.

Lemma nth_error_lt : forall A (l : list A) p x, nth_error l p = Some x -> p < length l.
Proof. intros. apply nth_error_Some. congruence. Qed.

Lemma nth_error_len : forall A (l l' : list A) p x', length l' = length l -> nth_error l' p = Some x' ->
  exists x, nth_error l p = Some x.
Proof.
  intros A l l' p x' L H. destruct (nth_error l p) as [x|] eqn:E; [eauto|].
  apply nth_error_None in E. apply nth_error_lt in H. lia.
Qed.

Lemma Forall_upd : forall A (P : A -> Prop) l i x, Forall P l -> P x -> Forall P (upd l i x).
Proof.
  induction l; destruct i; simpl; intros x HF Hx; auto; inversion HF; subst; constructor; auto.
Qed.

Lemma Forall_nth : forall A (P : A -> Prop) l i x, Forall P l -> nth_error l i = Some x -> P x.
Proof. intros A P l i x HF H. rewrite Forall_forall in HF. apply HF. eapply nth_error_In; eauto. Qed.

Definition pend (pw : pwriter) : list batch := pw_queue pw ++ opt_list (pw_curr pw).

Lemma pw_all_split : forall pw, pw_all pw = pw_done pw ++ pend pw.
Proof. intros. unfold pw_all, pw_done, pend. apply app_assoc. Qed.

(* currBatch, if any, goes to the queue: the common part of a full batch, the batch timer
   and partitionWriter.close *)
Definition flush (pw : pwriter) : pwriter :=
  match pw_curr pw with Some b => set_curr (put pw b) None | None => pw end.

Lemma flush_none : forall pw, pw_curr pw = None -> flush pw = pw.
Proof. intros pw H. unfold flush. rewrite H. reflexivity. Qed.

Lemma flush_open : forall pw b, pw_curr pw = Some b -> pw_open pw = true ->
  flush pw = mkPw (pw_tp pw) true (pw_nb pw) (pw_fin pw) (pw_snd pw) (pw_queue pw ++ [b]) None
                  (pw_alive pw) (pw_await pw).
Proof. intros pw b Hc Ho. unfold flush, put. rewrite Hc, Ho. unfold set_curr. simpl. rewrite Ho. reflexivity. Qed.

Lemma timer_pw_cases : forall pw k,
  (timer_pw pw k = set_await (flush pw) (filter (fun x => negb (Nat.eqb x k)) (pw_await (flush pw))) /\
   exists b, pw_curr pw = Some b /\ b_k b = k) \/
  (timer_pw pw k = set_await pw (filter (fun x => negb (Nat.eqb x k)) (pw_await pw)) /\
   forall b, pw_curr pw = Some b -> b_k b <> k).
Proof.
  intros pw k. unfold timer_pw, flush. destruct (pw_curr pw) as [b|]; [|right; split; [auto|discriminate]].
  destruct (Nat.eqb (b_k b) k) eqn:E.
  - left. apply Nat.eqb_eq in E. eauto.
  - right. apply Nat.eqb_neq in E. split; [reflexivity|]. intros b0 H. inversion H; subst; exact E.
Qed.

Lemma pw_add_msgs : forall cfg pw m pw' k sp, pw_add cfg pw m = (pw', k, sp) -> pw_open pw = true ->
  flat_map b_msgs (pw_all pw') = flat_map b_msgs (pw_all pw) ++ [m].
Proof.
  intros cfg pw m pw' k sp H Ho.
  destruct (pw_add_spec cfg _ _ _ _ _ H Ho) as (_ & _ & _ & _ & _ & [(l & b & E & E' & _)|(E' & _)]);
    rewrite E', ?E, !flat_map_app; simpl; rewrite ?app_nil_r, <- ?app_assoc; reflexivity.
Qed.

Inductive assigned (cfg : config) (m : msg) (pws : list pwriter) (wg : nat) (refs : list (nat * nat))
  : list pwriter -> nat -> list (nat * nat) -> Prop :=
| as_old : forall p pw pw' k sp,
    nth_error pws p = Some pw -> pw_open pw = true -> pw_tp pw = tp_of cfg m ->
    pw_add cfg pw m = (pw', k, sp) ->
    assigned cfg m pws wg refs (upd pws p pw') (wg + sp) (refs ++ [(p, k)])
| as_new : forall pw' k sp,
    (forall p pw, nth_error pws p = Some pw -> pw_open pw && tp_eqb (pw_tp pw) (tp_of cfg m) = false) ->
    pw_add cfg (new_pw (tp_of cfg m)) m = (pw', k, sp) ->
    assigned cfg m pws wg refs (pws ++ [pw']) (S (wg + sp)) (refs ++ [(length pws, k)]).

Lemma assign_one_assigned : forall cfg pws wg refs m pws' wg' refs',
  assign_one cfg (pws, wg, refs) m = (pws', wg', refs') -> assigned cfg m pws wg refs pws' wg' refs'.
Proof.
  intros cfg pws wg refs m pws' wg' refs' H.
  destruct (assign_one_spec cfg _ _ _ _ _ _ _ H) as (pws0 & j & pw & pw' & k & sp & C & N & O & T & A & -> & ->).
  destruct C as [[-> ->]|(-> & -> & Fr)]; [eapply as_old; eauto|].
  apply nth_error_snoc in N. destruct N as [N|[-> ->]].
  - specialize (Fr _ _ N). rewrite O, T, tp_eqb_refl in Fr. discriminate.
  - rewrite upd_app_last. apply as_new; auto.
Qed.

Lemma assign_all_by_msg : forall cfg ms (P : list msg -> list pwriter -> nat -> list (nat * nat) -> Prop),
  (forall ms1 m ms2 pws wg refs pws' wg' refs', ms = ms1 ++ m :: ms2 -> P ms1 pws wg refs ->
     assigned cfg m pws wg refs pws' wg' refs' -> P (ms1 ++ [m]) pws' wg' refs') ->
  forall pws0 wg0 pws wg refs, P [] pws0 wg0 [] -> assign_all cfg pws0 wg0 ms = (pws, wg, refs) ->
  P ms pws wg refs.
Proof.
  intros cfg ms P Hstep pws0 wg0 pws wg refs H0. apply (assign_all_fold cfg P ms); [|exact H0].
  intros. eapply Hstep; eauto using assign_one_assigned.
Qed.

Lemma first_topic_err_kind : forall cfg merr ms i e,
  first_topic_err cfg merr i ms = Some e -> (exists j, e = ETopic j) \/ (exists j e', e = EMeta j e').
Proof.
  induction ms as [|m ms IH]; simpl; intros i e H; [discriminate|].
  destruct (choose_topic cfg m); [|inversion H; left; eauto].
  destruct merr as [[j e']|]; [destruct (Nat.eqb i j); [inversion H; right; eauto|]|]; eapply IH; eauto.
Qed.

Lemma validate_rejected : forall cfg merr ms e g, validate cfg merr ms = Some e ->
  rejected (mkCall g ms [] (CReturned (RErr e))) = true.
Proof.
  intros cfg merr ms e g H. unfold validate in H.
  destruct (first_too_large cfg 0 ms); [inversion H; reflexivity|].
  apply first_topic_err_kind in H. destruct H as [[j ->]|[j [e' ->]]]; reflexivity.
Qed.

(* a step of the goroutines of partition writer p: the new writer, the produce attempt it
   journals and the Completion callback it makes, if any *)
Inductive pwstep (cfg : config) (p : nat) (pw : pwriter)
  : label -> pwriter -> list attempt -> list (list msg * option err) -> Prop :=
| ps_timer k (Aw : In k (pw_await pw)) : pwstep cfg p pw (Timer p k) (timer_pw pw k) [] []
| ps_get b q (Al : pw_alive pw = true) (Sn : pw_snd pw = None) (Qu : pw_queue pw = b :: q) :
    pwstep cfg p pw (Get p)
      (set_snd (set_queue pw q) (Some (mkSnd b 0 (if 0 <? maxAttempts cfg then PAttempt else PFinish None))))
      [] []
| ps_exit (Al : pw_alive pw = true) (Sn : pw_snd pw = None) (Qu : pw_queue pw = []) (Cl : pw_open pw = false) :
    pwstep cfg p pw (SenderExit p)
      (mkPw (pw_tp pw) (pw_open pw) (pw_nb pw) (pw_fin pw) (pw_snd pw) (pw_queue pw) (pw_curr pw) false
            (pw_await pw)) [] []
| ps_attempt r b n (Sn : pw_snd pw = Some (mkSnd b n PAttempt)) :
    pwstep cfg p pw (Attempt p r) (set_snd pw (Some (mkSnd b (S n) (after_attempt cfg n (r_seen r)))))
      [mkAtt p (b_k b) (pw_tp pw) (b_msgs b) (r_applied r) (r_seen r)] []
| ps_backoff b n (Sn : pw_snd pw = Some (mkSnd b n PBackoff)) :
    pwstep cfg p pw (BackoffDone p) (set_snd pw (Some (mkSnd b n PAttempt))) [] []
| ps_finish b n e (Sn : pw_snd pw = Some (mkSnd b n (PFinish e))) :
    pwstep cfg p pw (Finish p)
      (mkPw (pw_tp pw) (pw_open pw) (pw_nb pw) (pw_fin pw ++ [(b, e)]) None (pw_queue pw) (pw_curr pw)
            (pw_alive pw) (pw_await pw)) [] [(b_msgs b, e)].

(* awaitBatch and writeBatches end with group.Done() *)
Definition wg_after (l : label) (wg : nat) : nat :=
  match l with Timer _ _ | SenderExit _ => pred wg | _ => wg end.

Definition call_outcome (s : state) (g : N) (msgs : list msg) (wg : nat) (ph : cphase) : Prop :=
  (ph = CEntered /\ wg = S (s_wg s) /\ closed s = false) \/
  ((exists r, ph = CReturned r) /\ wg = s_wg s /\ (rejected (mkCall g msgs [] ph) = true \/ msgs = [])).

Definition ret_outcome (s : state) (cl : call) (r : result) : Prop :=
  (c_ph cl = CWaiting /\ rejected (mkCall (c_g cl) (c_msgs cl) (c_refs cl) (CReturned r)) = false) \/
  (c_ph cl = CEntered /\ r = RErr EClosed /\ closed s = true).

(* [st_ret] forgets which of Return, CtxDone, Assign the label was: no invariant needs it *)
Inductive stepped (cfg : config) (s : state) : label -> state -> Prop :=
| st_call : forall g msgs merr wg ph,
    call_admissible s g msgs = true -> call_outcome s g msgs wg ph ->
    stepped cfg s (Call g msgs merr) (add_call s wg (mkCall g msgs [] ph))
| st_ret : forall l c cl r,
    nth_error (s_calls s) c = Some cl -> ret_outcome s cl r ->
    stepped cfg s l (ret_call s c cl r)
| st_assign : forall c cl pws wg refs,
    nth_error (s_calls s) c = Some cl -> c_ph cl = CEntered -> closed s = false ->
    assign_all cfg (s_pws s) (s_wg s) (c_msgs cl) = (pws, wg, refs) ->
    stepped cfg s (Assign c)
      (mkSt (s_close s) wg pws (upd (s_calls s) c (mkCall (c_g cl) (c_msgs cl) refs CWaiting))
            (s_journal s) (s_log s) (s_compl s))
| st_pw : forall l p pw pw' j cp,
    nth_error (s_pws s) p = Some pw -> pwstep cfg p pw l pw' j cp ->
    stepped cfg s l
      (mkSt (s_close s) (wg_after l (s_wg s)) (upd (s_pws s) p pw') (s_calls s)
            (s_journal s ++ j) (s_log s ++ log_of_journal j) (s_compl s ++ cp))
| st_closemark : s_close s = ClOpen ->
    stepped cfg s CloseMark
      (mkSt ClWaiting (s_wg s) (map close_pw (s_pws s)) (s_calls s) (s_journal s) (s_log s) (s_compl s))
| st_closewait : s_close s = ClWaiting -> s_wg s = 0 ->
    stepped cfg s CloseWaitDone
      (mkSt ClReturned (s_wg s) (s_pws s) (s_calls s) (s_journal s) (s_log s) (s_compl s)).

Lemma st_pw_eq : forall cfg s l p pw pw' j cp s',
  nth_error (s_pws s) p = Some pw -> pwstep cfg p pw l pw' j cp ->
  s' = mkSt (s_close s) (wg_after l (s_wg s)) (upd (s_pws s) p pw') (s_calls s)
            (s_journal s ++ j) (s_log s ++ log_of_journal j) (s_compl s ++ cp) ->
  stepped cfg s l s'.
Proof. intros; subst; eapply st_pw; eauto. Qed.

Lemma Step_stepped : forall cfg s l s', Step cfg s l s' -> stepped cfg s l s'.
Proof.
  intros cfg s l s' H. destruct H.
  - apply st_call; [exact Adm|]. right. split; [eauto|]. split; [reflexivity|]. left.
    destruct Why as [[_ ->]|(_ & _ & V)]; [reflexivity|eapply validate_rejected; eauto].
  - apply st_call; [exact Adm|]. right. eauto.
  - apply st_call; [exact Adm|left; auto].
  - eapply st_ret; [exact Nc|right; auto].
  - eapply st_assign; eauto.
  - eapply st_pw_eq; [exact Np|apply ps_timer; exact Aw|]. unfold with_pw_done; simpl. rewrite !app_nil_r. reflexivity.
  - eapply st_pw_eq; [exact Np|eapply ps_get; eauto|]. unfold with_pw; simpl. rewrite !app_nil_r. reflexivity.
  - eapply st_pw_eq; [exact Np|apply ps_exit; auto|]. unfold with_pw_done; simpl. rewrite !app_nil_r. reflexivity.
  - eapply st_pw_eq; [exact Np|eapply ps_attempt; exact Sn|]. unfold log_of_journal; simpl. rewrite !app_nil_r. reflexivity.
  - eapply st_pw_eq; [exact Np|eapply ps_backoff; exact Sn|]. unfold with_pw; simpl. rewrite !app_nil_r. reflexivity.
  - eapply st_pw_eq; [exact Np|eapply ps_finish; exact Sn|]. simpl. rewrite !app_nil_r. reflexivity.
  - eapply st_ret; [exact Nc|left; auto].
  - eapply st_ret; [exact Nc|left]. split; [exact Ph|]. destruct (forallb is_none es); reflexivity.
  - eapply st_ret; [exact Nc|left; auto].
  - apply st_closemark; exact Op.
  - apply st_closewait; auto.
Qed.

Lemma step_stepped : forall cfg s l s', step cfg s l = Some s' -> stepped cfg s l s'.
Proof. intros. apply Step_stepped, step_Step. assumption. Qed.

Lemma flush_fields : forall pw,
  pw_tp (flush pw) = pw_tp pw /\ pw_open (flush pw) = pw_open pw /\ pw_nb (flush pw) = pw_nb pw /\
  pw_fin (flush pw) = pw_fin pw /\ pw_snd (flush pw) = pw_snd pw /\ pw_alive (flush pw) = pw_alive pw /\
  pw_await (flush pw) = pw_await pw /\ pw_curr (flush pw) = None.
Proof.
  intros pw. unfold flush, put. destruct (pw_curr pw) eqn:E; [|auto 10].
  destruct (pw_open pw) eqn:Eo; simpl; auto 10.
Qed.

Lemma close_pw_eq : forall pw, close_pw pw =
  if pw_open pw
  then mkPw (pw_tp (flush pw)) false (pw_nb (flush pw)) (pw_fin (flush pw)) (pw_snd (flush pw))
            (pw_queue (flush pw)) (pw_curr (flush pw)) (pw_alive (flush pw)) (pw_await (flush pw))
  else pw.
Proof. reflexivity. Qed.

(* a current batch is never dropped by Put when only open writers have one *)
Definition curr_open (pw : pwriter) : Prop := forall b, pw_curr pw = Some b -> pw_open pw = true.

Lemma flush_all : forall pw, curr_open pw -> pw_all (flush pw) = pw_all pw.
Proof.
  intros pw C. destruct (pw_curr pw) as [b|] eqn:E; [|rewrite flush_none; auto].
  rewrite (flush_open _ _ E (C _ E)). unfold pw_all. rewrite E. simpl. rewrite app_nil_r. reflexivity.
Qed.

Lemma timer_all : forall pw k, curr_open pw -> pw_all (timer_pw pw k) = pw_all pw.
Proof.
  intros pw k C. destruct (timer_pw_cases pw k) as [[-> _]|[-> _]]; [apply (flush_all _ C)|reflexivity].
Qed.

Lemma close_all : forall pw, curr_open pw -> pw_all (close_pw pw) = pw_all pw.
Proof. intros pw C. rewrite close_pw_eq. destruct (pw_open pw); [apply (flush_all _ C)|reflexivity]. Qed.

Lemma pwstep_fields : forall cfg p pw l pw' j cp, pwstep cfg p pw l pw' j cp ->
  pw_tp pw' = pw_tp pw /\ pw_open pw' = pw_open pw /\ pw_nb pw' = pw_nb pw.
Proof.
  intros cfg p pw l pw' j cp T. destruct T; auto.
  destruct (flush_fields pw) as (F1 & F2 & F3 & _).
  destruct (timer_pw_cases pw k) as [[-> _]|[-> _]]; simpl; auto.
Qed.

Lemma pwstep_all : forall cfg p pw l pw' j cp, pwstep cfg p pw l pw' j cp -> curr_open pw ->
  pw_all pw' = pw_all pw.
Proof.
  intros cfg p pw l pw' j cp T C. destruct T; [apply (timer_all _ _ C)|..];
    unfold pw_all; simpl; rewrite ?Sn, ?Qu; simpl; auto.
  rewrite (map_app fst), <- !app_assoc. reflexivity.
Qed.

Definition fwd {A} (R : A -> A -> Prop) (l l' : list A) : Prop :=
  forall q x, nth_error l q = Some x -> exists x', nth_error l' q = Some x' /\ R x x'.

Lemma fwd_refl : forall A (R : A -> A -> Prop) l, (forall x, R x x) -> fwd R l l.
Proof. intros A R l H q x E. eauto. Qed.

Lemma fwd_trans : forall A (R : A -> A -> Prop) l1 l2 l3, (forall x y z, R x y -> R y z -> R x z) ->
  fwd R l1 l2 -> fwd R l2 l3 -> fwd R l1 l3.
Proof.
  intros A R l1 l2 l3 H F1 F2 q x E. destruct (F1 _ _ E) as (y & Ey & Rxy).
  destruct (F2 _ _ Ey) as (z & Ez & Ryz). eauto.
Qed.

Lemma fwd_upd : forall A (R : A -> A -> Prop) l p x y, (forall x, R x x) ->
  nth_error l p = Some x -> R x y -> fwd R l (upd l p y).
Proof.
  intros A R l p x y H E Rxy q z Eq. destruct (Nat.eq_dec p q) as [->|N].
  - exists y. rewrite nth_error_upd_eq by (eapply nth_error_lt; eauto). split; congruence.
  - exists z. rewrite nth_error_upd_neq by exact N. auto.
Qed.

Lemma fwd_app : forall A (R : A -> A -> Prop) l r, (forall x, R x x) -> fwd R l (l ++ r).
Proof.
  intros A R l r H q x E. exists x. split; [|apply H]. rewrite nth_error_app1; [exact E|eapply nth_error_lt; eauto].
Qed.

Definition pw_sub (a b : pwriter) : Prop :=
  pw_tp b = pw_tp a /\ incl (flat_map b_msgs (pw_all a)) (flat_map b_msgs (pw_all b)).

Lemma pw_sub_refl : forall x, pw_sub x x.
Proof. intros x. split; auto using incl_refl. Qed.

Lemma pw_sub_trans : forall x y z, pw_sub x y -> pw_sub y z -> pw_sub x z.
Proof. intros x y z (A1 & A2) (B1 & B2). split; [congruence|eapply incl_tran; eauto]. Qed.

Lemma pw_add_sub : forall cfg pw m pw' k sp, pw_add cfg pw m = (pw', k, sp) -> pw_open pw = true -> pw_sub pw pw'.
Proof.
  intros cfg pw m pw' k sp H Ho. destruct (pw_add_spec cfg _ _ _ _ _ H Ho) as (T & _).
  split; [exact T|]. rewrite (pw_add_msgs _ _ _ _ _ _ H Ho). apply incl_appl, incl_refl.
Qed.

Lemma assigned_sub : forall cfg m pws wg refs pws' wg' refs', assigned cfg m pws wg refs pws' wg' refs' ->
  fwd pw_sub pws pws'.
Proof.
  intros cfg m pws wg refs pws' wg' refs' A.
  destruct A; [eapply fwd_upd; eauto using pw_sub_refl, pw_add_sub|apply fwd_app, pw_sub_refl].
Qed.

Lemma close_fields : forall pw, pw_tp (close_pw pw) = pw_tp pw /\ pw_nb (close_pw pw) = pw_nb pw /\
  pw_fin (close_pw pw) = pw_fin pw /\ pw_snd (close_pw pw) = pw_snd pw.
Proof.
  intros pw. rewrite close_pw_eq. destruct (flush_fields pw) as (F1 & _ & F3 & F4 & F5 & _).
  destruct (pw_open pw); simpl; auto.
Qed.

Lemma timer_fields : forall pw k, pw_tp (timer_pw pw k) = pw_tp pw /\ pw_fin (timer_pw pw k) = pw_fin pw /\
  pw_snd (timer_pw pw k) = pw_snd pw.
Proof.
  intros pw k. destruct (flush_fields pw) as (F1 & _ & _ & F4 & F5 & _).
  destruct (timer_pw_cases pw k) as [[-> _]|[-> _]]; simpl; auto.
Qed.

(* for a writer that can lose no batch (curr_open) *)
Definition pw_frame (pw pw' : pwriter) : Prop :=
  pw_tp pw' = pw_tp pw /\ pw_all pw' = pw_all pw /\ exists x, pw_fin pw' = pw_fin pw ++ x.

Lemma pw_frame_refl : forall pw, pw_frame pw pw.
Proof. intros pw. split; auto. split; auto. exists []. symmetry. apply app_nil_r. Qed.

Lemma pwstep_frame : forall cfg p pw l pw' j cp, pwstep cfg p pw l pw' j cp -> curr_open pw -> pw_frame pw pw'.
Proof.
  intros cfg p pw l pw' j cp T C. destruct (pwstep_fields _ _ _ _ _ _ _ T) as (Tp & _).
  split; [exact Tp|]. split; [exact (pwstep_all _ _ _ _ _ _ _ T C)|].
  destruct T; try (exists []; simpl; symmetry; apply app_nil_r); [|eexists; reflexivity].
  destruct (timer_fields pw k) as (_ & -> & _). exists []. symmetry. apply app_nil_r.
Qed.

Lemma close_frame : forall pw, curr_open pw -> pw_frame pw (close_pw pw).
Proof.
  intros pw C. destruct (close_fields pw) as (T & _ & F & _). split; [exact T|]. split; [exact (close_all _ C)|].
  exists []. rewrite F. symmetry. apply app_nil_r.
Qed.

Lemma NoDup_snoc_lt : forall l n, NoDup l -> (forall k, In k l -> k < n) -> NoDup (l ++ [n]).
Proof.
  intros l n ND LT. apply (NoDup_Add (Add_app n l [])). rewrite app_nil_r. split; [exact ND|].
  intros H. apply LT in H. lia.
Qed.

(* batch numbers are creation order; only an open writer has a current batch, whose timer
   runs; awaitBatch goroutines belong to distinct created batches; a writer whose sender has
   returned was closed and drained *)
Record wf_pw (pw : pwriter) : Prop := {
  wf_ks : map b_k (pw_all pw) = seq 0 (pw_nb pw);
  wf_curr : forall b, pw_curr pw = Some b -> pw_open pw = true /\ In (b_k b) (pw_await pw);
  wf_nodup : NoDup (pw_await pw);
  wf_lt : forall k, In k (pw_await pw) -> k < pw_nb pw;
  wf_dead : pw_alive pw = false -> pw_queue pw = [] /\ pw_snd pw = None /\ pw_open pw = false
}.

Lemma wf_curr_open : forall pw, wf_pw pw -> curr_open pw.
Proof. intros pw W b Hb. apply (wf_curr _ W _ Hb). Qed.

Lemma wf_new : forall tp, wf_pw (new_pw tp).
Proof. intros tp. split; simpl; try discriminate; auto using NoDup_nil. intros k []. Qed.

Lemma wf_flush : forall pw, wf_pw pw -> wf_pw (flush pw).
Proof.
  intros pw W. destruct (flush_fields pw) as (_ & F2 & F3 & _ & F5 & F6 & F7 & F8).
  split; rewrite ?flush_all, ?F3, ?F7, ?F8 by apply (wf_curr_open _ W); try apply W; [discriminate|].
  rewrite F6, F5, F2. intros Hal. destruct (wf_dead _ W Hal) as (Hq & Hs & Hf). repeat split; auto.
  destruct (pw_curr pw) as [b|] eqn:E; [|rewrite flush_none; auto].
  destruct (wf_curr _ W _ E). congruence.
Qed.

Lemma wf_set_await : forall pw a, wf_pw pw -> NoDup a -> incl a (pw_await pw) ->
  (forall b, pw_curr pw = Some b -> In (b_k b) a) -> wf_pw (set_await pw a).
Proof.
  intros pw a W ND I C. split; simpl; auto; try apply W.
  - intros b Hb. split; [apply (wf_curr _ W _ Hb)|auto].
  - intros k Hk. apply (wf_lt _ W), I, Hk.
Qed.

Lemma wf_timer : forall pw k, wf_pw pw -> wf_pw (timer_pw pw k).
Proof.
  intros pw k W. destruct (flush_fields pw) as (_ & _ & _ & _ & _ & _ & F7 & F8).
  destruct (timer_pw_cases pw k) as [[-> _]|[-> Hne]]; apply wf_set_await; rewrite ?F7;
    auto using wf_flush, incl_filter; try apply NoDup_filter, W.
  - intros b Hb. congruence.
  - intros b Hb. apply filter_In. split; [apply (wf_curr _ W _ Hb)|].
    apply negb_true_iff, Nat.eqb_neq, Hne, Hb.
Qed.

Lemma wf_close : forall pw, wf_pw pw -> wf_pw (close_pw pw).
Proof.
  intros pw W. rewrite close_pw_eq. destruct (pw_open pw); [|exact W].
  pose proof (wf_flush _ W) as W1. destruct (flush_fields pw) as (_ & _ & _ & _ & _ & _ & _ & Hc).
  split; simpl; try apply W1.
  - intros b Hb. congruence.
  - intros Hal. destruct (wf_dead _ W1 Hal) as (Hq & Hs & _). auto.
Qed.

Lemma wf_pwstep : forall cfg p pw l pw' j cp, pwstep cfg p pw l pw' j cp -> wf_pw pw -> wf_pw pw'.
Proof.
  intros cfg p pw l pw' j cp T W.
  pose proof (pwstep_all _ _ _ _ _ _ _ T (wf_curr_open _ W)) as A.
  destruct (pwstep_fields _ _ _ _ _ _ _ T) as (_ & _ & N).
  destruct T; try (apply wf_timer; exact W); split; rewrite ?A, ?N; try apply W; simpl; try apply W;
    try (intros Hal; destruct (wf_dead _ W Hal) as (_ & Hs & _)); try congruence.
  auto.
Qed.

Lemma wf_pw_add : forall cfg pw m pw' k sp, pw_add cfg pw m = (pw', k, sp) -> pw_open pw = true ->
  wf_pw pw -> wf_pw pw'.
Proof.
  intros cfg pw m pw' k sp H Ho W. destruct (pw_add_curr cfg _ _ _ _ _ H) as [C0 C1].
  destruct (pw_add_spec cfg _ _ _ _ _ H Ho) as (T & O & F & S & A & [(l & b & E & E' & _ & N & Sp & Aw)|(E' & -> & N & _ & Aw)]).
  - destruct (C0 Sp) as (b0 & Cb & <-). destruct (wf_curr _ W _ Cb) as [_ Hin].
    split; rewrite ?N, ?Aw; try apply W.
    + rewrite E', <- (wf_ks _ W), E, !map_app. reflexivity.
    + intros b' Hb'. rewrite (C1 _ Hb'). auto.
    + intros Hal. destruct (wf_dead _ W) as (_ & _ & Hf); congruence.
  - split; rewrite ?N, ?Aw.
    + rewrite E', map_app, (wf_ks _ W), seq_S. reflexivity.
    + intros b' Hb'. rewrite (C1 _ Hb'). split; [exact O|]. apply in_or_app. right. left. reflexivity.
    + apply NoDup_snoc_lt; apply W.
    + intros k Hk. apply in_app_or in Hk. destruct Hk as [Hk|[<-|[]]]; [apply (wf_lt _ W) in Hk|]; lia.
    + intros Hal. destruct (wf_dead _ W) as (_ & _ & Hf); congruence.
Qed.

Definition wf_state (s : state) : Prop :=
  Forall wf_pw (s_pws s) /\ Forall (fun pw => pw_open pw = negb (closed s)) (s_pws s).

Lemma wf_assigned : forall cfg m pws wg refs pws' wg' refs', assigned cfg m pws wg refs pws' wg' refs' ->
  Forall wf_pw pws -> Forall (fun pw => pw_open pw = true) pws ->
  Forall wf_pw pws' /\ Forall (fun pw => pw_open pw = true) pws'.
Proof.
  intros cfg m pws wg refs pws' wg' refs' A W O. destruct A as [p pw pw' k sp E Ho _ Ad|pw' k sp _ Ad].
  - pose proof (wf_pw_add _ _ _ _ _ _ Ad Ho (Forall_nth _ _ _ _ _ W E)) as W'.
    destruct (pw_add_spec cfg _ _ _ _ _ Ad Ho) as (_ & O' & _).
    split; apply Forall_upd; auto.
  - pose proof (wf_pw_add _ _ _ _ _ _ Ad eq_refl (wf_new _)) as W'.
    destruct (pw_add_spec cfg _ _ _ _ _ Ad eq_refl) as (_ & O' & _).
    split; apply Forall_app; auto.
Qed.

Lemma assign_all_wf_ind : forall cfg ms (P : list msg -> list pwriter -> nat -> list (nat * nat) -> Prop),
  (forall ms1 m ms2 pws wg refs pws' wg' refs', ms = ms1 ++ m :: ms2 ->
     Forall wf_pw pws -> Forall (fun pw => pw_open pw = true) pws -> P ms1 pws wg refs ->
     assigned cfg m pws wg refs pws' wg' refs' -> P (ms1 ++ [m]) pws' wg' refs') ->
  forall pws0 wg0 pws wg refs, Forall wf_pw pws0 -> Forall (fun pw => pw_open pw = true) pws0 ->
  P [] pws0 wg0 [] -> assign_all cfg pws0 wg0 ms = (pws, wg, refs) ->
  (Forall wf_pw pws /\ Forall (fun pw => pw_open pw = true) pws) /\ P ms pws wg refs.
Proof.
  intros cfg ms P Hstep pws0 wg0 pws wg refs W O H0.
  apply (assign_all_by_msg cfg ms (fun ms1 pws wg refs =>
           (Forall wf_pw pws /\ Forall (fun pw => pw_open pw = true) pws) /\ P ms1 pws wg refs)); [|auto].
  intros ms1 m ms2 pws1 wg1 refs1 pws' wg' refs' E [[W1 O1] P1] A. split; [eapply wf_assigned|]; eauto.
Qed.

Lemma wf_step : forall cfg s l s', wf_state s -> stepped cfg s l s' -> wf_state s'.
Proof.
  intros cfg s l s' [W O] T. destruct T as [| | c cl pws wg refs _ _ Ecl EA | l p pw pw' j cp E T | Ec | Ec _];
    try (split; assumption); unfold wf_state, closed in *; simpl.
  - rewrite Ecl in *. simpl in O |- *.
    eapply (assign_all_wf_ind cfg (c_msgs cl) (fun _ _ _ _ => True)); eauto.
  - destruct (pwstep_fields _ _ _ _ _ _ _ T) as (_ & Ho & _).
    split; apply Forall_upd; auto; [eapply wf_pwstep; [exact T|exact (Forall_nth _ _ _ _ _ W E)]|].
    rewrite Ho. apply (Forall_nth _ _ _ _ _ O E).
  - split; apply Forall_forall; intros x Hx; apply in_map_iff in Hx; destruct Hx as (y & <- & Hy).
    + apply wf_close. rewrite Forall_forall in W. auto.
    + rewrite close_pw_eq. destruct (pw_open y) eqn:Ey; [reflexivity|exact Ey].
  - rewrite Ec in O. auto.
Qed.

Lemma runs_stepped : forall cfg (P : state -> Prop),
  P init ->
  (forall s l s', wf_state s -> P s -> stepped cfg s l s' -> P s') ->
  forall ls s, runs cfg ls s -> wf_state s /\ P s.
Proof.
  intros cfg P H0 Hs. apply (runs_inv cfg (fun s => wf_state s /\ P s)); [split; [split; constructor|exact H0]|].
  intros s l s' [W I] H. apply step_stepped in H. split; [eapply wf_step|eapply Hs]; eauto.
Qed.

Lemma wf_runs : forall cfg ls s, runs cfg ls s -> wf_state s.
Proof. intros cfg ls s H. apply (runs_stepped cfg (fun _ => True) I (fun _ _ _ _ _ _ => I) ls s H). Qed.

Lemma stepped_frame : forall cfg s l s', wf_state s -> stepped cfg s l s' ->
  (exists c cl wg refs, nth_error (s_calls s) c = Some cl /\ c_ph cl = CEntered /\
     assign_all cfg (s_pws s) (s_wg s) (c_msgs cl) = (s_pws s', wg, refs) /\
     s_calls s' = upd (s_calls s) c (mkCall (c_g cl) (c_msgs cl) refs CWaiting)) \/
  (length (s_pws s') = length (s_pws s) /\
   forall p pw pw', nth_error (s_pws s) p = Some pw -> nth_error (s_pws s') p = Some pw' -> pw_frame pw pw').
Proof.
  intros cfg s l s' [W _] T.
  destruct T as [| | c cl pws wg refs Ec Ep _ EA | l p pw pw' j cp E T | |]; simpl;
    try (right; split; [reflexivity|]; intros q x x' E1 E2; rewrite E1 in E2; inversion E2; apply pw_frame_refl).
  - left. exists c, cl, wg, refs. auto.
  - right. split; [apply upd_length|]. intros q x x' E1 E2. apply nth_error_upd in E2.
    destruct E2 as [(<- & -> & _)|[_ E2]]; [|rewrite E1 in E2; inversion E2; apply pw_frame_refl].
    assert (x = pw) by congruence. subst x.
    exact (pwstep_frame _ _ _ _ _ _ _ T (wf_curr_open _ (Forall_nth _ _ _ _ _ W E))).
  - right. split; [apply map_length|]. intros q x x' E1 E2. rewrite nth_error_map, E1 in E2. inversion E2.
    exact (close_frame _ (wf_curr_open _ (Forall_nth _ _ _ _ _ W E1))).
Qed.
