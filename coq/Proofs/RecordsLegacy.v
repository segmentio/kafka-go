(* Proofs/RecordsLegacy.v — the legacy Conn writer for format 2: what it writes is the
   reference encoding of [lbatch], whose records carry every input record's millisecond
   timestamp (timestamp delta = timestamp(t_i) - timestamp(t_0)). *)
From Coq Require Import List NArith ZArith Bool Lia.
From Coq Require Import ZifyN ZifyNat ZifyBool.
From KV Require Import Lib.Bits Lib.Bytes Lib.Varint Lib.Crc Spec.RecordFormat Model.Records
  Proofs.BitsLemmas Proofs.RecordsCodec Proofs.RecordsSet Proofs.RecordsWriters.
Import ListNotations.
Open Scope Z_scope.

Definition lrec (base i : Z) (m : irec) : rec2 :=
  {| r_tsd := ts_ms (i_ns m) - ts_ms base; r_offd := i; r_key := i_key m; r_val := i_val m;
     r_hdrs := i_hdrs m |}.

(* varBytesLen counts a nil slice as length 0, the protocol writer as -1: one byte either way *)
Lemma var_bytes_len_vnb b : var_bytes_len b = size_of_vnb b.
Proof. destruct b as [l|]; unfold var_bytes_len, size_of_vnb, var_int_len, size_of_varint, blen; reflexivity. Qed.

Lemma wb_var_bytes_pw b : wb_var_bytes b = pw_vnb b.
Proof. reflexivity. Qed.
Lemma write_hdr_pw h : write_hdr h = put_varint (zlen (fst h)) ++ fst h ++ pw_vnb (snd h).
Proof. reflexivity. Qed.

Lemma write_record_enc base i m :
  wf_in m -> 0 <= i < ZM31 -> in_i64 (ts_ms (i_ns m) - ts_ms base) -> small (rec_body (lrec base i m)) ->
  write_record base i m = enc_rec (lrec base i m) /\
  record_size base i m = zlen (rec_body (lrec base i m)).
Proof.
  intros Hm Hi Ht Hsm.
  destruct (wrec_enc _ i m Hm Ht Hi) as [E S]. change (wrec _ i m) with (lrec base i m) in *.
  assert (Hsize : record_size base i m = zlen (rec_body (lrec base i m))).
  { rewrite <- S. unfold record_size, ts_delta. rewrite (wrap64_id _ Ht), !var_bytes_len_vnb.
    replace (map hdr_size (i_hdrs m))
      with (map (fun h : list N * obytes => size_of_varint (zlen (fst h)) + zlen (fst h) + size_of_vnb (snd h)) (i_hdrs m))
      by (apply map_ext; intros h; unfold hdr_size, var_string_len, var_int_len, size_of_varint; rewrite var_bytes_len_vnb; reflexivity).
    unfold var_int_len, size_of_varint. lia. }
  split; [|exact Hsize].
  unfold write_record, enc_rec, ts_delta.
  rewrite Hsize, (wrap64_id _ Ht), (put_varint_sv _ (small_i64 _ Hsm)).
  rewrite !wb_var_bytes_pw, (map_ext _ _ write_hdr_pw). f_equal. exact E.
Qed.

Lemma codec_le4 c : (c <= 4)%N -> (c = 0 \/ c = 1 \/ c = 2 \/ c = 3 \/ c = 4)%N.
Proof. lia. Qed.
Lemma codec_of_small c : (c <= 4)%N -> codec_of (Z.of_N c) = c.
Proof. intros H. destruct (codec_le4 c H) as [->|[->|[->|[->| ->]]]]; reflexivity. Qed.

Section Codec.
Variable comp decomp : N -> list N -> list N.
Hypothesis decomp_comp : forall c b, decomp c (comp c b) = b.

Definition lbatch (codec : N) (ms : list irec) : batch2 :=
  let base := match ms with m0 :: _ => i_ns m0 | [] => 0 end in
  {| b_base := 0; b_epoch := -1; b_attrs := Z.of_N codec; b_last := zlen ms - 1; b_first := ts_ms base;
     b_max := ts_ms (last_ns ms base); b_pid := -1; b_pepoch := -1; b_seq := -1;
     b_recs := mapi_from (lrec base) 0 ms |}.

Lemma lbatch_wbatch codec m0 ms' : let ms := m0 :: ms' in
  lbatch codec ms =
  wbatch (Z.of_N codec) (zlen ms - 1) (ts_ms (i_ns m0)) (ts_ms (last_ns ms (i_ns m0))) (mapi_from (lrec (i_ns m0)) 0 ms).
Proof. reflexivity. Qed.

Definition ltimes_ok (ms : list irec) : Prop :=
  forall m, In m ms -> - ZM31 * ZM31 <= ts_ms (i_ns m) < ZM31 * ZM31.

Lemma legacy_v2_is_enc codec ms :
  ms <> [] -> Forall wf_in ms -> ltimes_ok ms -> small ms -> (codec <= 4)%N -> v2_fits comp (lbatch codec ms) ->
  legacy_v2 comp codec ms = Some (enc_set comp [IBatch (lbatch codec ms)]).
Proof.
  intros Hne Hwf Hts Hn Hc [Hfit Hfit2]. destruct ms as [|m0 ms']; [contradiction|].
  rewrite lbatch_wbatch in *. cbn [b_recs wbatch] in Hfit.
  assert (Htd : forall x, In x (m0 :: ms') -> in_i64 (ts_ms (i_ns x) - ts_ms (i_ns m0))).
  { intros x Hx. apply i64_time_diff; apply Hts; [exact Hx|left; reflexivity]. }
  pose proof (rec_body_small_of_fits _ Hfit) as Hsm. rewrite Forall_forall in Hwf. unfold small in Hn.
  assert (Hraw : concat (mapi_from (write_record (i_ns m0)) 0 (m0 :: ms')) =
                 concat (map enc_rec (mapi_from (lrec (i_ns m0)) 0 (m0 :: ms')))).
  { rewrite map_mapi. f_equal. apply mapi_ext_in. intros j x Hp. destruct (In_ixs _ _ _ _ Hp) as [Hj Hx].
    apply write_record_enc; [apply Hwf, Hx|lia|apply Htd, Hx|exact (proj1 (mapi_Forall _ _ _ _) Hsm j x Hp)]. }
  (* the size the uncompressed branch computes beforehand is the length of the encoded records *)
  assert (Hsum : zsum (mapi_from (fun i m => record_size (i_ns m0) i m + var_int_len (record_size (i_ns m0) i m)) 0 (m0 :: ms')) =
                 zlen (concat (map enc_rec (mapi_from (lrec (i_ns m0)) 0 (m0 :: ms'))))).
  { rewrite zlen_concat_map, map_mapi. f_equal. apply mapi_ext_in. intros j x Hp.
    destruct (In_ixs _ _ _ _ Hp) as [Hj Hx]. pose proof (proj1 (mapi_Forall _ _ _ _) Hsm j x Hp) as Hs.
    destruct (write_record_enc (i_ns m0) j x (Hwf x Hx) ltac:(lia) (Htd x Hx) Hs) as [_ E].
    cbn zeta. rewrite E. unfold enc_rec. rewrite zlen_app. unfold var_int_len.
    rewrite varint_len_sv by (apply small_i64, Hs). lia. }
  pose proof (payload_known comp (Z.of_N codec) (zlen (m0 :: ms') - 1) (ts_ms (i_ns m0)) (ts_ms (last_ns (m0 :: ms') (i_ns m0)))
                (mapi_from (lrec (i_ns m0)) 0 (m0 :: ms'))) as Hpay.
  rewrite codec_of_small in Hpay by exact Hc. specialize (Hpay Hc).
  rewrite zlen_enc_batch in Hfit2.
  unfold legacy_v2. cbn beta iota zeta. rewrite enc_set_wbatch, Hraw.
  set (P := batch_payload comp _) in *. pose proof (zlen_nonneg P) as HP.
  assert (Hi32 : in_i32 (61 + zlen P)) by (clear - Hfit2 HP; unfold in_i32, ZM31 in *; lia).
  destruct (N.eqb_spec codec 0) as [E0|E0].
  - rewrite E0 in Hpay. change (codec_known 0) with false in Hpay. cbv iota in Hpay.
    rewrite Hsum, Hpay, E0, (wrap32_id _ Hi32). unfold write_record_batch. rewrite zlen_mapi. reflexivity.
  - replace (codec_known codec) with true in Hpay by (unfold codec_known; lia).
    rewrite Hpay, (wrap32_id _ Hi32). unfold write_record_batch. rewrite zlen_mapi. reflexivity.
Qed.

Lemma lbatch_wf codec ms :
  ms <> [] -> Forall wf_in ms -> ltimes_ok ms -> small ms -> (codec <= 4)%N ->
  v2_fits comp (lbatch codec ms) -> wf_batch comp (lbatch codec ms).
Proof.
  intros Hne Hwf Ht Hn Hc. destruct ms as [|m0 ms']; [contradiction|]. rewrite lbatch_wbatch.
  pose proof (Ht m0 (or_introl eq_refl)) as Ht0.
  assert (Hl : - ZM31 * ZM31 <= ts_ms (last_ns (m0 :: ms') (i_ns m0)) < ZM31 * ZM31).
  { unfold last_ns. destruct (rev (m0 :: ms')) as [|x l] eqn:E; [exact Ht0|]. apply Ht, in_rev. rewrite E. left. reflexivity. }
  pose proof (zlen_nonneg (m0 :: ms')) as Hnn. unfold small in Hn.
  apply (wbatch_wf comp _ _ _ _ (fun r => ts_ms (i_ns r) - ts_ms (i_ns m0))); try assumption.
  - lia.
  - unfold in_i32, ZM31 in *. lia.
  - unfold in_i64, ZM63, ZM31 in *. lia.
  - unfold in_i64, ZM63, ZM31 in *. lia.
  - intros r Hr. apply i64_time_diff; [apply Ht, Hr|exact Ht0].
Qed.

(* what a consumer decodes from the legacy v2 writer's bytes: exactly [lbatch] — record i
   carries timestamp delta milliseconds(time_i - time_0) against base timestamp(time_0) *)
Theorem legacy_v2_decodable codec ms :
  ms <> [] -> Forall wf_in ms -> ltimes_ok ms -> small ms -> (codec <= 4)%N ->
  v2_fits comp (lbatch codec ms) ->
  exists bytes, legacy_v2 comp codec ms = Some bytes /\
                dec_set decomp bytes = Some [IBatch (lbatch codec ms)].
Proof.
  intros Hne Hwf Ht Hn Hc Hf. eexists. split; [apply legacy_v2_is_enc; assumption|].
  apply (batch_set_decodable comp decomp decomp_comp); [apply lbatch_wf; assumption|exact Hf].
Qed.

End Codec.

Definition canon (ts : Z) (i : Z) (r : irec) : orec := mk_rec i ts (i_key r) (i_val r) (i_hdrs r).

Definition expected_records (ts : irec -> Z) (rs : list irec) : list orec :=
  mapi_from (fun i r => canon (ts r) i r) 0 rs.

Lemma raw_records_pbatch attrs now rs :
  raw_records [IBatch (pbatch attrs now rs)] = expected_records (fun r => pts now (i_ns r)) rs.
Proof.
  destruct rs as [|r0 rs']; [reflexivity|]. rewrite pbatch_wbatch.
  apply (raw_records_wbatch _ _ _ _ (fun r => pts now (i_ns r) - pts now (i_ns r0))). intros r. lia.
Qed.

Lemma raw_records_lbatch codec ms :
  raw_records [IBatch (lbatch codec ms)] = expected_records (fun r => ts_ms (i_ns r)) ms.
Proof.
  destruct ms as [|m0 ms']; [reflexivity|]. rewrite lbatch_wbatch.
  apply (raw_records_wbatch _ _ _ _ (fun r => ts_ms (i_ns r) - ts_ms (i_ns m0))). intros r. lia.
Qed.

(* identity codec for the closed instances of C05.v *)
Definition idc (c : N) (b : list N) : list N := b.
(* the witness of finding F4: 0.9 ms and 1.1 ms after 1 600 000 000 000 ms *)
Definition f4_witness : list irec :=
  [ {| i_off := 0; i_ns := 1600000000000900000; i_key := None; i_val := Some [97%N]; i_hdrs := [] |};
    {| i_off := 0; i_ns := 1600000000001100000; i_key := None; i_val := Some [98%N]; i_hdrs := [] |} ].
