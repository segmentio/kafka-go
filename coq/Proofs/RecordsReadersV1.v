(* Proofs/RecordsReadersV1.v — the protocol reader model on format 0/1 messages and compressed
   wrappers, and on arbitrary sequences of items: Client.Fetch returns the reference's records. *)
From Coq Require Import List NArith ZArith Bool Lia.
From Coq Require Import ZifyN ZifyNat ZifyBool.
From KV Require Import Lib.Bits Lib.Bytes Lib.Varint Lib.Crc Spec.RecordFormat Model.Records
  Proofs.RecordsCodec Proofs.RecordsSet Proofs.RecordsWriters Proofs.RecordsReaders.
Import ListNotations.
Open Scope Z_scope.

Lemma get_u_put4 x r : get_u 4 (put_be 4 x ++ r) = Some (w32 x, r).
Proof.
  unfold get_u. rewrite take_app by apply put_be_length. rewrite get_put_be_mod. reflexivity.
Qed.

(* readMessage's nullable bytes (key, value): int32 length, negative = nil; in line twice in the model,
   folded by p_nbytes_bind *)
Definition p_nbytes (bs : list N) : option (obytes * list N) :=
  match get_i 4 bs with
  | Some (n, r) =>
    if n <? 0 then Some (None, r)
    else match take (Z.to_nat n) r with Some (k, r') => Some (Some k, r') | None => None end
  | None => None
  end.
Lemma p_nbytes_bind {A} bs (K : obytes -> list N -> option A) :
  match get_i 4 bs with
  | Some (n, r) =>
    match (if n <? 0 then Some (None, r)
           else match take (Z.to_nat n) r with Some (k, r') => Some (Some k, r') | None => None end) with
    | Some (k, r7) => K k r7
    | None => None
    end
  | None => None
  end = match p_nbytes bs with Some (k, r) => K k r | None => None end.
Proof.
  unfold p_nbytes. destruct (get_i 4 bs) as [[n r]|]; [|reflexivity].
  destruct (n <? 0); [reflexivity|]. destruct (take (Z.to_nat n) r) as [[k r']|]; reflexivity.
Qed.
Lemma p_nbytes_enc b r : osmall b -> p_nbytes (enc_nbytes b ++ r) = Some (b, r).
Proof.
  intros Hb. unfold p_nbytes, enc_nbytes. destruct b as [l|].
  - rewrite <- app_assoc, get_int32_put, zlen_ltb0, take_zlen by auto with range. reflexivity.
  - rewrite get_int32_put by auto with range. reflexivity.
Qed.

(* readMessage's last step: length against the size field, CRC against the stored one *)
Lemma body_check_ok {A} B rest (x : A) :
  (let consumed := (length (B ++ rest) - length rest)%nat in
   if 4 + zlen B - 4 <? Z.of_nat consumed then None
   else if (w32 (crc32_ieee B) =? w32 (crc32_ieee (firstn consumed (B ++ rest))))%N then Some x else None) = Some x.
Proof.
  replace (length (B ++ rest) - length rest)%nat with (length B) by (rewrite app_length; lia). cbn zeta.
  destruct (Z.ltb_spec (4 + zlen B - 4) (Z.of_nat (length B))); [unfold zlen in *; lia|].
  rewrite firstn_app_exact by reflexivity. rewrite N.eqb_refl. reflexivity.
Qed.

Lemma p_read_message_enc m rest : wf_msg m ->
  p_read_message (enc_msg m ++ rest) = Some (m_off m, m_attrs m, m_ts m, m_key m, m_val m, rest).
Proof.
  intros Hm. pose proof Hm as (Hmg & _ & Ha & _ & Ho & Hk & Hv & Hsz). unfold p_read_message, enc_msg.
  cbn zeta. rewrite <- !app_assoc. pose proof (zlen_nonneg (msg_body m)) as Hnn.
  rewrite get_int64_put, get_int32_put, get_u_put4 by auto with range.
  (* read field by field, then checked as a whole: the body spelt out for the one, folded back for the other *)
  assert (HB : msg_body m ++ rest =
               put_bes 1 (m_magic m) ++ put_bes 1 (m_attrs m) ++ (if m_magic m =? 0 then [] else put_bes 8 (m_ts m)) ++
               enc_nbytes (m_key m) ++ enc_nbytes (m_val m) ++ rest)
    by (unfold msg_body; rewrite <- !app_assoc; reflexivity).
  rewrite HB, !get_int8_put, ts_field_enc by (lia || exact Hm).
  rewrite p_nbytes_bind, p_nbytes_enc by exact Hk. cbv beta iota.
  rewrite p_nbytes_bind, p_nbytes_enc by exact Hv. cbv beta iota.
  rewrite <- HB. apply body_check_ok.
Qed.

Lemma p_inner_S f bs acc : bs <> [] ->
  p_inner (S f) bs acc =
  match p_read_message bs with
  | Some (off, _, ts, k, v, rest) => p_inner f rest (mk_rec off ts k v [] :: acc)
  | None => None
  end.
Proof. destruct bs; [contradiction|reflexivity]. Qed.

Lemma p_inner_enc ms : forall fuel acc, Forall wf_msg ms ->
  (length (concat (map enc_msg ms)) <= fuel)%nat ->
  p_inner fuel (concat (map enc_msg ms)) acc = Some (Some (rev acc ++ map (rec_of_msg 0) ms)).
Proof.
  induction ms as [|m ms IH]; intros fuel acc H Hf.
  - cbn [map concat]. destruct fuel; cbn [p_inner]; rewrite app_nil_r; reflexivity.
  - apply Forall_cons_iff in H as [Hm Hs]. cbn [map concat] in *.
    pose proof (enc_msg_len m). rewrite app_length in Hf.
    destruct fuel as [|fuel]; [lia|].
    rewrite p_inner_S by (apply nonempty_app; lia).
    rewrite p_read_message_enc, IH by (assumption || lia).
    cbn [rev]. rewrite <- app_assoc. unfold rec_of_msg, mk_rec. rewrite Z.add_0_r. reflexivity.
Qed.

Lemma nth16_enc_msg m rest : wf_msg m -> (nth 16 (enc_msg m ++ rest) 0 <= 1)%N.
Proof.
  intros Hm. destruct (msg_magic_byte m Hm) as (x & Hx & Hle).
  unfold enc_msg, msg_body. cbn zeta. rewrite Hx, <- !app_assoc. cbn [app].
  rewrite nth_app3 by (unfold put_bes; rewrite !put_be_length; reflexivity). exact Hle.
Qed.

Section Codec.
Variable comp decomp : N -> list N -> list N.
Hypothesis decomp_comp : forall c b, decomp c (comp c b) = b.

(* what a broker may return, as far as Client.Fetch is concerned *)
(* the last two come from [rebase] (readFromVersion1), which ignores the magic and leaves the inner
   offsets alone when the wrapper's offset is 0 *)
Definition item_ok (it : item) : Prop :=
  match it with
  | IMsg m => wf_msg m /\ plain m = true
  | IWrap magic off attrs ts inner =>
    wf_wrap comp magic off attrs ts inner /\ (codec_of attrs <= 4)%N /\ inner <> [] /\
    (magic = 0 -> off = last_off inner) /\ (off = 0 -> last_off inner = 0)
  | IBatch b => batch_ok comp b
  end.

Lemma item_ok_wf it : item_ok it -> wf_item comp it.
Proof. destruct it; cbn [item_ok wf_item]; intros H; [exact H|apply H|apply H]. Qed.

Definition reader_of_item (it : item) : preader :=
  match it with
  | IBatch b => reader_of b
  | _ => (false, records_of false it)
  end.

Lemma rebase_inner off inner magic : inner <> [] ->
  (magic = 0 -> off = last_off inner) -> (off = 0 -> last_off inner = 0) ->
  rebase off (map (rec_of_msg 0) inner) =
  (if magic =? 0 then map (rec_of_msg 0) inner else map (rec_of_msg (off - last_off inner)) inner).
Proof.
  intros Hne H0 Hz. unfold rebase. rewrite <- map_rev. unfold last_off in *.
  destruct (rev inner) as [|lm t] eqn:Hrev.
  { exfalso. apply Hne. apply (f_equal (@rev msg)) in Hrev. rewrite rev_involutive in Hrev. exact Hrev. }
  cbn [map].
  assert (Hid : forall d, d = 0 -> map (rec_of_msg d) inner = map (rec_of_msg 0) inner) by (intros d ->; reflexivity).
  destruct (Z.eqb_spec off 0) as [E|E].
  - destruct (Z.eqb_spec magic 0); [reflexivity|]. symmetry. apply Hid. rewrite (Hz E). lia.
  - rewrite map_map.
    assert (Hm : map (fun x => mk_rec (off - (o_off (rec_of_msg 0 lm) - o_off (rec_of_msg 0 x))) (o_ts (rec_of_msg 0 x))
                                             (o_key (rec_of_msg 0 x)) (o_val (rec_of_msg 0 x)) (o_hdrs (rec_of_msg 0 x))) inner =
                       map (rec_of_msg (off - m_off lm)) inner).
    { apply map_ext. intros x. unfold rec_of_msg, mk_rec. cbn [o_off o_ts o_key o_val o_hdrs]. f_equal. lia. }
    rewrite Hm. destruct (Z.eqb_spec magic 0) as [Em|Em]; [|reflexivity].
    apply Hid. rewrite (H0 Em). lia.
Qed.

(* RecordSet.ReadFrom picks the reader by the magic, the 17th byte *)
Definition p_read_one (bs : list N) : pres (option preader) :=
  if (nth 16 bs 0 <=? 1)%N then p_read_v1 decomp bs
  else if (nth 16 bs 0 =? 2)%N then p_read_v2 decomp bs else PE.
Lemma p_read_one_v1 (bs : list N) : (nth 16 bs 0 <= 1)%N -> p_read_one bs = p_read_v1 decomp bs.
Proof. intros H. unfold p_read_one. destruct (N.leb_spec (nth 16 bs 0%N) 1); [reflexivity|lia]. Qed.
Lemma p_read_one_v2 (bs : list N) : nth 16 bs 0%N = 2%N -> p_read_one bs = p_read_v2 decomp bs.
Proof. intros H. unfold p_read_one. rewrite H. reflexivity. Qed.

Lemma p_read_item_enc it rest : item_ok it ->
  p_read_one (enc_item comp it ++ rest) = PR (Some (reader_of_item it)) rest.
Proof.
  destruct it as [m|magic off attrs ts inner|b]; cbn [item_ok enc_item reader_of_item].
  - intros [Hm Hp]. rewrite p_read_one_v1 by (apply nth16_enc_msg, Hm).
    unfold p_read_v1. rewrite p_read_message_enc by exact Hm.
    unfold plain in Hp. rewrite Hp. unfold records_of, rec_of_msg, mk_rec. rewrite Z.add_0_r. reflexivity.
  - intros ((Hm & Hc & Hin & Hpl) & Hc4 & Hne & H0 & Hz). unfold enc_wrap.
    rewrite p_read_one_v1 by (apply nth16_enc_msg, Hm).
    unfold p_read_v1. rewrite p_read_message_enc by exact Hm.
    cbn [m_off m_attrs m_ts m_key m_val].
    pose proof (codec_known_le4 _ Hc4) as Hk.
    destruct (N.eqb_spec (codec_of attrs) 0); [contradiction|]. cbn [negb andb] in Hk. rewrite Hk.
    rewrite decomp_comp, p_inner_enc by (try exact Hin; lia). cbn [rev app].
    rewrite (rebase_inner off inner magic Hne H0 Hz). reflexivity.
  - intros Hb. rewrite p_read_one_v2 by (rewrite enc_batch_raw; apply nth16_raw_batch).
    apply p_read_v2_enc; assumption.
Qed.

Lemma p_loop_S f bs acc : (17 <= length bs)%nat ->
  p_loop decomp (S f) bs acc =
  match p_read_one bs with
  | PR (Some rd) rest => p_loop decomp f rest (rd :: acc)
  | PR None rest => p_loop decomp f rest acc
  | PE => PR (rev acc, true) []
  | PP => PP
  | PU => PU
  end.
Proof.
  intros H. destruct bs as [|x t]; [cbn in H; lia|]. cbn [p_loop].
  destruct (Nat.ltb_spec (length (x :: t)) 17); [lia|reflexivity].
Qed.

Lemma p_loop_nil fuel acc : p_loop decomp fuel [] acc = PR (rev acc, false) [].
Proof. destruct fuel; reflexivity. Qed.

(* the loop consumes a prefix of good items and goes on, with fuel to spare, on what follows *)
Lemma p_loop_items_then its rest : forall fuel acc, Forall item_ok its ->
  (length (enc_items comp its ++ rest) < fuel)%nat ->
  exists fuel', (length rest < fuel')%nat /\
    p_loop decomp fuel (enc_items comp its ++ rest) acc =
    p_loop decomp fuel' rest (rev (map reader_of_item its) ++ acc).
Proof.
  unfold enc_items. induction its as [|it its IH]; intros fuel acc H Hf.
  - exists fuel. split; [exact Hf|reflexivity].
  - apply Forall_cons_iff in H as [Hi Hs]. cbn [map concat] in *. rewrite <- app_assoc in *.
    pose proof (enc_item_len comp it). rewrite app_length in Hf.
    destruct fuel as [|fuel]; [lia|].
    rewrite p_loop_S by (rewrite app_length; lia). rewrite p_read_item_enc by exact Hi.
    destruct (IH fuel (reader_of_item it :: acc) Hs ltac:(lia)) as (fuel' & Hf' & ->).
    exists fuel'. split; [exact Hf'|]. cbn [rev]. rewrite <- app_assoc. reflexivity.
Qed.

Lemma p_loop_bad base epoch crc tail rest fuel acc :
  in_i64 base -> 9 + zlen tail < ZM31 -> length crc = 4%nat -> get_be crc 0%N <> w32 (crc32c tail) ->
  (length (raw_batch base epoch crc tail ++ rest) < fuel)%nat ->
  p_loop decomp fuel (raw_batch base epoch crc tail ++ rest) acc = PR (rev acc, true) [].
Proof.
  intros Hb Hsz Hc Hne Hf. pose proof (raw_batch_len base epoch crc tail).
  destruct fuel as [|fuel]; [lia|].
  rewrite p_loop_S by (rewrite app_length; lia).
  rewrite p_read_one_v2, p_read_v2_badcrc by (assumption || apply nth16_raw_batch). reflexivity.
Qed.

(* RecordStream hides control batches *)
Lemma readers_records its :
  flat_map (fun rd : preader => if fst rd then [] else snd rd) (map reader_of_item its) = records its.
Proof.
  unfold records. induction its as [|it its IH]; [reflexivity|].
  cbn [map flat_map]. rewrite IH. f_equal.
  destruct it as [m|magic off attrs ts inner|b]; cbn [reader_of_item fst snd]; try reflexivity.
  unfold records_of, reader_of. cbn [fst snd]. destruct (is_control (b_attrs b)); reflexivity.
Qed.

Lemma proto_read_sized content : 0 < zlen content < ZM31 ->
  proto_read decomp (put_bes 4 (zlen content) ++ content) =
  match p_loop decomp (S (length content)) content [] with
  | PR (readers, e) _ =>
    match readers with
    | [] => POut [] e
    | _ => POut (flat_map (fun rd : preader => if fst rd then [] else snd rd) readers) false
    end
  | PE => POut [] true
  | PP => PPanic
  | PU => PUnmodelled
  end.
Proof.
  intros H. unfold proto_read. rewrite get_int32_put by auto with range.
  destruct (Z.leb_spec (zlen content) 0); [lia|].
  rewrite to_nat_zlen, firstn_all. reflexivity.
Qed.

(* Client.Fetch path on any sequence of items (formats 0, 1, wrappers, format 2; every codec):
   exactly the reference's records with absolute offsets, control batches hidden, no error *)
Theorem proto_read_items its :
  Forall item_ok its -> zlen (enc_items comp its) < ZM31 ->
  proto_read decomp (enc_set comp its) = POut (records its) false.
Proof.
  intros H Hsz. destruct its as [|it its']; [reflexivity|]. set (its := it :: its') in *.
  unfold enc_set. cbn zeta.
  assert (0 < zlen (enc_items comp its)).
  { unfold its, enc_items. cbn [map concat]. rewrite zlen_app.
    pose proof (enc_item_len comp it). pose proof (zlen_nonneg (concat (map (enc_item comp) its'))). unfold zlen in *. lia. }
  rewrite proto_read_sized by lia.
  destruct (p_loop_items_then its [] (S (length (enc_items comp its))) [] H) as (fuel' & _ & E).
  { rewrite app_nil_r. lia. }
  rewrite app_nil_r in E. rewrite E, p_loop_nil, !app_nil_r, rev_involutive, readers_records. reflexivity.
Qed.

(* good items of any format, then a format-2 batch whose checksum does not match, then anything *)
Theorem proto_read_items_crc_mismatch its base epoch crc tail rest :
  Forall item_ok its -> in_i64 base -> 9 + zlen tail < ZM31 -> length crc = 4%nat ->
  get_be crc 0%N <> w32 (crc32c tail) ->
  let content := enc_items comp its ++ raw_batch base epoch crc tail ++ rest in
  zlen content < ZM31 ->
  proto_read decomp (put_bes 4 (zlen content) ++ content) =
  POut (records its) (match its with [] => true | _ => false end).
Proof.
  intros H Hb Hsz Hc Hne content Hcs.
  assert (0 < zlen content).
  { unfold content. rewrite !zlen_app. pose proof (raw_batch_len base epoch crc tail).
    pose proof (zlen_nonneg (enc_items comp its)). pose proof (zlen_nonneg rest). unfold zlen in *. lia. }
  rewrite proto_read_sized by lia.
  destruct (p_loop_items_then its (raw_batch base epoch crc tail ++ rest) (S (length content)) [] H)
    as (fuel' & Hf' & E); [unfold content; lia|].
  unfold content at 2. rewrite E, p_loop_bad, !app_nil_r, rev_involutive by assumption.
  destruct its; [reflexivity|]. rewrite readers_records. reflexivity.
Qed.

End Codec.
