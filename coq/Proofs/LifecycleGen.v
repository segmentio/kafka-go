(* Proofs/LifecycleGen.v — invariants of Reader.run, ConsumerGroup.run and the generations *)
From Coq Require Import List Arith Bool Lia.
From KV Require Import Lib.LTS Model.Lifecycle Proofs.LifecycleBase Proofs.LifecycleSafe.
Import ListNotations.

Definition cur_gen (g : gphase) : option nat :=
  match g with GPublish k | GWait k | GClose k _ | GCloseWait k _ => Some k | _ => None end.
Definition r_gen (r : rphase) : option nat :=
  match r with RSub k | RStartC k | RStartU k => Some k | _ => None end.
Definition r_closing (r : rphase) : bool := match r with RCgWait | RDone | RExited => true | _ => false end.
Definition r_after (r : rphase) : bool := match r with RDone | RExited => true | _ => false end.
Definition pastp (k : nat) (f : fn) : bool := negb (acc_of k f) || nexit f.
Definition gen_past (s : state) (k : nat) (g : gen) : Prop :=
  forallb (pastp k) (fns s) = true /\ g_conn g = false /\ g_done g = true.

Record inv2 (s : state) : Prop := {
  j_nogroup : c_group (cfg s) = false -> gph s = GNone /\ rph s = RNone /\ gens s = [] /\ fns s = [] /\ rdone s = false;
  j_rdone : rdone s = true -> rph s = RExited;
  j_cgdone : r_closing (rph s) = true -> cgdone s = true;
  j_gexit : r_after (rph s) = true -> gph s = GExited;
  j_cur : forall k, cur_gen (gph s) = Some k -> k < length (gens s);
  j_rgen : forall k, r_gen (rph s) = Some k -> k < length (gens s);
  j_fngen : forall i f, nth_error (fns s) i = Some f -> n_gen f < length (gens s);
  (* a generation is current or over; [forallb (pastp k)] is [acc_exited k s] *)
  j_past : forall k g, nth_error (gens s) k = Some g -> cur_gen (gph s) = Some k \/ gen_past s k g;
  (* Generation.Start accounts a function unless done is closed *)
  j_late : forall i f, nth_error (fns s) i = Some f -> n_acc f = false -> gen_done s (n_gen f) = true;
  j_cw : forall k w, gph s = GCloseWait k w -> gen_done s k = true }.

Lemma inv2_init : forall c, inv2 (init c).
Proof.
  intros c. split; cbn; intros; try discriminate; auto;
    try (destruct (c_group c); cbn in *; try discriminate; auto; fail);
    try (destruct k; discriminate); try (destruct i; discriminate).
Qed.

Lemma past_setfn : forall k l i f kd d ph,
  forallb (pastp k) l = true -> nth_error l i = Some f -> nexit f = false ->
  forallb (pastp k) (upd i (mkFn (n_gen f) kd (n_acc f) d ph) l) = true.
Proof.
  intros. apply forallb_upd; auto. pose proof (forallb_nth _ _ _ _ _ H H0) as P.
  unfold pastp, acc_of in *. cbn. rewrite H1 in P. rewrite orb_false_r in P. rewrite P. reflexivity.
Qed.
Lemma past_app : forall k l f, forallb (pastp k) l = true -> acc_of k f = false -> forallb (pastp k) (l ++ [f]) = true.
Proof. intros. rewrite forallb_app1, H. unfold pastp. rewrite H0. reflexivity. Qed.
Lemma nexit_false : forall f, n_ph f <> NExit -> nexit f = false.
Proof. intros. unfold nexit. destruct (n_ph f); congruence. Qed.

Definition same_run (s s' : state) : Prop :=
  cfg s' = cfg s /\ rph s' = rph s /\ rdone s' = rdone s /\ cgdone s' = cgdone s.

Lemma inv2_ext : forall s s', inv2 s -> same_run s s' -> gph s' = gph s -> gens s' = gens s -> fns s' = fns s -> inv2 s'.
Proof.
  intros s s' [J0 J1 J2 J3 J4 J5 J6 J7 J8 J9] (E1 & E3 & E6 & E7) E2 E4 E5.
  split; unfold gen_past, gen_done in *; rewrite ?E1, ?E2, ?E3, ?E4, ?E5, ?E6, ?E7; auto.
Qed.

Lemma inv2_fn_upd : forall s s' i f kd d ph, inv2 s -> nth_error (fns s) i = Some f -> nexit f = false ->
  same_run s s' -> gph s' = gph s -> gens s' = gens s ->
  fns s' = upd i (mkFn (n_gen f) kd (n_acc f) d ph) (fns s) -> inv2 s'.
Proof.
  intros s s' i f kd d ph [J0 J1 J2 J3 J4 J5 J6 J7 J8 J9] Hf Hx (E1 & E3 & E6 & E7) E2 E4 E5.
  split; unfold gen_past, gen_done in *; rewrite ?E1, ?E2, ?E3, ?E4, ?E5, ?E6, ?E7; auto.
  - intros G. destruct (J0 G) as (A & B & C & D & E). rewrite D in Hf. destruct i; discriminate.
  - intros j g H. rewrite nth_upd in H. destruct (Nat.eqb_spec i j).
    + subst. rewrite Hf in H. inversion H; subst. cbn. eauto.
    + eauto.
  - intros k g H. destruct (J7 k g H) as [|(A & B & C)]; auto. right. split; auto.
    apply past_setfn; auto.
  - intros j g H Ha. rewrite nth_upd in H. destruct (Nat.eqb_spec i j).
    + subst. rewrite Hf in H. inversion H; subst. cbn in *. eauto.
    + eauto.
Qed.

Lemma inv2_gen_upd : forall s s' k g g', inv2 s -> nth_error (gens s) k = Some g ->
  (g_done g = true -> g_done g' = true) -> (g_conn g = false -> g_conn g' = false) ->
  same_run s s' -> gph s' = gph s -> fns s' = fns s -> gens s' = upd k g' (gens s) -> inv2 s'.
Proof.
  intros s s' k g g' [J0 J1 J2 J3 J4 J5 J6 J7 J8 J9] Hg M1 M2 (E1 & E3 & E6 & E7) E2 E5 E4.
  split; unfold gen_past, gen_done in *; rewrite ?E1, ?E2, ?E3, ?E4, ?E5, ?E6, ?E7, ?upd_length; auto.
  - intros G. destruct (J0 G) as (A & B & C & D & E). rewrite C in Hg. destruct k; discriminate.
  - intros j g0 H. rewrite nth_upd in H. destruct (Nat.eqb_spec k j).
    + subst. rewrite Hg in H. inversion H; subst. destruct (J7 _ _ Hg) as [|(A & B & C)]; auto.
    + eauto.
  - intros j f H Ha. rewrite nth_upd. specialize (J8 j f H Ha). destruct (Nat.eqb_spec k (n_gen f)).
    + rewrite <- e, Hg in *. auto.
    + exact J8.
  - intros j w H. rewrite nth_upd. specialize (J9 j w H). destruct (Nat.eqb_spec k j).
    + subst. rewrite Hg in *. auto.
    + exact J9.
Qed.

Lemma inv2_cg : forall s s', inv2 s ->
  same_run s s' -> gens s' = gens s -> fns s' = fns s ->
  gph s <> GNone -> gph s <> GExited -> cur_gen (gph s') = cur_gen (gph s) ->
  (forall k w, gph s' = GCloseWait k w -> gen_done s k = true) -> inv2 s'.
Proof.
  intros s s' [J0 J1 J2 J3 J4 J5 J6 J7 J8 J9] (E1 & E2 & E3 & E4) E5 E6 N1 N2 Hc N4.
  split; unfold gen_past, gen_done in *; rewrite ?E1, ?E2, ?E3, ?E4, ?E5, ?E6, ?Hc; auto.
  - intros G. destruct (J0 G) as (A & _). congruence.
  - intros G. specialize (J3 G). congruence.
Qed.

Lemma inv2_leave_cur : forall s k g g', inv2 s -> cur_gen (gph s) = Some k -> nth_error (gens s) k = Some g ->
  gen_past s k g -> cur_gen g' = None -> inv2 (set_gph g' s).
Proof.
  intros s k g g' [J0 J1 J2 J3 J4 J5 J6 J7 J8 J9] Hk Hg Hp Hc.
  assert (N1 : gph s <> GNone /\ gph s <> GExited) by (destruct (gph s); cbn in Hk; try discriminate; split; discriminate).
  split; unfold gen_past, gen_done in *; cbn; auto.
  - intros G. destruct (J0 G) as (A & _). tauto.
  - intros G. specialize (J3 G). tauto.
  - rewrite Hc. discriminate.
  - intros j g0 H. destruct (J7 j g0 H) as [A|A]; auto. rewrite Hk in A. inversion A; subst. rewrite Hg in H. inversion H; subst. auto.
  - intros j w H. rewrite H in Hc. discriminate.
Qed.

Lemma inv2_start_fn : forall s k kd r', inv2 s -> r_gen (rph s) = Some k ->
  (r_gen r' = None \/ r_gen r' = Some k) -> r_closing r' = false -> inv2 (set_rph r' (start_fn k kd s)).
Proof.
  intros s k kd r' [J0 J1 J2 J3 J4 J5 J6 J7 J8 J9] Hk Hr Hc.
  assert (Hrp : rph s <> RNone /\ rph s <> RExited) by (destruct (rph s); cbn in Hk; try discriminate; split; discriminate).
  unfold start_fn. split; unfold gen_past, gen_done in *; cbn.
  - intros G. destruct (J0 G) as (A & B & C & D & E). tauto.
  - intros G. specialize (J1 G). tauto.
  - rewrite Hc. discriminate.
  - intros G. destruct r'; cbn in *; discriminate.
  - auto.
  - intros j G. destruct Hr as [Hr|Hr]; rewrite Hr in G; [discriminate|]. inversion G; subst. auto.
  - intros i f H. apply nth_app_cases in H as [H|[_ H]]; [eauto|]. subst. cbn. auto.
  - intros j g H. destruct (J7 j g H) as [|(A & B & C)]; auto. right. split; auto.
    apply past_app; auto. unfold acc_of. cbn. destruct (Nat.eqb_spec k j); auto. subst. unfold gen_done. rewrite H, C. reflexivity.
  - intros i f H Ha. apply nth_app_cases in H as [H|[_ H]]; [eauto|]. subst. cbn in *.
    apply negb_false_iff in Ha. exact Ha.
  - auto.
Qed.

Lemma inv2_end_gen : forall s k, inv2 s -> inv2 (end_gen k s).
Proof.
  intros s k I. unfold end_gen. destruct (nth_error (gens s) k) eqn:Eg; [|exact I].
  eapply inv2_gen_upd; try exact I; try exact Eg; try (cbn; reflexivity); unfold same_run; cbn; auto.
Qed.

Lemma inv2_after_close : forall s k w g, inv2 s -> cur_gen (gph s) = Some k -> nth_error (gens s) k = Some g ->
  g_done g = true -> acc_exited k s = true -> inv2 (after_close k w s).
Proof.
  intros s k w g I Hk Hg Hd Ha. unfold after_close, close_conn. rewrite Hg.
  set (s2 := set_gens (upd k {| g_mid := g_mid g; g_done := g_done g; g_conn := false |} (gens s)) s).
  assert (I2 : inv2 s2).
  { eapply inv2_gen_upd; try exact I; try exact Hg; try (cbn; reflexivity); unfold same_run; cbn; auto. }
  assert (Hg2 : nth_error (gens s2) k = Some {| g_mid := g_mid g; g_done := g_done g; g_conn := false |})
    by (cbn; eapply nth_upd_eq; eauto).
  assert (P2 : gen_past s2 k {| g_mid := g_mid g; g_done := g_done g; g_conn := false |})
    by (split; [exact Ha|split; cbn; auto]).
  destruct w.
  - unfold enter_leave, finish_leave, exit_cg. cbn [mid s2 set_gens]. destruct (mid s).
    + eapply inv2_leave_cur; eauto; cbn; congruence.
    + eapply inv2_ext with (s := set_gph GExited s2); try (unfold same_run; cbn; auto; reflexivity).
      eapply inv2_leave_cur; eauto; cbn; congruence.
  - eapply inv2_leave_cur; eauto; cbn; congruence.
Qed.

Ltac rw_ph := rw_field rph; rw_field gph.

Lemma inv2_run : forall s s', inv2 s ->
  cfg s' = cfg s -> gph s' = gph s -> gens s' = gens s -> fns s' = fns s ->
  rph s <> RNone -> rph s <> RExited ->
  (rdone s' = rdone s \/ rph s' = RExited) ->
  (r_closing (rph s') = true -> cgdone s' = true \/ (r_closing (rph s) = true /\ cgdone s' = cgdone s)) ->
  (r_after (rph s') = true -> gph s = GExited \/ r_after (rph s) = true) ->
  (forall k, r_gen (rph s') = Some k -> cur_gen (gph s) = Some k \/ r_gen (rph s) = Some k) ->
  inv2 s'.
Proof.
  intros s s' [J0 J1 J2 J3 J4 J5 J6 J7 J8 J9] E1 E2 E4 E5 N1 N2 Hd Hc Ha Hg.
  split; unfold gen_past, gen_done in *; rewrite ?E1, ?E2, ?E4, ?E5; auto.
  - intros G. destruct (J0 G) as (_ & B & _). congruence.
  - intros D. destruct Hd as [Hd|Hd]; [|exact Hd]. rewrite Hd in D. specialize (J1 D). congruence.
  - intros C. destruct (Hc C) as [|[C' E]]; [assumption|]. rewrite E. auto.
  - intros A. destruct (Ha A); auto.
  - intros k G. destruct (Hg k G); auto.
Qed.

(* nextGeneration succeeded: generation [length (gens s)] with its heartbeat function *)
Lemma inv2_new_gen : forall s s' m, inv2 s -> gph s = GOfetch ->
  same_run s s' ->
  gph s' = GPublish (length (gens s)) -> gens s' = gens s ++ [mkGen m false true] ->
  fns s' = fns s ++ [mkFn (length (gens s)) KHb true false NRun] -> inv2 s'.
Proof.
  intros s s' m [J0 J1 J2 J3 J4 J5 J6 J7 J8 J9] Hg (E1 & E2 & E3 & E4) E5 E6 E7.
  split; unfold gen_past, gen_done; rewrite ?E1, ?E2, ?E3, ?E4, ?E5, ?E6, ?E7, ?app_length; cbn; auto.
  - intros G. destruct (J0 G) as (A & _). congruence.
  - intros G. specialize (J3 G). congruence.
  - intros k H. inversion H; subst. lia.
  - intros k H. specialize (J5 k H). lia.
  - intros i f H. apply nth_app_cases in H as [H|[_ H]]; [specialize (J6 _ _ H); lia| subst; cbn; lia].
  - intros j g H. apply nth_app_cases in H as [H|[E H]].
    + destruct (J7 j g H) as [A|(A & B & C)]; [rewrite Hg in A; discriminate|]. right. split; auto.
      apply past_app; auto. unfold acc_of. cbn. apply nth_some_lt in H.
      destruct (Nat.eqb_spec (length (gens s)) j); [lia|reflexivity].
    + left. subst. reflexivity.
  - intros i f H Ha. apply nth_app_cases in H as [H|[_ H]].
    + specialize (J8 _ _ H Ha). pose proof (J6 _ _ H). unfold gen_done in J8. rewrite nth_error_app1 by auto. exact J8.
    + subst. discriminate.
  - intros k w H. discriminate.
Qed.

Ltac fn_upd I := eapply inv2_fn_upd; [exact I | eassumption | apply nexit_false; congruence | unfold same_run; cbn; auto; reflexivity ..].
Ltac ext I := eapply inv2_ext; [exact I | unfold same_run; cbn; auto; reflexivity ..].
(* side conditions: the phases before are known from the guards of the step *)
Ltac by_phase := unfold same_run; cbn; rw_ph; cbn; auto; try discriminate; try (intros; discriminate).

Lemma inv2_close_step : forall s s', inv2 s -> step s LGClose = Some s' -> inv2 s'.
Proof.
  intros s s' I St.
  step_inv St; pose proof (j_cur _ I k ltac:(rewrite Heqg; reflexivity)) as Hk;
    (destruct (nth_error (gens s) k) as [g|] eqn:Eg; [|apply nth_error_None in Eg; lia]);
    pose proof (inv2_end_gen s k I) as I1;
    assert (Eg1 : nth_error (gens (end_gen k s)) k = Some (mkGen (g_mid g) true (g_conn g)))
      by (unfold end_gen; rewrite Eg; cbn; eapply nth_upd_eq; eauto);
    assert (Hc1 : gph (end_gen k s) = gph s) by (unfold end_gen; rewrite Eg; reflexivity).
  - eapply inv2_after_close; eauto. rewrite Hc1, Heqg. reflexivity.
  - eapply inv2_cg; [exact I1 | unfold same_run; cbn; rewrite ?Hc1, ?Heqg; cbn; auto; try discriminate ..].
    intros k0 w0 E. inversion E; subst. unfold gen_done. rewrite Eg1. reflexivity.
Qed.
Lemma inv2_joined_step : forall s s', inv2 s -> step s LGJoined = Some s' -> inv2 s'.
Proof.
  intros s s' I St. step_inv St. pose proof (j_cur _ I k ltac:(rewrite Heqg; reflexivity)) as Hk.
  destruct (nth_error (gens s) k) as [g|] eqn:Eg; [|apply nth_error_None in Eg; lia].
  eapply inv2_after_close; eauto; [rewrite Heqg; reflexivity|].
  pose proof (j_cw _ I _ _ Heqg) as D. unfold gen_done in D. rewrite Eg in D. exact D.
Qed.
Lemma inv2_handler_step : forall s i s', inv2 s -> step s (LFnHandler i) = Some s' -> inv2 s'.
Proof. intros s i s' I St. step_inv St. apply inv2_end_gen. unfold set_fn. fn_upd I. Qed.

Lemma inv2_step : forall s l s', inv2 s -> step s l = Some s' -> inv2 s'.
Proof.
  intros s l s' I St.
  destruct (run_label l) eqn:R.
  { destruct l; try discriminate R; clear R; step_inv St; unfold start; destr_goal;
    first [ apply inv2_start_fn; auto; rw_ph; cbn; auto
          | eapply inv2_run; [exact I | solve [by_phase] ..]
          | (* LRNextGen, LRNextErr: ConsumerGroup.run moves as well *)
            match goal with |- inv2 (set_rph _ ?s1) =>
              apply inv2_run with (s := s1); [eapply inv2_cg; [exact I | by_phase ..] | by_phase ..] end ]. }
  destruct (cg_label l) eqn:C.
  { destruct l; try discriminate C; clear C.
    all: first [exact (inv2_close_step _ _ I St) | exact (inv2_joined_step _ _ I St) | idtac].
    all: step_inv St; unf; destr_goal;
      first [eapply inv2_cg; [exact I | solve [by_phase] ..] | eapply inv2_new_gen; [exact I | by_phase ..]]. }
  destruct (fn_label l) eqn:F.
  { destruct l; try discriminate F; clear F.
    all: first [exact (inv2_handler_step _ _ _ I St) | step_inv St; unf; try rewrite reply_all_calls_only; first [fn_upd I | ext I]]. }
  pose proof (step_frame _ _ _ St) as Fr. destruct (fr_run _ _ _ Fr R) as (? & ? & ?).
  destruct (fr_group _ _ _ Fr) as (? & ?); [unfold group_label; rewrite R, C, F; reflexivity|].
  apply (inv2_ext s); auto; [split; eauto using fr_cfg|]. apply (fr_gph _ _ _ Fr). rewrite R, C. reflexivity.
Qed.
