From Coq Require Import List NArith ZArith Bool Lia Sorted Permutation.
From Coq Require Import ZifyN ZifyNat ZifyBool.
From KV Require Import Model.Routing.
From KV Require Model.Queries Proofs.QueriesMerge.
Import ListNotations.
Local Open Scope nat_scope.

(* Proofs/RoutingSort.v — the metadata cache is sorted by update (normalize) and looked up by
   binary search (find_metadata_topic); on a response with distinct topic names the filtered
   answer is exactly "the topic of that name, or UnknownTopicOrPartition". *)

(* names are the byte strings of Model/Queries.v and their order is the same one, written with
   a three-way comparison: the order lemmas are those of Proofs/QueriesMerge.v *)
Lemma name_ltb_str : forall a b, name_ltb a b = KV.Model.Queries.str_ltb a b.
Proof.
  unfold name_ltb. induction a as [|x a IH]; destruct b as [|y b]; cbn [name_cmp KV.Model.Queries.str_ltb];
    try reflexivity.
  destruct (N.compare_spec x y) as [->|H|H].
  - rewrite N.ltb_irrefl. apply IH.
  - rewrite (proj2 (N.ltb_lt x y) H). reflexivity.
  - rewrite (proj2 (N.ltb_ge x y)) by (apply N.lt_le_incl; exact H). rewrite (proj2 (N.ltb_lt y x) H). reflexivity.
Qed.

Lemma name_eqb_str : forall a b, name_eqb a b = KV.Model.Queries.str_eqb a b.
Proof.
  unfold name_eqb. induction a as [|x a IH]; destruct b as [|y b]; cbn [name_cmp KV.Model.Queries.str_eqb];
    try reflexivity.
  destruct (N.compare_spec x y) as [->|H|H].
  - rewrite N.eqb_refl. apply IH.
  - rewrite (proj2 (N.eqb_neq x y)) by (intro; subst; exact (N.lt_irrefl _ H)). reflexivity.
  - rewrite (proj2 (N.eqb_neq x y)) by (intro; subst; exact (N.lt_irrefl _ H)). reflexivity.
Qed.

Lemma name_ltb_irrefl : forall a, name_ltb a a = false.
Proof. intro a. rewrite name_ltb_str. apply KV.Proofs.QueriesMerge.str_ltb_irrefl. Qed.

Lemma name_ltb_trans : forall a b c,
  name_ltb a b = true -> name_ltb b c = true -> name_ltb a c = true.
Proof. intros a b c. rewrite !name_ltb_str. apply KV.Proofs.QueriesMerge.str_ltb_trans. Qed.

Lemma name_ltb_total : forall a b, name_ltb a b = false -> name_ltb b a = false -> a = b.
Proof. intros a b. rewrite !name_ltb_str. apply KV.Proofs.QueriesMerge.str_ltb_trichotomy. Qed.

Lemma name_ltb_asym : forall a b, name_ltb a b = true -> name_ltb b a = false.
Proof. intros a b. rewrite !name_ltb_str. apply KV.Proofs.QueriesMerge.str_ltb_asym. Qed.

Lemma name_eqb_eq : forall a b, name_eqb a b = true <-> a = b.
Proof. intros a b. rewrite name_eqb_str. apply KV.Proofs.QueriesMerge.str_eqb_eq. Qed.

Lemma find_none_intro : forall {A} (p : A -> bool) l,
  (forall x, In x l -> p x = false) -> find p l = None.
Proof.
  induction l as [|a l IH]; intros H; cbn [find]; auto.
  rewrite (H a (or_introl eq_refl)). apply IH. intros x Hx. apply H. right. exact Hx.
Qed.

Section ISort.
  Context {A : Type} (lt : A -> A -> bool).

  (* Model/Routing.v's insert_by and Model/Queries.v's are the same function *)
  Lemma insert_by_perm : forall x l, Permutation (insert_by lt x l) (x :: l).
  Proof. exact (KV.Proofs.QueriesMerge.insert_by_perm lt). Qed.

  Lemma isort_acc_perm : forall l acc,
    Permutation (fold_left (fun acc x => insert_by lt x acc) l acc) (l ++ acc).
  Proof.
    induction l as [|a l IH]; intros acc; cbn [fold_left app].
    - apply Permutation_refl.
    - eapply perm_trans; [apply IH|].
      eapply perm_trans; [apply Permutation_app_head, insert_by_perm|].
      apply Permutation_sym, Permutation_middle.
  Qed.

  Lemma isort_perm : forall l, Permutation (isort lt l) l.
  Proof.
    intros l. unfold isort. eapply perm_trans; [apply isort_acc_perm|].
    rewrite app_nil_r. apply Permutation_refl.
  Qed.

  Hypothesis lt_trans : forall a b c, lt a b = true -> lt b c = true -> lt a c = true.
  Hypothesis lt_asym : forall a b, lt a b = true -> lt b a = false.

  Lemma insert_by_sorted : forall x l,
    StronglySorted (fun a b => lt b a = false) l ->
    StronglySorted (fun a b => lt b a = false) (insert_by lt x l).
  Proof.
    induction l as [|y l IH]; intros H; cbn [insert_by].
    - constructor; constructor.
    - apply StronglySorted_inv in H. destruct H as [Hl Hy].
      destruct (lt x y) eqn:E.
      + constructor.
        * constructor; assumption.
        * constructor.
          -- apply lt_asym. exact E.
          -- eapply Forall_impl; [|exact Hy]. intros z Hz. cbv beta in Hz.
             destruct (lt z x) eqn:E2; auto.
             rewrite (lt_trans z x y E2 E) in Hz. discriminate.
      + constructor.
        * apply IH. exact Hl.
        * apply Forall_forall. intros z Hz.
          eapply Permutation_in in Hz; [|apply insert_by_perm].
          destruct Hz as [Hz | Hz].
          -- subst z. exact E.
          -- rewrite Forall_forall in Hy. apply Hy. exact Hz.
  Qed.

  Lemma isort_acc_sorted : forall l acc,
    StronglySorted (fun a b => lt b a = false) acc ->
    StronglySorted (fun a b => lt b a = false)
                   (fold_left (fun acc x => insert_by lt x acc) l acc).
  Proof.
    induction l as [|a l IH]; intros acc H; cbn [fold_left]; auto.
    apply IH. apply insert_by_sorted. exact H.
  Qed.

  Lemma isort_sorted : forall l, StronglySorted (fun a b => lt b a = false) (isort lt l).
  Proof. intros l. unfold isort. apply isort_acc_sorted. constructor. Qed.

  Context {K : Type} (key : A -> K).
  Hypothesis lt_same_key : forall a b, lt a b = false -> lt b a = false -> key a = key b.

  Lemma sorted_strict : forall l,
    StronglySorted (fun a b => lt b a = false) l -> NoDup (map key l) ->
    StronglySorted (fun a b => lt a b = true) l.
  Proof.
    induction l as [|a l IH]; intros H ND.
    - constructor.
    - apply StronglySorted_inv in H. destruct H as [Hl Ha].
      cbn [map] in ND. apply NoDup_cons_iff in ND. destruct ND as [Hn ND].
      constructor; auto.
      apply Forall_forall. intros b Hb. rewrite Forall_forall in Ha.
      destruct (lt a b) eqn:E; auto. exfalso. apply Hn.
      rewrite (lt_same_key a b E (Ha b Hb)). apply in_map. exact Hb.
  Qed.

  Lemma isort_strict : forall l, NoDup (map key l) ->
    StronglySorted (fun a b => lt a b = true) (isort lt l).
  Proof.
    intros l ND. apply sorted_strict.
    - apply isort_sorted.
    - eapply Permutation_NoDup; [|exact ND].
      apply Permutation_sym, Permutation_map, isort_perm.
  Qed.
End ISort.

Lemma sort_topics_sorted : forall l,
  StronglySorted (fun a b => name_ltb (mt_name b) (mt_name a) = false) (isort topic_lt l).
Proof.
  intros l.
  refine (isort_sorted topic_lt _ _ l); unfold topic_lt.
  - intros a b c. apply name_ltb_trans.
  - intros a b. apply name_ltb_asym.
Qed.

Lemma sort_topics_strict : forall l, NoDup (map mt_name l) ->
  StronglySorted (fun a b => name_ltb (mt_name a) (mt_name b) = true) (isort topic_lt l).
Proof.
  intros l H.
  refine (isort_strict topic_lt _ _ mt_name _ l H); unfold topic_lt.
  - intros a b c. apply name_ltb_trans.
  - intros a b. apply name_ltb_asym.
  - intros a b. apply name_ltb_total.
Qed.

Lemma div2_bounds : forall i j, i < j -> i <= Nat.div2 (i + j) < j.
Proof.
  intros i j H. rewrite Nat.div2_div.
  pose proof (Nat.div_mod_eq (i + j) 2) as H1.
  pose proof (Nat.mod_upper_bound (i + j) 2) as H2.
  lia.
Qed.

(* the loop narrows [i, j) keeping: f is false below i, true at j (when j is an index) *)
Lemma search_loop_spec : forall n f,
  (forall i j, i <= j -> j < n -> f i = true -> f j = true) ->
  forall fuel i j, i <= j -> j <= n -> j - i <= fuel ->
    (forall k, k < i -> f k = false) -> (j < n -> f j = true) ->
    let r := search_loop fuel f i j in
    r <= n /\ (forall k, k < r -> f k = false) /\ (r < n -> f r = true).
Proof.
  intros n f Hmono. induction fuel as [|fuel IH]; intros i j Hij Hjn Hfuel Hlo Hhi; cbn [search_loop].
  - replace j with i in * by lia. auto.
  - destruct (Nat.ltb_spec i j) as [E|E]; [|replace j with i in * by lia; auto].
    pose proof (div2_bounds i j E) as Hh. cbv zeta. set (h := Nat.div2 (i + j)) in *.
    destruct (f h) eqn:Fh.
    + apply IH; [lia | lia | lia | assumption | intros _; assumption].
    + apply IH; [lia | lia | lia | | assumption].
      intros k Hk. destruct (f k) eqn:Fk; [|reflexivity].
      rewrite (Hmono k h) in Fh; [discriminate | lia | lia | assumption].
Qed.

Lemma sort_search_spec : forall n f,
  (forall i j, i <= j -> j < n -> f i = true -> f j = true) ->
  let r := sort_search n f in
  r <= n /\ (forall k, k < r -> f k = false) /\ (r < n -> f r = true).
Proof.
  intros n f Hmono. apply (search_loop_spec n f Hmono n 0 n); try lia; intros; lia.
Qed.

Lemma StronglySorted_nth : forall {A} (R : A -> A -> Prop) l d,
  StronglySorted R l -> forall i j, i < j -> j < length l -> R (nth i l d) (nth j l d).
Proof.
  intros A R l d H. induction H as [|a l Hl IH Ha]; intros i j Hij Hj; cbn [length] in Hj.
  - lia.
  - destruct j as [|j]; [lia|]. destruct i as [|i]; cbn [nth].
    + rewrite Forall_forall in Ha. apply Ha. apply nth_In. lia.
    + apply IH; lia.
Qed.

Lemma find_nth_some : forall {A} (p : A -> bool) l d r,
  r < length l -> p (nth r l d) = true -> (forall k, k < r -> p (nth k l d) = false) ->
  find p l = Some (nth r l d).
Proof.
  induction l as [|a l IH]; intros d r Hr Hp Hk; cbn [length] in Hr.
  - lia.
  - destruct r as [|r]; cbn [nth find] in *.
    + rewrite Hp. reflexivity.
    + rewrite (Hk 0) by lia. apply IH; [lia | exact Hp |].
      intros k Hlt. apply (Hk (S k)). lia.
Qed.

(* sort.Search returns the first index r whose name is not below n.  Entries before r are below n,
   so none has the name n; if the entry at r has it, it is the first that has; if not (or r is past
   the end), an entry after r with the name n would, by strictness, put the entry at r below n. *)
Lemma find_metadata_topic_sorted : forall topics n,
  StronglySorted (fun a b => name_ltb (mt_name a) (mt_name b) = true) topics ->
  find_metadata_topic topics n = find (fun t => name_eqb (mt_name t) n) topics.
Proof.
  intros topics n HS. unfold find_metadata_topic.
  set (f := fun i => negb (name_ltb (mt_name (nth i topics dummy_topic)) n)).
  assert (Hmono : forall i j, i <= j -> j < length topics -> f i = true -> f j = true).
  { intros i j Hij Hj Hi. destruct (Nat.eq_dec i j) as [Heq|Hne]; [subst; exact Hi|].
    assert (Hij' : i < j) by lia.
    pose proof (StronglySorted_nth _ topics dummy_topic HS i j Hij' Hj) as Hlt.
    cbv beta in Hlt. unfold f in *. apply negb_true_iff in Hi. apply negb_true_iff.
    destruct (name_ltb (mt_name (nth j topics dummy_topic)) n) eqn:E; auto.
    rewrite (name_ltb_trans _ _ _ Hlt E) in Hi. discriminate. }
  pose proof (sort_search_spec (length topics) f Hmono) as Hspec. cbv zeta in Hspec.
  set (r := sort_search (length topics) f) in *.
  destruct Hspec as (Hr & Hlo & Hhi).
  assert (Hlo' : forall k, k < r -> name_eqb (mt_name (nth k topics dummy_topic)) n = false).
  { intros k Hk. apply Hlo in Hk. unfold f in Hk. apply negb_false_iff in Hk.
    destruct (name_eqb (mt_name (nth k topics dummy_topic)) n) eqn:Ek; [|reflexivity].
    apply name_eqb_eq in Ek. rewrite Ek, name_ltb_irrefl in Hk. discriminate. }
  destruct (Nat.ltb r (length topics)) eqn:E; cbn [andb].
  - apply Nat.ltb_lt in E.
    destruct (name_eqb (mt_name (nth r topics dummy_topic)) n) eqn:Eq.
    + symmetry. apply (find_nth_some (fun t => name_eqb (mt_name t) n)); auto.
    + symmetry. apply find_none_intro. intros x Hx.
      destruct (In_nth _ _ dummy_topic Hx) as (k & Hk & Hx'). subst x.
      destruct (Nat.lt_trichotomy k r) as [Hlt|[Heq|Hgt]].
      * apply Hlo'. exact Hlt.
      * subst k. exact Eq.
      * destruct (name_eqb (mt_name (nth k topics dummy_topic)) n) eqn:Ek; auto. exfalso.
        apply name_eqb_eq in Ek.
        pose proof (StronglySorted_nth _ topics dummy_topic HS r k Hgt Hk) as Hlt.
        cbv beta in Hlt. rewrite Ek in Hlt. specialize (Hhi E). unfold f in Hhi.
        rewrite Hlt in Hhi. discriminate.
  - apply Nat.ltb_ge in E. symmetry. apply find_none_intro. intros x Hx.
    destruct (In_nth _ _ dummy_topic Hx) as (k & Hk & Hx'). subst x.
    apply Hlo'. lia.
Qed.

Lemma find_metadata_topic_in : forall topics n t, find_metadata_topic topics n = Some t -> In t topics.
Proof.
  intros topics n t H. unfold find_metadata_topic in H.
  set (i := sort_search (length topics) (fun i => negb (name_ltb (mt_name (nth i topics dummy_topic)) n))) in *.
  destruct (Nat.ltb i (length topics)) eqn:E; cbn [andb] in H; [|discriminate].
  destruct (name_eqb (mt_name (nth i topics dummy_topic)) n); [|discriminate].
  inversion H. apply nth_In. apply Nat.ltb_lt. assumption.
Qed.

(* what the cache is to hand back for name n: the entry the brokers answered for n (m is their
   response, unsorted), its partitions sorted, or the UnknownTopicOrPartition entry *)
Definition answered (m : metadata) (n : name) : md_topic :=
  match find (fun t => name_eqb (mt_name t) n) (md_topics m) with
  | Some t => normalize_topic t
  | None => unknown_topic n
  end.

Lemma map_name_normalize : forall l, map mt_name (map normalize_topic l) = map mt_name l.
Proof. intro l. exact (map_map normalize_topic mt_name l). Qed.

Lemma find_map_normalize : forall l n,
  find (fun t => name_eqb (mt_name t) n) (map normalize_topic l)
  = option_map normalize_topic (find (fun t => name_eqb (mt_name t) n) l).
Proof.
  induction l as [|a l IH]; intros n; cbn [map find]; [reflexivity|].
  change (mt_name (normalize_topic a)) with (mt_name a).
  destruct (name_eqb (mt_name a) n); [reflexivity | apply IH].
Qed.

Lemma sorted_map_normalize : forall l,
  StronglySorted (fun a b => name_ltb (mt_name a) (mt_name b) = true) l ->
  StronglySorted (fun a b => name_ltb (mt_name a) (mt_name b) = true) (map normalize_topic l).
Proof.
  intros l H. induction H as [|a l Hl IH Ha]; cbn [map]; constructor; auto.
  apply Forall_forall. intros x Hx. apply in_map_iff in Hx. destruct Hx as (y & Hy & Hin).
  subst x. rewrite Forall_forall in Ha. exact (Ha y Hin).
Qed.

Lemma NoDup_map_inj_in : forall {A B} (f : A -> B) l a b,
  NoDup (map f l) -> In a l -> In b l -> f a = f b -> a = b.
Proof.
  induction l as [|x l IH]; intros a b ND Ha Hb Hf; [destruct Ha|].
  cbn [map] in ND. apply NoDup_cons_iff in ND. destruct ND as [Hn ND].
  destruct Ha as [Ha|Ha]; destruct Hb as [Hb|Hb]; subst.
  - reflexivity.
  - exfalso. apply Hn. rewrite Hf. apply in_map. exact Hb.
  - exfalso. apply Hn. rewrite <- Hf. apply in_map. exact Ha.
  - eapply IH; eauto.
Qed.

Lemma find_perm_nodup : forall (l l' : list md_topic) n,
  Permutation l l' -> NoDup (map mt_name l) ->
  find (fun t => name_eqb (mt_name t) n) l' = find (fun t => name_eqb (mt_name t) n) l.
Proof.
  intros l l' n HP ND.
  assert (ND' : NoDup (map mt_name l')).
  { eapply Permutation_NoDup; [apply Permutation_map; exact HP | exact ND]. }
  destruct (find (fun t => name_eqb (mt_name t) n) l) as [t|] eqn:E1.
  - apply find_some in E1. destruct E1 as [Hin Hp]. cbv beta in Hp.
    assert (Hin' : In t l') by (eapply Permutation_in; eauto).
    destruct (find (fun t => name_eqb (mt_name t) n) l') as [t'|] eqn:E2.
    + apply find_some in E2. destruct E2 as [Hin2 Hp2]. cbv beta in Hp2.
      apply name_eqb_eq in Hp. apply name_eqb_eq in Hp2. f_equal.
      eapply NoDup_map_inj_in; [exact ND' | exact Hin2 | exact Hin' | congruence].
    + exfalso. pose proof (find_none _ _ E2 t Hin') as Hc. cbv beta in Hc. congruence.
  - apply find_none_intro. intros x Hx.
    apply (find_none _ _ E1 x). eapply Permutation_in; [apply Permutation_sym; exact HP | exact Hx].
Qed.

Lemma find_metadata_topic_normalize : forall m n, NoDup (map mt_name (md_topics m)) ->
  find_metadata_topic (md_topics (normalize m)) n
  = option_map normalize_topic (find (fun t => name_eqb (mt_name t) n) (md_topics m)).
Proof.
  intros m n ND. cbn [normalize md_topics].
  rewrite find_metadata_topic_sorted by (apply sorted_map_normalize, sort_topics_strict; exact ND).
  rewrite find_map_normalize. f_equal.
  exact (find_perm_nodup _ _ n (Permutation_sym (isort_perm topic_lt (md_topics m))) ND).
Qed.
