(* Proofs/WriterBase.v — what every proof about Model/Writer.v starts from.  Invariants are
   proved through [Step]/[step_Step]; only proofs that a label is ENABLED unfold [step]. *)
From Coq Require Import List NArith Bool Arith Lia.
From KV Require Import Lib.LTS Model.Writer Proofs.WriterStmts.
Import ListNotations.

Lemma upd_length : forall A (l : list A) i x, length (upd l i x) = length l.
Proof. induction l; destruct i; simpl; intros; auto. Qed.

Lemma nth_error_upd_eq : forall A (l : list A) i x, i < length l -> nth_error (upd l i x) i = Some x.
Proof. induction l; destruct i; simpl; intros; try lia; auto. apply IHl; lia. Qed.

Lemma nth_error_upd_neq : forall A (l : list A) i j x, i <> j -> nth_error (upd l i x) j = nth_error l j.
Proof. induction l; destruct i, j; simpl; intros; auto; try congruence. Qed.

Lemma nth_error_upd : forall A (l : list A) i j x y,
  nth_error (upd l i x) j = Some y -> (i = j /\ y = x /\ i < length l) \/ (i <> j /\ nth_error l j = Some y).
Proof.
  intros A l i j x y H. destruct (Nat.eq_dec i j) as [->|N].
  - destruct (Nat.lt_ge_cases j (length l)) as [L|L].
    + rewrite nth_error_upd_eq in H by exact L. inversion H; subst. left; auto.
    + assert (nth_error (upd l j x) j = None) by (apply nth_error_None; rewrite upd_length; exact L).
      congruence.
  - right. split; [exact N|]. rewrite nth_error_upd_neq in H by exact N. exact H.
Qed.

Lemma upd_In : forall A (l : list A) i x y, In y (upd l i x) -> y = x \/ In y l.
Proof.
  induction l; destruct i; simpl; intros; auto.
  - destruct H; auto.
  - destruct H; auto. destruct (IHl _ _ _ H); auto.
Qed.

Lemma tp_eqb_eq : forall a b, tp_eqb a b = true <-> a = b.
Proof.
  intros [a1 a2] [b1 b2]. unfold tp_eqb; simpl. rewrite andb_true_iff, !N.eqb_eq.
  split; [intros [-> ->]; reflexivity|intros H; inversion H; auto].
Qed.

Lemma tp_eqb_refl : forall a, tp_eqb a a = true.
Proof. intros; apply tp_eqb_eq; reflexivity. Qed.

Lemma upd_app_last : forall A (l : list A) x y, upd (l ++ [x]) (length l) y = l ++ [y].
Proof. induction l; simpl; intros; auto. f_equal; auto. Qed.

Lemma nth_error_snoc : forall A (l : list A) x i y, nth_error (l ++ [x]) i = Some y ->
  nth_error l i = Some y \/ (i = length l /\ y = x).
Proof.
  intros A l x i y H. destruct (Nat.lt_ge_cases i (length l)) as [L|L].
  - rewrite nth_error_app1 in H by exact L. auto.
  - rewrite nth_error_app2 in H by exact L. right.
    destruct (i - length l) as [|[|d]] eqn:E; simpl in H; try discriminate.
    inversion H. split; [lia|reflexivity].
Qed.

Lemma nth_error_snoc_last : forall A (l : list A) x, nth_error (l ++ [x]) (length l) = Some x.
Proof. intros. rewrite nth_error_app2, Nat.sub_diag by lia. reflexivity. Qed.

Lemma NoDup_app_iff : forall A (l1 l2 : list A),
  NoDup (l1 ++ l2) <-> NoDup l1 /\ NoDup l2 /\ (forall x, In x l1 -> In x l2 -> False).
Proof.
  induction l1 as [|y l1 IH]; simpl; intros l2.
  - split; [intros N; repeat split; [constructor|exact N|tauto]|tauto].
  - rewrite !NoDup_cons_iff, IH, in_app_iff. split.
    + intros (Ny & N1 & N2 & D). repeat split; auto.
      intros x [<-|Hx] H2; [tauto|eauto].
    + intros ((Ny & N1) & N2 & D). repeat split; eauto. intros [?|?]; eauto.
Qed.

Lemma NoDup_map_inj : forall A B (f : A -> B) l x y,
  NoDup (map f l) -> In x l -> In y l -> f x = f y -> x = y.
Proof.
  induction l as [|z l IH]; simpl; intros x y N Hx Hy E; [contradiction|].
  apply NoDup_cons_iff in N. destruct N as [Nz N].
  destruct Hx as [->|Hx], Hy as [->|Hy]; auto; exfalso; apply Nz;
    [rewrite E|rewrite <- E]; apply in_map; assumption.
Qed.

Lemma nodupb_NoDup : forall l, nodupb l = true -> NoDup l.
Proof.
  induction l as [|x l IH]; simpl; intros H; [constructor|].
  apply andb_true_iff in H. destruct H as [H1 H2]. constructor; auto.
  intros I. apply negb_true_iff in H1. enough (existsb (N.eqb x) l = true) by congruence.
  apply existsb_exists. exists x. split; [exact I|apply N.eqb_refl].
Qed.

Lemma mem_id_In : forall m l, In m l -> mem_id m l = true.
Proof. unfold mem_id; intros; apply existsb_exists; exists m; split; auto; apply N.eqb_refl. Qed.

Lemma mem_id_ex : forall m l, mem_id m l = true -> exists x, In x l /\ m_id x = m_id m.
Proof.
  unfold mem_id; intros m l H; apply existsb_exists in H; destruct H as (x & Hx & E);
  apply N.eqb_eq in E; eauto.
Qed.

Lemma used_ids_snoc : forall cs cl, used_ids (cs ++ [cl]) = used_ids cs ++ map m_id (c_msgs cl).
Proof. intros. unfold used_ids. rewrite flat_map_app. simpl. rewrite app_nil_r. reflexivity. Qed.

Lemma used_ids_upd : forall cs c cl cl', nth_error cs c = Some cl -> c_msgs cl' = c_msgs cl ->
  used_ids (upd cs c cl') = used_ids cs.
Proof.
  induction cs as [|x cs IH]; intros c cl cl' N M; destruct c; simpl in *; try discriminate.
  - inversion N; subst. rewrite M. reflexivity.
  - f_equal. eapply IH; eauto.
Qed.

Lemma used_ids_In : forall cs c cl i m, nth_error cs c = Some cl -> nth_error (c_msgs cl) i = Some m ->
  In (m_id m) (used_ids cs).
Proof.
  intros cs c cl i m Hc Hm. apply in_flat_map. exists cl.
  split; [eapply nth_error_In; eauto|]. apply in_map. eapply nth_error_In; eauto.
Qed.

Lemma admissible_NoDup : forall s g msgs cl, call_admissible s g msgs = true ->
  c_msgs cl = msgs -> NoDup (used_ids (s_calls s)) -> NoDup (used_ids (s_calls s ++ [cl])).
Proof.
  intros s g msgs cl H M N. unfold call_admissible in H.
  apply andb_true_iff in H. destruct H as [H H3]. apply andb_true_iff in H. destruct H as [_ H2].
  rewrite used_ids_snoc, M. apply NoDup_app_iff. split; [exact N|]. split; [apply nodupb_NoDup; exact H2|].
  intros x H1 Hx. apply in_map_iff in Hx. destruct Hx as (m & <- & Hm).
  rewrite forallb_forall in H3. specialize (H3 m Hm). apply negb_true_iff in H3.
  enough (existsb (N.eqb (m_id m)) (used_ids (s_calls s)) = true) by congruence.
  apply existsb_exists. exists (m_id m). split; [exact H1|apply N.eqb_refl].
Qed.

Lemma ids_unique : forall cs c1 c2 cl1 cl2 i1 i2 m1 m2, NoDup (used_ids cs) ->
  nth_error cs c1 = Some cl1 -> nth_error cs c2 = Some cl2 ->
  nth_error (c_msgs cl1) i1 = Some m1 -> nth_error (c_msgs cl2) i2 = Some m2 ->
  m_id m1 = m_id m2 -> c1 = c2 /\ i1 = i2.
Proof.
  induction cs as [|a cs IH]; intros c1 c2 cl1 cl2 i1 i2 m1 m2 N H1 H2 M1 M2 E;
    [destruct c1; discriminate|].
  change (used_ids (a :: cs)) with (map m_id (c_msgs a) ++ used_ids cs) in N.
  apply NoDup_app_iff in N. destruct N as (Na & Ncs & D).
  destruct c1 as [|c1], c2 as [|c2]; simpl in H1, H2.
  - inversion H1; inversion H2; subst. split; auto.
    rewrite NoDup_nth_error in Na. apply Na.
    + rewrite map_length. apply nth_error_Some. congruence.
    + rewrite (map_nth_error _ _ _ M1), (map_nth_error _ _ _ M2). congruence.
  - exfalso. inversion H1; subst. apply (D (m_id m1)); [|rewrite E; eapply used_ids_In; eauto].
    apply in_map. eapply nth_error_In; eauto.
  - exfalso. inversion H2; subst. apply (D (m_id m2)); [|rewrite <- E; eapply used_ids_In; eauto].
    apply in_map. eapply nth_error_In; eauto.
  - destruct (IH _ _ _ _ _ _ _ _ Ncs H1 H2 M1 M2 E). split; auto.
Qed.

Definition pw_done (pw : pwriter) : list batch :=
  map fst (pw_fin pw) ++ opt_list (option_map sd_batch (pw_snd pw)).

Lemma pw_all_done : forall pw, pw_all pw = pw_done pw ++ pw_queue pw ++ opt_list (pw_curr pw).
Proof. intros. unfold pw_all, pw_done. rewrite <- app_assoc. reflexivity. Qed.

Lemma pw_done_all : forall pw b, In b (pw_done pw) -> In b (pw_all pw).
Proof. intros. rewrite pw_all_done. apply in_or_app; auto. Qed.

Lemma snd_in_all : forall pw b n ph, pw_snd pw = Some (mkSnd b n ph) -> In b (pw_all pw).
Proof. intros pw b n ph E. apply pw_done_all. unfold pw_done. rewrite E. apply in_or_app. simpl. auto. Qed.

Definition log_of_journal (j : list attempt) : list (tpart * msg) :=
  flat_map (fun a => if a_applied a then map (pair (a_tp a)) (a_msgs a) else []) j.

Definition timer_pw (pw : pwriter) (k : nat) : pwriter :=
  let pw1 := match pw_curr pw with
             | Some b => if Nat.eqb (b_k b) k then set_curr (put pw b) None else pw
             | None => pw
             end in
  set_await pw1 (filter (fun x => negb (Nat.eqb x k)) (pw_await pw1)).

Section WithConfig.
Variable cfg : config.

(* writeMessages for one message, on an open partition writer: the message joins the open
   batch, or a new batch (with its awaitBatch goroutine) is created for it *)
Lemma pw_add_spec : forall pw m pw' k sp, pw_add cfg pw m = (pw', k, sp) -> pw_open pw = true ->
  pw_tp pw' = pw_tp pw /\ pw_open pw' = true /\ pw_fin pw' = pw_fin pw /\ pw_snd pw' = pw_snd pw /\
  pw_alive pw' = pw_alive pw /\
  ((exists l b, pw_all pw = l ++ [b] /\ pw_all pw' = l ++ [add_msg b m] /\ k = b_k b /\
                pw_nb pw' = pw_nb pw /\ sp = 0 /\ pw_await pw' = pw_await pw)
   \/ (pw_all pw' = pw_all pw ++ [add_msg (mkBatch (pw_nb pw) [] 0%N) m] /\ k = pw_nb pw /\
       pw_nb pw' = S (pw_nb pw) /\ sp = 1 /\ pw_await pw' = pw_await pw ++ [pw_nb pw])).
Proof.
  intros [tp op nb fin snd q cur al aw] m pw' k sp H Ho. cbn in Ho. subst op.
  unfold pw_add, new_batch, put in H. cbn in H.
  destruct cur as [b|]; [destruct (add_fits cfg b m)|]; cbn in H;
    match type of H with context[if ?c then _ else _] => destruct c end;
    injection H as <- <- <-; cbn; repeat split; auto.
  1,2: left; exists (map fst fin ++ opt_list (option_map sd_batch snd) ++ q), b.
  3-6: right.
  all: unfold pw_all; cbn; rewrite <- ?app_assoc, ?app_nil_r; repeat split; auto.
Qed.

Lemma pw_add_curr : forall pw m pw' k sp, pw_add cfg pw m = (pw', k, sp) ->
  (sp = 0 -> exists b, pw_curr pw = Some b /\ b_k b = k) /\
  (forall b', pw_curr pw' = Some b' -> b_k b' = k).
Proof.
  intros pw m pw' k sp H. unfold pw_add, new_batch in H.
  destruct (pw_curr pw) as [b|]; [destruct (add_fits cfg b m)|]; cbn [fst snd] in H;
    match type of H with context[if ?c then _ else _] => destruct c end;
    injection H as <- <- <-; cbn; split; try discriminate; eauto;
    intros b' E; injection E as <-; reflexivity.
Qed.

Lemma pws_add_none : forall tp m pws i, pws_add cfg tp m i pws = None ->
  forall p pw, nth_error pws p = Some pw -> pw_open pw && tp_eqb (pw_tp pw) tp = false.
Proof.
  induction pws as [|q r IH]; simpl; intros i H p pw Hp; [destruct p; discriminate|].
  destruct (pw_open q && tp_eqb (pw_tp q) tp) eqn:E;
    [destruct (pw_add cfg q m) as [[? ?] ?]; discriminate|].
  destruct (pws_add cfg tp m (S i) r) as [[[? ?] ?]|] eqn:R; [discriminate|].
  destruct p; simpl in Hp; [inversion Hp; subst; exact E|eauto].
Qed.

(* batchMessages for one message: a partition writer for the message's topic-partition is
   created if none is registered, then writeMessages on it *)
Lemma pws_add_spec : forall tp m pws i pws' ref sp,
  pws_add cfg tp m i pws = Some (pws', ref, sp) ->
  exists j pw pw' k, nth_error pws j = Some pw /\ pw_open pw = true /\ pw_tp pw = tp /\
    pw_add cfg pw m = (pw', k, sp) /\ pws' = upd pws j pw' /\ ref = (i + j, k).
Proof.
  induction pws as [|p r IH]; simpl; intros i pws' ref sp H; [discriminate|].
  destruct (pw_open p && tp_eqb (pw_tp p) tp) eqn:E.
  - destruct (pw_add cfg p m) as [[p' k] sp'] eqn:A. inversion H; subst; clear H.
    apply andb_true_iff in E. destruct E as [O T]. apply tp_eqb_eq in T.
    exists 0, p, p', k. simpl. rewrite Nat.add_0_r. auto 10.
  - destruct (pws_add cfg tp m (S i) r) as [[[r' ref'] sp']|] eqn:R; [|discriminate].
    inversion H; subst; clear H.
    destruct (IH _ _ _ _ R) as (j & pw & pw' & k & N & O & T & A & U & F).
    exists (S j), pw, pw', k. simpl. subst. replace (i + S j) with (S i + j) by lia. auto 10.
Qed.

Lemma assign_one_spec : forall pws wg refs m pws' wg' refs',
  assign_one cfg (pws, wg, refs) m = (pws', wg', refs') ->
  exists pws0 j pw pw' k sp,
    (pws0 = pws /\ wg' = wg + sp \/
     pws0 = pws ++ [new_pw (tp_of cfg m)] /\ wg' = S (wg + sp) /\
     forall p pw, nth_error pws p = Some pw -> pw_open pw && tp_eqb (pw_tp pw) (tp_of cfg m) = false) /\
    nth_error pws0 j = Some pw /\ pw_open pw = true /\ pw_tp pw = tp_of cfg m /\
    pw_add cfg pw m = (pw', k, sp) /\ pws' = upd pws0 j pw' /\ refs' = refs ++ [(j, k)].
Proof.
  intros pws wg refs m pws' wg' refs' H. unfold assign_one in H.
  destruct (pws_add cfg (tp_of cfg m) m 0 pws) as [[[r' ref'] sp']|] eqn:R.
  - inversion H; subst; clear H.
    destruct (pws_add_spec _ _ _ _ _ _ _ R) as (j & pw & pw' & k & N & O & T & A & U & F).
    exists pws, j, pw, pw', k, sp'. simpl in F. subst. auto 10.
  - destruct (pw_add cfg (new_pw (tp_of cfg m)) m) as [[p' k] sp'] eqn:A.
    inversion H; subst; clear H.
    exists (pws ++ [new_pw (tp_of cfg m)]), (length pws), (new_pw (tp_of cfg m)), p', k, sp'.
    rewrite nth_error_snoc_last, upd_app_last. split; [right; eauto using pws_add_none|auto 10].
Qed.

Lemma assign_all_fold : forall (P : list msg -> list pwriter -> nat -> list (nat * nat) -> Prop) ms0,
  (forall pre m post pws wg refs pws' wg' refs', ms0 = pre ++ m :: post -> P pre pws wg refs ->
     assign_one cfg (pws, wg, refs) m = (pws', wg', refs') -> P (pre ++ [m]) pws' wg' refs') ->
  forall pws wg, P [] pws wg [] ->
  forall pws' wg' refs', assign_all cfg pws wg ms0 = (pws', wg', refs') -> P ms0 pws' wg' refs'.
Proof.
  intros P ms0 Hone pws wg H0 pws' wg' refs'. unfold assign_all.
  enough (G : forall post pre pws wg refs, ms0 = pre ++ post -> P pre pws wg refs ->
            fold_left (assign_one cfg) post (pws, wg, refs) = (pws', wg', refs') -> P ms0 pws' wg' refs')
    by (apply (G ms0 []); auto).
  induction post as [|m post IH]; intros pre pws1 wg1 refs1 E HP HF; cbn [fold_left] in HF.
  - inversion HF; subst. rewrite app_nil_r. exact HP.
  - destruct (assign_one cfg (pws1, wg1, refs1) m) as [[pws2 wg2] refs2] eqn:A.
    apply (IH (pre ++ [m])) in HF; [exact HF|rewrite <- app_assoc; exact E|]. eapply Hone; eauto.
Qed.

Lemma assign_all_ind : forall (P : list msg -> list pwriter -> nat -> list (nat * nat) -> Prop) ms0,
  (forall pre m post pws wg refs, ms0 = pre ++ m :: post -> P pre pws wg refs ->
     (forall p pw, nth_error pws p = Some pw -> pw_open pw && tp_eqb (pw_tp pw) (tp_of cfg m) = false) ->
     P pre (pws ++ [new_pw (tp_of cfg m)]) (S wg) refs) ->
  (forall pre m post pws wg refs, ms0 = pre ++ m :: post -> P pre pws wg refs ->
     forall j pw pw' k sp, nth_error pws j = Some pw -> pw_open pw = true -> pw_tp pw = tp_of cfg m ->
     pw_add cfg pw m = (pw', k, sp) ->
     P (pre ++ [m]) (upd pws j pw') (wg + sp) (refs ++ [(j, k)])) ->
  forall pws wg, P [] pws wg [] ->
  forall pws' wg' refs', assign_all cfg pws wg ms0 = (pws', wg', refs') -> P ms0 pws' wg' refs'.
Proof.
  intros P ms0 Hnew Hadd. apply assign_all_fold.
  intros pre m post pws1 wg1 refs1 pws2 wg2 refs2 E HP A.
  destruct (assign_one_spec _ _ _ _ _ _ _ A) as (pws0 & j & pw & pw' & k & sp & H1 & H2 & H3 & H4 & H5 & -> & ->).
  destruct H1 as [[-> ->]|(-> & -> & Hn)].
  - eapply Hadd; eauto.
  - change (S (wg1 + sp)) with (S wg1 + sp). eapply Hadd; eauto.
Qed.

Inductive Step (s : state) : label -> state -> Prop :=
| StCallErr g msgs merr e (Adm : call_admissible s g msgs = true)
    (Why : closed s = true /\ e = EClosed \/
           closed s = false /\ msgs <> [] /\ validate cfg merr msgs = Some e) :
    Step s (Call g msgs merr) (add_call s (s_wg s) (mkCall g msgs [] (CReturned (RErr e))))
| StCallNil g merr (Adm : call_admissible s g [] = true) (Op : closed s = false) :
    Step s (Call g [] merr) (add_call s (s_wg s) (mkCall g [] [] (CReturned RNil)))
| StCallEnter g msgs merr (Adm : call_admissible s g msgs = true) (Op : closed s = false)
    (Ne : msgs <> []) (Val : validate cfg merr msgs = None) :
    Step s (Call g msgs merr) (add_call s (S (s_wg s)) (mkCall g msgs [] CEntered))
| StAssignClosed c cl (Nc : nth_error (s_calls s) c = Some cl) (Ph : c_ph cl = CEntered)
    (Cl : closed s = true) :
    Step s (Assign c) (ret_call s c cl (RErr EClosed))
| StAssign c cl pws wg refs (Nc : nth_error (s_calls s) c = Some cl) (Ph : c_ph cl = CEntered)
    (Op : closed s = false) (As : assign_all cfg (s_pws s) (s_wg s) (c_msgs cl) = (pws, wg, refs)) :
    Step s (Assign c)
         (mkSt (s_close s) wg pws (upd (s_calls s) c (mkCall (c_g cl) (c_msgs cl) refs CWaiting))
               (s_journal s) (s_log s) (s_compl s))
| StTimer p k pw (Np : nth_error (s_pws s) p = Some pw) (Aw : In k (pw_await pw)) :
    Step s (Timer p k) (with_pw_done s p (timer_pw pw k))
| StGet p pw b q (Np : nth_error (s_pws s) p = Some pw) (Al : pw_alive pw = true)
    (Sn : pw_snd pw = None) (Qu : pw_queue pw = b :: q) :
    Step s (Get p) (with_pw s p (set_snd (set_queue pw q)
      (Some (mkSnd b 0 (if 0 <? maxAttempts cfg then PAttempt else PFinish None)))))
| StSenderExit p pw (Np : nth_error (s_pws s) p = Some pw) (Al : pw_alive pw = true)
    (Sn : pw_snd pw = None) (Qu : pw_queue pw = []) (Cl : pw_open pw = false) :
    Step s (SenderExit p)
         (with_pw_done s p (mkPw (pw_tp pw) (pw_open pw) (pw_nb pw) (pw_fin pw) (pw_snd pw)
                                 (pw_queue pw) (pw_curr pw) false (pw_await pw)))
| StAttempt p r pw b n (Np : nth_error (s_pws s) p = Some pw)
    (Sn : pw_snd pw = Some (mkSnd b n PAttempt)) :
    Step s (Attempt p r)
         (mkSt (s_close s) (s_wg s)
               (upd (s_pws s) p (set_snd pw (Some (mkSnd b (S n) (after_attempt cfg n (r_seen r))))))
               (s_calls s)
               (s_journal s ++ [mkAtt p (b_k b) (pw_tp pw) (b_msgs b) (r_applied r) (r_seen r)])
               (s_log s ++ (if r_applied r then map (pair (pw_tp pw)) (b_msgs b) else []))
               (s_compl s))
| StBackoffDone p pw b n (Np : nth_error (s_pws s) p = Some pw)
    (Sn : pw_snd pw = Some (mkSnd b n PBackoff)) :
    Step s (BackoffDone p) (with_pw s p (set_snd pw (Some (mkSnd b n PAttempt))))
| StFinish p pw b n e (Np : nth_error (s_pws s) p = Some pw)
    (Sn : pw_snd pw = Some (mkSnd b n (PFinish e))) :
    Step s (Finish p)
         (mkSt (s_close s) (s_wg s)
               (upd (s_pws s) p
                    (mkPw (pw_tp pw) (pw_open pw) (pw_nb pw) (pw_fin pw ++ [(b, e)]) None
                          (pw_queue pw) (pw_curr pw) (pw_alive pw) (pw_await pw)))
               (s_calls s) (s_journal s) (s_log s) (s_compl s ++ [(b_msgs b, e)]))
| StReturnAsync c cl (Nc : nth_error (s_calls s) c = Some cl) (Ph : c_ph cl = CWaiting)
    (Asy : async cfg = true) :
    Step s (Return c) (ret_call s c cl RNil)
| StReturn c cl es (Nc : nth_error (s_calls s) c = Some cl) (Ph : c_ph cl = CWaiting)
    (Asy : async cfg = false) (Res : all_results (s_pws s) (c_refs cl) = Some es) :
    Step s (Return c) (ret_call s c cl (if forallb is_none es then RNil else RWriteErrors es))
| StCtxDone c cl (Nc : nth_error (s_calls s) c = Some cl) (Ph : c_ph cl = CWaiting)
    (Asy : async cfg = false) :
    Step s (CtxDone c) (ret_call s c cl (RErr ECtx))
| StCloseMark (Op : s_close s = ClOpen) :
    Step s CloseMark (mkSt ClWaiting (s_wg s) (map close_pw (s_pws s)) (s_calls s)
                           (s_journal s) (s_log s) (s_compl s))
| StCloseWaitDone (Cw : s_close s = ClWaiting) (Wg : s_wg s = 0) :
    Step s CloseWaitDone (mkSt ClReturned (s_wg s) (s_pws s) (s_calls s)
                               (s_journal s) (s_log s) (s_compl s)).

Lemma step_Step : forall s l s', step cfg s l = Some s' -> Step s l s'.
Proof.
  intros s l s' H. destruct l; cbn [step] in H.
  - destruct (call_admissible s g msgs) eqn:A; [|discriminate].
    destruct (closed s) eqn:C; [injection H as <-; apply StCallErr; auto|].
    destruct msgs as [|m0 r]; [injection H as <-; apply StCallNil; assumption|].
    destruct (validate cfg merr (m0 :: r)) eqn:V; injection H as <-;
      [apply StCallErr; auto; right|apply StCallEnter; auto]; repeat split; auto; discriminate.
  - destruct (nth_error (s_calls s) c) as [cl|] eqn:N; [|discriminate].
    destruct (c_ph cl) eqn:Ph; try discriminate.
    destruct (closed s) eqn:C; [injection H as <-; apply StAssignClosed; assumption|].
    destruct (assign_all cfg (s_pws s) (s_wg s) (c_msgs cl)) as [[pws wg] refs] eqn:A.
    injection H as <-. eapply StAssign; eauto.
  - destruct (nth_error (s_pws s) p) as [pw|] eqn:N; [|discriminate].
    destruct (existsb (Nat.eqb k) (pw_await pw)) eqn:X; [|discriminate].
    injection H as <-. apply (StTimer s p k pw N).
    apply existsb_exists in X. destruct X as (x & Hx & E). apply Nat.eqb_eq in E. subst x. exact Hx.
  - destruct (nth_error (s_pws s) p) as [pw|] eqn:N; [|discriminate].
    destruct (pw_alive pw) eqn:Al; [|discriminate].
    destruct (pw_snd pw) eqn:Sn; [discriminate|].
    destruct (pw_queue pw) as [|b q] eqn:Q; [discriminate|].
    injection H as <-. eapply StGet; eauto.
  - destruct (nth_error (s_pws s) p) as [pw|] eqn:N; [|discriminate].
    destruct (pw_alive pw) eqn:Al; [|discriminate].
    destruct (pw_snd pw) eqn:Sn; [discriminate|].
    destruct (pw_queue pw) as [|b q] eqn:Q; [|discriminate].
    destruct (pw_open pw) eqn:Op; [discriminate|].
    injection H as <-. rewrite <- Op, <- Sn, <- Q at 1. apply StSenderExit; assumption.
  - destruct (nth_error (s_pws s) p) as [pw|] eqn:N; [|discriminate].
    destruct (pw_snd pw) as [[b n []]|] eqn:Sn; try discriminate.
    injection H as <-. eapply StAttempt; eauto.
  - destruct (nth_error (s_pws s) p) as [pw|] eqn:N; [|discriminate].
    destruct (pw_snd pw) as [[b n []]|] eqn:Sn; try discriminate.
    injection H as <-. eapply StBackoffDone; eauto.
  - destruct (nth_error (s_pws s) p) as [pw|] eqn:N; [|discriminate].
    destruct (pw_snd pw) as [[b n []]|] eqn:Sn; try discriminate.
    injection H as <-. eapply StFinish; eauto.
  - destruct (nth_error (s_calls s) c) as [cl|] eqn:N; [|discriminate].
    destruct (c_ph cl) eqn:Ph; try discriminate.
    destruct (async cfg) eqn:As; [injection H as <-; apply StReturnAsync; assumption|].
    destruct (all_results (s_pws s) (c_refs cl)) as [es|] eqn:R; [|discriminate].
    injection H as <-. apply StReturn; assumption.
  - destruct (nth_error (s_calls s) c) as [cl|] eqn:N; [|discriminate].
    destruct (c_ph cl) eqn:Ph; try discriminate.
    destruct (async cfg) eqn:As; [discriminate|].
    injection H as <-. apply StCtxDone; assumption.
  - destruct (s_close s) eqn:C; try discriminate. injection H as <-. apply StCloseMark; exact C.
  - destruct (s_close s) eqn:C; try discriminate. destruct (s_wg s) eqn:W; try discriminate.
    injection H as <-. rewrite <- W. apply StCloseWaitDone; assumption.
Qed.

Lemma step_Timer : forall s p k pw, nth_error (s_pws s) p = Some pw -> In k (pw_await pw) ->
  step cfg s (Timer p k) = Some (with_pw_done s p (timer_pw pw k)).
Proof.
  intros s p k pw N Hin. cbn [step]. rewrite N.
  replace (existsb (Nat.eqb k) (pw_await pw)) with true; [reflexivity|].
  symmetry. apply existsb_exists. exists k. split; [exact Hin|apply Nat.eqb_refl].
Qed.

End WithConfig.

Lemma runs_inv : forall cfg (P : state -> Prop),
  P init ->
  (forall s l s', P s -> step cfg s l = Some s' -> P s') ->
  forall ls s, runs cfg ls s -> P s.
Proof.
  intros cfg P H0 Hs ls s Hr. unfold runs in Hr.
  eapply (inv_run state label (step cfg) P); eauto.
Qed.
