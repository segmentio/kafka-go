(* Proofs/ReaderV2Final.v — C02, L1: the fetch contract for responses made of v2
   batches of any codec (compaction holes and record-less batches included), for every fetch
   offset and every legal cut. *)
From Coq Require Import List NArith ZArith Bool Lia.
From Coq Require Import ZifyN ZifyNat ZifyBool.
From KV Require Import Lib.Bits Lib.Bytes Model.MsgSetReader Model.ReaderModel Spec.FetchSpec
  Proofs.ReaderPrim Proofs.ReaderV2 Proofs.ReaderV2Run Proofs.ReaderV2Sound Proofs.ReaderProofs.
Import ListNotations.
Open Scope Z_scope.

Lemma ztake_firstn k (l : list N) : ztake (Z.of_nat k) l = firstn k l.
Proof. unfold ztake. rewrite Nat2Z.id. reflexivity. Qed.

Lemma from_offset_split l o :
  exists pre, l = pre ++ from_offset l o /\ Forall (fun b => pb_last b < o) pre.
Proof.
  induction l as [|b t IH]; [exists []; split; [reflexivity|constructor]|].
  cbn [from_offset]. destruct (pb_last b <? o) eqn:E.
  - destruct IH as (pre & H1 & H2). exists (b :: pre). split; [cbn; f_equal; exact H1|].
    constructor; [lia|exact H2].
  - exists []. split; [reflexivity|constructor].
Qed.

Lemma encs_eq compress bs :
  Forall (fun b => pb_fmt b = 2) bs -> flat_map (enc_batch compress) bs = encs compress bs.
Proof.
  induction bs as [|b t IH]; intros H2; [reflexivity|].
  apply Forall_cons_iff in H2 as [Hb H2].
  cbn [flat_map encs]. fold (encs compress t). rewrite IH by assumption. f_equal.
  apply enc1_eq. exact Hb.
Qed.

Lemma ranges_ok_app a : forall lo b, ranges_ok lo (a ++ b) -> exists lo2, ranges_ok lo2 b.
Proof.
  induction a as [|x t IH]; intros lo b H; [exists lo; exact H|].
  destruct H as [_ H2]. apply (IH _ _ H2).
Qed.

Lemma chain_of : forall l lo,
  Forall pbatch_ok l -> ranges_ok lo l -> (exists lo', increasing lo' (flat_map pb_recs l)) -> chain lo l.
Proof.
  induction l as [|b t IH]; intros lo Hp Hr Hi; [exact I|].
  apply Forall_cons_iff in Hp as [Hb Hp]. destruct Hr as [R1 R2]. destruct Hi as [lo' Hi].
  cbn [flat_map] in Hi.
  destruct Hb as (_ & _ & _ & Hlod & _ & Hin & _).
  cbn [chain]. split; [exact R1|]. split; [lia|]. split; [|split].
  - pose proof (increasing_app_l _ _ _ Hi) as H1.
    destruct (pb_recs b) as [|r rs]; [exact I|].
    destruct H1 as [_ H1]. apply Forall_cons_iff in Hin as [[Hr1 _] _]. split; [lia|exact H1].
  - eapply Forall_impl; [|exact Hin]. cbn. intros a [Ha _]. lia.
  - apply IH; [exact Hp|exact R2|]. apply (increasing_app_r _ _ _ Hi).
Qed.

Lemma last_off_max' : forall rs lo d r, increasing lo rs -> In r rs -> r_off r <= last_off rs d.
Proof.
  induction rs as [|x t IH]; intros lo d r Hi Hr; [destruct Hr|].
  destruct Hi as [H1 H2]. cbn [last_off]. destruct Hr as [->|Hr].
  - destruct t as [|y t']; [cbn; lia|].
    pose proof (IH _ (r_off r) y H2 (or_introl eq_refl)). destruct H2 as [H2 _]. lia.
  - apply (IH _ _ r H2 Hr).
Qed.

(* a batch that ends below o holds only records below o: a v2 batch by its offset range, a v0/v1
   batch because its last record is its greatest *)
Lemma batch_below o lo b :
  pbatch_ok b -> pb_last b < o -> pb_fmt b = 2 \/ increasing lo (pb_recs b) ->
  Forall (fun r => r_off r < o) (pb_recs b).
Proof.
  intros (_ & _ & _ & _ & _ & Hin & _) Hl Hc. unfold pb_last in Hl.
  destruct (pb_fmt b =? 2) eqn:E.
  - eapply Forall_impl; [|exact Hin]. cbn. intros a [Ha _]. lia.
  - destruct Hc as [Hc|Hc]; [lia|]. apply Forall_forall. intros r Hr.
    pose proof (last_off_max' _ _ (pb_base b + pb_lod b) r Hc Hr). lia.
Qed.

Lemma pre_below o pre :
  Forall (fun b => pb_fmt b = 2) pre -> Forall pbatch_ok pre -> Forall (fun b => pb_last b < o) pre ->
  Forall (fun r => r_off r < o) (flat_map pb_recs pre).
Proof.
  rewrite Forall_flat_map, !Forall_forall. intros H2 Hp Hl b Hb.
  apply (batch_below o 0); auto.
Qed.

Lemma pre_below_gen o : forall pre lo,
  Forall pbatch_ok pre -> Forall (fun b => pb_last b < o) pre -> increasing lo (flat_map pb_recs pre) ->
  Forall (fun r => r_off r < o) (flat_map pb_recs pre).
Proof.
  induction pre as [|b t IH]; intros lo Hp Hl Hi; [constructor|].
  apply Forall_cons_iff in Hp as [Hpb Hp]. apply Forall_cons_iff in Hl as [Hlb Hl].
  cbn [flat_map] in *. apply Forall_app. split.
  - apply (batch_below o lo); [exact Hpb|exact Hlb|right; apply (increasing_app_l _ _ _ Hi)].
  - destruct (increasing_app_r _ _ _ Hi) as [lo2 Hi2]. apply (IH lo2 Hp Hl Hi2).
Qed.

(* a log splits at a fetch offset into the batches the response leaves out, all below the offset,
   and the chain of batches it is made of *)
Lemma response_split log l o : log_ok log -> layout_ok log l ->
  exists pre, log = flat_map pb_recs pre ++ flat_map pb_recs (from_offset l o)
    /\ Forall (fun r => r_off r < o) (flat_map pb_recs pre)
    /\ Forall pbatch_ok (from_offset l o) /\ exists lo, chain lo (from_offset l o).
Proof.
  intros (_ & Hinc) (Hrecs & Hpb & Hranges).
  destruct (from_offset_split l o) as (pre & Hsplit & Hpre). exists pre.
  set (bs := from_offset l o) in *. clearbody bs. subst l.
  unfold layout_records in Hrecs. rewrite flat_map_app in Hrecs. subst log.
  apply Forall_app in Hpb as [Hp1 Hp2].
  split; [reflexivity|]. split; [apply (pre_below_gen o pre 0 Hp1 Hpre (increasing_app_l _ _ _ Hinc))|].
  split; [exact Hp2|]. destruct (ranges_ok_app _ _ _ Hranges) as [lo Hr]. exists lo.
  apply chain_of; [exact Hp2|exact Hr|apply (increasing_app_r _ _ _ Hinc)].
Qed.

(* Conn.ReadBatchWith on a response with data (hwm <> o) of which k bytes arrive: the Batch starts
   from whatever state reading the first header leaves *)
Lemma fetch_run_header decomp o fuel hwm k bytes m :
  hwm <> o -> 0 <= k <= len bytes ->
  read_next_header (st (ztake k bytes) 0 hdr0 0 (-1)) = MOk tt m ->
  fetch_run decomp fuel o hwm (ztake k bytes) k false
  = batch_run decomp fuel (mkBatch (Some m) true o o (-1) None false) [].
Proof.
  intros Hh Hk Hm. unfold fetch_run, new_batch. replace (hwm =? o) with false by lia. unfold new_msr.
  rewrite <- (ztake_len k bytes Hk) at 2.
  change (mkMsr [mkFrame ?i (len ?i) 0 0 hdr0] false 0 (-1)) with (st i 0 hdr0 0 (-1)). rewrite Hm. reflexivity.
Qed.

Section Final.
Variable compress : Z -> list N -> list N.

Notation v2ok := (v2ok compress).
Notation encs := (encs compress).
Notation hdr_of := (hdr_of compress).
Notation plen_of := (plen_of compress).
Notation payload := (payload compress).

(* where Conn.ReadBatchWith leaves the reader: the header of the first batch b was read, no offset
   seen yet but the end of b's range when it holds no record *)
Definition start_pos (o : Z) (b : pbatch) (bs : list pbatch) (j : Z) : apos :=
  enter compress b bs j o (-1) (if Z.of_nat (length (pb_recs b)) =? 0 then pb_base b + pb_lod b else -1).

Lemma start_inv o lo b bs j : chain lo (b :: bs) -> 0 <= pb_base b -> pos_inv o (start_pos o b bs j).
Proof.
  intros Hc Hb. unfold start_pos. destruct (pb_recs b) as [|r1 rs1] eqn:Er.
  - destruct Hc as (_ & C2 & _ & _ & C5). split; [apply Z.le_refl|].
    unfold enter. rewrite Er. cbn [a_b a_rs a_bs a_off a_last a_el length Z.of_nat Z.eqb].
    exists (pb_base b + pb_lod b + 1), (pb_base b + pb_lod b + 1).
    split; [exact I|]. split; [exact C5|]. split; [intros r []|]. split; [lia|]. split; [lia|].
    split; [intros _; lia|]. split; [intros H; contradiction|]. intros r _ H. exact H.
  - replace (Z.of_nat (length (r1 :: rs1)) =? 0) with false by (cbn [length]; lia).
    apply (inv_enter compress o b bs j o (-1) (-1) lo);
      [lia|exact Hc|rewrite Er; discriminate|lia|intros x _ H; exact H].
Qed.

(* the cut rule keeps the first batch whole *)
Lemma start_covered o b bs j : len (payload b) <= j -> covered compress (start_pos o b bs j).
Proof.
  intros Hj. unfold covered, start_pos, enter. cbn [a_rs a_mode a_b a_j].
  destruct (pb_recs b) as [|r1 rs1] eqn:Er; [exact I|].
  destruct (pb_codec b =? 0) eqn:Ec; [|exact Hj].
  unfold ReaderV2Run.payload in Hj. rewrite Ec, Er in Hj. exact Hj.
Qed.

Variable decomp : Z -> list N -> option (list N).
Hypothesis decomp_law : forall c x, decomp c (compress c x) = Some x.

Lemma fetch_run_start o hwm b bs k fuel :
  v2ok b -> hwm <> o -> 61 <= k <= len (encs (b :: bs)) ->
  fetch_run decomp fuel o hwm (ztake k (encs (b :: bs))) k false
  = batch_run decomp fuel (conc compress o (start_pos o b bs (k - 61))) [].
Proof.
  intros Hv Hhwm Hk. apply fetch_run_header; [exact Hhwm|lia|].
  rewrite (encs_cons compress). unfold enc1. rewrite <- app_assoc.
  rewrite ztake_app_ge by (rewrite hdr61_len; lia). rewrite hdr61_len.
  rewrite (header_ok b (plen_of b) _ 0 hdr0 0 (-1) (proj1 Hv)).
  unfold start_pos. rewrite (concm_enter compress b bs (k - 61) _ _ _ Hv). reflexivity.
Qed.

Theorem batch_decode_exact_v2_full log l o k hwm :
  log_ok log -> layout_ok log l ->
  Forall (fun b => pb_fmt b = 2) (from_offset l o) -> Forall v2ok (from_offset l o) ->
  from_offset l o <> [] -> valid_cut compress l o k -> hwm <> o ->
  forall fuel, (S (tokens [] (from_offset l o)) <= fuel)%nat ->
  exists ms f,
    fetch_run decomp fuel o hwm (fetch_response compress l o k) (Z.of_nat k) false = Some (ms, EEOF, f)
    /\ fetch_ok log o ms f
    /\ (forall b r, hd_error (from_offset l o) = Some b -> In r (pb_recs b) -> o <= r_off r -> ms <> []).
Proof.
  intros Hlog Hlay Hfmt Hv2 Hne Hcut Hhwm fuel Hfuel.
  destruct (response_split log l o Hlog Hlay) as (pre & Hsplit & Hpre & _ & lo & Hchain).
  unfold valid_cut in Hcut. unfold fetch_response, fetch_bytes, enc_layout in *.
  destruct (from_offset l o) as [|b bs]; [contradiction|].
  rewrite (encs_eq compress _ Hfmt) in *. rewrite (enc1_eq compress b (Forall_inv Hfmt)) in Hcut.
  apply Forall_cons_iff in Hv2 as [Hv Hvs]. pose proof Hv as ((Hbase & _) & _).
  assert (Hk : 61 + len (payload b) <= Z.of_nat k <= len (encs (b :: bs))).
  { unfold enc1 in Hcut. rewrite app_length in Hcut. pose proof (hdr61_len b (plen_of b)). unfold len in *. lia. }
  pose proof (len_nonneg (payload b)) as Hpl.
  rewrite <- ztake_firstn, fetch_run_start by (assumption || lia).
  set (p0 := start_pos o b bs (Z.of_nat k - 61)).
  assert (Hpos : pos_ok compress p0) by (apply pos_ok_enter; [exact Hv|exact Hvs|lia]).
  assert (HInv : pos_inv o p0) by (apply (start_inv o lo); [exact Hchain|apply Hbase]).
  rewrite (tokens_cons_batch) in Hfuel.
  pose proof (run_refine compress decomp decomp_law o fuel p0 [] Hpos (Nat.lt_le_incl _ _ Hfuel)) as Href.
  destruct (a_run compress o fuel p0 []) as [[ms x]|] eqn:Erun; [|contradiction].
  exists ms, x. split; [exact Href|].
  destruct (a_run_spec compress o fuel p0 [] ms x HInv Erun) as (Rp & Rs & G1 & G2 & G4).
  split.
  - rewrite Hsplit. change (flat_map pb_recs (b :: bs)) with (remp p0). rewrite G1.
    apply fetch_ok_of_split; assumption.
  - (* progress: the first batch is whole, a record of it at or after o is delivered *)
    intros b' r Hb Hr Hor. injection Hb as <-.
    apply (a_run_nonempty compress o fuel p0 [] ms x HInv Erun).
    apply (a_read_delivers compress o (pb_recs b) p0 fuel eq_refl).
    + apply start_covered. lia.
    + exists r. split; assumption.
    + unfold tokens in Hfuel. lia.
Qed.

Theorem batch_decode_exact_v2 log l o k hwm :
  log_ok log -> layout_ok log l ->
  Forall (fun b => pb_fmt b = 2) (from_offset l o) -> Forall v2ok (from_offset l o) ->
  from_offset l o <> [] -> valid_cut compress l o k -> hwm <> o ->
  forall fuel, (S (tokens [] (from_offset l o)) <= fuel)%nat ->
  exists ms f,
    fetch_run decomp fuel o hwm (fetch_response compress l o k) (Z.of_nat k) false = Some (ms, EEOF, f)
    /\ fetch_ok log o ms f.
Proof.
  intros H1 H2 H3 H4 H5 H6 H7 fuel H8.
  destruct (batch_decode_exact_v2_full log l o k hwm H1 H2 H3 H4 H5 H6 H7 fuel H8) as (ms & f & Hr & Hok & _).
  exists ms, f. split; assumption.
Qed.

(* C02_progress for v2 responses: when the first batch of the response (whole, by the cut rule)
   holds a record at or after the fetch offset, at least one message is delivered *)
Theorem progress_v2 log l o k hwm :
  log_ok log -> layout_ok log l ->
  Forall (fun b => pb_fmt b = 2) (from_offset l o) -> Forall v2ok (from_offset l o) ->
  from_offset l o <> [] -> valid_cut compress l o k -> hwm <> o ->
  (exists b r, hd_error (from_offset l o) = Some b /\ In r (pb_recs b) /\ o <= r_off r) ->
  forall fuel ms e f, (S (tokens [] (from_offset l o)) <= fuel)%nat ->
  fetch_run decomp fuel o hwm (fetch_response compress l o k) (Z.of_nat k) false = Some (ms, e, f) ->
  ms <> [].
Proof.
  intros H1 H2 H3 H4 H5 H6 H7 (b & r & Hb & Hr & Hor) fuel ms e f H8 Hrun.
  destruct (batch_decode_exact_v2_full log l o k hwm H1 H2 H3 H4 H5 H6 H7 fuel H8) as (ms0 & f0 & Hr0 & _ & Hp).
  rewrite Hr0 in Hrun. injection Hrun as <- _ _. apply (Hp b r Hb Hr Hor).
Qed.

(* the link to L2: such a response is a legal answer in the sense of ReaderProofs.ev_ok *)
Theorem contract_v2 log l k hwm fuel g :
  log_ok log -> layout_ok log l ->
  Forall (fun b => pb_fmt b = 2) (from_offset l (g_conn g)) -> Forall v2ok (from_offset l (g_conn g)) ->
  from_offset l (g_conn g) <> [] -> valid_cut compress l (g_conn g) k -> hwm <> g_conn g ->
  (S (tokens [] (from_offset l (g_conn g))) <= fuel)%nat ->
  ev_ok (fetch_run decomp fuel) log g
        (GFetch (FData hwm (fetch_response compress l (g_conn g) k) (Z.of_nat k) false)).
Proof.
  intros H1 H2 H3 H4 H5 H6 H7 H8.
  apply contract_of_decode, (batch_decode_exact_v2 log l (g_conn g) k hwm H1 H2 H3 H4 H5 H6 H7 fuel H8).
Qed.

End Final.
