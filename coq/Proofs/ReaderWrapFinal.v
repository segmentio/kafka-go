(* Proofs/ReaderWrapFinal.v — C02, L1: the top results of the byte level: the fetch contract for
   responses whose v0 / v1 part may hold compressed wrappers, alone or followed by v2 batches, for
   fetch offsets inside that part; then, with ReaderV2Final, for every layout with ordered formats. *)
From Coq Require Import List NArith ZArith Bool Lia.
From Coq Require Import ZifyN ZifyNat ZifyBool.
From KV Require Import Lib.Bits Lib.Bytes Model.MsgSetReader Model.ReaderModel Spec.FetchSpec
  Proofs.ReaderPrim Proofs.ReaderV2 Proofs.ReaderV1 Proofs.ReaderV1Run Proofs.ReaderV1Final
  Proofs.ReaderV2Run Proofs.ReaderV2Sound Proofs.ReaderV2Final Proofs.ReaderProofs
  Proofs.ReaderWrap Proofs.ReaderWrapInner Proofs.ReaderWrapRun.
Import ListNotations.
Open Scope Z_scope.

Section WFinal.
Variable compress : Z -> list N -> list N.
Variable decomp : Z -> list N -> option (list N).
Hypothesis decomp_law : forall c x, decomp c (compress c x) = Some x.

Definition rel_of (b : pbatch) : Z := if pb_fmt b =? 1 then pb_base b else 0.
Definition inner_bytes (b : pbatch) : list N := stream (map (wire (rel_of b)) (items_of b)).
Definition wo_of (b : pbatch) : Z := last_off (pb_recs b) (pb_base b).
Definition wsize_of (b : pbatch) : Z :=
  blen (i32 0 ++ i8 (pb_fmt b) ++ i8 (pb_codec b) ++ (if pb_fmt b =? 1 then i64 (pb_ts b) else [])
        ++ b32 None ++ b32 (Some (compress (pb_codec b) (inner_bytes b)))).

Definition lgc_ok (b : pbatch) : Prop :=
  (pb_fmt b = 0 \/ pb_fmt b = 1) /\ Forall (msg_fits (pb_fmt b)) (pb_recs b)
  /\ (pb_codec b = 0 \/ (1 <= pb_codec b <= 4 /\ len (compress (pb_codec b) (inner_bytes b)) < 2 ^ 30)).

Lemma lgc_plain b : lgc_ok b -> pb_codec b = 0 -> legacy_ok b.
Proof. intros (H1 & H2 & _) Hc. split; [exact H1|]. split; assumption. Qed.

Lemma inner_stream b :
  flat_map (fun r => enc_message (pb_fmt b) 0 (r_off r - rel_of b) (r_ts r) (r_key r) (r_val r)) (pb_recs b)
  = inner_bytes b.
Proof.
  unfold inner_bytes, items_of, stream. induction (pb_recs b) as [|r t IH]; [reflexivity|].
  cbn [flat_map map]. rewrite IH. f_equal. unfold enc_item. cbn [fst snd wire].
  apply (enc_message_eq (pb_fmt b) (shiftr (rel_of b) r)).
Qed.

Lemma enc_wrapped b : lgc_ok b -> pb_codec b <> 0 ->
  enc_batch compress b
  = wenc compress (pb_fmt b) (pb_codec b) (wo_of b) (pb_ts b) (wsize_of b) (rel_of b) (items_of b).
Proof.
  intros (Hf & _) Hc. unfold enc_batch, enc_legacy. replace (pb_fmt b =? 2) with false by lia.
  replace (pb_codec b =? 0) with false by lia. cbv zeta.
  assert (Hrel : (if pb_fmt b =? 1 then pb_base b else 0) = rel_of b) by reflexivity. rewrite Hrel, inner_stream.
  unfold enc_message, wenc, lh, wtail, wsize_of, wo_of. cbv zeta. fold (inner_bytes b). unfold b32.
  destruct (pb_fmt b =? 1); rewrite <- ?app_assoc, ?app_nil_r; reflexivity.
Qed.

Lemma last_off_shift d : forall rs e, rs <> [] -> last_off (map (shiftr d) rs) e = last_off rs e - d.
Proof.
  induction rs as [|x t IH]; intros e H; [contradiction|]. cbn [map last_off].
  destruct t as [|y t']; [reflexivity|]. rewrite IH by discriminate. reflexivity.
Qed.

Lemma wrap_ok_of b : lgc_ok b -> pbatch_ok b -> pb_codec b <> 0 ->
  wrap_ok compress (pb_fmt b) (pb_codec b) (wo_of b) (pb_ts b) (wsize_of b) (rel_of b) (items_of b).
Proof.
  intros (Hf & Hm & Hc) (_ & _ & Hbase & Hlod & Hts & Hrng & Hne & _) Hc0.
  destruct Hc as [Hc|[Hc Hlen]]; [contradiction|]. specialize (Hne ltac:(lia)).
  assert (Hrel : small (rel_of b)) by (unfold rel_of; destruct (pb_fmt b =? 1); [exact Hbase|unfold small; lia]).
  assert (Hwo : exists r, In r (pb_recs b) /\ r_off r = wo_of b) by (apply last_off_in; exact Hne).
  assert (Hrelle : forall r, In r (pb_recs b) -> rel_of b <= r_off r).
  { intros r Hr. pose proof (proj1 (Forall_forall _ _) Hrng r Hr) as [[H1 _] _].
    pose proof (proj1 (Forall_forall _ _) Hm r Hr) as (_ & Hs & _). unfold small in *.
    unfold rel_of. destruct (pb_fmt b =? 1); lia. }
  split; [|split; [|split; [|split]]].
  - split; [exact Hf|]. split; [exact Hc|]. split.
    + destruct Hwo as (r & Hr & <-). apply (proj1 (Forall_forall _ _) Hm r Hr).
    + split; [exact Hts|]. unfold wsize_of. rewrite blen_len, !len_app. unfold b32. rewrite len_app.
      unfold i32, i8, i64. rewrite !put_bes_len. pose proof (len_nonneg (compress (pb_codec b) (inner_bytes b))).
      fold (inner_bytes b) in Hlen.
      destruct (pb_fmt b =? 1); rewrite ?put_bes_len; change (len []) with 0; rewrite ?blen_len; lia.
  - unfold items_of. apply Forall_forall. intros it Hit. apply in_map_iff in Hit as (r & <- & Hr).
    pose proof (proj1 (Forall_forall _ _) Hm r Hr) as (F1 & F2 & F3 & F4 & F5 & F6 & F7).
    split; [|exact F2]. unfold item_ok, msg_fits. cbn [fst snd wire shiftr r_off r_ts r_key r_val r_hdrs].
    specialize (Hrelle r Hr). unfold small in *. repeat split; try assumption; lia.
  - unfold items_of. destruct (pb_recs b); [contradiction|discriminate].
  - exact Hlen.
  - assert (Hrecs : recs_of (map (wire (rel_of b)) (items_of b)) = map (shiftr (rel_of b)) (pb_recs b)).
    { unfold recs_of, items_of. rewrite !map_map. reflexivity. }
    rewrite Hrecs, last_off_shift by exact Hne. unfold wo_of.
    rewrite (last_off_nonempty (pb_recs b) 0 (pb_base b) Hne).
    replace (last_off (pb_recs b) (pb_base b) - (last_off (pb_recs b) (pb_base b) - rel_of b)) with (rel_of b) by lia.
    apply wrap64_small. unfold small in Hrel. lia.
Qed.

Variable o : Z.

Lemma wrap_first fmt codec Wo ts size bse titems fuel hwm k tl tlr :
  wrap_ok compress fmt codec Wo ts size bse titems -> hwm <> o ->
  len (wenc compress fmt codec Wo ts size bse titems) <= Z.of_nat k
    <= len (wenc compress fmt codec Wo ts size bse titems ++ tl) ->
  linv o tlr (recs_of titems) o -> (length titems + 4 <= fuel)%nat ->
  Res decomp o true (fetch_run decomp fuel o hwm (ztake (Z.of_nat k) (wenc compress fmt codec Wo ts size bse titems ++ tl)) (Z.of_nat k) false)
      fuel [] (recs_of titems) tl tlr o (length titems).
Proof.
  intros Hw Hh [Hk1 Hk2] HI Hf. unfold wenc in *. rewrite len_app in Hk1. rewrite <- app_assoc in *.
  set (wt := wtail compress codec (map (wire bse) titems)) in *.
  pose proof (len_nonneg (lh fmt codec Wo ts size)). pose proof (len_nonneg wt).
  set (jr := Z.of_nat k - len (lh fmt codec Wo ts size) - len wt).
  rewrite (fetch_run_header decomp o fuel hwm (Z.of_nat k) _ (st (wt ++ ztake jr tl) 1 (whdr fmt codec Wo ts size) 1 (-1)) Hh
             (conj (Nat2Z.is_nonneg k) Hk2)).
  2:{ rewrite ztake_app_ge by lia. rewrite (lheader_ok_st _ _ _ _ _ _ 0 hdr0 0 (-1) (wh_lh_fits _ _ _ _ _ (proj1 Hw))).
      rewrite ztake_app_ge by lia. reflexivity. }
  apply wrap_run_in; [exact decomp_law|exact Hw|unfold jr; lia|exact HI|exact Hf].
Qed.

Lemma enc_plain b : lgc_ok b -> pb_codec b = 0 -> enc_batch compress b = stream (items_of b).
Proof. intros H Hc. apply enc_legacy_stream, lgc_plain; assumption. Qed.

Lemma linv_batch b recs2 tlr off :
  pb_recs b <> [] ->
  linv o ((pb_recs b ++ recs2) ++ tlr) [] off -> Forall (fun r => o <= r_off r) (pb_recs b) ->
  linv o (recs2 ++ tlr) (pb_recs b) off.
Proof.
  intros Hne (Ho0 & Ho & Hinc & _ & HJ) Hall. cbn [app] in *.
  split; [exact Ho0|]. split; [exact Ho|].
  split; [rewrite app_assoc; exact Hinc|]. split.
  - intros _. destruct (last_off_in (pb_recs b) 0 Hne) as (r & Hr & <-). apply (proj1 (Forall_forall _ _) Hall r Hr).
  - intros r Hr. apply HJ. rewrite <- app_assoc. exact Hr.
Qed.

Lemma legacy_run : forall bs fuel j h off acc tl tlr,
  Forall lgc_ok bs -> Forall pbatch_ok bs -> 0 <= j ->
  linv o (flat_map pb_recs bs ++ tlr) [] off ->
  Forall (fun r => o <= r_off r) (flat_map pb_recs bs) ->
  (length (all_items bs) + 4 <= fuel)%nat ->
  Res decomp o false (batch_run decomp fuel (LB o (flat_map (enc_batch compress) bs ++ tl) (PBnd [] j h) off) acc)
      fuel acc (flat_map pb_recs bs) tl tlr off (length (all_items bs)).
Proof.
  induction bs as [|b bs IH]; intros fuel j h off acc tl tlr Hlg Hpb Hj HI Hall Hf.
  - apply res_nil; [exact Hj|exact HI|cbn [all_items flat_map length] in Hf; lia].
  - apply Forall_cons_iff in Hlg as [Hb Hlg]. apply Forall_cons_iff in Hpb as [Hpb1 Hpb].
    cbn [flat_map all_items] in *. fold (all_items bs) in *. rewrite app_length in *.
    assert (Hlen : length (items_of b) = length (pb_recs b)) by (unfold items_of; apply map_length). rewrite Hlen in *.
    apply Forall_app in Hall as [Hall1 Hall2].
    pose proof Hpb1 as (_ & _ & _ & _ & _ & _ & Hne & _). pose proof Hb as (Hfm & Hm & Hc).
    specialize (Hne ltac:(lia)).
    pose proof (linv_batch b (flat_map pb_recs bs) tlr off Hne HI Hall1) as HIb.
    rewrite <- app_assoc.
    apply (res_seq decomp o false _ fuel acc (pb_recs b) (flat_map pb_recs bs) (flat_map (enc_batch compress) bs ++ tl) tl _ tlr off
             (length (pb_recs b)) (length (all_items bs)) eq_refl).
    + rewrite <- (recs_items_of b) in HIb |- * at 1. rewrite <- Hlen. destruct (Z.eq_dec (pb_codec b) 0) as [Hc0|Hc0].
      * rewrite (enc_plain b Hb Hc0).
        apply (plain_res decomp o fuel false (PBnd (items_of b) j h) off acc _ _);
          [split; [apply items_of_ok, (proj1 (proj2 Hb))|exact Hj]|exact HIb|cbn [pitems]; lia|discriminate].
      * rewrite (enc_wrapped b Hb Hc0).
        apply wrap_run; [exact decomp_law|apply wrap_ok_of; assumption|exact Hj|exact HIb|lia].
    + intros j' h' off' acc' f' Hj' HI' Hf3 Hfb. apply IH; try assumption. lia.
Qed.

Lemma v2_res v2 fuel j h off acc :
  Forall (v2ok compress) v2 -> chain 0 v2 -> 0 <= j -> linv o (flat_map pb_recs v2) [] off ->
  (tokens [] v2 < fuel)%nat ->
  Res decomp o false (batch_run decomp fuel (LB o (encs compress v2) (PBnd [] j h) off) acc) fuel acc (flat_map pb_recs v2) [] [] off 0.
Proof.
  intros Hv2 Hchain Hj (Ho0 & Ho & _ & _ & HJ) Hf.
  (* where the run over v0 / v1 messages hands over to the run over v2 batches: a boundary of the
     v2 reader with no batch current (the batch of the position is a dummy, never looked at), no
     offset seen yet (lastOffset, emptyLastOffset = -1) and lengthRemain = 1 as the last v0 / v1
     header left it; [pos_ok] admits lengthRemain <> 0 at a boundary for this position *)
  set (pb := mkPos (mkPB 0 0 0 0 0 []) [] v2 j h off (-1) (-1) MPlain 1).
  change (LB o (encs compress v2) (PBnd [] j h) off) with (conc compress o pb).
  assert (Hposb : pos_ok compress pb).
  { split; [exact Hj|]. split; [exact Hv2|]. split; [intros _; right; cbn; lia|]. intros H; contradiction. }
  pose proof (run_refine compress decomp decomp_law o fuel pb acc Hposb Hf) as Href.
  destruct (a_run compress o fuel pb acc) as [[ms x]|] eqn:Erun; [|contradiction].
  assert (HInvb : pos_inv o pb).
  { split; [exact Ho|]. exists 0, 0. unfold pb. cbn [a_b a_rs a_bs a_j a_hdr a_off a_last a_el a_mode a_lr].
    split; [exact I|]. split; [exact Hchain|]. split; [intros r []|]. split; [lia|]. split; [lia|].
    split; [intros _; lia|]. split; [intros H; contradiction|exact HJ]. }
  destruct (a_run_spec compress o fuel pb acc ms x HInvb Erun) as (Rp & Rs & A1 & AD & A4).
  left. exists ms, x, Rp, Rs. rewrite app_nil_r. split; [exact Href|]. split; [discriminate|]. split; [exact A1|].
  split; [exact AD|exact A4].
Qed.

Lemma chain_zero lo bs : Forall pbatch_ok bs -> chain lo bs -> chain 0 bs.
Proof.
  intros Hp Hc. destruct bs as [|b t]; [exact I|]. destruct Hc as (C1 & C2 & C3 & C4 & C5).
  pose proof (Forall_inv Hp) as (_ & _ & Hb & _). unfold small in Hb. cbn [chain]. repeat split; try assumption; lia.
Qed.

Lemma increasing_cross : forall a lo b, increasing lo (a ++ b) ->
  forall x y, In x a -> In y b -> r_off x < r_off y.
Proof.
  induction a as [|z t IH]; intros lo b Hi x y Hx Hy; [destruct Hx|].
  destruct Hi as [H1 H2]. destruct Hx as [->|Hx].
  - pose proof (increasing_lb _ _ H2 y (in_or_app _ _ y (or_intror Hy))). lia.
  - apply (IH _ _ H2 x y Hx Hy).
Qed.

Theorem batch_decode_exact_legacy_wrapped_then_v2_full log lg v2 k hwm :
  log_ok log -> layout_ok log (lg ++ v2) ->
  Forall lgc_ok lg -> Forall (fun b => pb_fmt b = 2) v2 -> Forall (v2ok compress) v2 -> 0 <= o ->
  from_offset lg o <> [] -> valid_cut compress (lg ++ v2) o k -> hwm <> o ->
  forall fuel, (length (all_items (from_offset lg o)) + tokens [] v2 + 5 <= fuel)%nat ->
  exists ms f,
    fetch_run decomp fuel o hwm (fetch_response compress (lg ++ v2) o k) (Z.of_nat k) false = Some (ms, EEOF, f)
    /\ fetch_ok log o ms f /\ ms <> [].
Proof.
  intros Hlog Hlay Hleg Hfmt2 Hv2 Ho0 Hne Hcut Hhwm fuel Hfuel.
  destruct (from_offset lg o) as [|b1 bs'] eqn:Ebs; [contradiction|].
  apply (from_offset_forall _ lg o) in Hleg. rewrite Ebs in Hleg. apply Forall_cons_iff in Hleg as [Hb1 Hleg].
  assert (Hfmt1 : pb_fmt b1 <> 2) by (destruct Hb1 as (H & _); lia).
  destruct (legacy_suffix log lg v2 o b1 bs' Hlog Hlay Hfmt1 Ebs) as (prerecs & Hlogsplit & Hpre & [lo Hinc] & Hpb & Hne1 & Hlast1).
  apply Forall_cons_iff in Hpb as [Hpb1 Hpb].
  destruct (legacy_response compress lg v2 o k b1 bs' Ebs Hcut) as (-> & Hk1 & Hk2).
  assert (Hv2chain : chain 0 v2).
  { destruct Hlog as (_ & Hlog2). destruct Hlay as (Hrecs & Hpball & Hranges).
    apply Forall_app in Hpball as [_ Hpb_v2]. destruct (ranges_ok_app _ _ _ Hranges) as [lo2 Hr2].
    apply (chain_zero lo2 v2 Hpb_v2), chain_of; [exact Hpb_v2|exact Hr2|].
    rewrite <- Hrecs in Hlog2. unfold layout_records in Hlog2. rewrite flat_map_app in Hlog2.
    apply (increasing_app_r _ _ _ Hlog2). }
  rewrite (encs_eq compress v2 Hfmt2) in *.
  cbn [flat_map all_items] in Hlogsplit, Hinc, Hfuel. fold (all_items bs') in Hfuel. rewrite app_length in Hfuel.
  rewrite <- app_assoc in Hlogsplit, Hinc.
  set (tl := encs compress v2) in *. set (tlrecs := flat_map pb_recs v2) in *.
  set (tl1 := flat_map (enc_batch compress) bs' ++ tl) in *. set (tlr1 := flat_map pb_recs bs' ++ tlrecs) in *.
  assert (HIb1 : linv o tlr1 (pb_recs b1) o).
  { split; [exact Ho0|]. split; [lia|]. split; [exists lo; exact Hinc|].
    split; [intros _; exact Hlast1|intros r _ H; exact H]. }
  (* the batches behind the first hold records above o only *)
  assert (Hall' : Forall (fun r => o <= r_off r) (flat_map pb_recs bs')).
  { unfold tlr1 in Hinc. rewrite app_assoc in Hinc. apply increasing_app_l in Hinc.
    destruct (last_off_in (pb_recs b1) 0 Hne1) as (rl & Hrl & Hel).
    apply Forall_forall. intros r Hr. pose proof (increasing_cross _ _ _ Hinc rl r Hrl Hr). lia. }
  assert (Hlen1 : length (items_of b1) = length (pb_recs b1)) by (unfold items_of; apply map_length).
  assert (Hcntf : (length (items_of b1) + 4 <= fuel)%nat) by lia.
  (* the run in three parts: the first batch, whose header Conn.ReadBatchWith has read; the other
     v0 / v1 batches; the v2 batches *)
  apply (res_contract decomp o log prerecs _ _ fuel (length (items_of b1) + (length (all_items bs') + 0)) Hlogsplit Hpre).
  apply (res_seq decomp o true _ fuel [] (pb_recs b1) tlr1 tl1 [] tlr1 [] o _ _ (eq_sym (app_nil_r _))).
  - rewrite <- (recs_items_of b1) in HIb1 |- *. destruct (Z.eq_dec (pb_codec b1) 0) as [Hc0|Hc0].
    + rewrite (enc_plain b1 Hb1 Hc0) in *.
      apply (plain_first decomp o fuel hwm k (items_of b1) (length (items_of b1)) tl1 tlr1); rewrite ?firstn_all; try assumption.
      * apply items_of_ok, (proj1 (proj2 Hb1)).
      * split; assumption.
      * destruct (last_off_in (pb_recs b1) 0 Hne1) as (rl & Hrl & Hel). exists rl. rewrite recs_items_of. split; [exact Hrl|lia].
      * lia.
    + rewrite (enc_wrapped b1 Hb1 Hc0) in *.
      apply wrap_first; [apply wrap_ok_of; assumption|exact Hhwm|split; assumption|exact HIb1|exact Hcntf].
  - intros j1 h1 off1 acc1 f1 Hj1 HI1 Hf1 Hfb1.
    apply (res_seq decomp o false _ f1 acc1 (flat_map pb_recs bs') tlrecs tl [] tlrecs [] off1 _ _ (eq_sym (app_nil_r _))).
    + apply legacy_run; try assumption. lia.
    + intros j2 h2 off2 acc2 f2 Hj2 HI2 Hf2 Hfb2. apply v2_res; try assumption. lia.
Qed.

Theorem batch_decode_exact_legacy_wrapped_then_v2 log lg v2 k hwm :
  log_ok log -> layout_ok log (lg ++ v2) ->
  Forall lgc_ok lg -> Forall (fun b => pb_fmt b = 2) v2 -> Forall (v2ok compress) v2 -> 0 <= o ->
  from_offset lg o <> [] -> valid_cut compress (lg ++ v2) o k -> hwm <> o ->
  forall fuel, (length (all_items (from_offset lg o)) + tokens [] v2 + 5 <= fuel)%nat ->
  exists ms f,
    fetch_run decomp fuel o hwm (fetch_response compress (lg ++ v2) o k) (Z.of_nat k) false = Some (ms, EEOF, f)
    /\ fetch_ok log o ms f.
Proof.
  intros H1 H2 H3 H4 H5 H6 H7 H8 H9 fuel H10.
  apply decode_of_full, (batch_decode_exact_legacy_wrapped_then_v2_full log lg v2 k hwm); assumption.
Qed.

Theorem progress_legacy_wrapped_then_v2 log lg v2 k hwm :
  log_ok log -> layout_ok log (lg ++ v2) ->
  Forall lgc_ok lg -> Forall (fun b => pb_fmt b = 2) v2 -> Forall (v2ok compress) v2 -> 0 <= o ->
  from_offset lg o <> [] -> valid_cut compress (lg ++ v2) o k -> hwm <> o ->
  forall fuel ms e f, (length (all_items (from_offset lg o)) + tokens [] v2 + 5 <= fuel)%nat ->
  fetch_run decomp fuel o hwm (fetch_response compress (lg ++ v2) o k) (Z.of_nat k) false = Some (ms, e, f) ->
  ms <> [].
Proof.
  intros H1 H2 H3 H4 H5 H6 H7 H8 H9 fuel ms e f H10.
  apply (progress_of_full _ log o), (batch_decode_exact_legacy_wrapped_then_v2_full log lg v2 k hwm); assumption.
Qed.

Theorem batch_decode_exact_legacy_wrapped log l k hwm :
  log_ok log -> layout_ok log l -> Forall lgc_ok l -> 0 <= o ->
  from_offset l o <> [] -> valid_cut compress l o k -> hwm <> o ->
  forall fuel, (length (all_items (from_offset l o)) + 5 <= fuel)%nat ->
  exists ms f,
    fetch_run decomp fuel o hwm (fetch_response compress l o k) (Z.of_nat k) false = Some (ms, EEOF, f)
    /\ fetch_ok log o ms f /\ ms <> [].
Proof.
  intros H1 H2 H3 H6 H7 H8 H9 fuel H10.
  rewrite <- (app_nil_r l) in H2, H8 |- *.
  apply (batch_decode_exact_legacy_wrapped_then_v2_full log l [] k hwm H1 H2 H3 (Forall_nil _) (Forall_nil _) H6 H7 H8 H9 fuel).
  unfold tokens. cbn [length fold_right]. lia.
Qed.

End WFinal.

Fixpoint formats_ordered (f : Z) (l : layout) {struct l} : Prop :=
  match l with [] => True | b :: t => f <= pb_fmt b /\ formats_ordered (pb_fmt b) t end.

(* formats never decrease: behind a v2 batch all batches are v2 *)
Lemma formats_after_v2 : forall t b, pb_fmt b = 2 -> formats_ordered (pb_fmt b) t -> Forall pbatch_ok t ->
  Forall (fun c => pb_fmt c = 2) t.
Proof.
  induction t as [|c u IH]; intros b F Hf Hp; [constructor|]. destruct Hf as [G1 G2]. apply Forall_cons_iff in Hp as [Hc Hp].
  assert (K : pb_fmt c = 2) by (destruct Hc as ([K|[K|K]] & _); lia).
  constructor; [exact K|exact (IH c K G2 Hp)].
Qed.

Lemma formats_split : forall l f, formats_ordered f l -> Forall pbatch_ok l ->
  exists lg v2, l = lg ++ v2 /\ Forall (fun b => pb_fmt b <> 2) lg /\ Forall (fun b => pb_fmt b = 2) v2.
Proof.
  induction l as [|b t IH]; intros f Hf Hp; [exists [], []; repeat split; constructor|].
  destruct Hf as [Hf1 Hf2]. apply Forall_cons_iff in Hp as [Hb Hp].
  destruct (Z.eq_dec (pb_fmt b) 2) as [F|F].
  - exists [], (b :: t). split; [reflexivity|]. split; [constructor|].
    constructor; [exact F|exact (formats_after_v2 t b F Hf2 Hp)].
  - destruct (IH _ Hf2 Hp) as (lg & v2 & -> & Hlg & Hv2).
    exists (b :: lg), v2. split; [reflexivity|]. split; [constructor; [exact F|exact Hlg]|exact Hv2].
Qed.

Section All.
Variable compress : Z -> list N -> list N.
Variable decomp : Z -> list N -> option (list N).
Hypothesis decomp_law : forall c x, decomp c (compress c x) = Some x.

Definition wire_fits (b : pbatch) : Prop :=
  if pb_fmt b =? 2 then v2ok compress b else lgc_ok compress b.

Lemma tokens_len bs : tokens [] bs = (length bs + length (flat_map pb_recs bs))%nat.
Proof.
  unfold tokens. cbn [length]. induction bs as [|b t IH]; [reflexivity|].
  cbn [fold_right flat_map length]. rewrite app_length. cbn [plus] in *. lia.
Qed.

Lemma all_items_len bs : length (all_items bs) = length (flat_map pb_recs bs).
Proof. rewrite <- recs_of_items. unfold recs_of. rewrite map_length. reflexivity. Qed.

Lemma from_offset_len l o : (length (from_offset l o) <= length l)%nat
  /\ (length (flat_map pb_recs (from_offset l o)) <= length (flat_map pb_recs l))%nat.
Proof.
  destruct (from_offset_split l o) as (pre & E & _). rewrite E at 2 4. rewrite flat_map_app, !app_length. lia.
Qed.

(* an ordered layout whose sizes fit is a v0 / v1 part, plain or wrapped, then a v2 part; the fuel
   of the statements below covers the fuel each part asks for *)
Lemma ordered_parts log l o :
  layout_ok log l -> formats_ordered 0 l -> Forall wire_fits l ->
  exists lg v2, l = lg ++ v2 /\ Forall (lgc_ok compress) lg
    /\ Forall (fun b => pb_fmt b = 2) v2 /\ Forall (v2ok compress) v2
    /\ (S (tokens [] (from_offset v2 o)) <= length log + length l + 5)%nat
    /\ (length (all_items (from_offset lg o)) + tokens [] v2 + 5 <= length log + length l + 5)%nat.
Proof.
  intros (Hrecs & Hpb & _) Hord Hfits.
  destruct (formats_split l 0 Hord Hpb) as (lg & v2 & -> & Hlg & Hv2). exists lg, v2.
  apply Forall_app in Hfits as [Hfl Hfv].
  split; [reflexivity|]. split; [|split; [exact Hv2|split]].
  - apply Forall_forall. intros b Hb. pose proof (proj1 (Forall_forall _ _) Hfl b Hb) as Hw.
    unfold wire_fits in Hw. replace (pb_fmt b =? 2) with false in Hw by (pose proof (proj1 (Forall_forall _ _) Hlg b Hb); cbn in *; lia).
    exact Hw.
  - apply Forall_forall. intros b Hb. pose proof (proj1 (Forall_forall _ _) Hfv b Hb) as Hw.
    unfold wire_fits in Hw. rewrite (proj1 (Forall_forall _ _) Hv2 b Hb) in Hw. exact Hw.
  - rewrite <- Hrecs. unfold layout_records. rewrite flat_map_app, !app_length, !tokens_len, all_items_len.
    pose proof (from_offset_len v2 o). pose proof (from_offset_len lg o). lia.
Qed.

Theorem batch_decode_exact_ordered log l o k hwm :
  log_ok log -> layout_ok log l -> formats_ordered 0 l -> Forall wire_fits l -> 0 <= o ->
  from_offset l o <> [] -> valid_cut compress l o k -> hwm <> o ->
  forall fuel, (length log + length l + 5 <= fuel)%nat ->
  exists ms f,
    fetch_run decomp fuel o hwm (fetch_response compress l o k) (Z.of_nat k) false = Some (ms, EEOF, f)
    /\ fetch_ok log o ms f.
Proof.
  intros Hlog Hlay Hord Hfits Ho Hne Hcut Hhwm fuel Hfuel.
  destruct (ordered_parts log l o Hlay Hord Hfits) as (lg & v2 & -> & Hlgc & Hv2 & Hv2ok & Hf2 & Hf1).
  destruct (from_offset lg o) as [|b1 bs'] eqn:Efo.
  - (* the fetch offset is in the v2 part *)
    assert (Hfo : from_offset (lg ++ v2) o = from_offset v2 o) by (rewrite from_offset_app, Efo; reflexivity).
    assert (H2 : Forall (fun b => pb_fmt b = 2) (from_offset (lg ++ v2) o)) by (rewrite Hfo; apply from_offset_forall, Hv2).
    assert (Hok2 : Forall (v2ok compress) (from_offset (lg ++ v2) o)) by (rewrite Hfo; apply from_offset_forall, Hv2ok).
    assert (Hfu : (S (tokens [] (from_offset (lg ++ v2) o)) <= fuel)%nat) by (rewrite Hfo; lia).
    exact (batch_decode_exact_v2 compress decomp decomp_law log (lg ++ v2) o k hwm Hlog Hlay H2 Hok2 Hne Hcut Hhwm fuel Hfu).
  - assert (Hne1 : from_offset lg o <> []) by (rewrite Efo; discriminate).
    assert (Hfu : (length (all_items (from_offset lg o)) + tokens [] v2 + 5 <= fuel)%nat) by (rewrite Efo; lia).
    exact (batch_decode_exact_legacy_wrapped_then_v2 compress decomp decomp_law o log lg v2 k hwm
             Hlog Hlay Hlgc Hv2 Hv2ok Ho Hne1 Hcut Hhwm fuel Hfu).
Qed.

(* progress: a response whose first batch holds a record at or after o delivers a record *)
Theorem progress_ordered log l o k hwm :
  log_ok log -> layout_ok log l -> formats_ordered 0 l -> Forall wire_fits l -> 0 <= o ->
  valid_cut compress l o k -> hwm <> o ->
  (exists b r, hd_error (from_offset l o) = Some b /\ In r (pb_recs b) /\ o <= r_off r) ->
  forall fuel ms e f, (length log + length l + 5 <= fuel)%nat ->
  fetch_run decomp fuel o hwm (fetch_response compress l o k) (Z.of_nat k) false = Some (ms, e, f) ->
  ms <> [].
Proof.
  intros Hlog Hlay Hord Hfits Ho Hcut Hhwm Hex fuel ms e f Hfuel Hrun.
  assert (Hne : from_offset l o <> []) by (destruct Hex as (b & r & Hb & _); destruct (from_offset l o); discriminate).
  destruct (ordered_parts log l o Hlay Hord Hfits) as (lg & v2 & -> & Hlgc & Hv2 & Hv2ok & Hf2 & Hf1).
  destruct (from_offset lg o) as [|b1 bs'] eqn:Efo.
  - assert (Hfo : from_offset (lg ++ v2) o = from_offset v2 o) by (rewrite from_offset_app, Efo; reflexivity).
    assert (H2 : Forall (fun b => pb_fmt b = 2) (from_offset (lg ++ v2) o)) by (rewrite Hfo; apply from_offset_forall, Hv2).
    assert (Hok2 : Forall (v2ok compress) (from_offset (lg ++ v2) o)) by (rewrite Hfo; apply from_offset_forall, Hv2ok).
    assert (Hfu : (S (tokens [] (from_offset (lg ++ v2) o)) <= fuel)%nat) by (rewrite Hfo; lia).
    exact (progress_v2 compress decomp decomp_law log (lg ++ v2) o k hwm Hlog Hlay H2 Hok2 Hne Hcut Hhwm Hex fuel ms e f Hfu Hrun).
  - assert (Hne1 : from_offset lg o <> []) by (rewrite Efo; discriminate).
    assert (Hfu : (length (all_items (from_offset lg o)) + tokens [] v2 + 5 <= fuel)%nat) by (rewrite Efo; lia).
    exact (progress_legacy_wrapped_then_v2 compress decomp decomp_law o log lg v2 k hwm
             Hlog Hlay Hlgc Hv2 Hv2ok Ho Hne1 Hcut Hhwm fuel ms e f Hfu Hrun).
Qed.

Theorem contract_ordered log l k hwm fuel g :
  log_ok log -> layout_ok log l -> formats_ordered 0 l -> Forall wire_fits l -> 0 <= g_conn g ->
  from_offset l (g_conn g) <> [] -> valid_cut compress l (g_conn g) k -> hwm <> g_conn g ->
  (length log + length l + 5 <= fuel)%nat ->
  ev_ok (fetch_run decomp fuel) log g
        (GFetch (FData hwm (fetch_response compress l (g_conn g) k) (Z.of_nat k) false)).
Proof.
  intros H1 H2 H3 H4 H5 H6 H7 H8 H9.
  apply contract_of_decode, batch_decode_exact_ordered; assumption.
Qed.

End All.
