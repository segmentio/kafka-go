(* Proofs/ReaderWrapRun.v — C02, L1: a compressed v0 / v1 wrapper message read to its end:
   the header, the decompression, the inner messages, the pop back to the response's frame. *)
From Coq Require Import List NArith ZArith Bool Lia.
From Coq Require Import ZifyN ZifyNat ZifyBool.
From KV Require Import Lib.Bits Lib.Bytes Lib.Varint Model.MsgSetReader Model.ReaderModel Spec.FetchSpec
  Proofs.ReaderPrim Proofs.ReaderV2 Proofs.ReaderV1 Proofs.ReaderProofs Proofs.ReaderV1Run Proofs.ReaderWrap Proofs.ReaderWrapInner.
Import ListNotations.
Open Scope Z_scope.

Section WRun.
Variable compress : Z -> list N -> list N.
Variable decomp : Z -> list N -> option (list N).
Hypothesis decomp_law : forall c x, decomp c (compress c x) = Some x.
Variable tl : list N.            (* the response's bytes after the wrapper *)
Variable o : Z.

Variables fmt codec Wo ts size bse : Z.
Variable titems : list item.     (* the inner messages with their true offsets *)

Notation Wm := (wire bse).
Notation witems := (map (wire bse) titems).
Notation WH := (whdr fmt codec Wo ts size).

Definition wenc : list N := lh fmt codec Wo ts size ++ wtail compress codec witems.

(* the last conjunct: bse is the base offset extractOffset computes from the wrapper's offset and
   the last inner offset *)
Definition wrap_ok : Prop :=
  wh_fits fmt codec Wo ts size /\ Forall (inner_ok bse) titems /\ titems <> []
  /\ len (compress codec (stream witems)) < 2 ^ 30
  /\ wrap64 (Wo - last_off (recs_of witems) 0) = bse.

Definition rootf (jr : Z) : frame := mkFrame (ztake jr tl) (len (ztake jr tl)) 0 0 WH.
Definition ist (jr : Z) (items : list item) (h : hdr) (el : Z) : msr := ibnd [rootf jr] bse items h el.

Lemma ist_nil jr h el : ist jr [] h el = st (ztake jr tl) 0 WH 1 el.
Proof. reflexivity. Qed.

Lemma witems_ok : wrap_ok -> Forall item_ok witems.
Proof.
  intros (_ & Hin & _). apply Forall_forall. intros it Hit. apply in_map_iff in Hit as (t & <- & Ht).
  apply (proj1 (Forall_forall _ _) Hin t Ht).
Qed.

Lemma pushed_ist jr el : wrap_ok ->
  pushed fmt codec Wo ts size witems (ztake jr tl) el = ist jr titems hdr0 el.
Proof.
  intros (_ & _ & Hne & _ & Hb). unfold ist. rewrite ibnd_nonempty by exact Hne.
  unfold pushed, stp, rootf. rewrite Hb. reflexivity.
Qed.

Lemma inner_hdrs (it : item) : inner_ok bse it -> r_hdrs (snd it) = [].
Proof. intros ((_ & _ & _ & _ & _ & _ & Hh) & _). exact Hh. Qed.

Lemma whdr_magic : wrap_ok -> h_magic WH = 0 \/ h_magic WH = 1.
Proof. intros ((H & _) & _). exact H. Qed.

Lemma inner_step fuel mn jr items J h el it' items' j' :
  Forall (inner_ok bse) items -> len (stream items) <= J -> (length items + 3 <= fuel)%nat ->
  lg_bnd mn items J = LDeliver it' items' j' ->
  msr_read decomp fuel mn (ist jr items h el)
  = MOk (msg_of (snd it'), -1) (ist jr items' (mhdr (fst it') (snd (Wm it'))) el).
Proof.
  intros Hall HJ Hf El. destruct items as [|it t]; [discriminate|].
  destruct (lstep_split mn (PBnd (it :: t) J h) _ _ _ El) as (sk & E & _). cbn [pitems] in E.
  assert (Hok' : inner_ok bse it') by (rewrite E in Hall; apply Forall_app in Hall as [_ Hall]; apply (Forall_inv Hall)).
  pose proof (Forall_inv Hall) as Hok.
  cbn [lg_bnd] in El. destruct (J <? len (mh (fst it) (snd it))) eqn:EJ; [discriminate|].
  rewrite stream_cons_len in HJ.
  destruct fuel as [|[|f]]; try (cbn [length] in Hf; lia). cbn [length] in Hf.
  pose proof (inner_reads [rootf jr] bse decomp t it (J - len (mh (fst it) (snd it))) (S f) mn el Hall ltac:(lia) ltac:(lia)) as Hd.
  rewrite El in Hd.
  unfold ist. rewrite ibnd_nonempty by discriminate. cbn [map].
  change (stream (Wm it :: map Wm t)) with (enc_item (Wm it) ++ stream (map Wm t)). unfold enc_item. rewrite <- app_assoc.
  rewrite (msr_read_v1 decomp (S (S f)) mn (stp [rootf jr] bse _ 0 h 1 el) [rootf jr] bse _ 1 _ 1 el eq_refl
             (read_header_msg (S f) _ _ _ _ _ h 1 el (proj1 Hok)) (proj1 (proj1 Hok))).
  unfold bind. rewrite read_v1_in; [|pose proof (mb_len_pos (snd (Wm it))); pose proof (len_nonneg (stream (map Wm t))); rewrite len_app; lia|lia].
  change (stp [rootf jr] bse (mb (snd (Wm it)) ++ stream (map Wm t)) 1 (mhdr (fst (Wm it)) (snd (Wm it))) 1 el)
    with (iin [rootf jr] bse it t el).
  rewrite Hd. unfold vals, ret. rewrite (msg_of_vals _ (inner_hdrs it' Hok')). reflexivity.
Qed.

Lemma wtail_len : len (wtail compress codec witems) = 8 + len (compress codec (stream witems)).
Proof. unfold wtail. rewrite !len_app. unfold i32. rewrite !put_bes_len. change (len []) with 0. lia. Qed.

Lemma wrap_in fuel mn jr el m0 it' items' j' :
  wrap_ok -> m_empty m0 = false ->
  read_header fuel m0 = MOk tt (st (wtail compress codec witems ++ ztake jr tl) 1 WH 1 el) ->
  (length titems + 4 <= fuel)%nat ->
  lg_bnd mn titems (len (stream titems)) = LDeliver it' items' j' ->
  msr_read decomp fuel mn m0 = MOk (msg_of (snd it'), -1) (ist jr items' (mhdr (fst it') (snd (Wm it'))) el).
Proof.
  intros Hw Hemp Hhdr Hf El. pose proof Hw as (Hfit & Hin & Hne & Hlen & Hb).
  destruct (lstep_split mn (PBnd titems (len (stream titems)) hdr0) _ _ _ El) as (sk & E & _). cbn [pitems] in E.
  assert (Hok' : inner_ok bse it') by (rewrite E in Hin; apply Forall_app in Hin as [_ Hin]; apply (Forall_inv Hin)).
  rewrite (msr_read_v1 decomp fuel mn m0 [] 0 _ _ _ _ _ Hemp Hhdr (whdr_magic Hw)).
  destruct fuel as [|f]; [lia|]. unfold bind.
  rewrite (read_v1_in decomp f mn [] 0);
    [|rewrite len_app, wtail_len; pose proof (len_nonneg (compress codec (stream witems))); pose proof (len_nonneg (ztake jr tl)); lia|lia].
  rewrite (wrapper_enter compress decomp decomp_law _ mn fmt codec Wo ts size witems (ztake jr tl) el Hfit (witems_ok Hw) Hlen).
  rewrite pushed_ist by exact Hw.
  pose proof (inner_bnd_reads [rootf jr] bse decomp titems (len (stream titems)) f mn hdr0 el Hin (Z.le_refl _) ltac:(lia)) as Hd.
  rewrite El in Hd. unfold ist. rewrite Hd. unfold vals, ret. rewrite (msg_of_vals _ (inner_hdrs it' Hok')). reflexivity.
Qed.

Lemma wrap_in_short fuel mn el m0 q q' :
  wrap_ok -> m_empty m0 = false ->
  read_header fuel m0 = MOk tt (st q 1 WH 1 el) -> (3 <= fuel)%nat ->
  wtail compress codec witems = q ++ q' -> q' <> [] ->
  ended el (msr_read decomp fuel mn m0).
Proof.
  intros Hw Hemp Hhdr Hf He Hq. pose proof Hw as (Hfit & Hin & Hne & Hlen & Hb).
  rewrite (msr_read_v1 decomp fuel mn m0 [] 0 _ _ _ _ _ Hemp Hhdr (whdr_magic Hw)). apply ended_bind.
  destruct fuel as [|[|f]]; try lia.
  destruct (Z.eq_dec (len q) 0) as [H0|H0]; [apply read_v1_pop, H0|].
  rewrite (read_v1_in decomp (S f) mn [] 0) by (try exact H0; lia).
  apply (wrapper_short compress decomp decomp_law _ mn fmt codec Wo ts size witems q q' el Hfit Hlen He Hq).
Qed.

Lemma wrap_bnd fuel mn j h el :
  wrap_ok -> 0 <= j -> (length titems + 4 <= fuel)%nat ->
  if j <? len wenc then ended el (msr_read decomp fuel mn (st (ztake j (wenc ++ tl)) 0 h 1 el))
  else match lg_bnd mn titems (len (stream titems)) with
       | LDeliver it' items' _ =>
         msr_read decomp fuel mn (st (ztake j (wenc ++ tl)) 0 h 1 el)
         = MOk (msg_of (snd it'), -1) (ist (j - len wenc) items' (mhdr (fst it') (snd (Wm it'))) el)
       | _ => True
       end.
Proof.
  intros Hw Hj Hf. pose proof Hw as (Hfit & _). pose proof (wh_lh_fits _ _ _ _ _ Hfit) as Hlf.
  pose proof (lh_len fmt codec Wo ts size (proj1 Hfit)) as Hwl.
  assert (Hwh0 : 0 < len (lh fmt codec Wo ts size)) by (rewrite Hwl; destruct (fmt =? 1); lia).
  pose proof (len_nonneg (wtail compress codec witems)).
  unfold wenc. rewrite <- app_assoc, len_app. destruct fuel as [|f]; [lia|].
  destruct (j <? len (lh fmt codec Wo ts size)) eqn:E1.
  - replace (j <? len (lh fmt codec Wo ts size) + len (wtail compress codec witems)) with true by lia.
    unfold msr_read. cbn [m_empty st]. apply ended_bind.
    destruct (ztake_app_lt j (lh fmt codec Wo ts size) (wtail compress codec witems ++ tl) ltac:(lia)) as (H1 & H2 & H3).
    rewrite H1. exact (read_header_legacy_short f _ _ _ _ _ _ _ h el Hlf H2 H3).
  - rewrite ztake_app_ge by lia.
    pose proof (read_header_legacy f [] 0 _ _ _ _ _ (ztake (j - len (lh fmt codec Wo ts size)) (wtail compress codec witems ++ tl)) h 1 el Hlf) as Hhdr.
    destruct (j <? len (lh fmt codec Wo ts size) + len (wtail compress codec witems)) eqn:E2.
    + destruct (ztake_app_lt (j - len (lh fmt codec Wo ts size)) (wtail compress codec witems) tl ltac:(lia)) as (H1 & H2 & H3).
      rewrite H1 in Hhdr |- *.
      apply (wrap_in_short (S f) mn el (st (lh fmt codec Wo ts size ++ _) 0 h 1 el) _ _ Hw (eq_refl false) Hhdr ltac:(lia) H2 H3).
    + destruct (lg_bnd mn titems (len (stream titems))) as [it' items' j'| |jc] eqn:El; [|exact I|exact I].
      rewrite ztake_app_ge in Hhdr |- * by lia.
      replace (j - (len (lh fmt codec Wo ts size) + len (wtail compress codec witems)))
        with (j - len (lh fmt codec Wo ts size) - len (wtail compress codec witems)) by lia.
      apply (wrap_in (S f) mn _ el (st (lh fmt codec Wo ts size ++ _) 0 h 1 el) it' items' j' Hw (eq_refl false) Hhdr Hf El).
Qed.

(* the inner messages to their end, from a state m0 whose next call behaves as the one at the
   inner boundary in front of items does: the wrapper being entered, or that boundary itself *)
Lemma inner_run : forall fuel ne items J off acc jr tlr m0,
  Forall (inner_ok bse) items -> len (stream items) <= J -> 0 <= jr -> linv o tlr (recs_of items) off ->
  (length items + 3 <= fuel)%nat ->
  match items with
  | [] => ne = false /\ m0 = st (ztake jr tl) 0 WH 1 (-1)
  | _ => forall it' items' j', lg_bnd off items J = LDeliver it' items' j' ->
           msr_read decomp fuel off m0 = MOk (msg_of (snd it'), -1) (ist jr items' (mhdr (fst it') (snd (Wm it'))) (-1))
  end ->
  Res decomp o ne (batch_run decomp fuel (mkBatch (Some m0) true o off (-1) None false) acc) fuel acc (recs_of items) tl tlr off (length items).
Proof.
  induction fuel as [|f IH]; intros ne items J off acc jr tlr m0 Hall HJ Hjr HI Hf Hm; [lia|].
  destruct items as [|it t].
  - destruct Hm as [-> ->]. apply (res_nil decomp o (S f) jr WH acc tl tlr off 0 Hjr HI). cbn [length] in Hf. lia.
  - pose proof (lg_bnd_whole off (it :: t) J HJ) as Hw.
    destruct (lg_bnd off (it :: t) J) as [it' items' j'| |jc] eqn:El; [|contradiction|].
    + destruct (lstep_split off (PBnd (it :: t) J hdr0) it' items' j' El) as (sk & E1 & E2 & E3). cbn [pitems] in E1.
      apply (res_deliver decomp o ne f _ _ off acc _ sk it' items' tl tlr E1 E2 E3 HI (Hm _ _ _ eq_refl) eq_refl). intros HI'.
      rewrite E1 in Hall, Hf. apply Forall_app in Hall as [_ [Hok' Hall]%Forall_cons_iff].
      rewrite app_length in Hf. cbn [length] in Hf.
      apply (IH false items' j' _ _ jr tlr _ Hall Hw Hjr HI' ltac:(lia)).
      destruct items' as [|i2 t2]; [split; reflexivity|].
      intros i3 t3 j3 El3. apply (inner_step f _ jr (i2 :: t2) j' _ (-1) i3 t3 j3 Hall Hw ltac:(cbn [length] in *; lia) El3).
    + exfalso. apply (lstep_no_cont o tlr (PBnd (it :: t) J hdr0) off jc HI ltac:(discriminate) El).
Qed.

Lemma wrap_run_gen ne fuel m0 jr off acc tlr :
  wrap_ok -> 0 <= jr -> linv o tlr (recs_of titems) off -> (length titems + 4 <= fuel)%nat ->
  (forall it' items' j', lg_bnd off titems (len (stream titems)) = LDeliver it' items' j' ->
     msr_read decomp fuel off m0 = MOk (msg_of (snd it'), -1) (ist jr items' (mhdr (fst it') (snd (Wm it'))) (-1))) ->
  Res decomp o ne (batch_run decomp fuel (mkBatch (Some m0) true o off (-1) None false) acc) fuel acc (recs_of titems) tl tlr off (length titems).
Proof.
  intros (_ & Hin & Hne & _) Hjr HI Hf Hfirst.
  apply (inner_run fuel ne titems (len (stream titems)) off acc jr tlr m0 Hin (Z.le_refl _) Hjr HI ltac:(lia)).
  destruct titems; [contradiction|exact Hfirst].
Qed.

Lemma wrap_run fuel j h off acc tlr :
  wrap_ok -> 0 <= j -> linv o tlr (recs_of titems) off -> (length titems + 4 <= fuel)%nat ->
  Res decomp o false (batch_run decomp fuel (LB o (wenc ++ tl) (PBnd [] j h) off) acc) fuel acc (recs_of titems) tl tlr off (length titems).
Proof.
  intros Hw Hj HI Hf.
  pose proof (wrap_bnd fuel off j h (-1) Hw Hj Hf) as Hb.
  change (LB o (wenc ++ tl) (PBnd [] j h) off)
    with (mkBatch (Some (st (ztake j (wenc ++ tl)) 0 h 1 (-1))) true o off (-1) None false).
  destruct (j <? len wenc) eqn:Ej.
  - destruct fuel as [|f]; [lia|]. apply res_stop; [exact HI|]. apply batch_ended, Hb.
  - apply (wrap_run_gen false fuel _ (j - len wenc) off acc tlr Hw ltac:(lia) HI Hf).
    intros it' items' j' El. rewrite El in Hb. exact Hb.
Qed.

Lemma wrap_run_in fuel jr off acc tlr :
  wrap_ok -> 0 <= jr -> linv o tlr (recs_of titems) off -> (length titems + 4 <= fuel)%nat ->
  Res decomp o true (batch_run decomp fuel
              (mkBatch (Some (st (wtail compress codec witems ++ ztake jr tl) 1 WH 1 (-1))) true o off (-1) None false) acc)
      fuel acc (recs_of titems) tl tlr off (length titems).
Proof.
  intros Hw Hj HI Hf. set (m0 := st (wtail compress codec witems ++ ztake jr tl) 1 WH 1 (-1)).
  apply (wrap_run_gen true fuel m0 jr off acc tlr Hw Hj HI Hf).
  intros it' items' j' El.
  apply (wrap_in fuel off jr (-1) m0 it' items' j' Hw (eq_refl false)); [apply (read_header_pending fuel [] 0); lia|exact Hf|exact El].
Qed.

End WRun.
