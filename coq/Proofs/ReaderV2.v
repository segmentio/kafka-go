(* Proofs/ReaderV2.v — C02, L1: the v2 batch header and the v2 record as the specification
   encodes them are decoded by the model's readNextHeader / readMessageV2 to the stored
   values; on every proper prefix (a response cut at the byte limit) they report
   errShortRead and leave the bookkeeping untouched. *)
From Coq Require Import List NArith ZArith Bool Lia.
From Coq Require Import ZifyN ZifyNat ZifyBool.
From KV Require Import Lib.Bits Lib.Bytes Lib.Varint Model.MsgSetReader Spec.FetchSpec Proofs.ReaderPrim.
Import ListNotations.
Open Scope Z_scope.

(* sizes fit the wire format *)
Definition hdr_fits (h : list N * list N) : Prop := blen (fst h) < 2 ^ 30 /\ blen (snd h) < 2 ^ 30.
Definition rec_fits (r : record) : Prop :=
  small (r_off r) /\ small (r_ts r)
  /\ blen (opt_bytes (r_key r)) < 2 ^ 30 /\ blen (opt_bytes (r_val r)) < 2 ^ 30
  /\ Z.of_nat (length (r_hdrs r)) < 2 ^ 30 /\ Forall hdr_fits (r_hdrs r).

Lemma blen_len l : blen l = len l.
Proof. reflexivity. Qed.

Lemma vsmall_of_small a b : small a -> small b -> vsmall (a - b).
Proof. unfold small, vsmall. lia. Qed.
Lemma vsmall_len z : -1 <= z < 2 ^ 31 -> vsmall z.
Proof. unfold vsmall. lia. Qed.

Lemma wrap64_small z : - 2 ^ 63 <= z < 2 ^ 63 -> wrap64 z = z.
Proof.
  intros H. unfold wrap64, ZM63, ZM64. rewrite Z.mod_small; lia.
Qed.

Lemma wrap32_small z : - 2 ^ 31 <= z < 2 ^ 31 -> wrap32 z = z.
Proof. intros H. unfold wrap32, ZM31, ZM32. rewrite Z.mod_small; lia. Qed.

(* messagesHeader.compression masks the attributes with 7 *)
Lemma land7 c : 1 <= c <= 4 -> Z.land c 7 = c.
Proof. intros H. assert (c = 1 \/ c = 2 \/ c = 3 \/ c = 4) as [-> | [-> | [-> | ->]]] by lia; reflexivity. Qed.

Lemma sg1 z : - 2 ^ 7 <= z < 2 ^ 7 -> in_signed 1 z.
Proof. unfold in_signed. change (Z.of_N (pow256 1 / 2)) with (2 ^ 7). lia. Qed.
Lemma sg2 z : - 2 ^ 15 <= z < 2 ^ 15 -> in_signed 2 z.
Proof. unfold in_signed. change (Z.of_N (pow256 2 / 2)) with (2 ^ 15). lia. Qed.
Lemma sg4 z : - 2 ^ 31 <= z < 2 ^ 31 -> in_signed 4 z.
Proof. unfold in_signed. change (Z.of_N (pow256 4 / 2)) with (2 ^ 31). lia. Qed.
Lemma sg8 z : - 2 ^ 63 <= z < 2 ^ 63 -> in_signed 8 z.
Proof. unfold in_signed. change (Z.of_N (pow256 8 / 2)) with (2 ^ 63). lia. Qed.

Lemma dec_i8 z : - 2 ^ 7 <= z < 2 ^ 7 -> mdec (lift (p_int 1)) (i8 z) (ret z).
Proof. intros H. apply dec_int; [lia|apply sg1, H]. Qed.
Lemma dec_i16 z : - 2 ^ 15 <= z < 2 ^ 15 -> mdec (lift (p_int 2)) (i16 z) (ret z).
Proof. intros H. apply dec_int; [lia|apply sg2, H]. Qed.
Lemma dec_i32 z : - 2 ^ 31 <= z < 2 ^ 31 -> mdec (lift (p_int 4)) (i32 z) (ret z).
Proof. intros H. apply dec_int; [lia|apply sg4, H]. Qed.
Lemma dec_i64 z : - 2 ^ 63 <= z < 2 ^ 63 -> mdec (lift (p_int 8)) (i64 z) (ret z).
Proof. intros H. apply dec_int; [lia|apply sg8, H]. Qed.

Definition rd_vbytes : M (list N) := kl <- lift p_varint ;; lift (p_newbytes kl).

Lemma dec_vbytes o : blen (opt_bytes o) < 2 ^ 30 -> mdec rd_vbytes (vbytes o) (ret (opt_bytes o)).
Proof.
  intros Hl. unfold rd_vbytes, vbytes. destruct o as [b|]; cbn [opt_bytes] in *.
  - eapply mdec_bind; [apply dec_varint, vsmall_len; unfold blen in *; lia|apply (dec_newbytes b)].
  - rewrite <- (app_nil_r (put_varint (-1))). eapply mdec_bind; [apply dec_varint, vsmall_len; lia|].
    split; [apply mspec_lift, pspec_newbytes_null; lia|apply mshort_nil].
Qed.

Lemma put_varint_nonempty z : put_varint z <> [].
Proof.
  unfold put_varint, put_uvarint. generalize (zigzag z mod M64)%N. intros x.
  cbn [uvarint_enc]. destruct (x <? 128)%N; discriminate.
Qed.

Lemma enc_rec_header_len h : 2 <= len (enc_rec_header h).
Proof.
  unfold enc_rec_header. rewrite !len_app.
  pose proof (len_pos _ (put_varint_nonempty (blen (fst h)))).
  pose proof (len_pos _ (put_varint_nonempty (blen (snd h)))).
  pose proof (len_nonneg (fst h)). pose proof (len_nonneg (snd h)). lia.
Qed.

Definition rd_one_header : M (list N * list N) :=
  kl <- lift p_varint ;; k <- lift (p_newbytes kl) ;; vl <- lift p_varint ;; v <- lift (p_newbytes vl) ;; ret (k, v).

Lemma dec_one_header h : hdr_fits h -> mdec rd_one_header (enc_rec_header h) (ret h).
Proof.
  destruct h as [hk hv]. unfold hdr_fits, rd_one_header, enc_rec_header, blen. cbn [fst snd]. intros [H1 H2].
  eapply mdec_bind; [apply dec_varint, vsmall_len; lia|].
  eapply mdec_bind; [apply (dec_newbytes hk)|].
  eapply mdec_bind; [apply dec_varint, vsmall_len; lia|].
  apply (mdec_then _ (fun v => ret (hk, v)) _ _ (dec_newbytes hv)).
Qed.

(* the loop, stated pointwise to avoid extensionality *)
Lemma read_rec_headers_S n m :
  read_rec_headers (S n) m =
  match rd_one_header m with
  | MOk h m1 => match read_rec_headers n m1 with
                | MOk rest m2 => MOk (h :: rest) m2
                | MErr e m2 => MErr e m2
                | MPanic => MPanic
                end
  | MErr e m1 => MErr e m1
  | MPanic => MPanic
  end.
Proof.
  cbn [read_rec_headers]. unfold rd_one_header, bind, ret.
  destruct (lift p_varint m) as [kl m1|e m1|]; [|reflexivity|reflexivity].
  destruct (lift (p_newbytes kl) m1) as [k m2|e m2|]; [|reflexivity|reflexivity].
  destruct (lift p_varint m2) as [vl m3|e m3|]; [|reflexivity|reflexivity].
  destruct (lift (p_newbytes vl) m3) as [v m4|e m4|]; [|reflexivity|reflexivity].
  destruct (read_rec_headers n m4); reflexivity.
Qed.

Lemma mspec_headers hs : Forall hdr_fits hs ->
  mspec (read_rec_headers (length hs)) (flat_map enc_rec_header hs) hs.
Proof.
  induction hs as [|h t IH]; intros Hf.
  - apply mspec_ret.
  - apply Forall_cons_iff in Hf as [Hh Ht]. cbn [length]. rewrite flat_map_cons.
    intros m f ps rest Hex. rewrite read_rec_headers_S.
    rewrite <- app_assoc in Hex.
    rewrite (proj1 (dec_one_header h Hh) m f ps _ Hex). unfold ret.
    rewrite (IH Ht _ _ ps rest (with_in_exact m f ps _)). rewrite with_in_with_in. reflexivity.
Qed.

(* the loop runs n = min(count, remain + 1) times, computed on the stream as it is: on a proper
   prefix q that is the stored count, or more than the bytes left, and every header takes two *)
Lemma mshort_headers hs : Forall hdr_fits hs -> forall n m f ps q q',
  top_exact m f ps q -> flat_map enc_rec_header hs = q ++ q' -> q' <> [] ->
  ((length hs <= n)%nat \/ len q < Z.of_nat n) ->
  exists i', read_rec_headers n m = MErr EShort (with_in m f ps i').
Proof.
  induction hs as [|h t IH]; intros Hf n m f ps q q' Hex He Hq Hn.
  - destruct q; destruct q'; try discriminate He. contradiction.
  - apply Forall_cons_iff in Hf as [Hh Ht]. rewrite flat_map_cons in He.
    destruct n as [|n].
    { exfalso. pose proof (len_nonneg q). cbn [length] in Hn. lia. }
    rewrite read_rec_headers_S.
    destruct (prefix_split _ _ _ _ He) as [(r & H1 & H2 & H3)|(q2 & H1 & H2)].
    + destruct (proj2 (dec_one_header h Hh) m f ps q r Hex H1 H2) as [i' Hi']. rewrite Hi'. exists i'. reflexivity.
    + subst q. rewrite (proj1 (dec_one_header h Hh) m f ps q2 Hex). unfold ret.
      destruct (IH Ht n _ _ ps q2 q' (with_in_exact m f ps q2) H2 Hq) as [i' Hi'].
      * pose proof (enc_rec_header_len h). rewrite len_app in Hn. cbn [length] in Hn.
        destruct Hn as [Hn|Hn]; [left; lia|right; lia].
      * rewrite Hi'. exists i'. rewrite with_in_with_in. reflexivity.
Qed.

Lemma headers_len hs : Z.of_nat (length hs) <= len (flat_map enc_rec_header hs).
Proof.
  induction hs as [|h t IH]; [unfold len; cbn; lia|].
  cbn [length]. rewrite flat_map_cons, len_app. pose proof (enc_rec_header_len h). lia.
Qed.

(* a current frame over parent frames (a decompressed record set over the response) *)
Definition stp (ps : list frame) (bse : Z) (i : list N) (c : Z) (h : hdr) (lr el : Z) : msr :=
  mkMsr (mkFrame i (len i) bse c h :: ps) false lr el.

Lemma stp_exact ps bse i c h lr el : top_exact (stp ps bse i c h lr el) (mkFrame i (len i) bse c h) ps i.
Proof. unfold top_exact, stp. cbn. auto. Qed.

Lemma step_stp {A B} (c : M A) (k : A -> M B) bs v rest ps bse cc h lr el :
  mspec c bs v -> bind c k (stp ps bse (bs ++ rest) cc h lr el) = k v (stp ps bse rest cc h lr el).
Proof.
  intros H. unfold bind. rewrite (H _ _ ps rest (stp_exact ps bse (bs ++ rest) cc h lr el)). reflexivity.
Qed.

Lemma top_stp {B} (k : frame -> M B) ps bse i cc h lr el :
  bind top k (stp ps bse i cc h lr el) = k (mkFrame i (len i) bse cc h) (stp ps bse i cc h lr el).
Proof. reflexivity. Qed.

Lemma mshort_stp {A} (c : M A) bs q q' ps bse cc h lr el :
  mshort c bs -> bs = q ++ q' -> q' <> [] ->
  exists i', c (stp ps bse q cc h lr el) = MErr EShort (stp ps bse i' cc h lr el).
Proof.
  intros H He Hq. destruct (H _ _ ps q q' (stp_exact ps bse q cc h lr el) He Hq) as [i' Hi'].
  exists i'. rewrite Hi'. reflexivity.
Qed.

(* the response itself: no parent, base 0 *)
Definition st (i : list N) (c : Z) (h : hdr) (lr el : Z) : msr :=
  mkMsr [mkFrame i (len i) 0 c h] false lr el.

Lemma step_st {A B} (c : M A) (k : A -> M B) bs v rest cc h lr el :
  mspec c bs v -> bind c k (st (bs ++ rest) cc h lr el) = k v (st rest cc h lr el).
Proof. apply (step_stp c k bs v rest [] 0). Qed.

Lemma top_st {B} (k : frame -> M B) i cc h lr el :
  bind top k (st i cc h lr el) = k (mkFrame i (len i) 0 cc h) (st i cc h lr el).
Proof. reflexivity. Qed.

Lemma mshort_st {A} (c : M A) bs q q' cc h lr el :
  mshort c bs -> bs = q ++ q' -> q' <> [] -> exists i', c (st q cc h lr el) = MErr EShort (st i' cc h lr el).
Proof. apply (mshort_stp c bs q q' [] 0). Qed.

Lemma read_header_pending fuel ps bse i c h lr el : 0 < c ->
  read_header fuel (stp ps bse i c h lr el) = MOk tt (stp ps bse i c h lr el).
Proof.
  intros Hc. unfold read_header. rewrite top_stp. cbn [f_count].
  replace (0 <? c) with true by lia. reflexivity.
Qed.

Lemma discard_exact i c h lr el : msr_discard (st i c h lr el) = None.
Proof.
  unfold msr_discard, st. cbn [m_empty m_stack root f_remain f_in]. unfold p_discard.
  pose proof (len_nonneg i). replace (len i <=? len i) with true by lia.
  replace (len i <? 0) with false by lia. replace (len i <? len i) with false by lia. reflexivity.
Qed.

Lemma rec_vs base ts0 r : rec_fits r -> small base -> small ts0 ->
  vsmall (r_ts r - ts0) /\ vsmall (r_off r - base) /\ vsmall (Z.of_nat (length (r_hdrs r))).
Proof.
  intros (H1 & H2 & _ & _ & H5 & _) Hb Ht. repeat split; unfold small, vsmall in *; lia.
Qed.

Lemma body_len base ts0 r : rec_fits r -> 0 < blen (enc_record_body base ts0 r).
Proof.
  intros _. unfold enc_record_body, i8, blen. rewrite app_length.
  assert (length (put_bes 1 0) = 1%nat) by (unfold put_bes; apply put_be_length). lia.
Qed.

Lemma enc_record_nonempty base ts r : 0 < len (enc_record base ts r).
Proof.
  unfold enc_record. cbv zeta. rewrite len_app.
  pose proof (len_pos _ (put_varint_nonempty (blen (enc_record_body base ts r)))).
  pose proof (len_nonneg (enc_record_body base ts r)). lia.
Qed.

Definition msg_fields (base lod : Z) (r : record) :=
  (r_off r, base + lod, r_ts r, opt_bytes (r_key r), opt_bytes (r_val r), r_hdrs r).

Lemma record_ok_g ps bse base ts0 lod L attr n r rest c lr el :
  rec_fits r -> small base -> small ts0 -> 0 <= lod < 2 ^ 31 -> 0 < c ->
  blen (enc_record_body base ts0 r) < 2 ^ 31 ->
  let h := mkHdr base L 2 attr ts0 lod n in
  read_v2_record (stp ps bse (enc_record base ts0 r ++ rest) c h lr el)
  = MOk (msg_fields base lod r)
        (mkMsr (unwind (mkFrame rest (len rest) bse (c - 1) h :: ps)) false (lr - len (enc_record base ts0 r)) el).
Proof.
  intros Hf Hb Ht Hlod Hc Hbl h.
  destruct (rec_vs base ts0 r Hf Hb Ht) as (V1 & V2 & V3).
  destruct Hf as (F1 & F2 & F3 & F4 & F5 & F6).
  unfold read_v2_record, enc_record, enc_record_body in *. cbv zeta in *.
  set (body := i8 0 ++ put_varint (r_ts r - ts0) ++ put_varint (r_off r - base) ++ vbytes (r_key r)
               ++ vbytes (r_val r) ++ put_varint (Z.of_nat (length (r_hdrs r))) ++ flat_map enc_rec_header (r_hdrs r)) in *.
  assert (VL : vsmall (blen body)) by (pose proof (len_nonneg body); apply vsmall_len; unfold blen, len in *; lia).
  rewrite top_stp. rewrite <- (app_assoc (put_varint (blen body)) body rest).
  rewrite (step_stp _ _ _ (blen body)) by apply dec_varint, VL.
  rewrite top_stp. cbv zeta. cbn [f_remain].
  subst body. rewrite <- !app_assoc.
  rewrite (step_stp _ _ (i8 0) 0) by (apply dec_i8; lia).
  rewrite (step_stp _ _ _ (r_ts r - ts0)) by apply dec_varint, V1.
  rewrite (step_stp _ _ _ (r_off r - base)) by apply dec_varint, V2.
  rewrite (step_stp _ _ _ (opt_bytes (r_key r))) by apply dec_vbytes, F3.
  rewrite (step_stp _ _ _ (opt_bytes (r_val r))) by apply dec_vbytes, F4.
  rewrite (step_stp _ _ _ (Z.of_nat (length (r_hdrs r)))) by apply dec_varint, V3.
  rewrite top_stp. cbn [f_remain].
  assert (Hn : Z.to_nat (Z.min (Z.of_nat (length (r_hdrs r))) (len (flat_map enc_rec_header (r_hdrs r) ++ rest) + 1))
               = length (r_hdrs r)).
  { rewrite len_app. pose proof (headers_len (r_hdrs r)). pose proof (len_nonneg rest). lia. }
  rewrite Hn.
  rewrite (step_stp _ _ _ (r_hdrs r)) by apply mspec_headers, F6.
  rewrite top_stp. cbn [f_hdr]. unfold bind at 1, get_lrem. cbn [m_lrem stp].
  unfold bind at 1, set_lrem. unfold bind at 1, mark_read. cbn [m_stack stp f_count].
  replace (c =? 0) with false by lia. unfold ret, msg_fields, h. cbn [h_first h_lod h_ts m_stack m_empty m_elast set_stack unwind f_in f_remain f_base f_count f_hdr].
  unfold small in *.
  rewrite !wrap64_small by lia.
  unfold stp, set_stack. cbn [m_stack m_empty m_lrem m_elast f_in f_remain f_base f_count f_hdr].
  f_equal.
  - repeat f_equal; lia.
  - f_equal. rewrite !len_app. unfold blen, len. lia.
Qed.

Lemma record_ok base ts0 lod L attr n r rest c lr el :
  rec_fits r -> small base -> small ts0 -> 0 <= lod < 2 ^ 31 -> 0 < c ->
  blen (enc_record_body base ts0 r) < 2 ^ 31 ->
  let h := mkHdr base L 2 attr ts0 lod n in
  read_v2_record (st (enc_record base ts0 r ++ rest) c h lr el)
  = MOk (msg_fields base lod r) (st rest (c - 1) h (lr - len (enc_record base ts0 r)) el).
Proof.
  intros. apply (record_ok_g [] 0); assumption.
Qed.

Lemma record_short base ts0 lod L attr n r q q' c lr el :
  rec_fits r -> small base -> small ts0 ->
  blen (enc_record_body base ts0 r) < 2 ^ 31 ->
  enc_record base ts0 r = q ++ q' -> q' <> [] ->
  let h := mkHdr base L 2 attr ts0 lod n in
  exists i', read_v2_record (st q c h lr el) = MErr EShort (st i' c h lr el).
Proof.
  intros Hf Hb Ht Hbl He Hq h.
  destruct (rec_vs base ts0 r Hf Hb Ht) as (V1 & V2 & V3).
  destruct Hf as (F1 & F2 & F3 & F4 & F5 & F6).
  assert (VL : vsmall (blen (enc_record_body base ts0 r)))
    by (pose proof (len_nonneg (enc_record_body base ts0 r)); apply vsmall_len; unfold blen, len in *; lia).
  eapply (mshort_st read_v2_record (enc_record base ts0 r)); [|exact He|exact Hq].
  unfold read_v2_record, enc_record, enc_record_body.
  apply mshort_top. intros f0.
  eapply mshort_after; [apply dec_varint, VL|].
  apply mshort_top. intros f1. cbv zeta.
  eapply mshort_after; [apply dec_i8; lia|].
  eapply mshort_after; [apply dec_varint, V1|].
  eapply mshort_after; [apply dec_varint, V2|].
  eapply mshort_after; [apply dec_vbytes, F3|].
  eapply mshort_after; [apply dec_vbytes, F4|].
  eapply mshort_after; [apply dec_varint, V3|].
  (* the header loop runs on the actual frame *)
  intros m f ps q0 q0' Hex He0 Hq0. unfold bind at 1, top. pose proof Hex as (Hs & Hi & Hr). rewrite Hs.
  unfold bind at 1.
  destruct (mshort_headers (r_hdrs r) F6
              (Z.to_nat (Z.min (Z.of_nat (length (r_hdrs r))) (f_remain f + 1))) m f ps q0 q0' Hex He0 Hq0) as [i' Hi'].
  { rewrite Hr. pose proof (len_nonneg q0). lia. }
  rewrite Hi'. exists i'. reflexivity.
Qed.

(* the 61 bytes FetchSpec.enc_v2 writes before the payload (ReaderV2Run.enc1_eq); the [++ []] lets
   the chain of fields in header_dec end in mdec_nil *)
Definition hdr61 (b : pbatch) (plen : Z) : list N :=
  i64 (pb_base b) ++ i32 (49 + plen) ++ i32 0 ++ i8 2 ++ i32 0
  ++ i16 (pb_codec b) ++ i32 (pb_lod b) ++ i64 (pb_ts b) ++ i64 (pb_ts b)
  ++ i64 (-1) ++ i16 (-1) ++ i32 (-1) ++ i32 (Z.of_nat (length (pb_recs b))) ++ [].

Lemma hdr61_len b plen : len (hdr61 b plen) = 61.
Proof. unfold hdr61, i64, i32, i16, i8. rewrite !len_app, !put_bes_len. reflexivity. Qed.

Definition batch_fits (b : pbatch) (plen : Z) : Prop :=
  small (pb_base b) /\ 0 <= plen < 2 ^ 30 /\ 0 <= pb_codec b <= 4 /\ 0 <= pb_lod b < 2 ^ 31
  /\ small (pb_ts b) /\ Z.of_nat (length (pb_recs b)) < 2 ^ 30.

(* the header readNextHeader stores; 49 = the bytes of the v2 header that the length field counts
   (61 less the 12 of firstOffset and length) *)
Definition vhdr (b : pbatch) (plen : Z) : hdr :=
  mkHdr (pb_base b) (49 + plen) 2 (pb_codec b) (pb_ts b) (pb_lod b) (Z.of_nat (length (pb_recs b))).

(* what readNextHeader does once the 61 bytes are read: it stores the header and the counts *)
Definition hdr_store (b : pbatch) (plen : Z) : M unit :=
  let count := Z.of_nat (length (pb_recs b)) in
  upd_top (fun f => mkFrame (f_in f) (f_remain f) (f_base f) count (vhdr b plen)) ;;;
  set_lrem (49 + plen - 49) ;;;
  (if count =? 0 then set_elast (wrap64 (pb_base b + pb_lod b)) else ret tt).

Lemma header_dec b plen : batch_fits b plen -> mdec read_next_header (hdr61 b plen) (hdr_store b plen).
Proof.
  unfold batch_fits, small. intros (B1 & B2 & B3 & B4 & B5 & B6). unfold read_next_header, hdr61.
  eapply mdec_bind; [apply dec_i64; lia|].
  eapply mdec_bind; [apply dec_i32; lia|].
  eapply mdec_bind; [apply dec_i32; lia|].
  eapply mdec_bind; [apply dec_i8; lia|]. cbn [Z.eqb Pos.eqb].
  eapply mdec_bind; [apply dec_i32; lia|].
  eapply mdec_bind; [apply dec_i16; lia|].
  eapply mdec_bind; [apply dec_i32; lia|].
  eapply mdec_bind; [apply dec_i64; lia|].
  eapply mdec_bind; [apply dec_i64; lia|].
  eapply mdec_bind; [apply dec_i64; lia|].
  eapply mdec_bind; [apply dec_i16; lia|].
  eapply mdec_bind; [apply dec_i32; lia|].
  eapply mdec_bind; [apply dec_i32; lia|].
  apply mdec_nil.
Qed.

Lemma header_ok b plen rest c h lr el :
  batch_fits b plen ->
  read_next_header (st (hdr61 b plen ++ rest) c h lr el)
  = MOk tt (st rest (Z.of_nat (length (pb_recs b))) (vhdr b plen) plen
               (if Z.of_nat (length (pb_recs b)) =? 0 then pb_base b + pb_lod b else el)).
Proof.
  intros Hf. rewrite (proj1 (header_dec b plen Hf) (st _ c h lr el) _ [] rest (stp_exact [] 0 _ c h lr el)).
  destruct Hf as (B1 & _ & _ & B4 & _).
  unfold hdr_store, bind, upd_top, set_lrem, set_elast, ret, with_in, stp, st, set_stack, set_rd, ex, vhdr.
  cbn [m_stack m_empty m_lrem m_elast f_in f_remain f_base f_count f_hdr fst snd].
  replace (49 + plen - 49) with plen by lia.
  destruct (Z.of_nat (length (pb_recs b)) =? 0); cbn [m_stack m_empty m_lrem m_elast]; [|reflexivity].
  unfold small in *. rewrite wrap64_small by lia. reflexivity.
Qed.

Lemma header_short b plen q q' c h lr el :
  batch_fits b plen -> hdr61 b plen = q ++ q' -> q' <> [] ->
  exists i', read_next_header (st q c h lr el) = MErr EShort (st i' c h lr el).
Proof. intros Hf. apply mshort_st, (header_dec b plen Hf). Qed.
