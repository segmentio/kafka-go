(* Proofs/RecordsFetch.v — v2 batch sequences as item sequences; the Conn path's result in the reference's terms. *)
From Coq Require Import List NArith ZArith Bool Lia.
From KV Require Import Lib.Bits Lib.Bytes Lib.Crc Spec.RecordFormat Model.Records
  Proofs.RecordsCodec Proofs.RecordsSet Proofs.RecordsWriters Proofs.RecordsReaders Proofs.RecordsConn
  Proofs.RecordsReadersV1.
Import ListNotations.
Open Scope Z_scope.

Lemma outs_records_ctl bs : outs bs = map conn_view (records_ctl (map IBatch bs)).
Proof.
  unfold outs, records_ctl. induction bs as [|b bs IH]; [reflexivity|].
  cbn [map flat_map]. rewrite map_app, <- IH. f_equal.
  unfold records_of. cbn [negb]. rewrite andb_false_r. rewrite map_map. reflexivity.
Qed.

Lemma records_no_control bs : Forall (fun b => is_control (b_attrs b) = false) bs ->
  records (map IBatch bs) = records_ctl (map IBatch bs).
Proof.
  unfold records, records_ctl. induction 1 as [|b bs Hb Hs IH]; [reflexivity|].
  cbn [map flat_map]. rewrite IH. f_equal. unfold records_of. rewrite Hb. reflexivity.
Qed.

Lemma batches_item_ok comp bs : Forall (batch_ok comp) bs -> Forall (item_ok comp) (map IBatch bs).
Proof. intros H. apply Forall_map. exact H. Qed.
Lemma enc_items_batches comp bs : enc_items comp (map IBatch bs) = concat (map (enc_batch comp) bs).
Proof. unfold enc_items. rewrite map_map. reflexivity. Qed.

Lemma msr_read_batches : forall comp decomp : N -> list N -> list N,
  (forall c b, decomp c (comp c b) = b) ->
  forall bs fuel min,
  bs <> [] -> Forall (batch_ok' comp) bs -> (length (records_ctl (map IBatch bs)) < fuel)%nat ->
  msr_read decomp fuel min (enc_items comp (map IBatch bs)) =
    (map conn_view (records_ctl (map IBatch bs)), MEof).
Proof.
  intros comp decomp Hdc bs fuel min Hne Hok Hfuel.
  rewrite <- outs_records_ctl, enc_items_batches. fold (batches_bytes comp bs).
  apply msr_read_v2_batches; [exact Hdc|exact Hne|exact Hok|].
  rewrite outs_records_ctl, map_length. exact Hfuel.
Qed.

Lemma batch_ok'_item_ok comp bs : Forall (batch_ok' comp) bs -> Forall (item_ok comp) (map IBatch bs).
Proof. intros H. apply batches_item_ok. eapply Forall_impl; [|exact H]. intros b [Hb _]. exact Hb. Qed.

(* every record Client.Fetch hands out comes from a batch that is not a control batch *)
Lemma control_hidden_v2 : forall comp decomp : N -> list N -> list N,
  (forall c b, decomp c (comp c b) = b) ->
  forall bs, Forall (batch_ok comp) bs -> zlen (enc_items comp (map IBatch bs)) < ZM31 ->
  exists recs, proto_read decomp (enc_set comp (map IBatch bs)) = POut recs false /\
    (forall r, In r recs -> exists b, In b bs /\ is_control (b_attrs b) = false /\ In r (map (rec_of_rec2 b) (b_recs b))) /\
    (forall b r, In b bs -> is_control (b_attrs b) = false -> In r (map (rec_of_rec2 b) (b_recs b)) -> In r recs).
Proof.
  intros comp decomp Hdc bs Hok Hsz. exists (records (map IBatch bs)).
  split; [apply proto_read_items; auto using batches_item_ok|]. unfold records. split.
  - intros r Hr. apply in_flat_map in Hr as (it & Hit & Hr). apply in_map_iff in Hit as (b & <- & Hb).
    exists b. split; [exact Hb|]. unfold records_of in Hr. cbn [negb] in Hr. rewrite andb_true_r in Hr.
    destruct (is_control (b_attrs b)); [destruct Hr|]. split; [reflexivity|exact Hr].
  - intros b r Hb Hc Hr. apply in_flat_map. exists (IBatch b). split; [apply in_map, Hb|].
    unfold records_of. rewrite Hc. exact Hr.
Qed.

Lemma crc_mismatch_v2 : forall comp decomp : N -> list N -> list N,
  (forall c b, decomp c (comp c b) = b) ->
  forall bs base epoch crc tail rest,
  Forall (batch_ok comp) bs -> in_i64 base -> 9 + zlen tail < ZM31 -> length crc = 4%nat ->
  get_be crc 0%N <> w32 (crc32c tail) ->
  let content := concat (map (enc_batch comp) bs) ++ raw_batch base epoch crc tail ++ rest in
  zlen content < ZM31 ->
  proto_read decomp (put_bes 4 (zlen content) ++ content) =
  POut (records (map IBatch bs)) (match bs with [] => true | _ => false end).
Proof.
  intros comp decomp Hdc bs base epoch crc tail rest Hok. rewrite <- enc_items_batches.
  replace (match bs with [] => true | _ => false end) with (match map IBatch bs with [] => true | _ => false end)
    by (destruct bs; reflexivity).
  apply proto_read_items_crc_mismatch; auto using batches_item_ok.
Qed.
