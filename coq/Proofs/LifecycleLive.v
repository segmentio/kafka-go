(* Proofs/LifecycleLive.v — Reader.Close is never stuck: whenever a Close call waits
   (r.join.Wait() or <-r.done), some goroutine has an enabled step that is neither an
   environment decision, nor a periodic tick, nor a select branch racing a ready cancellation. *)
From Coq Require Import List Arith Bool Lia.
From KV Require Import Lib.LTS Model.Lifecycle Proofs.LifecycleBase Proofs.LifecycleSafe Proofs.LifecycleGen Proofs.LifecyclePost.
Import ListNotations.

Definition can_progress (s : state) : Prop := exists l, progress s l = true /\ step s l <> None.

Ltac by_label l :=
  exists l; split; [reflexivity|unfold step].
Ltac finish_enabled :=
  cbv beta iota zeta; destr_goal; discriminate.

Lemma fetcher_moves : forall s i f, panicked s = false -> nth_error (fetchers s) i = Some f ->
  fdone f = false -> fcancelled s f = true -> can_progress s.
Proof.
  intros s i f Hp Hf Hd Hc. unfold fdone in Hd. destruct (f_ph f) eqn:E; try discriminate.
  (* a network wait gets its answer (a failure); elsewhere the cancelled context is seen *)
  all: lazymatch type of E with
       | _ = FInit => by_label (LFDial i DFail) | _ = FOffsets => by_label (LFOffsets i DFail)
       | _ = FFetching => by_label (LFResp i FAgain) | _ => by_label (LFSeeCancel i)
       end; rewrite Hp, Hf, ?Hc, E; discriminate.
Qed.

Lemma fn_moves : forall s i f, panicked s = false -> nth_error (fns s) i = Some f -> nexit f = false ->
  gen_done s (n_gen f) = true -> stctx s = true -> all_exited s = true -> can_progress s.
Proof.
  intros s i f Hp Hf Hx Hg Hs Ha. unfold nexit in Hx. destruct (n_ph f) eqn:E; try discriminate.
  - by_label (LFnSeeDone i). rewrite Hp, Hf, E, Hg. cbn. finish_enabled.
  - destruct bk.
    + by_label (LClSeeStop i). rewrite Hp, Hf, E, Hs. discriminate.
    + by_label (LClCommit i false). rewrite Hp, Hf, E. rewrite andb_false_r. finish_enabled.
  - by_label (LUnCancel i). rewrite Hp, Hf, E. discriminate.
  - by_label (LUnJoin i). rewrite Hp, Hf, E, Ha. discriminate.
  - by_label (LFnHandler i). rewrite Hp, Hf, E. discriminate.
Qed.

Lemma cg_moves : forall s, panicked s = false -> inv2 s -> inv5 s -> stctx s = true -> all_exited s = true ->
  cgdone s = true -> gph s <> GNone -> gph s <> GExited -> can_progress s.
Proof.
  intros s Hp I2 I5 Hs Ha Hcg Ng Ne. destruct (gph s) eqn:Eg; try congruence.
  - by_label (LGCoord (GFail GOther)). rewrite Hp, Eg. discriminate.
  - by_label (LGJoin (JErr GOther)). rewrite Hp, Eg. discriminate.
  - by_label (LGSync (GFail GOther)). rewrite Hp, Eg. discriminate.
  - assert (Hm : mid s <> None) by (apply (v_mid _ I5); rewrite Eg; reflexivity).
    destruct (mid s) eqn:Em; [|congruence].
    by_label (LGOfetch (GFail GOther)). rewrite Hp, Eg, Em. discriminate.
  - by_label LGPublishAbort. rewrite Hp, Eg, Hcg. discriminate.
  - by_label LGWaitClosed. rewrite Hp, Eg, Hcg. discriminate.
  - by_label LGClose. rewrite Hp, Eg. discriminate.
  - destruct (acc_exited k s) eqn:Ea.
    { by_label LGJoined. rewrite Hp, Eg, Ea. discriminate. }
    unfold acc_exited in Ea. apply forallb_false_nth in Ea as (i & x & Hi & Hx).
    apply orb_false_iff in Hx as [X1 X2]. apply negb_false_iff in X1.
    unfold acc_of in X1. apply andb_true_iff in X1 as [X1 X3]. apply Nat.eqb_eq in X1.
    apply (fn_moves s i x Hp Hi X2); auto. rewrite X1. exact (j_cw _ I2 _ _ Eg).
  - by_label (LGLeaveCoord false). rewrite Hp, Eg. discriminate.
  - by_label LGLeaveReq. rewrite Hp, Eg. discriminate.
  - by_label LGOfferAbort. rewrite Hp, Eg, Hcg. discriminate.
  - by_label LGBackoffAbort. rewrite Hp, Eg, Hcg. discriminate.
Qed.

Lemma run_moves : forall s, panicked s = false -> inv2 s -> inv5 s -> stctx s = true -> all_exited s = true ->
  rph s <> RNone -> rph s <> RExited -> can_progress s.
Proof.
  intros s Hp I2 I5 Hs Ha Nn Ne. destruct (rph s) eqn:Er; try congruence.
  - by_label LRNextCall. rewrite Hp, Er. discriminate.
  - by_label LRNextCtx. rewrite Hp, Er, Hs. discriminate.
  - by_label LRRunErrDrop. rewrite Hp, Er. discriminate.
  - by_label (LRSub 0). rewrite Hp, Er. discriminate.
  - by_label LRStartC. rewrite Hp, Er. discriminate.
  - by_label LRStartU. rewrite Hp, Er. discriminate.
  - by_label LRCgClose. rewrite Hp, Er. discriminate.
  - destruct (gph s) eqn:Eg; try (apply cg_moves; auto; try (apply (j_cgdone _ I2); rewrite Er; reflexivity); congruence).
    + destruct (c_group (cfg s)) eqn:G; [destruct (v_group _ I5 G); congruence|].
      destruct (j_nogroup _ I2 G) as (_ & B & _). congruence.
    + by_label LRCgWait. rewrite Hp, Er, Eg. discriminate.
  - by_label LRDone. rewrite Hp, Er. discriminate.
Qed.

(* Close <- partition readers; Close <- Reader.run <- ConsumerGroup.run <- functions of the generation being closed *)
Theorem close_no_stuck_proof : forall c ls s, run step (init c) ls = Some s -> close_waits s = true -> can_progress s.
Proof.
  intros c ls s R W. pose proof (rinv_reach _ _ _ R) as I. pose proof (r_nopanic _ _ I) as Hp.
  pose proof (r_inv1 _ _ I) as I1. pose proof (r_inv5 _ _ I) as I5.
  unfold close_waits in W. apply existsb_nth in W as (k & p & Hk & Hw).
  destruct p as [| | |f|f| |]; try discriminate.
  - (* r.join.Wait() *)
    assert (C2 : cl_at 2 s) by (exists k, (CLJoin f); split; [exact Hk|cbn; lia]).
    assert (Hcc : curcan s = true) by exact (I1 2 ltac:(lia) C2).
    destruct (all_exited s) eqn:Ha.
    + by_label (LCloseStep k). rewrite Hp, Hk, Ha. discriminate.
    + unfold all_exited in Ha. apply forallb_false_nth in Ha as (i & x & Hi & Hx).
      apply (fetcher_moves s i x Hp Hi Hx). unfold fcancelled. rewrite Hcc. apply orb_true_r.
  - (* <-r.done *)
    assert (C4 : cl_at 4 s) by (exists k, (CLDone f); split; [exact Hk|cbn; lia]).
    destruct (negb (c_group (cfg s)) || rdone s) eqn:G.
    { by_label (LCloseStep k). rewrite Hp, Hk, G. discriminate. }
    apply orb_false_iff in G as [G1 G2]. apply negb_false_iff in G1.
    apply run_moves; [exact Hp | apply I | exact I5 | exact (inv1_at s 4 3 I1 C4 ltac:(lia)) | exact (I1 4 ltac:(lia) C4)
                     | apply (v_group _ I5 G1) | intros E; rewrite (v_rexit _ I5 E) in G2; discriminate].
Qed.

(* With no step left after r.stop(): a function on a closed generation sees gen.done, readLag sees r.stctx,
   a dial or an orphaned lookup helper ends by itself. *)
Lemma stragglers_gone : forall s, inv2 s -> panicked s = false -> stctx s = true -> all_exited s = true ->
  (forall j, nth_error (inners s) j <> Some ILookup) -> (forall l, is_env l = false -> step s l = None) ->
  unacc_live s = 0 /\ lag_live (lag s) = 0 /\
  count (fun i => negb (idone i)) (inners s) = 0 /\ count iconn (inners s) = 0.
Proof.
  intros s I2 Hp Hs Ha NoL Q.
  assert (N : forall l, is_env l = false -> step s l <> None -> False) by (intros l E S; apply S; apply Q; exact E).
  assert (In1 : forall x, In x (inners s) -> x = IDone).
  { intros x Hx. apply In_nth_error in Hx as (i & Hi). destruct x; auto; exfalso.
    - apply (N (LInDial i false)); [reflexivity|]. unfold step. rewrite Hp, Hi. discriminate.
    - apply (N (LInOffsets i)); [reflexivity|]. unfold step. rewrite Hp, Hi. discriminate.
    - exact (NoL i Hi).
    - apply (N (LInExit i)); [reflexivity|]. unfold step. rewrite Hp, Hi. discriminate. }
  split; [|split; [|split]].
  - unfold unacc_live. apply count_false. intros x Hx. apply In_nth_error in Hx as (i & Hi).
    destruct (n_acc x) eqn:A; [reflexivity|]. destruct (nexit x) eqn:X; [reflexivity|]. exfalso.
    destruct (fn_moves s i x Hp Hi X (j_late _ I2 _ _ Hi A) Hs Ha) as (l & P & S).
    apply (N l); auto. unfold progress in P. destruct (is_env l); [discriminate|reflexivity].
  - destruct (lag s) eqn:E; try reflexivity; exfalso.
    + apply (N LLagBegin); [reflexivity|]. unfold step. rewrite Hp, E. discriminate.
    + apply (N LLagTimeout); [reflexivity|]. unfold step. rewrite Hp, E. discriminate.
    + apply (N LLagStop); [reflexivity|]. unfold step. rewrite Hp, E, Hs. discriminate.
  - apply count_false. intros x Hx. rewrite (In1 x Hx). reflexivity.
  - apply count_false. intros x Hx. rewrite (In1 x Hx). reflexivity.
Qed.
