(* Proofs/ConnOpsNego.v — loadVersions as a step (conn_nop): after an ApiVersions exchange that
   failed with a broker-reported error nothing is cached and the Conn is as fresh.  Also here,
   because C11 / C17conn take them from this file: the two-message fetch response of the
   Batch.Read instances. *)
From Coq Require Import List NArith ZArith Bool Lia.
From KV Require Import Lib.Bits Lib.Bytes Model.Legacy Model.ConnOps.
From KV Require Import Proofs.ConnOpsBase Proofs.ConnOpsCodec Proofs.ConnOpsProofs Proofs.ConnOpsWitness
  Proofs.ConnOpsCustom Proofs.ConnOpsAll.
Import ListNotations.
Open Scope Z_scope.

Lemma apiversions_negotiated : negotiated AApiVersions 0 = true.
Proof. reflexivity. Qed.

(* the implicit ApiVersions exchange of a negotiating operation is answered with a well-formed
   response carrying an error code: the operation returns that Kafka error, nothing is cached,
   the reader sits behind the ApiVersions frame and the Conn is open with only its correlation
   counter advanced — the state of a fresh Conn *)
Theorem nego_failed_as_fresh st a key offered off w code rest st1 s1 :
  supported a = Some (key, offered) ->
  well_formed AApiVersions 0 w -> fits (enc (resp_ty AApiVersions 0) w) -> closed st = false ->
  conn_do st (mkOp AApiVersions 0 0)
    (frame (wrap32 (corr st + 1)) (enc (resp_ty AApiVersions 0) w) ++ rest) = (st1, RErr (EKafka code), s1) ->
  conn_nop (st, None) a off (frame (wrap32 (corr st + 1)) (enc (resp_ty AApiVersions 0) w) ++ rest)
    = ((st1, None), RErr (EKafka code), rest) /\
  closed st1 = false /\ corr st1 = wrap32 (corr st + 1).
Proof.
  intros Hsup Hwf Hfit Hcl H.
  destruct (wf_step _ _ _ _ _ _ _ _ _ apiversions_negotiated Hwf Hfit Hcl H)
    as [Hcorr [(_ & Hs & Hcl1)|(e & He & Hk & _)]].
  2:{ inversion He; subst e. discriminate Hk. }
  subst s1. split; [|auto].
  unfold conn_nop. rewrite Hsup, H. destruct a; reflexivity.
Qed.

(* so the next negotiating operation asks again: it is [conn_nop] on an unloaded Conn *)
Corollary nego_next_asks_again st a key offered off w code rest st1 s1 a2 off2 :
  supported a = Some (key, offered) ->
  well_formed AApiVersions 0 w -> fits (enc (resp_ty AApiVersions 0) w) -> closed st = false ->
  conn_do st (mkOp AApiVersions 0 0)
    (frame (wrap32 (corr st + 1)) (enc (resp_ty AApiVersions 0) w) ++ rest) = (st1, RErr (EKafka code), s1) ->
  let '(c1, _, s') := conn_nop (st, None) a off (frame (wrap32 (corr st + 1)) (enc (resp_ty AApiVersions 0) w) ++ rest) in
  conn_nop c1 a2 off2 s' = conn_nop (st1, None) a2 off2 rest /\ snd c1 = None.
Proof.
  intros Hsup Hwf Hfit Hcl H.
  destruct (nego_failed_as_fresh _ _ _ _ off _ _ _ _ _ Hsup Hwf Hfit Hcl H) as [E _].
  rewrite E. split; reflexivity.
Qed.

(* two magic-1 messages, offsets 7 and 8, values "ab" and "cde" *)
Definition msg_v1 (off : Z) (value : list N) : list N :=
  put_bes 8 off ++ put_bes 4 (22 + Z.of_nat (length value)) ++ put_bes 4 0 ++ [1%N; 0%N] ++ put_bes 8 1000
  ++ put_bes 4 (-1) ++ put_bes 4 (Z.of_nat (length value)) ++ value.
Definition w_fetch_two : wval :=
  WP (WZ 0) (one_tp (WP (WZ 0) (WP (WZ 0) (WP (WZ 100)
     (WS (Some (msg_v1 7 [97%N; 98%N] ++ msg_v1 8 [99%N; 100%N; 101%N]))))))).

(* Read into a 1-byte buffer: the first value ("ab") does not fit *)
Lemma short_buffer_full :
  conn_do (fresh [116%N]) (mkOp (AFetchRead [1]) 2 7) (frame 1 (enc (resp_ty AFetch 2) w_fetch_two))
  = (mkConn false 1 [116%N] 7, ROk (fin_val 1 7 [act_val 0 1 [] [97%N] 1]), []).
Proof. vm_compute. reflexivity. Qed.
