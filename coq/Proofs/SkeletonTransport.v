(* Proofs/SkeletonTransport.v — the synchronisation-skeleton assumptions of
   Model/TransportPool.v (transport.go) hold of /repo's CURRENT source. *)
From Coq Require Import List String Bool.
From KV Require Import Model.DRF Model.SkeletonAssumptions Gen.Skeleton Proofs.SkeletonBase.
Import ListNotations.
Open Scope string_scope.

Lemma transport_skeleton_ok : transport_assumptions_hold calls accesses = true.
Proof. vm_compute. reflexivity. Qed.

(* the checker discriminates:
   1. an unbuffered promise channel (conn.run would block on resolve after the caller gave up);
   2. idleConns touched outside the group mutex;
   3. a promise resolved outside conn.run;
   4. a second go of conn.run;
   5. close(c.reqs) outside c.once;
   6. awaiting a promise while holding the group mutex. *)
Lemma transport_skeleton_rejects :
  transport_assumptions_hold (mkCall "connPool.sendRequest" "makechan(async,0)" HCall [] [] [] [] false "x" :: calls) accesses = false /\
  transport_assumptions_hold calls (mkAcc "connGroup" "idleConns" KWrite "conn.run" [] false "x" :: accesses) = false /\
  transport_assumptions_hold (mkCall "connPool.sendRequest" "async.resolve" HCall [] [] ["conn.roundTrip"] [] false "x" :: calls) accesses = false /\
  transport_assumptions_hold (mkCall "connGroup.releaseConn" "conn.run" HGo [] [] ["makechan(chan connRequest,0)"] [] false "x" :: calls) accesses = false /\
  transport_assumptions_hold (mkCall "conn.run" "close(conn.reqs)" HCall [] [] [] [] true "x" :: calls) accesses = false /\
  transport_assumptions_hold (mkCall "connGroup.grabConn" "async.await" HCall [("connGroup.mutex", MW)] [] [] [] false "x" :: calls) accesses = false.
Proof.
  repeat apply conj.
  - rejected_by 16. (* T6 *)
  - rejected_by 0. (* T1 *)
  - rejected_by 10. (* T5 *)
  - rejected_by 7. (* T4 *)
  - rejected_by 21. (* T7 *)
  - rejected_by 34. (* T12 *)
Qed.
