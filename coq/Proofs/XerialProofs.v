(* Proofs/XerialProofs.v — the xerial framing layer: lemmas for C16. *)
From Coq Require Import List NArith Arith Bool Lia.
From Coq Require Import ZifyN ZifyNat ZifyBool.
From KV Require Import Lib.Bits Model.Xerial Spec.Xerial.
Import ListNotations.
Local Open Scope N_scope.

Lemma len_N_app {A} (a b : list A) : len_N (a ++ b) = len_N a + len_N b.
Proof. unfold len_N. rewrite app_length. lia. Qed.

Lemma len_N_nil {A} : len_N (@nil A) = 0.
Proof. reflexivity. Qed.

Lemma len_N_pos {A} (l : list A) : l <> [] -> 0 < len_N l.
Proof. destruct l; [congruence|]. intros _. unfold len_N. cbn [length]. lia. Qed.

Lemma len_N_zero {A} (l : list A) : len_N l = 0 -> l = [].
Proof. destruct l; [reflexivity|]. unfold len_N. cbn [length]. lia. Qed.

Lemma concat_nonempty_nil {A} (ls : list (list A)) : Forall (fun l => l <> []) ls -> concat ls = [] -> ls = [].
Proof.
  intros H E. destruct H as [|l ls Hl _]; [reflexivity|].
  destruct l; [congruence|discriminate].
Qed.

Lemma take_N_app_exact {A} (a b : list A) n : len_N a = n -> take_N n (a ++ b) = a.
Proof.
  unfold take_N, len_N. intros <-. rewrite Nat2N.id.
  rewrite firstn_app, Nat.sub_diag, firstn_all. cbn [firstn]. apply app_nil_r.
Qed.

Lemma drop_N_app_exact {A} (a b : list A) n : len_N a = n -> drop_N n (a ++ b) = b.
Proof.
  unfold drop_N, len_N. intros <-. rewrite Nat2N.id.
  rewrite skipn_app, Nat.sub_diag, skipn_all. reflexivity.
Qed.

Lemma take_N_all {A} (l : list A) n : len_N l <= n -> take_N n l = l.
Proof. unfold take_N, len_N. intros H. apply firstn_all2. lia. Qed.

Lemma drop_N_all {A} (l : list A) n : len_N l <= n -> drop_N n l = [].
Proof. unfold drop_N, len_N. intros H. apply skipn_all2. lia. Qed.

Lemma take_drop_N {A} (l : list A) n : take_N n l ++ drop_N n l = l.
Proof. apply firstn_skipn. Qed.

Lemma len_N_take {A} (l : list A) n : len_N (take_N n l) = N.min n (len_N l).
Proof. unfold len_N, take_N. rewrite firstn_length. lia. Qed.

Lemma len_N_drop {A} (l : list A) n : len_N (drop_N n l) = len_N l - n.
Proof. unfold len_N, drop_N. rewrite skipn_length. lia. Qed.

Lemma drop_N_add {A} (l : list A) a b : drop_N (a + b) l = drop_N b (drop_N a l).
Proof.
  unfold drop_N. rewrite N2Nat.inj_add. generalize (N.to_nat a) as n.
  intros n. revert l. induction n; intros l; cbn [Nat.add skipn]; [reflexivity|].
  destruct l; [now rewrite skipn_nil|]. apply IHn.
Qed.

Lemma split_N_min {A} (l : list A) k :
  take_N (N.min k (len_N l)) l = take_N k l /\ drop_N (N.min k (len_N l)) l = drop_N k l.
Proof.
  destruct (N.le_gt_cases k (len_N l)).
  - rewrite N.min_l by assumption. split; reflexivity.
  - rewrite N.min_r by lia. rewrite !take_N_all, !drop_N_all by lia. split; reflexivity.
Qed.

Lemma drop_N_shorter {A} n (l : list A) : 0 < n -> l <> [] -> (length (drop_N n l) < length l)%nat.
Proof. intros Hn Hl. unfold drop_N. rewrite skipn_length. destruct l; [congruence|]. cbn [length]. lia. Qed.

Lemma drop_N_0 {A} (l : list A) : drop_N 0 l = l.
Proof. reflexivity. Qed.

Lemma be32_length n : length (be32 n) = 4%nat.
Proof. reflexivity. Qed.

Lemma horner256 n q1 q2 q3 r0 r1 r2 :
  n = 256 * q1 + r0 -> q1 = 256 * q2 + r1 -> q2 = 256 * q3 + r2 ->
  ((q3 * 256 + r2) * 256 + r1) * 256 + r0 = n.
Proof. intros -> -> ->. lia. Qed.

Lemma be32_decode_be32 n : n < M32 -> be32_decode (be32 n) = n.
Proof.
  intros H. unfold be32, be32_decode. rewrite (N.mod_small n M32 H).
  change 16777216 with (256 * 256 * 256). change 65536 with (256 * 256).
  rewrite <- !N.div_div by discriminate.
  apply (horner256 n (n / 256) (n / 256 / 256)); apply N.div_mod; discriminate.
Qed.

Lemma be32_ref_u32 n : n < M32 -> be32 n = ref_u32 n.
Proof.
  unfold M32. intros H. unfold be32, ref_u32, M32. rewrite (N.mod_small n) by exact H.
  f_equal. rewrite N.mod_small; [reflexivity|].
  apply N.div_lt_upper_bound; [discriminate|]. lia.
Qed.

Lemma be32_decode_value a b c d : be32_decode [a; b; c; d] = ref_u32_value a b c d.
Proof. unfold be32_decode, ref_u32_value. lia. Qed.

Lemma ref_u32_value_ref_u32 n : n < M32 ->
  match ref_u32 n with [a; b; c; d] => ref_u32_value a b c d = n | _ => False end.
Proof.
  intros H. cbv beta iota delta [ref_u32]. rewrite <- be32_decode_value. fold (ref_u32 n).
  rewrite <- (be32_ref_u32 n H). exact (be32_decode_be32 n H).
Qed.

Lemma list_eqb_refl l : list_eqb l l = true.
Proof. induction l; cbn [list_eqb]; [reflexivity|]. rewrite N.eqb_refl. exact IHl. Qed.

Lemma list_eqb_eq a b : list_eqb a b = true -> a = b.
Proof.
  revert b; induction a; destruct b; cbn [list_eqb]; try discriminate; [reflexivity|].
  intros H. apply andb_true_iff in H as [H1 H2]. apply N.eqb_eq in H1. subst. f_equal. auto.
Qed.

Definition frame (c : list N) : list N := be32 (len_N c) ++ c.
Definition frames (cs : list (list N)) : list N := concat (map frame cs).
(* the first 16 bytes, as xerialReader reads them into the zeroed x.header, are not the xerial
   magic: true of snappy blocks, which start with the varint of the decoded length *)
Definition not_magic (c : list N) : Prop :=
  is_xerial_header (take_N 16 c ++ drop_N (len_N (take_N 16 c)) zeros16) = false.

(* what the writer emits for the chunks cs: nothing at all when there is no chunk *)
Definition stream_of (cs : list (list N)) : list N :=
  match cs with [] => [] | _ :: _ => xerial_header_bytes ++ frames cs end.

Lemma frames_cons c cs : frames (c :: cs) = be32 (len_N c) ++ c ++ frames cs.
Proof. unfold frames, frame. cbn [map concat]. now rewrite <- app_assoc. Qed.

Lemma frames_app a b : frames (a ++ b) = frames a ++ frames b.
Proof. unfold frames. now rewrite map_app, concat_app. Qed.

Lemma frames_length cs : (length cs <= length (frames cs))%nat.
Proof.
  induction cs as [|c cs IH]; [cbn; lia|].
  rewrite frames_cons, !app_length, be32_length. cbn [length]. lia.
Qed.

Definition of_ref (r : ref_read) : rres :=
  match r with RefData b => RData b | RefEOF => RErr EEOF end.

Lemma ref_next_block_some blocks b bs :
  ref_next_block blocks = Some (b, bs) -> b <> [] /\ concat blocks = b ++ concat bs.
Proof.
  induction blocks as [|x xs IH]; [discriminate|].
  destruct x as [|c x']; cbn [ref_next_block concat app].
  - exact IH.
  - intros E. injection E as <- <-. split; [discriminate|reflexivity].
Qed.

Lemma ref_next_block_none blocks : ref_next_block blocks = None -> concat blocks = [].
Proof.
  induction blocks as [|x xs IH]; [reflexivity|].
  destruct x as [|c x']; cbn [ref_next_block concat app]; [exact IH|discriminate].
Qed.

Definition ref_cur (cur : list N) (blocks : list (list N)) : option (list N * list (list N)) :=
  match cur with [] => ref_next_block blocks | _ :: _ => Some (cur, blocks) end.

Lemma ref_reads_cons cur blocks k ks :
  ref_reads cur blocks (k :: ks) =
  match ref_cur cur blocks with
  | None => [RefEOF]
  | Some (c, bs) => RefData (take_N k c) :: ref_reads (drop_N k c) bs ks
  end.
Proof.
  destruct cur; [cbn [ref_reads ref_cur]; destruct (ref_next_block blocks) as [[b bs]|]|]; reflexivity.
Qed.

Lemma ref_cur_some cur blocks c bs :
  ref_cur cur blocks = Some (c, bs) -> c <> [] /\ cur ++ concat blocks = c ++ concat bs.
Proof.
  destruct cur; cbn [ref_cur app]; [apply ref_next_block_some|].
  intros E. injection E as <- <-. split; [discriminate|reflexivity].
Qed.

Lemma ref_cur_none cur blocks : ref_cur cur blocks = None -> cur ++ concat blocks = [].
Proof. destruct cur; [apply ref_next_block_none|discriminate]. Qed.

Lemma ref_reads_nil_block ks : ref_reads [] [[]] ks = ref_reads [] [] ks.
Proof. destruct ks; reflexivity. Qed.

Theorem ref_reads_prefix : forall ks cur blocks,
  exists n, ref_read_data (ref_reads cur blocks ks) = firstn n (cur ++ concat blocks).
Proof.
  induction ks as [|k ks IH]; intros cur blocks; [exists 0%nat; reflexivity|].
  rewrite ref_reads_cons. destruct (ref_cur cur blocks) as [[c bs]|] eqn:E; [|exists 0%nat; reflexivity].
  destruct (ref_cur_some _ _ _ _ E) as [_ ->]. destruct (IH (drop_N k c) bs) as [n Hn].
  cbn [ref_read_data]. rewrite Hn.
  replace (c ++ concat bs) with (take_N k c ++ drop_N k c ++ concat bs)
    by (rewrite app_assoc, take_drop_N; reflexivity).
  eexists. symmetry. apply firstn_app_2.
Qed.

Theorem ref_reads_complete : forall ks cur blocks,
  Forall (fun k => 0 < k) ks -> (length (cur ++ concat blocks) < length ks)%nat ->
  ref_read_data (ref_reads cur blocks ks) = cur ++ concat blocks /\
  last (ref_reads cur blocks ks) (RefData []) = RefEOF.
Proof.
  induction ks as [|k ks IH]; intros cur blocks Hk Hlen; [cbn in Hlen; lia|].
  inversion Hk as [|? ? Hk0 Hks]; subst. cbn [length] in Hlen. rewrite ref_reads_cons.
  destruct (ref_cur cur blocks) as [[c bs]|] eqn:E.
  - destruct (ref_cur_some _ _ _ _ E) as [Hc Heq]. rewrite Heq in *. clear Heq E.
    destruct (IH (drop_N k c) bs Hks) as [Hd Hlast].
    { rewrite app_length in *. pose proof (drop_N_shorter k c Hk0 Hc). lia. }
    cbn [ref_read_data]. rewrite Hd, app_assoc, take_drop_N. split; [reflexivity|].
    destruct (ref_reads (drop_N k c) bs ks); [discriminate Hlast|exact Hlast].
  - rewrite (ref_cur_none _ _ E). split; reflexivity.
Qed.

Section Reader.
  Variable enc : list N -> list N.
  Variable dec : list N -> option (list N).
  Variable declen : list N -> option N.
  Hypothesis dec_enc : forall b, dec (enc b) = Some b.
  Hypothesis declen_dec : forall c b, dec c = Some b -> declen c = Some (len_N b).
  Hypothesis enc_nonempty : forall b, enc b <> [].
  Hypothesis enc_not_magic : forall b, not_magic (enc b).

  Definition fits32 (b : list N) : Prop := len_N (enc b) < M32.

  Lemma read_full_exact x a t n :
    r_src x = a ++ t -> len_N a = n ->
    xr_read_full x n =
    ({| r_src := t; r_header := r_header x; r_output := r_output x; r_offset := r_offset x;
        r_nbytes := r_nbytes x + n |}, a, None).
  Proof.
    intros Hs Hl. unfold xr_read_full. rewrite Hs.
    rewrite (take_N_app_exact a t n Hl), (drop_N_app_exact a t n Hl), Hl, N.eqb_refl. reflexivity.
  Qed.

  Lemma read_full_nil x n :
    r_src x = [] -> 0 < n -> exists x', xr_read_full x n = (x', [], Some EEOF).
  Proof.
    intros Hs Hn. unfold xr_read_full. rewrite Hs. unfold take_N. rewrite firstn_nil.
    replace (len_N [] =? n) with false by (symmetry; apply N.eqb_neq; cbn; lia).
    eexists. reflexivity.
  Qed.

  (* the part of the reader's state that describes the stream still to come *)
  Inductive RSrc (src hdr : list N) (nb : N) : list (list N) -> Prop :=
  | RS_mid blocks : is_xerial_header hdr = true -> nb <> 0 ->
      src = frames (map enc blocks) -> Forall fits32 blocks -> RSrc src hdr nb blocks
  | RS_start ver blocks : nb = 0 -> length ver = 8%nat ->
      src = xerial_magic ++ ver ++ frames (map enc blocks) -> Forall fits32 blocks -> RSrc src hdr nb blocks
  | RS_done : src = [] -> RSrc src hdr nb []
  | RS_raw b : nb = 0 -> hdr = zeros16 -> src = enc b -> RSrc src hdr nb [b].

  Definition buffered (x : xreader) (cur : list N) : Prop :=
    r_offset x <= len_N (r_output x) /\ cur = drop_N (r_offset x) (r_output x).

  (* x still hands out [cur], then the blocks [blocks] *)
  Definition RInv (x : xreader) (cur : list N) (blocks : list (list N)) : Prop :=
    buffered x cur /\ RSrc (r_src x) (r_header x) (r_nbytes x) blocks.

  (* readChunk: a block that fits the Read buffer goes there directly; a longer one is kept
     whole in x.output and 0 bytes are reported; never an error here *)
  Definition chunk_result (b : list N) (k : N) : N * list N + xerr :=
    if len_N b <=? k then inl (len_N b, b) else inl (0, []).

  Definition chunk_post (res : xreader * (N * list N + xerr)) (blocks : list (list N)) (k : N) : Prop :=
    match blocks with
    | [] => snd res = inr EEOF
    | b :: bs => snd res = chunk_result b k /\ RInv (fst res) (if len_N b <=? k then [] else b) bs
    end.

  Lemma decode_block_post x b bs k :
    r_offset x = 0 -> r_output x = [] -> RSrc (r_src x) (r_header x) (r_nbytes x) bs ->
    chunk_post (xr_decode dec declen x (enc b) k) (b :: bs) k.
  Proof.
    intros Ho Hout Hsrc. unfold xr_decode, chunk_post, chunk_result.
    rewrite (declen_dec _ _ (dec_enc b)), dec_enc.
    destruct (len_N b <=? k); cbn [fst snd]; (split; [reflexivity|]); (split; [|exact Hsrc]);
      unfold buffered; cbn [xr_set_output r_offset r_output].
    - rewrite Ho, Hout. split; [apply N.le_refl|reflexivity].
    - split; [apply N.le_0_l|reflexivity].
  Qed.

  Lemma header_is_magic ver t :
    length ver = 8%nat -> is_xerial_header ((xerial_magic ++ ver) ++ t) = true.
  Proof.
    intros Hv. unfold is_xerial_header. apply andb_true_iff. split.
    - apply N.leb_le. unfold len_N. rewrite !app_length, Hv. cbn [length xerial_magic]. lia.
    - rewrite <- app_assoc. cbn [xerial_magic app firstn]. apply list_eqb_refl.
  Qed.

  Lemma chunk_framed_stream x blocks k :
    is_xerial_header (r_header x) = true ->
    r_src x = frames (map enc blocks) -> Forall fits32 blocks -> r_offset x = 0 -> r_output x = [] ->
    chunk_post (xr_chunk_framed dec declen x k) blocks k.
  Proof.
    intros Hh Hs Hf Ho Hout. unfold xr_chunk_framed. destruct blocks as [|b bs]; cbn [map] in Hs.
    - destruct (read_full_nil x 4 Hs ltac:(lia)) as (x' & ->). reflexivity.
    - inversion Hf as [|? ? Hfb Hfr]; subst. rewrite frames_cons in Hs.
      rewrite (read_full_exact x _ _ 4 Hs eq_refl), (be32_decode_be32 _ Hfb).
      erewrite read_full_exact by reflexivity.
      apply decode_block_post; [exact Ho|exact Hout|]. apply RS_mid; auto. cbn [r_nbytes]. lia.
  Qed.

  Lemma read_header_mid x : r_nbytes x <> 0 -> xr_read_header x = (x, 0, None).
  Proof. intros H. unfold xr_read_header. apply N.eqb_neq in H. rewrite H. reflexivity. Qed.

  Lemma read_header_start x ver t :
    r_nbytes x = 0 -> length ver = 8%nat -> r_src x = xerial_magic ++ ver ++ t ->
    xr_read_header x =
    ({| r_src := t; r_header := (xerial_magic ++ ver) ++ drop_N 16 (r_header x); r_output := r_output x;
        r_offset := r_offset x; r_nbytes := 16 |}, 16, None).
  Proof.
    intros Hn Hv Hs. unfold xr_read_header. rewrite Hn, N.eqb_refl. rewrite app_assoc in Hs.
    assert (Hl : len_N (xerial_magic ++ ver) = 16) by (unfold len_N; rewrite app_length, Hv; reflexivity).
    rewrite (read_full_exact x _ _ 16 Hs Hl), Hl, Hn.
    destruct (xerial_magic ++ ver) eqn:E; [discriminate|]. reflexivity.
  Qed.

  Lemma read_header_raw x b :
    r_nbytes x = 0 -> r_src x = enc b ->
    xr_read_header x =
    (let got := take_N 16 (enc b) in
     ({| r_src := drop_N 16 (enc b); r_header := got ++ drop_N (len_N got) (r_header x);
         r_output := r_output x; r_offset := r_offset x; r_nbytes := len_N got |}, len_N got, None)).
  Proof.
    intros Hn Hs. unfold xr_read_header, xr_read_full. rewrite Hn, N.eqb_refl, Hs. cbv zeta.
    pose proof (enc_nonempty b). destruct (enc b) as [|e0 er]; [congruence|].
    unfold take_N. change (N.to_nat 16) with 16%nat. cbn [firstn].
    destruct (len_N _ =? 16); reflexivity.
  Qed.

  Lemma read_chunk_spec x blocks k :
    RSrc (r_src x) (r_header x) (r_nbytes x) blocks -> chunk_post (xr_read_chunk dec declen x k) blocks k.
  Proof.
    intros H. unfold xr_read_chunk. set (x0 := xr_set_output x [] 0).
    change (RSrc (r_src x0) (r_header x0) (r_nbytes x0) blocks) in H.
    assert (O0 : r_offset x0 = 0) by reflexivity. assert (U0 : r_output x0 = []) by reflexivity.
    clearbody x0. clear x.
    destruct H as [bl Hh Hn Hs Hf | ver bl Hn Hv Hs Hf | Hs | b Hn Hh Hs].
    - rewrite (read_header_mid x0 Hn), Hh. apply chunk_framed_stream; assumption.
    - rewrite (read_header_start x0 ver _ Hn Hv Hs). cbn [r_header]. rewrite (header_is_magic ver _ Hv).
      apply chunk_framed_stream; auto. apply header_is_magic. exact Hv.
    - destruct (N.eqb_spec (r_nbytes x0) 0) as [Hn|Hn].
      + unfold xr_read_header. rewrite Hn, N.eqb_refl.
        destruct (read_full_nil x0 16 Hs ltac:(lia)) as (x' & ->). reflexivity.
      + rewrite (read_header_mid x0 Hn). destruct (is_xerial_header (r_header x0)).
        * unfold xr_chunk_framed. destruct (read_full_nil x0 4 Hs ltac:(lia)) as (x' & ->). reflexivity.
        * unfold xr_chunk_unframed. rewrite Hs. reflexivity.
    - (* a raw block: the bytes that went through x.header are put back in front of the rest *)
      rewrite (read_header_raw x0 b Hn Hs), Hh. cbv zeta. cbn [r_header]. rewrite (enc_not_magic b).
      unfold xr_chunk_unframed. cbn [r_header r_src r_output r_offset r_nbytes].
      rewrite (take_N_app_exact _ _ _ eq_refl), take_drop_N.
      pose proof (enc_nonempty b) as Hb. destruct (enc b) as [|e0 er] eqn:Eb; [congruence|]. rewrite <- Eb.
      apply decode_block_post; [exact O0|exact U0|]. apply RS_done. reflexivity.
  Qed.

  Lemma read_loop_copy fuel x k :
    r_offset x < len_N (r_output x) ->
    xr_read_loop dec declen fuel x k =
    (xr_set_output x (r_output x) (r_offset x + N.min k (len_N (r_output x) - r_offset x)),
     RData (take_N (N.min k (len_N (r_output x) - r_offset x)) (drop_N (r_offset x) (r_output x)))).
  Proof.
    intros H. apply N.ltb_lt in H. destruct fuel; cbn [xr_read_loop]; rewrite H; reflexivity.
  Qed.

  Lemma read_loop_chunk fuel x k :
    len_N (r_output x) <= r_offset x ->
    xr_read_loop dec declen (S fuel) x k =
    match xr_read_chunk dec declen x k with
    | (x', inr e) => (x', RErr e)
    | (x', inl (n, b)) => if 0 <? n then (x', RData b) else xr_read_loop dec declen fuel x' k
    end.
  Proof. intros H. apply N.ltb_ge in H. cbn [xr_read_loop]. rewrite H. reflexivity. Qed.

  Lemma buffered_nil x : buffered x [] -> len_N (r_output x) <= r_offset x.
  Proof.
    intros [Hle Hc]. apply (f_equal len_N) in Hc. rewrite len_N_drop, len_N_nil in Hc. lia.
  Qed.

  Lemma read_buffered fuel x k c cur blocks :
    RInv x (c :: cur) blocks ->
    snd (xr_read_loop dec declen fuel x k) = RData (take_N k (c :: cur)) /\
    RInv (fst (xr_read_loop dec declen fuel x k)) (drop_N k (c :: cur)) blocks.
  Proof.
    intros [[Hle Hc] Hsrc].
    assert (Hlen : len_N (c :: cur) = len_N (r_output x) - r_offset x) by (rewrite Hc; apply len_N_drop).
    pose proof (len_N_pos (c :: cur) ltac:(discriminate)). rewrite read_loop_copy by lia.
    cbn [fst snd]. rewrite <- Hc, <- Hlen, (proj1 (split_N_min _ k)). split; [reflexivity|]. split; [|exact Hsrc].
    unfold buffered, xr_set_output. cbn [r_offset r_output]. split; [lia|].
    rewrite drop_N_add, <- Hc. symmetry. apply split_N_min.
  Qed.

  (* empty blocks are skipped, at one readChunk each *)
  Lemma read_cur : forall blocks fuel x k cur,
    RInv x cur blocks -> (length blocks < fuel)%nat ->
    match ref_cur cur blocks with
    | None => snd (xr_read_loop dec declen fuel x k) = RErr EEOF
    | Some (c, bs) => snd (xr_read_loop dec declen fuel x k) = RData (take_N k c) /\
                      RInv (fst (xr_read_loop dec declen fuel x k)) (drop_N k c) bs
    end.
  Proof.
    intros blocks fuel x k [|c cur]; [|intros; apply read_buffered; assumption].
    revert fuel x. induction blocks as [|b bs IH]; intros fuel x [Hb Hsrc] Hfuel.
    all: destruct fuel as [|fuel]; [cbn in Hfuel; lia|].
    all: rewrite (read_loop_chunk _ _ _ (buffered_nil x Hb)).
    all: pose proof (read_chunk_spec x _ k Hsrc) as Hc.
    all: destruct (xr_read_chunk dec declen x k) as [x' res]; cbn [chunk_post fst snd length] in *.
    - subst res. reflexivity.
    - destruct Hc as [-> Hinv]. unfold chunk_result. cbn [ref_cur ref_next_block].
      destruct (N.leb_spec (len_N b) k) as [Hk|Hk].
      + destruct b as [|c b']; [apply IH; [exact Hinv|lia]|].
        pose proof (len_N_pos (c :: b') ltac:(discriminate)) as Hp. apply N.ltb_lt in Hp. rewrite Hp. cbn [fst snd].
        rewrite take_N_all, drop_N_all by exact Hk. split; [reflexivity|exact Hinv].
      + (* buffered whole; the next turn of the loop copies from the buffer *)
        destruct b as [|c b']; [cbn in Hk; lia|]. cbn [ref_next_block]. apply read_buffered. exact Hinv.
  Qed.

  Lemma read_cur_fuel x cur blocks : RInv x cur blocks -> (length blocks < S (S (length (r_src x))))%nat.
  Proof.
    intros [_ H]. destruct H as [bl _ _ Hs _ | ver bl _ _ Hs _ | _ | b _ _ _]; [| |cbn; lia..].
    all: rewrite Hs; pose proof (frames_length (map enc bl)) as H; rewrite map_length in H.
    all: rewrite ?app_length; lia.
  Qed.

  Theorem reads_spec : forall ks x cur blocks,
    RInv x cur blocks ->
    snd (xr_reads dec declen x ks) = map of_ref (ref_reads cur blocks ks).
  Proof.
    induction ks as [|k ks IH]; intros x cur blocks Hinv; [reflexivity|].
    rewrite ref_reads_cons. cbn [xr_reads]. unfold xr_read.
    pose proof (read_cur blocks _ x k cur Hinv (read_cur_fuel x cur blocks Hinv)) as H.
    destruct (xr_read_loop dec declen _ x k) as [x' r]. cbn [fst snd] in H.
    destruct (ref_cur cur blocks) as [[c bs]|].
    - destruct H as [-> Hinv']. specialize (IH x' _ _ Hinv').
      destruct (xr_reads dec declen x' ks) as [x'' rs]. cbn [snd map of_ref] in *. now rewrite IH.
    - subst r. reflexivity.
  Qed.

  Definition is_rdata (r : rres) : bool := match r with RData _ => true | _ => false end.
  Fixpoint rdata (rs : list rres) {struct rs} : list N :=
    match rs with
    | [] => []
    | RData b :: rs' => b ++ rdata rs'
    | _ :: rs' => rdata rs'
    end.

  Lemma write_to_loop_spec : forall blocks fuel x acc cur,
    RInv x cur blocks -> (length blocks < fuel)%nat ->
    exists x', xr_write_to_loop dec declen fuel x acc = (x', acc ++ cur ++ concat blocks, Some None).
  Proof.
    induction blocks as [|b bs IH]; intros fuel x acc cur [[Hle Hc] Hsrc] Hfuel.
    all: destruct fuel as [|f]; [cbn in Hfuel; lia|].
    all: cbn [xr_write_to_loop]; rewrite <- Hc.
    all: set (x1 := xr_set_output x (r_output x) (N.max (r_offset x) (len_N (r_output x)))).
    all: pose proof (read_chunk_spec x1 _ 0 Hsrc) as Hp.
    all: destruct (xr_read_chunk dec declen x1 0) as [x' res]; cbn [chunk_post fst snd] in Hp.
    - subst res. exists x'. cbn [concat]. rewrite app_nil_r. reflexivity.
    - (* with a buffer of length 0 the block is kept in x.output, unless it is empty *)
      destruct Hp as [-> Hinv]. cbn [length] in Hfuel.
      assert (Hinv' : RInv x' b bs).
      { destruct (N.leb_spec (len_N b) 0) as [H0|H0]; [|exact Hinv].
        rewrite (len_N_zero b) by lia. exact Hinv. }
      destruct (IH f x' (acc ++ cur) b Hinv' ltac:(lia)) as (x'' & E').
      exists x''. unfold chunk_result. destruct (len_N b <=? 0); rewrite E';
        cbn [concat]; rewrite <- !app_assoc; reflexivity.
  Qed.

  Lemma reads_inv : forall ks x cur blocks x' rs,
    RInv x cur blocks -> xr_reads dec declen x ks = (x', rs) -> forallb is_rdata rs = true ->
    exists cur' blocks', RInv x' cur' blocks' /\ rdata rs ++ cur' ++ concat blocks' = cur ++ concat blocks.
  Proof.
    induction ks as [|k ks IH]; intros x cur blocks x' rs Hinv E Hall; cbn [xr_reads] in E.
    - injection E as <- <-. exists cur, blocks. split; [exact Hinv|reflexivity].
    - unfold xr_read in E.
      pose proof (read_cur blocks _ x k cur Hinv (read_cur_fuel x cur blocks Hinv)) as H.
      destruct (xr_read_loop dec declen _ x k) as [x1 r]. cbn [fst snd] in H.
      destruct (ref_cur cur blocks) as [[c bs]|] eqn:Ec.
      + destruct H as [-> Hinv1]. destruct (xr_reads dec declen x1 ks) as [x2 rs2] eqn:E2.
        injection E as <- <-. cbn [forallb is_rdata andb] in Hall.
        destruct (IH x1 _ _ x2 rs2 Hinv1 E2 Hall) as (cur' & bl' & Hinv' & Hcat).
        exists cur', bl'. split; [exact Hinv'|]. destruct (ref_cur_some _ _ _ _ Ec) as [_ ->].
        cbn [rdata]. rewrite <- app_assoc, Hcat, app_assoc, take_drop_N. reflexivity.
      + subst r. injection E as <- <-. discriminate Hall.
  Qed.

  Theorem reads_then_write_to ks x cur blocks x' rs :
    RInv x cur blocks -> xr_reads dec declen x ks = (x', rs) -> forallb is_rdata rs = true ->
    exists x'' rest, xr_write_to dec declen x' = (x'', rest, Some None) /\
                     rdata rs ++ rest = cur ++ concat blocks.
  Proof.
    intros Hinv E Hall. destruct (reads_inv ks x cur blocks x' rs Hinv E Hall) as (cur' & bl' & Hinv' & Hcat).
    destruct (write_to_loop_spec bl' _ x' [] cur' Hinv' (read_cur_fuel x' cur' bl' Hinv')) as (x'' & E').
    exists x'', (cur' ++ concat bl'). split; [exact E'|exact Hcat].
  Qed.
End Reader.

Definition eff_cap (c : N) : N := if c =? 0 then default_buffer_size else c.

Lemma eff_cap_nonzero c : eff_cap c <> 0.
Proof. unfold eff_cap. destruct (N.eqb_spec c 0); [discriminate|assumption]. Qed.

Lemma eff_cap_id c : c <> 0 -> eff_cap c = c.
Proof. unfold eff_cap. intros H. destruct (N.eqb_spec c 0); [contradiction|reflexivity]. Qed.

(* the first Write / ReadFrom allocates the default buffer *)
Lemma xw_ensure_eq x :
  xw_ensure x = {| w_input := w_input x; w_cap := eff_cap (w_cap x); w_nbytes := w_nbytes x; w_framed := w_framed x |}.
Proof. destruct x as [i c n f]. unfold xw_ensure, eff_cap. cbn [w_cap]. destruct (c =? 0); reflexivity. Qed.

Lemma stream_of_snoc cs c :
  stream_of (cs ++ [c]) =
  stream_of cs ++ (if len_N (stream_of cs) =? 0 then xerial_header_bytes else []) ++ frame c.
Proof.
  destruct cs as [|c0 cs]; cbn [app stream_of].
  - unfold frames. cbn [map concat]. rewrite app_nil_r. reflexivity.
  - change (c0 :: cs ++ [c]) with ((c0 :: cs) ++ [c]). rewrite frames_app. unfold frames at 2. cbn [map concat].
    rewrite app_nil_r, len_N_app, <- app_assoc. reflexivity.
Qed.

Section Writer.
  Variable enc : list N -> list N.

  (* the framed stream emitted so far; buffer and capacity are [Framed]'s *)
  Definition WCore (x : xwriter) (s : sink) (blocks : list (list N)) : Prop :=
    w_framed x = true /\ k_room s = None /\ w_nbytes x = len_N (k_data s) /\
    k_data s = stream_of (map enc blocks).

  Lemma WCore_set_input x s blocks i : WCore x s blocks -> WCore (xw_set_input x i) s blocks.
  Proof. intros H. exact H. Qed.

  (* what Flush writes for a non-empty buffer: the stream header before the first framed block,
     the length prefix when framed, the encoded buffer *)
  Definition flush_out (x : xwriter) : list N :=
    (if w_framed x then (if w_nbytes x =? 0 then xerial_header_bytes else []) ++ be32 (len_N (enc (w_input x)))
     else []) ++ enc (w_input x).

  Lemma flush_nonempty x s :
    w_input x <> [] -> k_room s = None ->
    xw_flush enc x s =
    ({| w_input := []; w_cap := w_cap x; w_nbytes := w_nbytes x + len_N (flush_out x); w_framed := w_framed x |},
     {| k_data := k_data s ++ flush_out x; k_room := None |}, true).
  Proof.
    destruct x as [inp cap nb fr], s as [data room]. cbn [w_input k_room]. intros Hin ->.
    destruct inp as [|p ps]; [contradiction|].
    unfold xw_flush, flush_out, xw_set_input, xw_raw, sink_write.
    cbn [w_input w_cap w_nbytes w_framed k_data k_room].
    (* the first framed block, a later one, an unframed buffer *)
    destruct fr; [destruct (nb =? 0)|];
      cbn [w_input w_cap w_nbytes w_framed k_data k_room andb negb app];
      rewrite ?len_N_app, <- ?app_assoc, ?N.add_assoc; reflexivity.
  Qed.

  Definition block_ok (cap : N) (bl : list N) : Prop := bl <> [] /\ len_N bl <= cap.

  Lemma flush_framed x s blocks :
    WCore x s blocks ->
    exists x' s' blocks', xw_flush enc x s = (x', s', true) /\ WCore x' s' blocks' /\
      w_input x' = [] /\ w_cap x' = w_cap x /\ concat blocks' = concat blocks ++ w_input x /\
      forall cap, Forall (block_ok cap) blocks -> len_N (w_input x) <= cap -> Forall (block_ok cap) blocks'.
  Proof.
    intros Hc. destruct (w_input x) as [|p ps] eqn:Hin.
    { exists x, s, blocks. unfold xw_flush. rewrite Hin, app_nil_r. auto 7. }
    destruct Hc as (Hfr & Hroom & Hnb & Hdata).
    do 2 eexists. exists (blocks ++ [p :: ps]). split; [apply flush_nonempty; [congruence|exact Hroom]|].
    cbn [w_input w_cap]. split.
    - unfold WCore, flush_out. cbn [w_framed w_nbytes k_data k_room]. rewrite Hfr, Hin, Hnb, Hdata.
      rewrite map_app. cbn [map]. rewrite stream_of_snoc, <- app_assoc, <- len_N_app. auto.
    - rewrite concat_app. cbn [concat]. rewrite app_nil_r. repeat split.
      intros cap Hall Hle. apply Forall_app. split; [exact Hall|].
      constructor; [split; [discriminate|exact Hle]|constructor].
  Qed.

  (* one turn of the loop of Write or ReadFrom: take in what fits of [data] (at most [lim]
     bytes), then flush if the buffer is full enough *)
  Definition xw_turn (x : xwriter) (s : sink) (data : list N) (lim : option N)
    : xwriter * sink * bool * list N * N :=
    let '(x1, rest, n) := xw_pull_in x data lim in
    let '(x2, s2, ok) := if xw_full_enough x1 then xw_flush enc x1 s else (x1, s, true) in
    (x2, s2, ok, rest, n).

  Lemma write_loop_step fuel x s c b wn :
    xw_write_loop enc (S fuel) x s (c :: b) wn =
    let '(x', s', ok, rest, n) := xw_turn x s (c :: b) None in
    if ok then xw_write_loop enc fuel x' s' rest (wn + n) else (x', s', WErr (wn + n) EShortWrite).
  Proof.
    cbn [xw_write_loop]. unfold xw_turn. change (xw_copy_in x (c :: b)) with (xw_pull_in x (c :: b) None).
    destruct (xw_pull_in x (c :: b) None) as [[x1 rest] n].
    destruct (xw_full_enough x1); [destruct (xw_flush enc x1 s) as [[x2 s2] []]|]; reflexivity.
  Qed.

  Lemma read_from_loop_step fuel x s r wn :
    xw_read_from_loop enc (S fuel) x s r wn =
    let '(x', s', ok, rest, n) := xw_turn x s (src_data r) (hd_error (src_steps r)) in
    if negb ok then (x', s', WErr (wn + n) EShortWrite)
    else if src_at_end r rest n then (x', s', if src_fails r then WErr (wn + n) EIO else WOk (wn + n))
    else xw_read_from_loop enc fuel x' s'
           {| src_data := rest; src_steps := tl (src_steps r);
              src_eof_with_data := src_eof_with_data r; src_fails := src_fails r |} (wn + n).
  Proof.
    cbn [xw_read_from_loop]. unfold xw_turn.
    destruct (xw_pull_in x (src_data r) (hd_error (src_steps r))) as [[x1 rest] n].
    destruct (xw_full_enough x1); [destruct (xw_flush enc x1 s) as [[x2 s2] ok]|]; reflexivity.
  Qed.

  Definition turn_ok (J : xwriter -> sink -> list N -> Prop)
             (x : xwriter) (s : sink) (acc data : list N) (lim : option N) : Prop :=
    exists n x' s', xw_turn x s data lim = (x', s', true, drop_N n data, n) /\
      n <= len_N data /\ (lim = None -> data <> [] -> 0 < n) /\
      J x' s' (acc ++ take_N n data) /\ w_cap x' <> 0.

  Lemma pull_in_spec x data lim :
    w_cap x <> 0 -> len_N (w_input x) <= w_cap x ->
    exists n c, xw_pull_in x data lim =
        ({| w_input := w_input x ++ take_N n data; w_cap := c; w_nbytes := w_nbytes x; w_framed := w_framed x |},
         drop_N n data, n) /\
      n <= len_N data /\ (lim = None -> data <> [] -> 0 < n) /\
      len_N (w_input x) + n <= c /\ w_cap x <= c /\ (len_N (w_input x) < w_cap x -> c = w_cap x).
  Proof.
    intros Hne Hle. unfold xw_pull_in, xw_full.
    pose proof (len_N_pos data) as Hpos.
    (* a limited Read or not, a full buffer or not: the same arithmetic four times *)
    destruct lim as [l|], (N.eqb_spec (len_N (w_input x)) (w_cap x)) as [e|ne];
      do 2 eexists; (split; [reflexivity|]); cbn [xw_grow w_input w_cap];
      (split; [lia|]); (split; [|lia]); intros Hl Hd; try discriminate; specialize (Hpos Hd); lia.
  Qed.

  Lemma at_end_true r n :
    src_at_end r (drop_N n (src_data r)) n = true -> n <= len_N (src_data r) ->
    take_N n (src_data r) = src_data r /\ n = len_N (src_data r).
  Proof.
    unfold src_at_end. intros H Hn.
    assert (Hd : len_N (drop_N n (src_data r)) = 0).
    { destruct (src_data r) as [|d0 dl]; [apply len_N_drop|].
      apply andb_true_iff in H as [_ H]. destruct (drop_N n (d0 :: dl)); [reflexivity|discriminate]. }
    rewrite len_N_drop in Hd. split; [apply take_N_all|]; lia.
  Qed.

  Lemma at_end_false r rest n : src_at_end r rest n = false -> src_data r <> [].
  Proof. unfold src_at_end. destruct (src_data r); discriminate. Qed.

  (* the operations covered: Write, and ReadFrom of a source that ends with io.EOF *)
  Definition op_bytes (op : wop) : list N :=
    match op with OWrite b => b | OReadFrom r => src_data r | OFlush => [] end.
  Definition op_good (op : wop) : Prop :=
    match op with OWrite _ => True | OReadFrom r => src_fails r = false | OFlush => False end.
  Definition ops_payload (ops : list wop) : list N := concat (map op_bytes ops).
  Definition ops_results (ops : list wop) : list wres := map (fun op => WOk (len_N (op_bytes op))) ops.

  Definition xw_op (x : xwriter) (s : sink) (op : wop) : xwriter * sink * wres :=
    match op with
    | OWrite b => xw_write enc x s b
    | OReadFrom r => xw_read_from enc x s r
    | OFlush => let '(x, s, ok) := xw_flush enc x s in (x, s, if ok then WOk 0 else WErr 0 EShortWrite)
    end.

  Lemma xw_ops_cons x s op ops :
    xw_ops enc x s (op :: ops) =
    let '(x1, s1, r) := xw_op x s op in let '(x2, s2, rs) := xw_ops enc x1 s1 ops in (x2, s2, r :: rs).
  Proof. reflexivity. Qed.

  (* what one turn preserves, Write, ReadFrom and sequences of them preserve *)
  Definition keeps_turns (J : xwriter -> sink -> list N -> Prop) : Prop :=
    forall x s acc data lim, J x s acc -> w_cap x <> 0 -> turn_ok J x s acc data lim.

  Lemma write_loop_ok J : keeps_turns J -> forall fuel b x s acc wn,
    J x s acc -> w_cap x <> 0 -> (length b < fuel)%nat ->
    exists x' s', xw_write_loop enc fuel x s b wn = (x', s', WOk (wn + len_N b)) /\ J x' s' (acc ++ b).
  Proof.
    intros J_turn. induction fuel as [|fuel IH]; intros b x s acc wn HJ Hne Hf; [lia|].
    destruct b as [|c b].
    - exists x, s. rewrite len_N_nil, N.add_0_r, app_nil_r. split; [reflexivity|exact HJ].
    - rewrite write_loop_step.
      destruct (J_turn x s acc (c :: b) None HJ Hne) as (n & x1 & s1 & E & Hn & Hpos & HJ1 & Hne1).
      rewrite E. specialize (Hpos eq_refl ltac:(discriminate)).
      destruct (IH (drop_N n (c :: b)) x1 s1 _ (wn + n) HJ1 Hne1) as (x' & s' & E' & HJ').
      { pose proof (drop_N_shorter n (c :: b) Hpos ltac:(discriminate)). lia. }
      exists x', s'. rewrite E', len_N_drop, <- app_assoc, take_drop_N in *.
      split; [|exact HJ']. f_equal. f_equal. lia.
  Qed.

  Lemma read_from_loop_ok J : keeps_turns J -> forall fuel r x s acc wn,
    src_fails r = false -> J x s acc -> w_cap x <> 0 ->
    (length (src_data r) + length (src_steps r) < fuel)%nat ->
    exists x' s', xw_read_from_loop enc fuel x s r wn = (x', s', WOk (wn + len_N (src_data r))) /\
                  J x' s' (acc ++ src_data r).
  Proof.
    intros J_turn. induction fuel as [|fuel IH]; intros r x s acc wn Hok HJ Hne Hf; [lia|].
    rewrite read_from_loop_step.
    destruct (J_turn x s acc (src_data r) (hd_error (src_steps r)) HJ Hne)
      as (n & x1 & s1 & E & Hn & Hpos & HJ1 & Hne1).
    rewrite E. cbn [negb]. destruct (src_at_end r (drop_N n (src_data r)) n) eqn:Eend.
    - destruct (at_end_true r n Eend Hn) as [Htake <-]. rewrite Htake in HJ1. rewrite Hok. eauto.
    - (* data is left: it shrinks, or the source's list of limits does *)
      pose proof (at_end_false r _ n Eend) as Hdne.
      set (r' := {| src_data := drop_N n (src_data r); src_steps := tl (src_steps r);
                    src_eof_with_data := src_eof_with_data r; src_fails := src_fails r |}).
      destruct (IH r' x1 s1 _ (wn + n) Hok HJ1 Hne1) as (x' & s' & E' & HJ').
      { unfold r'. cbn [src_data src_steps]. destruct (src_steps r) as [|l t]; cbn [tl length hd_error] in *.
        - pose proof (drop_N_shorter n _ (Hpos eq_refl Hdne) Hdne). lia.
        - unfold drop_N. rewrite skipn_length. lia. }
      exists x', s'. unfold r' in *. cbn [src_data] in *.
      rewrite E', len_N_drop, <- app_assoc, take_drop_N in *.
      split; [|exact HJ']. f_equal. f_equal. lia.
  Qed.

  Lemma ops_ok (J : xwriter -> sink -> list N -> Prop) :
    (forall x s acc, J x s acc -> J (xw_ensure x) s acc) -> keeps_turns J -> forall ops x s acc,
    Forall op_good ops -> J x s acc ->
    exists x' s', xw_ops enc x s ops = (x', s', ops_results ops) /\ J x' s' (acc ++ ops_payload ops).
  Proof.
    intros J_ensure J_turn. induction ops as [|op ops IH]; intros x s acc Hg HJ.
    - exists x, s. unfold ops_payload. cbn [map concat]. rewrite app_nil_r. split; [reflexivity|exact HJ].
    - inversion Hg as [|? ? Hg1 Hgs]; subst.
      assert (Hop : exists x1 s1, xw_op x s op = (x1, s1, WOk (len_N (op_bytes op))) /\ J x1 s1 (acc ++ op_bytes op)).
      { pose proof (J_ensure x s acc HJ) as HJ0.
        assert (Hne : w_cap (xw_ensure x) <> 0) by (rewrite xw_ensure_eq; apply eff_cap_nonzero).
        destruct op as [b|r|]; cbn [op_good] in Hg1; [| |contradiction].
        - exact (write_loop_ok J J_turn _ b _ s acc 0 HJ0 Hne (Nat.lt_succ_diag_r _)).
        - exact (read_from_loop_ok J J_turn _ r _ s acc 0 Hg1 HJ0 Hne (Nat.lt_lt_succ_r _ _ (Nat.lt_succ_diag_r _))). }
      destruct Hop as (x1 & s1 & E1 & HJ1). destruct (IH x1 s1 _ Hgs HJ1) as (x' & s' & E' & HJ').
      exists x', s'. rewrite xw_ops_cons, E1, E'. unfold ops_payload in *. cbn [map concat].
      rewrite app_assoc. split; [reflexivity|exact HJ'].
  Qed.

  (* blocks are cut where fewer than 1024 bytes are free, so the buffer is never full (the
     strict <) and never grows *)
  Definition Framed (cap : N) (x : xwriter) (s : sink) (acc : list N) : Prop :=
    exists blocks, WCore x s blocks /\ Forall (block_ok cap) blocks /\ concat blocks ++ w_input x = acc /\
                   eff_cap (w_cap x) = cap /\ len_N (w_input x) < cap.

  Lemma framed_ensure cap x s acc : Framed cap x s acc -> Framed cap (xw_ensure x) s acc.
  Proof.
    intros (blocks & Hc & H). exists blocks. rewrite xw_ensure_eq. cbn [w_input w_cap].
    rewrite (eff_cap_id _ (eff_cap_nonzero _)). split; [exact Hc|exact H].
  Qed.

  Lemma framed_turn cap : keeps_turns (Framed cap).
  Proof.
    intros x s acc data lim (blocks & Hc & Hall & <- & Hcap & Hlt) Hne.
    rewrite eff_cap_id in Hcap by exact Hne. subst cap.
    destruct (pull_in_spec x data lim Hne ltac:(lia)) as (n & c & E & Hn & Hpos & Hle & _ & Hc').
    rewrite (Hc' Hlt) in *. clear Hc'. unfold turn_ok, xw_turn. rewrite E.
    set (x1 := {| w_input := w_input x ++ take_N n data; w_cap := w_cap x;
                  w_nbytes := w_nbytes x; w_framed := w_framed x |}).
    exists n. destruct (xw_full_enough x1) eqn:Efe.
    - destruct (flush_framed x1 s blocks Hc) as (x2 & s2 & bl2 & -> & Hc2 & Hin2 & Hcap2 & Hcat2 & Hall2).
      exists x2, s2. cbn [x1 w_cap w_input] in *. rewrite Hcap2.
      refine (conj eq_refl (conj Hn (conj Hpos (conj _ Hne)))).
      exists bl2. rewrite Hin2, Hcap2, Hcat2, app_nil_r, eff_cap_id, app_assoc, len_N_nil by exact Hne.
      refine (conj Hc2 (conj (Hall2 _ Hall _) (conj eq_refl (conj eq_refl _)))).
      + rewrite len_N_app, len_N_take. lia.
      + lia.
    - (* at least 1024 bytes stay free: the buffer is not full *)
      exists x1, s. refine (conj eq_refl (conj Hn (conj Hpos (conj _ Hne)))).
      exists blocks. cbn [x1 w_cap w_input]. rewrite eff_cap_id, <- app_assoc by exact Hne.
      refine (conj Hc (conj Hall (conj eq_refl (conj eq_refl _)))).
      unfold xw_full_enough in Efe. cbn [x1 w_framed w_cap w_input] in Efe.
      destruct Hc as (Hfr & _). rewrite Hfr in Efe. apply N.ltb_ge in Efe. lia.
  Qed.

  Definition pooled_cap (pooled : option xwriter) : N :=
    match pooled with Some p => w_cap p | None => 0 end.

  Lemma xw_open_eq pooled framed :
    xw_open pooled framed = {| w_input := []; w_cap := pooled_cap pooled; w_nbytes := 0; w_framed := framed |}.
  Proof. destruct pooled; reflexivity. Qed.

  Theorem stream_framed_ops pooled ops :
    Forall op_good ops ->
    exists blocks x',
      xw_stream enc pooled true None ops =
      (x', stream_of (map enc blocks), ops_results ops, true) /\
      concat blocks = ops_payload ops /\
      Forall (block_ok (eff_cap (pooled_cap pooled))) blocks /\
      w_input x' = [] /\ w_nbytes x' = 0 /\ eff_cap (w_cap x') = eff_cap (pooled_cap pooled).
  Proof.
    intros Hg. unfold xw_stream. set (cap := eff_cap (pooled_cap pooled)).
    destruct (ops_ok (Framed cap) (framed_ensure cap) (framed_turn cap) ops
                (xw_open pooled true) {| k_data := []; k_room := None |} [] Hg)
      as (x1 & s1 & -> & blocks & Hc & Hall & Hcat & Hcap & Hlt).
    { rewrite xw_open_eq. exists []. repeat split; [constructor|apply N.neq_0_lt_0, eff_cap_nonzero]. }
    unfold xw_close.
    destruct (flush_framed x1 s1 blocks Hc) as (x2 & s2 & bl2 & -> & (_ & _ & _ & ->) & Hin2 & Hcap2 & Hcat2 & Hall2).
    exists bl2, (xw_reset x2). cbn [xw_reset w_input w_nbytes w_cap].
    rewrite Hcat2, Hcap2. repeat split; auto. apply Hall2; [exact Hall|lia].
  Qed.

  (* unframed: nothing is emitted before Close; the buffer doubles when full *)
  Definition Unframed (x : xwriter) (s : sink) (acc : list N) : Prop :=
    w_framed x = false /\ s = {| k_data := []; k_room := None |} /\ w_nbytes x = 0 /\
    w_input x = acc /\ len_N acc <= eff_cap (w_cap x).

  Lemma unframed_ensure x s acc : Unframed x s acc -> Unframed (xw_ensure x) s acc.
  Proof.
    intros H. rewrite xw_ensure_eq. unfold Unframed. cbn [w_input w_cap w_framed w_nbytes].
    rewrite (eff_cap_id _ (eff_cap_nonzero _)). exact H.
  Qed.

  Lemma unframed_turn : keeps_turns Unframed.
  Proof.
    intros x s acc data lim (Hfr & Hs & Hnb & <- & Hle) Hne. rewrite eff_cap_id in Hle by exact Hne.
    destruct (pull_in_spec x data lim Hne Hle) as (n & c & E & Hn & Hpos & Hle' & Hc & _).
    unfold turn_ok, xw_turn, xw_full_enough. rewrite E. cbn [w_framed]. rewrite Hfr. cbn [andb].
    do 3 eexists. split; [reflexivity|]. unfold Unframed. cbn [w_input w_cap w_framed w_nbytes].
    rewrite eff_cap_id, len_N_app, len_N_take by lia. repeat split; auto; lia.
  Qed.

  Theorem stream_unframed_ops pooled ops :
    Forall op_good ops ->
    exists x',
      xw_stream enc pooled false None ops =
      (x', match ops_payload ops with [] => [] | _ :: _ => enc (ops_payload ops) end,
       ops_results ops, true) /\
      w_input x' = [] /\ w_nbytes x' = 0.
  Proof.
    intros Hg. unfold xw_stream.
    destruct (ops_ok Unframed unframed_ensure unframed_turn ops
                (xw_open pooled false) {| k_data := []; k_room := None |} [] Hg)
      as (x1 & s1 & -> & Hfr & -> & Hnb & Hin & _).
    { rewrite xw_open_eq. repeat split. apply N.le_0_l. }
    unfold xw_close. cbn [app] in Hin. rewrite <- Hin. destruct (w_input x1) as [|p ps] eqn:Ein.
    - exists (xw_reset x1). unfold xw_flush. rewrite Ein. repeat split.
    - rewrite flush_nonempty by (cbn; congruence). unfold flush_out. rewrite Hfr, Ein.
      eexists. repeat split.
  Qed.
End Writer.

Lemma xw_stream_pooled_cap enc p1 p2 framed room ops :
  pooled_cap p1 = pooled_cap p2 -> xw_stream enc p1 framed room ops = xw_stream enc p2 framed room ops.
Proof. intros H. unfold xw_stream. rewrite !xw_open_eq, H. reflexivity. Qed.

Lemma writes_good bs : Forall op_good (map OWrite bs).
Proof. apply Forall_map, Forall_forall. intros b _. exact I. Qed.

Lemma writes_payload bs : ops_payload (map OWrite bs) = concat bs.
Proof. unfold ops_payload. rewrite map_map. cbn [op_bytes]. now rewrite map_id. Qed.

Lemma writes_results bs : ops_results (map OWrite bs) = map (fun b => WOk (len_N b)) bs.
Proof. unfold ops_results. now rewrite map_map. Qed.

Lemma ref_chunks_frames cs : Forall (fun c => len_N c < M32) cs -> ref_chunks cs = frames cs.
Proof.
  induction 1 as [|c cs Hc _ IH]; [reflexivity|].
  unfold ref_chunks, frames in *. cbn [map concat]. rewrite IH.
  unfold ref_chunk, frame, ref_length. fold (len_N c). now rewrite be32_ref_u32.
Qed.

Lemma ref_encode_frames enc blocks :
  Forall (fits32 enc) blocks ->
  ref_encode enc blocks = xerial_header_bytes ++ frames (map enc blocks).
Proof.
  intros H. unfold ref_encode, ref_encode_chunks. rewrite ref_chunks_frames; [reflexivity|].
  apply Forall_map. exact H.
Qed.

Lemma ref_split_frame c rest fuel :
  len_N c < M32 ->
  ref_split_chunks (S fuel) (frame c ++ rest) =
  match ref_split_chunks fuel rest with Some cs => Some (c :: cs) | None => None end.
Proof.
  intros Hc. unfold frame. rewrite (be32_ref_u32 _ Hc). pose proof (ref_u32_value_ref_u32 _ Hc) as Hv.
  unfold ref_u32 in *. cbn [app ref_split_chunks]. rewrite Hv.
  fold (take_N (len_N c) (c ++ rest)). fold (drop_N (len_N c) (c ++ rest)).
  rewrite (take_N_app_exact c rest _ eq_refl), (drop_N_app_exact c rest _ eq_refl).
  unfold len_N. rewrite Nat2N.id, app_length.
  replace (Nat.ltb _ _) with false by (symmetry; apply Nat.ltb_ge; lia). reflexivity.
Qed.

Lemma ref_split_frames : forall cs fuel,
  Forall (fun c => len_N c < M32) cs -> (length (frames cs) <= fuel)%nat ->
  ref_split_chunks fuel (frames cs) = Some cs.
Proof.
  induction cs as [|c cs IH]; intros fuel Hall Hf; [destruct fuel; reflexivity|].
  inversion Hall as [|? ? Hc Hcs]; subst.
  change (frames (c :: cs)) with (frame c ++ frames cs) in *. unfold frame in Hf at 1.
  rewrite !app_length, be32_length in Hf. destruct fuel as [|fuel]; [lia|].
  rewrite (ref_split_frame c _ fuel Hc), IH by (auto; lia). reflexivity.
Qed.

Lemma ref_decode_chunks_frames cs :
  Forall (fun c => len_N c < M32) cs ->
  ref_decode_chunks (xerial_header_bytes ++ frames cs) = Some cs.
Proof.
  intros H. unfold ref_decode_chunks, xerial_header_bytes, xerial_magic, xerial_version_info.
  cbn [app firstn skipn ref_bytes_eqb ref_magic N.eqb Pos.eqb andb negb].
  change (ref_u32_value 0 0 0 1 <=? ref_min_compatible) with true. cbv iota.
  apply ref_split_frames; [exact H|lia].
Qed.

Lemma ref_decode_all_enc enc dec :
  (forall b, dec (enc b) = Some b) ->
  forall blocks, ref_decode_all dec (map enc blocks) = Some (concat blocks).
Proof.
  intros Hd. induction blocks as [|b bs IH]; [reflexivity|].
  cbn [map ref_decode_all concat]. now rewrite Hd, IH.
Qed.

Theorem ref_decode_encode enc dec blocks :
  (forall b, dec (enc b) = Some b) ->
  Forall (fits32 enc) blocks ->
  ref_decode dec (ref_encode enc blocks) = Some (concat blocks).
Proof.
  intros Hd H. rewrite (ref_encode_frames enc blocks H). unfold ref_decode.
  rewrite ref_decode_chunks_frames by (apply Forall_map; exact H). apply ref_decode_all_enc. exact Hd.
Qed.

Lemma stream_of_ref enc dec blocks :
  (forall b, dec (enc b) = Some b) -> Forall (fits32 enc) blocks -> blocks <> [] ->
  stream_of (map enc blocks) = ref_encode enc blocks /\
  ref_decode dec (stream_of (map enc blocks)) = Some (concat blocks).
Proof.
  intros Hd Hf Hne. destruct blocks as [|b bs]; [contradiction|].
  change (stream_of (map enc (b :: bs))) with (xerial_header_bytes ++ frames (map enc (b :: bs))).
  rewrite <- (ref_encode_frames enc _ Hf). split; [reflexivity|exact (ref_decode_encode enc dec _ Hd Hf)].
Qed.

Lemma xr_open_new pr s : xr_open pr s = xr_new s.
Proof. destruct pr; reflexivity. Qed.

Lemma new_inv enc s blocks : RSrc enc s zeros16 0 blocks -> RInv enc (xr_new s) [] blocks.
Proof. intros H. split; [split; [apply N.le_refl|reflexivity]|exact H]. Qed.

Lemma open_inv_any_version enc pr ver blocks :
  length ver = 8%nat -> Forall (fits32 enc) blocks ->
  RInv enc (xr_open pr (xerial_magic ++ ver ++ frames (map enc blocks))) [] blocks.
Proof. intros Hv Hf. rewrite xr_open_new. apply new_inv. eapply RS_start; eauto. Qed.

Lemma open_inv_reference enc pr blocks :
  Forall (fits32 enc) blocks -> RInv enc (xr_open pr (ref_encode enc blocks)) [] blocks.
Proof.
  intros Hf. rewrite (ref_encode_frames enc blocks Hf). unfold xerial_header_bytes. rewrite <- app_assoc.
  exact (open_inv_any_version enc pr xerial_version_info blocks eq_refl Hf).
Qed.

Lemma open_inv_empty enc pr : RInv enc (xr_open pr []) [] [].
Proof. rewrite xr_open_new. apply new_inv, RS_done. reflexivity. Qed.

Lemma open_inv_raw enc pr b : RInv enc (xr_open pr (enc b)) [] [b].
Proof. rewrite xr_open_new. apply new_inv, RS_raw; reflexivity. Qed.

Lemma open_inv_written enc pr blocks :
  Forall (fits32 enc) blocks -> RInv enc (xr_open pr (stream_of (map enc blocks))) [] blocks.
Proof.
  intros Hf. destruct blocks as [|b bs]; [apply open_inv_empty|].
  change (stream_of (map enc (b :: bs))) with (xerial_header_bytes ++ frames (map enc (b :: bs))).
  rewrite <- (ref_encode_frames enc (b :: bs) Hf). exact (open_inv_reference enc pr (b :: bs) Hf).
Qed.

Section Top.
  Variable enc : list N -> list N.
  Variable dec : list N -> option (list N).
  Variable declen : list N -> option N.
  Hypothesis dec_enc : forall b, dec (enc b) = Some b.
  Hypothesis declen_dec : forall c b, dec c = Some b -> declen c = Some (len_N b).
  Hypothesis enc_nonempty : forall b, enc b <> [].
  Hypothesis enc_not_magic : forall b,
    is_xerial_header (take_N 16 (enc b) ++ drop_N (len_N (take_N 16 (enc b))) zeros16) = false.
  Hypothesis enc_len32 : forall b, len_N b <= M31 -> len_N (enc b) < M32.

  Definition delivered (blocks : list (list N)) (payload : list N) (ks : list N) : Prop :=
    (exists n, ref_read_data (ref_reads [] blocks ks) = firstn n payload) /\
    (Forall (fun k => 0 < k) ks -> (length payload < length ks)%nat ->
     ref_read_data (ref_reads [] blocks ks) = payload /\
     last (ref_reads [] blocks ks) (RefData []) = RefEOF).

  Lemma delivered_concat blocks payload ks : concat blocks = payload -> delivered blocks payload ks.
  Proof.
    intros <-. split.
    - exact (ref_reads_prefix ks [] blocks).
    - intros Hk Hl. exact (ref_reads_complete ks [] blocks Hk Hl).
  Qed.

  (* "any number of successful Reads, then WriteTo, deliver the payload exactly once" *)
  Definition copy_delivers (x : xreader) (payload : list N) (ks : list N) : Prop :=
    forall x' rs, xr_reads dec declen x ks = (x', rs) -> forallb is_rdata rs = true ->
    exists x'' rest, xr_write_to dec declen x' = (x'', rest, Some None) /\ rdata rs ++ rest = payload.

  Lemma copy_delivers_inv x blocks payload ks :
    RInv enc x [] blocks -> concat blocks = payload -> copy_delivers x payload ks.
  Proof.
    intros Hinv <- x' rs E Hall.
    exact (reads_then_write_to enc dec declen dec_enc declen_dec enc_nonempty enc_not_magic
             ks x [] blocks x' rs Hinv E Hall).
  Qed.

  Theorem roundtrip_framed_ops (pw : option xwriter) (pr : option xreader) ops ks :
    Forall op_good ops -> eff_cap (pooled_cap pw) <= M31 ->
    exists blocks released,
      xw_stream enc pw true None ops
      = (released, stream_of (map enc blocks), ops_results ops, true) /\
      concat blocks = ops_payload ops /\ Forall (fun b => b <> []) blocks /\
      (ops_payload ops <> [] ->
         stream_of (map enc blocks) = ref_encode enc blocks /\
         ref_decode dec (stream_of (map enc blocks)) = Some (ops_payload ops)) /\
      (ops_payload ops = [] -> stream_of (map enc blocks) = []) /\
      snd (xr_reads dec declen (xr_open pr (stream_of (map enc blocks))) ks)
      = map of_ref (ref_reads [] blocks ks) /\
      delivered blocks (ops_payload ops) ks /\
      copy_delivers (xr_open pr (stream_of (map enc blocks))) (ops_payload ops) ks /\
      w_input released = [] /\ w_nbytes released = 0.
  Proof.
    intros Hg Hcap.
    destruct (stream_framed_ops enc pw ops Hg) as (blocks & x' & E & Hcat & Hall & Hin & Hnb & _).
    assert (Hne : Forall (fun b => b <> []) blocks)
      by (eapply Forall_impl; [|exact Hall]; intros b [Hb _]; exact Hb).
    assert (Hfit : Forall (fits32 enc) blocks).
    { eapply Forall_impl; [|exact Hall]. intros b [_ Hb]. apply enc_len32. lia. }
    pose proof (open_inv_written enc pr blocks Hfit) as Hinv.
    exists blocks, x'. rewrite <- Hcat. split; [exact E|]. split; [reflexivity|]. split; [exact Hne|].
    split; [intros Hp; apply stream_of_ref; [exact dec_enc|exact Hfit|intros ->; exact (Hp eq_refl)]|].
    split; [intros Hp; rewrite (concat_nonempty_nil blocks Hne Hp); reflexivity|].
    split; [exact (reads_spec enc dec declen dec_enc declen_dec enc_nonempty enc_not_magic ks _ _ _ Hinv)|].
    split; [exact (delivered_concat blocks _ ks eq_refl)|].
    split; [exact (copy_delivers_inv _ blocks _ ks Hinv eq_refl)|]. auto.
  Qed.

  Theorem roundtrip_framed (pw : option xwriter) (pr : option xreader) bs ks :
    eff_cap (pooled_cap pw) <= M31 ->
    exists blocks released,
      xw_stream enc pw true None (map OWrite bs)
      = (released, stream_of (map enc blocks), map (fun b => WOk (len_N b)) bs, true) /\
      concat blocks = concat bs /\ Forall (fun b => b <> []) blocks /\
      (concat bs <> [] ->
         stream_of (map enc blocks) = ref_encode enc blocks /\
         ref_decode dec (stream_of (map enc blocks)) = Some (concat bs)) /\
      (concat bs = [] -> stream_of (map enc blocks) = []) /\
      snd (xr_reads dec declen (xr_open pr (stream_of (map enc blocks))) ks)
      = map of_ref (ref_reads [] blocks ks) /\
      delivered blocks (concat bs) ks /\
      w_input released = [] /\ w_nbytes released = 0.
  Proof.
    intros Hcap.
    destruct (roundtrip_framed_ops pw pr (map OWrite bs) ks (writes_good bs) Hcap) as (blocks & released & H).
    rewrite writes_payload, writes_results in H. exists blocks, released.
    destruct H as (E & Hcat & Hne & Href & Hemp & Hr & Hd & _ & Hrel).
    exact (conj E (conj Hcat (conj Hne (conj Href (conj Hemp (conj Hr (conj Hd Hrel))))))).
  Qed.

  Theorem roundtrip_unframed_ops (pw : option xwriter) (pr : option xreader) ops ks :
    Forall op_good ops ->
    exists released,
      xw_stream enc pw false None ops
      = (released, match ops_payload ops with [] => [] | _ :: _ => enc (ops_payload ops) end,
         ops_results ops, true) /\
      snd (xr_reads dec declen
             (xr_open pr (match ops_payload ops with [] => [] | _ :: _ => enc (ops_payload ops) end)) ks)
      = map of_ref (ref_reads [] [ops_payload ops] ks) /\
      delivered [ops_payload ops] (ops_payload ops) ks /\
      copy_delivers (xr_open pr (match ops_payload ops with [] => [] | _ :: _ => enc (ops_payload ops) end))
                    (ops_payload ops) ks /\
      w_input released = [] /\ w_nbytes released = 0.
  Proof using All. (* keeps enc_len32 in the closed statement of roundtrip_unframed below *)
    intros Hg.
    destruct (stream_unframed_ops enc pw ops Hg) as (x' & E & Hin & Hnb).
    exists x'. split; [exact E|].
    (* no block for an empty payload, one raw block otherwise; both read as [payload] *)
    assert (Hinv : exists blocks, concat blocks = ops_payload ops /\
              ref_reads [] blocks ks = ref_reads [] [ops_payload ops] ks /\
              RInv enc (xr_open pr (match ops_payload ops with [] => [] | _ :: _ => enc (ops_payload ops) end)) [] blocks).
    { destruct (ops_payload ops) as [|p ps].
      - exists []. split; [reflexivity|]. split; [symmetry; apply ref_reads_nil_block|apply open_inv_empty].
      - exists [p :: ps]. split; [apply app_nil_r|]. split; [reflexivity|apply open_inv_raw]. }
    destruct Hinv as (blocks & Hcat & <- & Hinv).
    split; [exact (reads_spec enc dec declen dec_enc declen_dec enc_nonempty enc_not_magic ks _ _ _ Hinv)|].
    split; [exact (delivered_concat [ops_payload ops] _ ks (app_nil_r _))|].
    split; [exact (copy_delivers_inv _ blocks _ ks Hinv Hcat)|]. auto.
  Qed.

  Theorem roundtrip_unframed (pw : option xwriter) (pr : option xreader) bs ks :
    exists released,
      xw_stream enc pw false None (map OWrite bs)
      = (released, match concat bs with [] => [] | _ :: _ => enc (concat bs) end,
         map (fun b => WOk (len_N b)) bs, true) /\
      snd (xr_reads dec declen
             (xr_open pr (match concat bs with [] => [] | _ :: _ => enc (concat bs) end)) ks)
      = map of_ref (ref_reads [] [concat bs] ks) /\
      delivered [concat bs] (concat bs) ks /\
      w_input released = [] /\ w_nbytes released = 0.
  Proof.
    destruct (roundtrip_unframed_ops pw pr (map OWrite bs) ks (writes_good bs)) as (released & H).
    rewrite writes_payload, writes_results in H. exists released.
    destruct H as (E & Hr & Hd & _ & Hrel). exact (conj E (conj Hr (conj Hd Hrel))).
  Qed.
End Top.

(* a toy block codec meeting the laws *)
Definition toy_enc (b : list N) : list N := 1 :: b.
Definition toy_dec (c : list N) : option (list N) := match c with 1 :: b => Some b | _ => None end.
Definition toy_declen (c : list N) : option N := match c with 1 :: b => Some (len_N b) | _ => None end.

Lemma toy_dec_enc b : toy_dec (toy_enc b) = Some b.
Proof. reflexivity. Qed.
Lemma toy_declen_dec c b : toy_dec c = Some b -> toy_declen c = Some (len_N b).
Proof. destruct c as [|[|[| | ]] c']; cbn; try discriminate. intros E; injection E as <-. reflexivity. Qed.
Lemma toy_nonempty b : toy_enc b <> [].
Proof. discriminate. Qed.
Lemma toy_not_magic b : not_magic (toy_enc b).
Proof.
  unfold not_magic, is_xerial_header, toy_enc, take_N. change (N.to_nat 16) with 16%nat.
  cbn [firstn app list_eqb xerial_magic N.eqb Pos.eqb andb]. apply andb_false_r.
Qed.
Lemma toy_len32 b : len_N b <= M31 -> len_N (toy_enc b) < M32.
Proof. unfold toy_enc, len_N, M31, M32. cbn [length]. lia. Qed.
