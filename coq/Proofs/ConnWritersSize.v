(* Proofs/ConnWritersSize.v — the size pre-computation of the Conn request writers
   (sizeof.go, the size() methods, the sums of write.go, recordBatchSize) equals the number
   of bytes the emission functions (writeTo(), write.go) produce: for every request, every
   field value.  Consequence: the 4-byte size prefix of every frame the Conn writes is the
   (int32 of the) number of bytes that follow it. *)
From Coq Require Import List NArith ZArith Bool Lia.
From Coq Require Import ZifyN ZifyNat ZifyBool.
From KV Require Import Lib.Bits Lib.Bytes Lib.Varint Lib.Crc Spec.RecordFormat Model.Records Model.ConnWriters
  Proofs.BitsLemmas Proofs.RecordsCodec Proofs.RecordsWriters.
Import ListNotations.
Open Scope Z_scope.

Lemma wrap32_congr x y : x mod ZM32 = y mod ZM32 -> wrap32 x = wrap32 y.
Proof.
  intros H. unfold wrap32.
  rewrite <- (Z.add_mod_idemp_l x) by (unfold ZM32; lia).
  rewrite <- (Z.add_mod_idemp_l y) by (unfold ZM32; lia).
  rewrite H. reflexivity.
Qed.
Lemma wrap32_add_wrap32_r a b : wrap32 (a + wrap32 b) = wrap32 (a + b).
Proof.
  apply wrap32_congr.
  rewrite <- (Z.add_mod_idemp_r a (wrap32 b)) by (unfold ZM32; lia).
  rewrite wrap32_mod. rewrite Z.add_mod_idemp_r by (unfold ZM32; lia). reflexivity.
Qed.
Lemma wrap32_small z : 0 <= z < ZM31 -> wrap32 z = z.
Proof. intros H. apply wrap32_id. unfold in_i32, ZM31 in *. lia. Qed.
(* writeInt32(int32(x)): the bytes only depend on x modulo 2^32 *)
Lemma put_bes4_wrap32 z : put_bes 4 (wrap32 z) = put_bes 4 z.
Proof. unfold put_bes. change (Z.of_N (pow256 4)) with ZM32. rewrite wrap32_mod. reflexivity. Qed.

(* writeInt8..64, writeBool, writeArrayLen are put_bes at a width: [zlen_put_bes] *)
Ltac zlen_ints := unfold w_bool, w_array_len, w_int8, w_int16, w_int32, w_int64; rewrite ?zlen_put_bes.

Lemma zlen_w_string s : zlen (w_string s) = sizeof_string s.
Proof. unfold w_string, sizeof_string. rewrite zlen_app. zlen_ints. reflexivity. Qed.
Lemma zlen_w_nullable_string s : zlen (w_nullable_string s) = sizeof_nullable_string s.
Proof. destruct s as [s|]; [apply zlen_w_string|apply zlen_put_bes]. Qed.
Lemma zlen_w_bytes b : zlen (w_bytes b) = sizeof_bytes b.
Proof. destruct b as [l|]; unfold w_bytes, sizeof_bytes, blen; rewrite ?zlen_app; zlen_ints; reflexivity. Qed.
Lemma zlen_w_non_null_bytes b : zlen (w_non_null_bytes b) = sizeof_bytes b.
Proof. destruct b as [l|]; unfold w_non_null_bytes, sizeof_bytes, blen; rewrite zlen_app; zlen_ints; reflexivity. Qed.
Lemma zlen_wb_bytes b : zlen (wb_bytes b) = 4 + blen b.
Proof. exact (zlen_w_bytes b). Qed.

Lemma zsum_map_eq {A} (f g : A -> Z) l : (forall x, f x = g x) -> zsum (map f l) = zsum (map g l).
Proof. intros H. apply zsum_map_ext. apply Forall_forall. intros x _. apply H. Qed.

Lemma zlen_w_array {A} (f : A -> list N) (g : A -> Z) l :
  (forall x, zlen (f x) = g x) -> zlen (w_array f l) = sizeof_array g l.
Proof.
  intros H. unfold w_array, sizeof_array. rewrite zlen_app, zlen_concat_map, (zsum_map_eq _ g) by exact H.
  zlen_ints. reflexivity.
Qed.
Lemma zlen_w_string_array a : zlen (w_string_array a) = sizeof_string_array a.
Proof. apply zlen_w_array. exact zlen_w_string. Qed.
Lemma zsum_const {A} (l : list A) c : zsum (map (fun _ => c) l) = c * zlen l.
Proof.
  induction l as [|x l IH]; cbn [map zsum fold_right]; [unfold zlen; cbn; lia|].
  unfold zsum in IH. rewrite IH, zlen_cons. lia.
Qed.
Lemma zlen_concat_w_int32 a : zlen (concat (map w_int32 a)) = 4 * zlen a.
Proof.
  rewrite zlen_concat_map, (zsum_map_eq _ (fun _ => 4)) by (intros z; apply zlen_put_bes). apply zsum_const.
Qed.
Lemma zlen_w_int32_array a : zlen (w_int32_array a) = sizeof_int32_array a.
Proof.
  unfold w_int32_array, w_array, sizeof_int32_array. rewrite zlen_app, zlen_concat_w_int32. zlen_ints. reflexivity.
Qed.

Lemma zlen_nil {A} : zlen (@nil A) = 0. Proof. reflexivity. Qed.

(* the size of a concatenation of writeBuffer pieces, piece by piece *)
Ltac zlen_sum :=
  rewrite ?zlen_app, ?zlen_nil, ?zlen_w_string, ?zlen_w_nullable_string, ?zlen_w_non_null_bytes, ?zlen_w_string_array,
    ?zlen_w_int32_array, ?zlen_concat_w_int32;
  zlen_ints.

Lemma zlen_header_write h : zlen (header_write h) = header_size h.
Proof. unfold header_write, header_size. zlen_sum. lia. Qed.

Lemma zlen_sb_write p : zlen (sb_write p) = sb_size p.
Proof. unfold sb_write, sb_size. zlen_sum. reflexivity. Qed.
Lemma zlen_ocp_write p : zlen (ocp_write p) = ocp_size p.
Proof. unfold ocp_write, ocp_size. zlen_sum. lia. Qed.
Lemma zlen_oct_write t : zlen (oct_write t) = oct_size t.
Proof. unfold oct_write, oct_size. rewrite zlen_app, (zlen_w_array _ ocp_size) by exact zlen_ocp_write. zlen_sum. reflexivity. Qed.
Lemma zlen_oft_write t : zlen (oft_write t) = oft_size t.
Proof. unfold oft_write, oft_size. zlen_sum. reflexivity. Qed.
Lemma zlen_cte_write e : zlen (cte_write e) = cte_size e.
Proof. unfold cte_write, cte_size. zlen_sum. reflexivity. Qed.
Lemma zlen_cta_write a : zlen (cta_write a) = cta_size a.
Proof. unfold cta_write, cta_size. zlen_sum. lia. Qed.
Lemma zlen_ctt_write t : zlen (ctt_write t) = ctt_size t.
Proof.
  unfold ctt_write, ctt_size.
  rewrite !zlen_app, (zlen_w_array _ cta_size) by exact zlen_cta_write.
  rewrite (zlen_w_array _ cte_size) by exact zlen_cte_write.
  zlen_sum. lia.
Qed.

Lemma zlen_fetch_body v topic partition offset minb maxb wait iso :
  zlen (fetch_body v topic partition offset minb maxb wait iso) = fetch_size v topic.
Proof. destruct v; unfold fetch_body, fetch_size; zlen_sum; lia. Qed.
Lemma zlen_list_offsets_body topic partition time :
  zlen (list_offsets_body topic partition time) = list_offsets_size topic.
Proof. unfold list_offsets_body, list_offsets_size. zlen_sum. lia. Qed.

Lemma uvarint_len_enc fuel : forall x, uvarint_len fuel x = length (uvarint_enc fuel x).
Proof.
  induction fuel as [|f IH]; intros x; cbn [uvarint_len uvarint_enc]; [reflexivity|].
  destruct (x <? 128)%N; [reflexivity|]. cbn [length]. rewrite IH. reflexivity.
Qed.
Lemma u64_lt z : (u64 z < M64)%N.
Proof.
  unfold u64, ZM64, M64.
  pose proof (Z.mod_pos_bound z 18446744073709551616 ltac:(lia)). lia.
Qed.
(* varIntLen(i) is the number of bytes writeVarInt(i) writes *)
Lemma var_int_len_put i : var_int_len i = zlen (put_varint i).
Proof.
  unfold var_int_len, put_varint, put_uvarint, zlen.
  assert (H : (zigzag i mod M64 = zigzag i)%N) by (apply N.mod_small; unfold zigzag; apply u64_lt).
  rewrite H, uvarint_len_enc. reflexivity.
Qed.
Lemma var_bytes_len_put b : var_bytes_len b = zlen (wb_var_bytes b).
Proof.
  destruct b as [l|]; unfold var_bytes_len, wb_var_bytes, blen.
  - rewrite zlen_app, var_int_len_put. reflexivity.
  - rewrite var_int_len_put. reflexivity.   (* varIntLen(0) and writeVarInt(-1): one byte each *)
Qed.
Lemma hdr_size_write h : hdr_size h = zlen (write_hdr h).
Proof.
  unfold hdr_size, write_hdr, var_string_len.
  rewrite !zlen_app, var_int_len_put, var_bytes_len_put. lia.
Qed.

(* recordSize(msg, delta, offset) is the number of bytes writeRecord writes after the length *)
Lemma write_record_split base i m :
  exists body, write_record base i m = put_varint (record_size base i m) ++ body /\
               zlen body = record_size base i m.
Proof.
  eexists. split; [unfold write_record; reflexivity|].
  unfold record_size.
  rewrite !zlen_app, zlen_put_bes, <- !var_int_len_put, <- !var_bytes_len_put, zlen_concat_map.
  rewrite (zsum_map_eq hdr_size (fun x => zlen (write_hdr x))) by exact hdr_size_write.
  change (Z.of_nat 1) with 1. lia.
Qed.
Lemma zlen_write_record base i m :
  zlen (write_record base i m) = record_size base i m + var_int_len (record_size base i m).
Proof.
  destruct (write_record_split base i m) as (body & E & L).
  rewrite E, zlen_app, L, <- var_int_len_put. lia.
Qed.

Lemma zlen_concat_mapi {A} (f : Z -> A -> list N) l : forall i,
  zlen (concat (mapi_from f i l)) = zsum (mapi_from (fun j x => zlen (f j x)) i l).
Proof.
  induction l as [|x l IH]; intros i; cbn [mapi_from concat zsum fold_right]; [reflexivity|].
  rewrite zlen_app, IH. reflexivity.
Qed.
Lemma zsum_mapi_eq {A} (f g : Z -> A -> Z) l : (forall j x, f j x = g j x) -> forall i,
  zsum (mapi_from f i l) = zsum (mapi_from g i l).
Proof.
  intros H. induction l as [|x l IH]; intros i; cbn [mapi_from zsum fold_right]; [reflexivity|].
  unfold zsum in IH. rewrite IH, H. reflexivity.
Qed.

Lemma zlen_write_record_batch attrs size count base last payload :
  zlen (write_record_batch attrs size count base last payload) = record_batch_header_size + zlen payload.
Proof.
  unfold write_record_batch, record_batch_header_size. cbn zeta.
  rewrite !zlen_app, !zlen_put_bes, zlen_put_be. lia.
Qed.

(* recordBatchSize = header + the bytes of the records *)
Lemma record_batch_size_records m0 rest :
  record_batch_size m0 rest = record_batch_header_size + zlen (rb_records m0 rest).
Proof.
  unfold record_batch_size, rb_records. cbn zeta. f_equal.
  rewrite zlen_concat_mapi. apply zsum_mapi_eq. intros j x. rewrite zlen_write_record. reflexivity.
Qed.

(* what the batch occupies (after the int32 set size) *)
Definition rb_len (cz : compression) (m0 : cmsg) (rest : list cmsg) : Z :=
  record_batch_header_size + zlen (match cz with None => rb_records m0 rest | Some (_, c) => c end).

Lemma rb_size_len cz m0 rest : rb_size cz m0 rest = wrap32 (rb_len cz m0 rest).
Proof.
  unfold rb_size, rb_len. destruct cz as [[code c]|]; [reflexivity|].
  rewrite record_batch_size_records. reflexivity.
Qed.
Lemma zlen_rb_write cz m0 rest : zlen (rb_write cz m0 rest) = 4 + rb_len cz m0 rest.
Proof.
  unfold rb_write, rb_len. cbn zeta. rewrite zlen_app, zlen_write_record_batch. zlen_ints. reflexivity.
Qed.

Lemma zlen_write_message off attrs ts k v : zlen (write_message off attrs ts k v) = 8 + 4 + message_size k v.
Proof.
  unfold write_message, message_size. cbn zeta.
  rewrite !zlen_app, !zlen_put_bes, zlen_put_be, !zlen_wb_bytes.
  change (Z.of_nat 8) with 8. change (Z.of_nat 4) with 4. change (Z.of_nat 1) with 1. lia.
Qed.
Lemma zlen_message_set_write attrs ms : zlen (message_set_write attrs ms) = message_set_size_of ms.
Proof.
  unfold message_set_write, message_set_size_of, message_set_size.
  rewrite zlen_concat_map, map_map. apply zsum_map_eq. intros m.
  rewrite zlen_write_message. unfold message_size. cbn [fst snd]. lia.
Qed.

(* the record set of a produce request: [set_len] bytes after its int32 size, which is their
   count modulo 2^32 *)
Definition set_len (v : produce_ver) (cz : compression) (m0 : cmsg) (rest : list cmsg) : Z :=
  match v with
  | PV2 => message_set_size_of (v2_msgs cz (m0 :: rest))
  | PV3 | PV7 => rb_len cz m0 rest
  end.
Lemma produce_set_size_len v cz m0 rest : produce_set_size v cz m0 rest = wrap32 (set_len v cz m0 rest).
Proof. destruct v; cbn [produce_set_size set_len]; [reflexivity|apply rb_size_len|apply rb_size_len]. Qed.
Lemma zlen_produce_set_write v cz m0 rest : zlen (produce_set_write v cz m0 rest) = 4 + set_len v cz m0 rest.
Proof.
  destruct v; cbn [produce_set_write set_len]; [|apply zlen_rb_write|apply zlen_rb_write].
  rewrite zlen_app, zlen_message_set_write. zlen_ints. reflexivity.
Qed.

(* the pre-computed size and the number of bytes written agree: exactly for every request but
   produce, where the record-set size has already been reduced to an int32 ([set_len] is the
   unreduced count) *)
Definition creq_size_exact (r : creq) : Z :=
  match r with
  | QProduce v cz txid _ _ topic _ m0 rest =>
    creq_size r - produce_set_size v cz m0 rest + set_len v cz m0 rest
  | _ => creq_size r
  end.

Lemma creq_body_length r : zlen (creq_body r) = creq_size_exact r.
Proof.
  destruct r; cbn [creq_body creq_size creq_size_exact]; rewrite ?zlen_app.
  - (* produce *)
    unfold produce_body, produce_size. destruct v; rewrite ?zlen_app, zlen_produce_set_write; zlen_sum; lia.
  - (* fetch *) apply zlen_fetch_body.
  - (* list offsets *) apply zlen_list_offsets_body.
  - (* api versions *) reflexivity.
  - (* metadata: nil topics are the array length -1 *)
    destruct v, topics as [l|]; zlen_sum; unfold sizeof_string_array, sizeof_array; cbn [map zsum fold_right]; lia.
  - (* find coordinator *) apply zlen_w_string.
  - (* join group *) rewrite (zlen_w_array _ sb_size) by exact zlen_sb_write. zlen_sum. lia.
  - (* sync group *) rewrite (zlen_w_array _ sb_size) by exact zlen_sb_write. zlen_sum. lia.
  - (* heartbeat *) zlen_sum. lia.
  - (* leave group *) zlen_sum. lia.
  - (* offset commit *) rewrite (zlen_w_array _ oct_size) by exact zlen_oct_write. zlen_sum. lia.
  - (* offset fetch *) rewrite (zlen_w_array _ oft_size) by exact zlen_oft_write. zlen_sum. lia.
  - (* list groups *) reflexivity.
  - (* create topics *) destruct v; rewrite ?zlen_app, (zlen_w_array _ ctt_size) by exact zlen_ctt_write; zlen_sum; lia.
  - (* delete topics *) zlen_sum. lia.
  - (* sasl handshake *) apply zlen_w_string.
  - (* sasl authenticate *) apply zlen_w_non_null_bytes.
Qed.

Lemma creq_size_mod r : wrap32 (creq_size r) = wrap32 (creq_size_exact r).
Proof.
  destruct r; try reflexivity. cbn [creq_size_exact].
  rewrite produce_set_size_len.
  set (S := set_len v cz m0 rest).
  assert (E : creq_size (QProduce v cz txid acks timeout topic partition m0 rest) =
              (creq_size (QProduce v cz txid acks timeout topic partition m0 rest) - produce_set_size v cz m0 rest) + wrap32 S).
  { rewrite produce_set_size_len. fold S. lia. }
  rewrite E at 1. rewrite wrap32_add_wrap32_r. rewrite produce_set_size_len. fold S. reflexivity.
Qed.

(* what follows the 4-byte size prefix of the frame *)
Definition frame_rest (corr : Z) (client : gostr) (r : creq) : list N :=
  w_int16 (creq_key r) ++ w_int16 (creq_ver r) ++ w_int32 corr ++ w_string client ++ creq_body r.

Lemma conn_frame_split corr client r :
  conn_frame corr client r = put_bes 4 (wrap32 (zlen (frame_rest corr client r))) ++ frame_rest corr client r.
Proof.
  unfold conn_frame, conn_header, header_write, frame_rest. cbn [h_size h_key h_ver h_corr h_client].
  rewrite <- !app_assoc. f_equal. unfold w_int32. f_equal.
  unfold header_size. cbn [h_client].
  rewrite !zlen_app, creq_body_length. zlen_sum.
  replace (4 + 2 + 2 + 4 + sizeof_string client + creq_size r - 4)
    with ((2 + (2 + (4 + sizeof_string client))) + creq_size r) by lia.
  rewrite <- (wrap32_add_wrap32_r _ (creq_size r)), creq_size_mod, wrap32_add_wrap32_r.
  f_equal. lia.
Qed.

(* frames below 2 GiB, as a boolean *)
Definition frame_fits (client : gostr) (r : creq) : bool :=
  10 + zlen client + zlen (creq_body r) <? ZM31.

Lemma zlen_frame_rest corr client r : zlen (frame_rest corr client r) = 10 + zlen client + zlen (creq_body r).
Proof.
  unfold frame_rest. zlen_sum. unfold sizeof_string. lia.
Qed.

Theorem conn_size_exact corr client r :
  let rest := frame_rest corr client r in
  (* always: the prefix is the int32 conversion of the number of bytes that follow *)
  conn_frame corr client r = put_bes 4 (wrap32 (zlen rest)) ++ rest /\
  (* the pre-computed request size and the bytes written by writeTo agree modulo 2^32 *)
  wrap32 (creq_size r) = wrap32 (zlen (creq_body r)) /\
  (* below 2 GiB the prefix is that number *)
  (frame_fits client r = true ->
     conn_frame corr client r = put_bes 4 (zlen rest) ++ rest /\
     length (conn_frame corr client r) = (4 + length rest)%nat /\
     get_bes 4 (firstn 4 (conn_frame corr client r)) = zlen rest /\
     (match r with QProduce _ _ _ _ _ _ _ _ _ => True | _ => creq_size r = zlen (creq_body r) end)).
Proof.
  cbn zeta. split; [apply conn_frame_split|]. split; [rewrite creq_body_length; apply creq_size_mod|].
  intros Hfit. unfold frame_fits in Hfit. apply Z.ltb_lt in Hfit.
  pose proof (zlen_frame_rest corr client r) as Hl.
  pose proof (zlen_nonneg (frame_rest corr client r)) as Hn.
  assert (Hw : wrap32 (zlen (frame_rest corr client r)) = zlen (frame_rest corr client r))
    by (apply wrap32_small; lia).
  rewrite conn_frame_split, Hw.
  split; [reflexivity|]. split; [unfold put_bes; rewrite app_length, put_be_length; reflexivity|]. split.
  - replace (firstn 4 (put_bes 4 (zlen (frame_rest corr client r)) ++ frame_rest corr client r))
      with (put_bes 4 (zlen (frame_rest corr client r))).
    + apply get_put_bes; [lia|]. apply in_signed_4. unfold in_i32, ZM31 in *. lia.
    + symmetry. rewrite <- (put_be_length 4 (Z.to_N (zlen (frame_rest corr client r) mod Z.of_N (pow256 4)))) at 1.
      rewrite firstn_app, Nat.sub_diag, firstn_all. cbn [firstn]. apply app_nil_r.
  - destruct r; try exact I; rewrite creq_body_length; reflexivity.
Qed.

(* record-set size and batch length: the set is its int32 size followed by that many bytes;
   in a record batch (v3/v7) the batch length counts what follows the batch-length field *)
Definition set_body (v : produce_ver) (cz : compression) (m0 : cmsg) (rest : list cmsg) : list N :=
  match v with
  | PV2 => message_set_write (v2_attributes cz) (v2_msgs cz (m0 :: rest))
  | PV3 | PV7 =>
    write_record_batch (rb_attributes cz) (rb_size cz m0 rest) (zlen (m0 :: rest))
      (ns_of (c_time m0)) (ns_of (c_time (last_msg m0 rest)))
      (match cz with None => rb_records m0 rest | Some (_, c) => c end)
  end.
Lemma zlen_set_body v cz m0 rest : zlen (set_body v cz m0 rest) = set_len v cz m0 rest.
Proof.
  destruct v; cbn [set_body set_len]; [apply zlen_message_set_write| |]; apply zlen_write_record_batch.
Qed.
Lemma set_len_nonneg v cz m0 rest : 0 <= set_len v cz m0 rest.
Proof. rewrite <- zlen_set_body. apply zlen_nonneg. Qed.
Lemma produce_set_write_body v cz m0 rest :
  produce_set_write v cz m0 rest = put_bes 4 (wrap32 (zlen (set_body v cz m0 rest))) ++ set_body v cz m0 rest.
Proof.
  rewrite zlen_set_body, <- produce_set_size_len.
  destruct v; cbn [produce_set_write set_body produce_set_size]; unfold rb_write, w_int32; cbn zeta; reflexivity.
Qed.
(* 12 = the base offset (8 bytes) and the batch length (4 bytes), which the length does not count;
   stated at v3, v7 writes the same bytes *)
Lemma rb_body_tail cz m0 rest :
  exists tail, set_body PV3 cz m0 rest = put_bes 8 0 ++ put_bes 4 (wrap32 (zlen (set_body PV3 cz m0 rest)) - 12) ++ tail /\
               zlen tail = zlen (set_body PV3 cz m0 rest) - 12.
Proof.
  rewrite zlen_set_body. cbn [set_body set_len]. unfold write_record_batch. cbn zeta.
  eexists. split; [rewrite rb_size_len; reflexivity|].
  rewrite !zlen_app, !zlen_put_bes, zlen_put_be. unfold rb_len, record_batch_header_size. lia.
Qed.

Theorem produce_set_sizes v cz m0 rest :
  exists body, produce_set_write v cz m0 rest = put_bes 4 (wrap32 (zlen body)) ++ body /\
    (zlen body < ZM31 -> produce_set_write v cz m0 rest = put_bes 4 (zlen body) ++ body) /\
    match v with
    | PV2 => True
    | PV3 | PV7 =>
      exists tail, body = put_bes 8 0 ++ put_bes 4 (wrap32 (zlen body) - 12) ++ tail /\ zlen tail = zlen body - 12
    end.
Proof.
  exists (set_body v cz m0 rest). split; [apply produce_set_write_body|]. split.
  - intros Hs. rewrite produce_set_write_body. rewrite wrap32_small; [reflexivity|].
    split; [apply zlen_nonneg|exact Hs].
  - destruct v; [exact I| |]; exact (rb_body_tail cz m0 rest).
Qed.

Lemma negotiate_rev_spec bmax l :
  negotiate_rev bmax l = -1 /\ (forall s, In s l -> bmax < s) \/
  In (negotiate_rev bmax l) l /\ negotiate_rev bmax l <= bmax.
Proof.
  induction l as [|s l IH]; cbn [negotiate_rev].
  - left. split; [reflexivity|]. intros s [].
  - destruct (Z.leb_spec s bmax) as [H|H].
    + right. split; [left; reflexivity|exact H].
    + destruct IH as [[E Hall]|[Hin Hle]].
      * left. split; [exact E|]. intros x [<-|Hx]; [exact H|apply Hall, Hx].
      * right. split; [right; exact Hin|exact Hle].
Qed.
