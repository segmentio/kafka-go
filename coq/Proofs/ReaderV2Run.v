(* Proofs/ReaderV2Run.v — C02, L1: a fetch response made of v2 batches of any codec
   (holes and record-less batches included), cut at any legal byte position, is decoded by the
   model's Batch as an abstract reader over positions ([apos], [step1]) prescribes: record by
   record from an uncompressed batch, a compressed batch whole or not at all. *)
From Coq Require Import List NArith ZArith Bool Lia.
From Coq Require Import ZifyN ZifyNat ZifyBool.
From KV Require Import Lib.Bits Lib.Bytes Lib.Varint Model.MsgSetReader Model.ReaderModel Spec.FetchSpec
  Proofs.ReaderPrim Proofs.ReaderV2.
Import ListNotations.
Open Scope Z_scope.

Section Run.
Variable compress : Z -> list N -> list N.

Definition erecs (b : pbatch) (rs : list record) : list N := enc_records (pb_base b) (pb_ts b) rs.
Definition payload (b : pbatch) : list N :=
  if pb_codec b =? 0 then erecs b (pb_recs b) else compress (pb_codec b) (erecs b (pb_recs b)).
Definition plen_of (b : pbatch) : Z := blen (payload b).
Definition hdr_of (b : pbatch) : hdr := vhdr b (plen_of b).

(* sizes fit the wire format; a record-less batch carries no payload *)
Definition v2ok (b : pbatch) : Prop :=
  batch_fits b (plen_of b) /\ Forall rec_fits (pb_recs b)
  /\ Forall (fun r => blen (enc_record_body (pb_base b) (pb_ts b) r) < 2 ^ 31) (pb_recs b)
  /\ (pb_codec b <> 0 -> pb_recs b <> []).

Lemma erecs_cons b r rs : erecs b (r :: rs) = enc_record (pb_base b) (pb_ts b) r ++ erecs b rs.
Proof. reflexivity. Qed.

Lemma codec_of_hdr b : 1 <= pb_codec b <= 4 -> codec_of (hdr_of b) = ret (Some (pb_codec b)).
Proof.
  intros H. unfold codec_of, hdr_of, vhdr. cbn [h_magic h_attr]. cbn [Z.eqb Pos.eqb orb]. cbv zeta.
  rewrite land7 by exact H. replace (pb_codec b =? 0) with false by lia.
  replace ((1 <=? pb_codec b) && (pb_codec b <=? 4)) with true by lia. reflexivity.
Qed.

Definition enc1 (b : pbatch) : list N := hdr61 b (plen_of b) ++ payload b.
Definition encs (bs : list pbatch) : list N := flat_map enc1 bs.

Lemma encs_cons b bs : encs (b :: bs) = enc1 b ++ encs bs.
Proof. reflexivity. Qed.

Lemma enc1_eq b : pb_fmt b = 2 -> enc_batch compress b = enc1 b.
Proof.
  intros Hf. unfold enc_batch, enc_v2, enc1, hdr61, plen_of, payload, erecs. rewrite Hf. cbn [Z.eqb Pos.eqb].
  rewrite <- !app_assoc. reflexivity.
Qed.

(* MPlain: records read from the response itself; MPending: the header of a compressed batch was
   read, its payload not yet; MInside: records read from the decompressed payload *)
Inductive amode := MPlain | MPending | MInside.

(* position: inside batch b with records rs left, then the batches bs.  MPlain: j bytes of
   erecs b rs ++ encs bs are present; MPending: j bytes of payload b ++ encs bs; MInside: the
   records are all there and j - len (erecs b rs) bytes of encs bs *)
(* a_off, a_last: Batch.offset, Batch.lastOffset; a_el: emptyLastOffset of the messageSetReader *)
Record apos := mkPos {
  a_b : pbatch; a_rs : list record; a_bs : list pbatch; a_j : Z;
  a_hdr : hdr;        (* the header in the frame (that of b while records are left) *)
  a_off : Z; a_last : Z; a_el : Z; a_mode : amode;
  a_lr : Z            (* lengthRemain at a batch boundary: 0 after a v2 batch (1 where ReaderWrapFinal enters
                         the v2 batches after a v0/v1 message) *)
}.

(* Batch.offset after the io.EOF that ends a batch, the least position at or after off that is
   past both lastOffset and emptyLastOffset: at a batch boundary (eoff0), inside a batch where no
   record of it was read in this call (eoff_in) *)
Definition eoff0 (off last el : Z) : Z :=
  let lo := if el <? last then last else el in if off <=? lo then lo + 1 else off.
Definition eoff_in (off el : Z) : Z := if off <=? el then el + 1 else off.

Lemma eoff0_ge off last el : off <= eoff0 off last el.
Proof. clear compress. unfold eoff0. cbv zeta. destruct (el <? last) eqn:?; destruct (off <=? _) eqn:?; lia. Qed.
Lemma eoff0_least off last el y : off <= y -> last < y -> el < y -> eoff0 off last el <= y.
Proof. clear compress. unfold eoff0. cbv zeta. destruct (el <? last) eqn:?; destruct (off <=? _) eqn:?; lia. Qed.
Lemma eoff_in_ge off el : off <= eoff_in off el.
Proof. clear compress. unfold eoff_in. destruct (off <=? el) eqn:?; lia. Qed.
Lemma eoff_in_least off el y : off <= y -> el < y -> eoff_in off el <= y.
Proof. clear compress. unfold eoff_in. destruct (off <=? el) eqn:?; lia. Qed.

Inductive astep := ARec (r : record) (p : apos) | AEnd (f : Z).

Definition rec_step (md : amode) (b : pbatch) (r : record) (rs' : list record) (bs : list pbatch) (j : Z) (off el : Z) : astep :=
  let L := len (enc_record (pb_base b) (pb_ts b) r) in
  if j <? L then AEnd (eoff_in off el)
  else
    let lo := pb_base b + pb_lod b in
    let off1 := if off <=? r_off r then r_off r + 1 else off in
    let off' := if (len (erecs b rs') =? 0) && (off1 <=? lo) then lo + 1 else off1 in
    ARec r (mkPos b rs' bs (j - L) (hdr_of b) off' lo el md 0).

(* a compressed batch whose header was read, j bytes of payload b ++ encs bs present *)
Definition cstep (b : pbatch) (r : record) (rs' : list record) (bs : list pbatch) (j : Z) (off el : Z) : astep :=
  if j <? plen_of b then AEnd (eoff_in off el)
  else rec_step MInside b r rs' bs (j - plen_of b + len (erecs b (r :: rs'))) off el.

Fixpoint bstep (bs : list pbatch) (j off last el : Z) {struct bs} : astep :=
  match bs with
  | [] => AEnd (eoff0 off last el)
  | b :: bs' =>
    if j <? 61 then AEnd (eoff0 off last el)
    else match pb_recs b with
         | [] => bstep bs' (j - 61) off last (pb_base b + pb_lod b)
         | r :: rs' => if pb_codec b =? 0 then rec_step MPlain b r rs' bs' (j - 61) off el
                       else cstep b r rs' bs' (j - 61) off el
         end
  end.

Definition step1 (p : apos) : astep :=
  match a_rs p with
  | r :: rs' =>
    match a_mode p with
    | MPending => cstep (a_b p) r rs' (a_bs p) (a_j p) (a_off p) (a_el p)
    | md => rec_step md (a_b p) r rs' (a_bs p) (a_j p) (a_off p) (a_el p)
    end
  | [] => bstep (a_bs p) (a_j p) (a_off p) (a_last p) (a_el p)
  end.

(* the concrete messageSetReader at an abstract position *)
Definition concm (p : apos) : msr :=
  match a_mode p, a_rs p with
  | MInside, _ :: _ =>
    let P := ztake (a_j p - len (erecs (a_b p) (a_rs p))) (encs (a_bs p)) in
    stp [mkFrame P (len P) 0 0 (hdr_of (a_b p))] (-1) (erecs (a_b p) (a_rs p))
        (Z.of_nat (length (a_rs p))) (hdr_of (a_b p)) (len (erecs (a_b p) (a_rs p))) (a_el p)
  | MPending, _ :: _ =>
    st (ztake (a_j p) (payload (a_b p) ++ encs (a_bs p)))
       (Z.of_nat (length (a_rs p))) (hdr_of (a_b p)) (plen_of (a_b p)) (a_el p)
  | _, _ =>
    st (ztake (a_j p) (erecs (a_b p) (a_rs p) ++ encs (a_bs p)))
       (Z.of_nat (length (a_rs p))) (a_hdr p)
       (match a_rs p with [] => a_lr p | _ => len (erecs (a_b p) (a_rs p)) end) (a_el p)
  end.

Definition pos_ok (p : apos) : Prop :=
  0 <= a_j p /\ Forall v2ok (a_bs p)
  /\ (a_rs p = [] -> a_lr p = 0 \/ a_last p <= a_el p)
  /\ (a_rs p <> [] ->
      v2ok (a_b p) /\ a_hdr p = hdr_of (a_b p) /\ incl (a_rs p) (pb_recs (a_b p))
      /\ match a_mode p with
         | MPlain => pb_codec (a_b p) = 0
         | MPending => pb_codec (a_b p) <> 0 /\ a_rs p = pb_recs (a_b p)
         | MInside => pb_codec (a_b p) <> 0 /\ (length (a_rs p) < length (pb_recs (a_b p)))%nat
                      /\ len (erecs (a_b p) (a_rs p)) <= a_j p
         end).

(* the fuel a run needs from a position: one unit per record left and per batch header *)
Definition tokens (rs : list record) (bs : list pbatch) : nat :=
  (length rs + fold_right (fun b n => S (length (pb_recs b)) + n) O bs)%nat.

Lemma tokens_cons_rec r rs bs : tokens (r :: rs) bs = S (tokens rs bs).
Proof. reflexivity. Qed.
Lemma tokens_cons_batch b bs : tokens [] (b :: bs) = S (tokens (pb_recs b) bs).
Proof. unfold tokens. cbn [length fold_right]. lia. Qed.

(* the position once the header of batch b was read, j bytes of payload b ++ encs bs present *)
Definition enter (b : pbatch) (bs : list pbatch) (j off last el : Z) : apos :=
  mkPos b (pb_recs b) bs j (hdr_of b) off last el (if pb_codec b =? 0 then MPlain else MPending) 0.

Lemma concm_enter b bs j off last el : v2ok b ->
  concm (enter b bs j off last el)
  = st (ztake j (payload b ++ encs bs)) (Z.of_nat (length (pb_recs b))) (hdr_of b) (plen_of b) el.
Proof.
  intros (_ & _ & _ & Hne). unfold concm, enter. cbn [a_b a_rs a_bs a_j a_hdr a_el a_mode a_lr].
  unfold plen_of, payload. destruct (pb_codec b =? 0) eqn:Ec.
  - unfold blen, len. destruct (pb_recs b); reflexivity.
  - destruct (pb_recs b) eqn:Er; [|reflexivity]. exfalso. apply Hne; [apply Z.eqb_neq, Ec|reflexivity].
Qed.

Lemma pos_ok_enter b bs j off last el : v2ok b -> Forall v2ok bs -> 0 <= j -> pos_ok (enter b bs j off last el).
Proof.
  intros Hb Hbs Hj. unfold pos_ok, enter. cbn [a_b a_rs a_bs a_j a_hdr a_mode a_lr].
  split; [exact Hj|]. split; [exact Hbs|]. split; [intros _; left; reflexivity|].
  intros _. split; [exact Hb|]. split; [reflexivity|]. split; [apply incl_refl|].
  destruct (pb_codec b =? 0) eqn:Ec; [apply Z.eqb_eq; exact Ec|].
  split; [apply Z.eqb_neq; exact Ec|reflexivity].
Qed.

Lemma bstep_cons b bs j off last el :
  bstep (b :: bs) j off last el
  = if j <? 61 then AEnd (eoff0 off last el)
    else match pb_recs b with
         | [] => bstep bs (j - 61) off last (pb_base b + pb_lod b)
         | _ :: _ => step1 (enter b bs (j - 61) off last el)
         end.
Proof.
  cbn [bstep]. destruct (j <? 61); [reflexivity|]. unfold step1, enter.
  cbn [a_b a_rs a_bs a_j a_off a_last a_el a_mode].
  destruct (pb_recs b); [reflexivity|]. destruct (pb_codec b =? 0); reflexivity.
Qed.

(* the frames after a record was read from a decompressed payload are those of the next position *)
Lemma after_inside b r rs' bs j off' lo el :
  let E := enc_record (pb_base b) (pb_ts b) r in
  let P := ztake (j - (len E + len (erecs b rs'))) (encs bs) in
  mkMsr (unwind (mkFrame (erecs b rs') (len (erecs b rs')) (-1) (Z.of_nat (length (r :: rs')) - 1) (hdr_of b)
                 :: [mkFrame P (len P) 0 0 (hdr_of b)])) false (len (erecs b rs')) el
  = concm (mkPos b rs' bs (j - len E) (hdr_of b) off' lo el MInside 0).
Proof.
  intros E P. unfold concm. cbn [a_mode a_rs a_b a_bs a_j a_hdr a_el a_lr].
  replace (Z.of_nat (length (r :: rs')) - 1) with (Z.of_nat (length rs')) by (cbn [length]; lia).
  destruct rs' as [|r2 t].
  - change (erecs b []) with (@nil N) in *. change (len []) with 0 in *.
    cbn [length Z.of_nat unwind f_count f_remain Z.eqb andb app].
    unfold st. subst P. replace (j - (len E + 0)) with (j - len E) by lia. reflexivity.
  - cbn [unwind f_count f_remain]. replace (Z.of_nat (length (r2 :: t)) =? 0) with false by (cbn [length]; lia).
    cbn [andb]. unfold stp. subst P.
    replace (j - len E - len (erecs b (r2 :: t))) with (j - (len E + len (erecs b (r2 :: t)))) by lia. reflexivity.
Qed.

Lemma loop_step_ok f b R c hdr lr el :
  batch_fits b (plen_of b) ->
  read_header_loop (S f) (st (hdr61 b (plen_of b) ++ R) c hdr lr el)
  = if Z.of_nat (length (pb_recs b)) =? 0
    then read_header_loop f (st R 0 (hdr_of b) (plen_of b) (pb_base b + pb_lod b))
    else MOk tt (st R (Z.of_nat (length (pb_recs b))) (hdr_of b) (plen_of b) el).
Proof.
  intros Hfit. cbn [read_header_loop]. unfold bind at 1. rewrite (header_ok b (plen_of b) R c hdr lr el Hfit).
  rewrite top_st. cbn [f_hdr f_count vhdr h_magic]. cbn [Z.eqb Pos.eqb negb orb].
  destruct (Z.of_nat (length (pb_recs b)) =? 0) eqn:E; cbn [negb]; [|reflexivity].
  apply Z.eqb_eq in E. rewrite E. reflexivity.
Qed.

Lemma loop_step_short f b q q' c hdr lr el :
  batch_fits b (plen_of b) -> hdr61 b (plen_of b) = q ++ q' -> q' <> [] ->
  exists i', read_header_loop (S f) (st q c hdr lr el) = MErr EShort (st i' c hdr lr el).
Proof.
  intros Hfit He Hq. destruct (header_short b (plen_of b) q q' c hdr lr el Hfit He Hq) as [i' Hi'].
  exists i'. cbn [read_header_loop]. unfold bind at 1. rewrite Hi'. reflexivity.
Qed.

(* at a batch boundary: skip record-less batches, land on the first batch with records *)
Lemma loop_bnd : forall bs j hdr lr el fuel,
  Forall v2ok bs -> 0 <= j -> (length bs < fuel)%nat ->
  (exists i' hdr' lr' el',
      read_header_loop fuel (st (ztake j (encs bs)) 0 hdr lr el) = MErr EShort (st i' 0 hdr' lr' el')
      /\ (lr' = 0 \/ (lr' = lr /\ el' = el))
      /\ forall off last, bstep bs j off last el = AEnd (eoff0 off last el'))
  \/ (exists b bs' j' el',
      v2ok b /\ pb_recs b <> [] /\ 0 <= j' /\ Forall v2ok bs'
      /\ read_header_loop fuel (st (ztake j (encs bs)) 0 hdr lr el)
         = MOk tt (st (ztake j' (payload b ++ encs bs')) (Z.of_nat (length (pb_recs b))) (hdr_of b) (plen_of b) el')
      /\ (forall off last, bstep bs j off last el = step1 (enter b bs' j' off last el'))
      /\ (S (tokens (pb_recs b) bs') <= tokens [] bs)%nat /\ (length bs' < length bs)%nat).
Proof.
  induction bs as [|b bs' IH]; intros j hdr lr el fuel Hok Hj Hfuel.
  - left. destruct fuel as [|f]; [cbn in Hfuel; lia|].
    exists [], hdr, lr, el. split; [|split; [right; auto|reflexivity]].
    cbn [encs flat_map]. unfold ztake. rewrite firstn_nil. reflexivity.
  - destruct fuel as [|f]; [cbn in Hfuel; lia|]. cbn [length] in Hfuel.
    apply Forall_cons_iff in Hok as [Hb Hbs'].
    pose proof Hb as (Hfit & _ & _ & Hne).
    rewrite encs_cons. unfold enc1. rewrite <- app_assoc.
    pose proof (hdr61_len b (plen_of b)) as H61.
    destruct (j <? 61) eqn:Ej.
    + left.
      destruct (ztake_app_lt j (hdr61 b (plen_of b)) (payload b ++ encs bs')) as (H1 & H2 & H3); [lia|].
      rewrite H1.
      destruct (loop_step_short f b _ _ 0 hdr lr el Hfit H2 H3) as [i' Hi'].
      exists i', hdr, lr, el. split; [exact Hi'|split; [right; auto|]].
      intros off last. rewrite bstep_cons, Ej. reflexivity.
    + rewrite ztake_app_ge by lia. rewrite H61.
      rewrite (loop_step_ok f b _ 0 hdr lr el Hfit).
      destruct (pb_recs b) as [|r rs'] eqn:Erecs.
      * change (Z.of_nat (length (@nil record)) =? 0) with true. cbv iota.
        assert (Hc0 : pb_codec b = 0).
        { destruct (Z.eq_dec (pb_codec b) 0) as [E|E]; [exact E|]. exfalso. apply (Hne E). reflexivity. }
        assert (Hpl : payload b = []) by (unfold payload, erecs; rewrite Hc0, Erecs; reflexivity).
        assert (Hp : plen_of b = 0) by (unfold plen_of; rewrite Hpl; reflexivity).
        rewrite Hp, Hpl. cbn [app].
        destruct (IH (j - 61) (hdr_of b) 0 (pb_base b + pb_lod b) f Hbs' ltac:(lia) ltac:(lia))
          as [(i' & hdr' & lr' & el' & H1 & H1' & H2)|(b2 & bs2 & j2 & el2 & K1 & K2 & K3 & K4 & K5 & K6 & K7 & K8)].
        -- left. exists i', hdr', lr', el'. split; [exact H1|]. split; [left; destruct H1' as [E|[E _]]; exact E|].
           intros off last. rewrite bstep_cons, Ej, Erecs. apply H2.
        -- right. exists b2, bs2, j2, el2. split; [exact K1|]. split; [exact K2|]. split; [exact K3|]. split; [exact K4|].
           split; [exact K5|]. split; [intros off last; rewrite bstep_cons, Ej, Erecs; apply K6|].
           rewrite tokens_cons_batch, Erecs. unfold tokens in *. cbn [length] in *. lia.
      * right. exists b, bs', (j - 61), el.
        split; [exact Hb|]. split; [rewrite Erecs; discriminate|]. split; [lia|]. split; [exact Hbs'|].
        replace (Z.of_nat (length (r :: rs')) =? 0) with false by (cbn [length]; lia).
        split; [rewrite Erecs; reflexivity|]. split; [|rewrite tokens_cons_batch; cbn [length]; lia].
        intros off last. rewrite bstep_cons, Ej, Erecs. reflexivity.
Qed.

Lemma bind_same {A B} (a : M A) (k : A -> M B) m1 m2 v m :
  a m1 = MOk v m -> a m2 = MOk v m -> bind a k m1 = bind a k m2.
Proof. intros H1 H2. unfold bind. rewrite H1, H2. reflexivity. Qed.

Lemma read_header_idle fuel i h lr el :
  read_header fuel (st i 0 h lr el) = read_header_loop fuel (st i 0 h lr el).
Proof. unfold read_header. rewrite top_st. reflexivity. Qed.

Lemma rec_step_inv md b r rs' bs j off el r0 p' :
  rec_step md b r rs' bs j off el = ARec r0 p' ->
  r0 = r /\ a_b p' = b /\ a_rs p' = rs' /\ a_bs p' = bs /\ a_hdr p' = hdr_of b /\ a_el p' = el
  /\ a_j p' = j - len (enc_record (pb_base b) (pb_ts b) r) /\ len (enc_record (pb_base b) (pb_ts b) r) <= j
  /\ a_last p' = pb_base b + pb_lod b
  /\ a_off p' = (let off1 := if off <=? r_off r then r_off r + 1 else off in
                 if (len (erecs b rs') =? 0) && (off1 <=? pb_base b + pb_lod b) then pb_base b + pb_lod b + 1 else off1)
  /\ a_mode p' = md.
Proof.
  unfold rec_step. cbv zeta. destruct (j <? len (enc_record (pb_base b) (pb_ts b) r)) eqn:E; [discriminate|].
  intros H. injection H as <- <-. cbn [a_b a_rs a_bs a_j a_hdr a_off a_last a_el a_mode]. repeat split; try reflexivity; lia.
Qed.

Lemma incl_tail {A} (x : A) l l' : incl (x :: l) l' -> incl l l'.
Proof. intros H y Hy. apply H. right. exact Hy. Qed.

Lemma cstep_inv b r rs' bs j off el r0 p' :
  cstep b r rs' bs j off el = ARec r0 p' ->
  plen_of b <= j /\ rec_step MInside b r rs' bs (j - plen_of b + len (erecs b (r :: rs'))) off el = ARec r0 p'.
Proof. unfold cstep. destruct (j <? plen_of b) eqn:E; [discriminate|]. intros H. split; [lia|exact H]. Qed.

Lemma rec_step_end md b r rs' bs j off el x : rec_step md b r rs' bs j off el = AEnd x -> x = eoff_in off el.
Proof. unfold rec_step. cbv zeta. destruct (_ <? _); [|discriminate]. intros H. injection H as <-. reflexivity. Qed.

Lemma cstep_end b r rs' bs j off el x : cstep b r rs' bs j off el = AEnd x -> x = eoff_in off el.
Proof. unfold cstep. destruct (_ <? _); [intros H; injection H as <-; reflexivity|apply rec_step_end]. Qed.

Lemma pos_ok_after md b r rs' bs j off el r0 p' :
  v2ok b -> incl (r :: rs') (pb_recs b) -> Forall v2ok bs ->
  match md with
  | MPlain => pb_codec b = 0
  | MPending => False
  | MInside => pb_codec b <> 0 /\ (length (r :: rs') <= length (pb_recs b))%nat /\ len (erecs b (r :: rs')) <= j
  end ->
  rec_step md b r rs' bs j off el = ARec r0 p' ->
  pos_ok p' /\ (tokens (a_rs p') (a_bs p') < tokens (r :: rs') bs)%nat /\ (length (a_bs p') <= length bs)%nat.
Proof.
  intros Hok Hincl Hbs Hmd Hs.
  destruct (rec_step_inv _ _ _ _ _ _ _ _ _ _ Hs) as (E0 & E1 & E2 & E3 & E4 & E5 & E6 & E7 & E8 & E9 & E10).
  split; [|split].
  - assert (E11 : a_lr p' = 0).
    { unfold rec_step in Hs. cbv zeta in Hs. destruct (_ <? _) in Hs; [discriminate|]. injection Hs as _ <-. reflexivity. }
    unfold pos_ok. rewrite E1, E2, E3, E4, E6, E10, E11. split; [lia|]. split; [exact Hbs|].
    split; [intros _; left; reflexivity|].
    intros _. split; [exact Hok|]. split; [reflexivity|]. split; [apply (incl_tail r); exact Hincl|].
    destruct md; [exact Hmd|contradiction|].
    destruct Hmd as (H1 & H2 & H3). split; [exact H1|]. split; [cbn [length] in H2; lia|].
    rewrite erecs_cons, len_app in H3. lia.
  - rewrite E2, E3. rewrite tokens_cons_rec. lia.
  - rewrite E3. lia.
Qed.

Lemma len_le_tokens rs bs : (length bs <= tokens rs bs)%nat.
Proof. unfold tokens. induction bs as [|b t IH]; cbn [length fold_right]; lia. Qed.

(* decompression: an oracle inverse to the specification's compression.  Declared only here, and
   the fetch offset with it, so that what stands above does not depend on them *)
Variable decomp : Z -> list N -> option (list N).
Hypothesis decomp_law : forall c x, decomp c (compress c x) = Some x.
Variable o : Z.     (* the fetch offset = Conn.offset while the batch is open *)

(* nothing to decompress: the batch is not compressed, or a record of it was read already *)
Lemma prepare_noop b f m : f_hdr f = hdr_of b ->
  pb_codec b = 0 \/ f_count f <> Z.of_nat (length (pb_recs b)) ->
  read_v2_prepare decomp f m = MOk tt m.
Proof.
  intros Hh Hc. unfold read_v2_prepare. rewrite Hh. cbv zeta.
  destruct (f_count f =? h_count (hdr_of b)) eqn:E; [|reflexivity].
  destruct Hc as [Hc|Hc].
  - unfold codec_of, hdr_of, vhdr. cbn [h_magic h_attr]. rewrite Hc. reflexivity.
  - exfalso. unfold hdr_of, vhdr in E. cbn [h_count] in E. lia.
Qed.

Lemma msr_read_busy fuel mn ps bse i c h lr el : 0 < c -> h_magic h = 2 ->
  msr_read decomp fuel mn (stp ps bse i c h lr el)
  = (r <- (read_v2_prepare decomp (mkFrame i (len i) bse c h) ;;; read_v2_record) ;;
     let '(o, lo, ts, k, v, hs) := r in ret (mkMsg o ts k v hs, lo)) (stp ps bse i c h lr el).
Proof.
  intros Hc Hm. unfold msr_read. cbn [m_empty stp]. unfold bind at 1. rewrite read_header_pending by exact Hc.
  rewrite top_stp. cbn [f_hdr]. rewrite Hm. cbn [Z.eqb Pos.eqb orb].
  unfold bind at 1. unfold read_v2. unfold bind at 1. rewrite read_header_pending by exact Hc.
  rewrite top_stp. reflexivity.
Qed.

Lemma msr_read_rec_ok_g fuel mn b r rest ps bse c lr el :
  v2ok b -> In r (pb_recs b) -> 0 < c ->
  pb_codec b = 0 \/ c <> Z.of_nat (length (pb_recs b)) ->
  msr_read decomp fuel mn (stp ps bse (enc_record (pb_base b) (pb_ts b) r ++ rest) c (hdr_of b) lr el)
  = MOk (msg_of r, pb_base b + pb_lod b)
        (mkMsr (unwind (mkFrame rest (len rest) bse (c - 1) (hdr_of b) :: ps)) false
               (lr - len (enc_record (pb_base b) (pb_ts b) r)) el).
Proof.
  intros ((B1 & B2 & B3 & B4 & B5 & B6) & Hfits & Hbody & _) Hin Hc Hprep.
  pose proof (proj1 (Forall_forall _ _) Hfits r Hin) as Hf.
  pose proof (proj1 (Forall_forall _ _) Hbody r Hin) as Hb.
  rewrite msr_read_busy by (exact Hc || reflexivity). unfold bind.
  rewrite (prepare_noop b) by (exact Hprep || reflexivity).
  unfold hdr_of, vhdr. rewrite record_ok_g by assumption. reflexivity.
Qed.

Lemma msr_read_rec_short fuel mn b r q q' c lr el :
  v2ok b -> pb_codec b = 0 -> In r (pb_recs b) -> 0 < c ->
  enc_record (pb_base b) (pb_ts b) r = q ++ q' -> q' <> [] ->
  exists i', msr_read decomp fuel mn (st q c (hdr_of b) lr el) = MErr EShort (st i' c (hdr_of b) lr el).
Proof.
  intros ((B1 & B2 & B3 & B4 & B5 & B6) & Hfits & Hbody & _) Hc0 Hin Hc He Hq.
  pose proof (proj1 (Forall_forall _ _) Hfits r Hin) as Hf.
  pose proof (proj1 (Forall_forall _ _) Hbody r Hin) as Hb.
  destruct (record_short (pb_base b) (pb_ts b) (pb_lod b) (49 + plen_of b) (pb_codec b)
              (Z.of_nat (length (pb_recs b))) r q q' c lr el Hf B1 B5 Hb He Hq) as [i' Hi'].
  exists i'. rewrite (msr_read_busy fuel mn [] 0) by (exact Hc || reflexivity). unfold bind.
  rewrite (prepare_noop b) by (try (left; exact Hc0); reflexivity).
  unfold hdr_of, vhdr, st in *. cbv zeta in Hi'. unfold stp. rewrite Hi'. reflexivity.
Qed.

Lemma prepare_comp b R lr el : batch_fits b (plen_of b) -> pb_codec b <> 0 ->
  read_v2_prepare decomp
    (mkFrame (payload b ++ R) (len (payload b ++ R)) 0 (Z.of_nat (length (pb_recs b))) (hdr_of b))
    (st (payload b ++ R) (Z.of_nat (length (pb_recs b))) (hdr_of b) lr el)
  = MOk tt (stp [mkFrame R (len R) 0 0 (hdr_of b)] (-1) (erecs b (pb_recs b))
                (Z.of_nat (length (pb_recs b))) (hdr_of b) (len (erecs b (pb_recs b))) el).
Proof.
  intros (B1 & B2 & B3 & B4 & B5 & B6) Hc0.
  unfold read_v2_prepare. cbv zeta. cbn [f_count f_hdr f_remain].
  unfold bind at 1. rewrite codec_of_hdr by lia. unfold ret at 1.
  unfold hdr_of, vhdr. cbn [h_count h_length]. rewrite Z.eqb_refl.
  replace (49 + plen_of b - 49) with (plen_of b) by lia. rewrite wrap32_small by lia.
  rewrite len_app. pose proof (len_nonneg R).
  replace (len (payload b) + len R <? plen_of b) with false by (unfold plen_of, blen, len in *; lia).
  replace (plen_of b <? 0) with false by lia.
  unfold bind at 1. unfold lift at 1. cbn [m_stack st f_in f_remain]. unfold p_decompress.
  replace (plen_of b <? 0) with false by lia. rewrite len_app.
  replace (len (payload b) + len R <? plen_of b) with false by (unfold plen_of, blen, len in *; lia).
  change (plen_of b) with (len (payload b)). rewrite ztake_app, zdrop_app.
  unfold payload at 1. replace (pb_codec b =? 0) with false by lia. rewrite decomp_law.
  unfold bind at 1, set_lrem. cbn [m_stack m_empty m_elast set_stack set_rd fst snd f_base f_count f_hdr f_in f_remain].
  unfold st, set_stack, set_rd, stp. cbn [m_stack m_empty m_lrem m_elast fst snd f_in f_remain f_base f_count f_hdr].
  repeat f_equal; lia.
Qed.

Lemma prepare_short b q lr el : batch_fits b (plen_of b) -> pb_codec b <> 0 -> len q < plen_of b ->
  read_v2_prepare decomp (mkFrame q (len q) 0 (Z.of_nat (length (pb_recs b))) (hdr_of b))
    (st q (Z.of_nat (length (pb_recs b))) (hdr_of b) lr el)
  = MErr EShort (st q (Z.of_nat (length (pb_recs b))) (hdr_of b) lr el).
Proof.
  intros (B1 & B2 & B3 & B4 & B5 & B6) Hc0 Hq.
  unfold read_v2_prepare. cbv zeta. cbn [f_count f_hdr f_remain].
  unfold bind at 1. rewrite codec_of_hdr by lia. unfold ret at 1.
  unfold hdr_of, vhdr. cbn [h_count h_length]. rewrite Z.eqb_refl.
  replace (49 + plen_of b - 49) with (plen_of b) by lia. rewrite wrap32_small by lia.
  replace (len q <? plen_of b) with true by lia. reflexivity.
Qed.

Lemma msr_read_enter_comp fuel mn b r rs' R lr el :
  v2ok b -> pb_codec b <> 0 -> pb_recs b = r :: rs' ->
  msr_read decomp fuel mn (st (payload b ++ R) (Z.of_nat (length (pb_recs b))) (hdr_of b) lr el)
  = MOk (msg_of r, pb_base b + pb_lod b)
        (mkMsr (unwind (mkFrame (erecs b rs') (len (erecs b rs')) (-1) (Z.of_nat (length (pb_recs b)) - 1) (hdr_of b)
                        :: [mkFrame R (len R) 0 0 (hdr_of b)])) false
               (len (erecs b rs')) el).
Proof.
  intros Hok Hc0 Hrecs. pose proof Hok as (Hfit & Hfits & Hbody & _). pose proof Hfit as (B1 & B2 & B3 & B4 & B5 & B6).
  assert (Hn : 0 < Z.of_nat (length (pb_recs b))) by (rewrite Hrecs; cbn [length]; lia).
  assert (Hin : In r (pb_recs b)) by (rewrite Hrecs; left; reflexivity).
  pose proof (proj1 (Forall_forall _ _) Hfits r Hin) as Hf.
  pose proof (proj1 (Forall_forall _ _) Hbody r Hin) as Hb.
  rewrite (msr_read_busy fuel mn [] 0) by (exact Hn || reflexivity). unfold bind.
  change (stp [] 0 ?i ?c ?h ?l ?e) with (st i c h l e).
  rewrite (prepare_comp b R lr el Hfit Hc0).
  replace (erecs b (pb_recs b)) with (enc_record (pb_base b) (pb_ts b) r ++ erecs b rs') by (rewrite Hrecs; symmetry; apply erecs_cons).
  unfold hdr_of, vhdr.
  rewrite record_ok_g; try assumption; try lia.
  rewrite len_app.
  replace (len (enc_record (pb_base b) (pb_ts b) r) + len (erecs b rs') - len (enc_record (pb_base b) (pb_ts b) r))
    with (len (erecs b rs')) by lia.
  reflexivity.
Qed.

Lemma msr_read_enter_short fuel mn b q c lr el :
  v2ok b -> pb_codec b <> 0 -> c = Z.of_nat (length (pb_recs b)) -> len q < plen_of b ->
  msr_read decomp fuel mn (st q c (hdr_of b) lr el) = MErr EShort (st q c (hdr_of b) lr el).
Proof.
  intros (Hfit & _ & _ & Hne) Hc0 -> Hq.
  assert (Hn : 0 < Z.of_nat (length (pb_recs b))).
  { specialize (Hne Hc0). destruct (pb_recs b); [contradiction|cbn [length]; lia]. }
  rewrite (msr_read_busy fuel mn [] 0) by (exact Hn || reflexivity). unfold bind.
  change (stp [] 0 ?i ?c ?h ?l ?e) with (st i c h l e).
  rewrite (prepare_short b q lr el Hfit Hc0 Hq). reflexivity.
Qed.

Definition conc (p : apos) : batch :=
  mkBatch (Some (concm p)) true o (a_off p) (a_last p) None false.

Definition BSt (m : msr) (off last : Z) : batch := mkBatch (Some m) true o off last None false.

Lemma b1_of_ok fuel m off last g lo m' :
  msr_read decomp fuel off m = MOk (g, lo) m' ->
  batch_read1 decomp fuel (BSt m off last)
  = BMsg g (BSt m' (let off1 := if off <=? g_off g then g_off g + 1 else off in
                    if (m_lrem m' =? 0) && (off1 <=? lo) then lo + 1 else off1) lo).
Proof. intros H. unfold batch_read1, BSt. cbn [b_err b_msgs b_off]. rewrite H. reflexivity. Qed.

Lemma b1_of_short fuel i c h lr el off last i' c' h' lr' el' :
  msr_read decomp fuel off (st i c h lr el) = MErr EShort (st i' c' h' lr' el') ->
  exists b', batch_read1 decomp fuel (BSt (st i c h lr el) off last) = BErr EEOF b'
             /\ b_off b' = (let lo := if (lr' =? 0) && (el' <? last) then last else el' in
                            if off <=? lo then lo + 1 else off).
Proof.
  intros H. unfold batch_read1, BSt. cbn [b_err b_msgs b_off b_late b_last]. rewrite H.
  rewrite discard_exact. cbn [negb andb m_lrem m_elast st]. eexists. split; [reflexivity|].
  cbn [set_b b_off]. reflexivity.
Qed.

(* one call of Batch.readMessage at position p does what the abstract step says *)
Definition b1_sim (fuel : nat) (p : apos) : Prop :=
  match step1 p with
  | ARec r p' => batch_read1 decomp fuel (conc p) = BMsg (msg_of r) (conc p')
  | AEnd f => exists b', batch_read1 decomp fuel (conc p) = BErr EEOF b' /\ b_off b' = f
  end.

Lemma b1_in fuel b r rs' bs j off last el lr :
  v2ok b -> pb_codec b = 0 -> incl (r :: rs') (pb_recs b) -> 0 <= j ->
  b1_sim fuel (mkPos b (r :: rs') bs j (hdr_of b) off last el MPlain lr).
Proof.
  intros Hok Hc0 Hincl Hj. unfold b1_sim, step1. cbn [a_b a_rs a_bs a_j a_off a_el a_mode].
  change (conc (mkPos b (r :: rs') bs j (hdr_of b) off last el MPlain lr))
    with (BSt (st (ztake j (erecs b (r :: rs') ++ encs bs)) (Z.of_nat (S (length rs'))) (hdr_of b)
                  (len (erecs b (r :: rs'))) el) off last).
  unfold rec_step. cbv zeta.
  assert (Hin : In r (pb_recs b)) by (apply Hincl; left; reflexivity).
  set (E := enc_record (pb_base b) (pb_ts b) r).
  pose proof (enc_record_nonempty (pb_base b) (pb_ts b) r) as HE. fold E in HE.
  rewrite erecs_cons. fold E. rewrite <- app_assoc.
  destruct (j <? len E) eqn:Ej.
  - destruct (ztake_app_lt j E (erecs b rs' ++ encs bs)) as (H1 & H2 & H3); [lia|].
    rewrite H1.
    destruct (msr_read_rec_short fuel off b r (ztake j E) (zdrop j E) (Z.of_nat (S (length rs')))
                (len (E ++ erecs b rs')) el Hok Hc0 Hin ltac:(lia) H2 H3) as [i' Hi'].
    destruct (b1_of_short fuel _ _ _ _ _ off last _ _ _ _ _ Hi') as (b' & Hb1 & Hb2).
    exists b'. split; [exact Hb1|]. rewrite Hb2. unfold eoff_in.
    rewrite len_app. pose proof (len_nonneg (erecs b rs')).
    replace (len E + len (erecs b rs') =? 0) with false by lia. reflexivity.
  - rewrite ztake_app_ge by lia.
    pose proof (msr_read_rec_ok_g fuel off b r (ztake (j - len E) (erecs b rs' ++ encs bs)) [] 0
                  (Z.of_nat (S (length rs'))) (len (E ++ erecs b rs')) el Hok Hin ltac:(lia) (or_introl Hc0)) as Hm.
    fold E in Hm. change (stp [] 0 ?i ?c ?h ?l ?e) with (st i c h l e) in Hm.
    rewrite (b1_of_ok fuel _ off last _ _ _ Hm).
    unfold conc, concm, BSt. cbn [a_j a_b a_rs a_bs a_hdr a_el a_off a_last a_mode a_lr m_lrem unwind g_off msg_of].
    rewrite len_app. replace (len E + len (erecs b rs') - len E) with (len (erecs b rs')) by lia.
    replace (Z.of_nat (S (length rs')) - 1) with (Z.of_nat (length rs')) by lia.
    destruct rs'; reflexivity.
Qed.

(* inside a decompressed record set: never truncated *)
Lemma b1_inside fuel b r rs' bs j off last el lr :
  v2ok b -> pb_codec b <> 0 -> incl (r :: rs') (pb_recs b) ->
  (length (r :: rs') < length (pb_recs b))%nat -> len (erecs b (r :: rs')) <= j ->
  b1_sim fuel (mkPos b (r :: rs') bs j (hdr_of b) off last el MInside lr).
Proof.
  intros Hok Hc0 Hincl Hlen Hj. unfold b1_sim, step1. cbn [a_b a_rs a_bs a_j a_off a_el a_mode].
  change (conc (mkPos b (r :: rs') bs j (hdr_of b) off last el MInside lr))
    with (BSt (concm (mkPos b (r :: rs') bs j (hdr_of b) off last el MInside lr)) off last).
  unfold rec_step. cbv zeta.
  assert (Hin : In r (pb_recs b)) by (apply Hincl; left; reflexivity).
  set (E := enc_record (pb_base b) (pb_ts b) r).
  pose proof (len_nonneg (erecs b rs')) as Hn. rewrite erecs_cons, len_app in Hj. fold E in Hj.
  replace (j <? len E) with false by lia.
  unfold concm. cbn [a_b a_rs a_bs a_j a_hdr a_el a_mode]. cbv zeta. rewrite erecs_cons. fold E.
  pose proof (msr_read_rec_ok_g fuel off b r (erecs b rs')
                [mkFrame (ztake (j - len (E ++ erecs b rs')) (encs bs)) (len (ztake (j - len (E ++ erecs b rs')) (encs bs))) 0 0 (hdr_of b)]
                (-1) (Z.of_nat (length (r :: rs'))) (len (E ++ erecs b rs')) el Hok Hin
                ltac:(cbn [length]; lia) ltac:(right; lia)) as Hm.
  fold E in Hm. rewrite (b1_of_ok fuel _ off last _ _ _ Hm).
  unfold conc, BSt. cbn [a_off a_last g_off msg_of m_lrem].
  rewrite len_app. replace (len E + len (erecs b rs') - len E) with (len (erecs b rs')) by lia.
  f_equal. f_equal. f_equal. apply after_inside.
Qed.

Lemma b1_pending fuel b r rs' bs j off last el lr :
  v2ok b -> pb_codec b <> 0 -> pb_recs b = r :: rs' -> 0 <= j ->
  b1_sim fuel (mkPos b (r :: rs') bs j (hdr_of b) off last el MPending lr).
Proof.
  intros Hok Hc0 Hrecs Hj. unfold b1_sim, step1. cbn [a_b a_rs a_bs a_j a_off a_el a_mode].
  replace (conc (mkPos b (r :: rs') bs j (hdr_of b) off last el MPending lr))
    with (BSt (st (ztake j (payload b ++ encs bs)) (Z.of_nat (length (pb_recs b))) (hdr_of b) (plen_of b) el) off last)
    by (rewrite Hrecs; reflexivity).
  unfold cstep.
  pose proof Hok as ((B1 & B2 & B3 & B4 & B5 & B6) & _).
  destruct (j <? plen_of b) eqn:Ej.
  - assert (Hq : len (ztake j (payload b ++ encs bs)) < plen_of b).
    { unfold ztake, len. rewrite firstn_length. lia. }
    pose proof (msr_read_enter_short fuel off b _ _ (plen_of b) el Hok Hc0 eq_refl Hq) as Hm.
    destruct (b1_of_short fuel _ _ _ _ _ off last _ _ _ _ _ Hm) as (b' & Hb1 & Hb2).
    exists b'. split; [exact Hb1|]. rewrite Hb2. unfold eoff_in.
    replace (plen_of b =? 0) with false by lia. reflexivity.
  - change (plen_of b) with (len (payload b)) in Ej |- * at 1.
    rewrite ztake_app_ge by (unfold plen_of, blen, len in *; lia).
    pose proof (msr_read_enter_comp fuel off b r rs' (ztake (j - len (payload b)) (encs bs)) (plen_of b) el Hok Hc0 Hrecs) as Hm.
    unfold rec_step. cbv zeta.
    set (E := enc_record (pb_base b) (pb_ts b) r).
    pose proof (len_nonneg (erecs b rs')) as Hn.
    match goal with |- context [if ?c then AEnd _ else ARec _ _] => assert (Hcnd : c = false) end.
    { apply Z.ltb_ge. rewrite erecs_cons, len_app. fold E. unfold plen_of, blen, len in *. lia. }
    rewrite Hcnd. rewrite erecs_cons, len_app. fold E.
    rewrite (b1_of_ok fuel _ off last _ _ _ Hm).
    unfold conc, BSt. cbn [a_off a_last g_off msg_of m_lrem].
    f_equal. f_equal. f_equal.
    rewrite Hrecs.
    etransitivity; [|apply (after_inside b r rs' bs (j - plen_of b + (len E + len (erecs b rs'))))].
    cbv zeta. fold E.
    replace (j - plen_of b + (len E + len (erecs b rs')) - (len E + len (erecs b rs'))) with (j - len (payload b))
      by (unfold plen_of, blen, len; lia).
    reflexivity.
Qed.

Lemma msr_read_via_loop_ok fuel mn i h lr el i2 c2 h2 lr2 el2 :
  read_header_loop fuel (st i 0 h lr el) = MOk tt (st i2 c2 h2 lr2 el2) -> 0 < c2 ->
  msr_read decomp fuel mn (st i 0 h lr el) = msr_read decomp fuel mn (st i2 c2 h2 lr2 el2).
Proof.
  intros Hl Hc. unfold msr_read. cbn [m_empty st].
  apply (bind_same _ _ _ _ tt (st i2 c2 h2 lr2 el2)).
  - rewrite read_header_idle. exact Hl.
  - apply (read_header_pending fuel [] 0). exact Hc.
Qed.

Lemma msr_read_via_loop_err fuel mn i h lr el e m' :
  read_header_loop fuel (st i 0 h lr el) = MErr e m' ->
  msr_read decomp fuel mn (st i 0 h lr el) = MErr e m'.
Proof.
  intros Hl. unfold msr_read. cbn [m_empty st]. unfold bind at 1.
  rewrite read_header_idle, Hl. reflexivity.
Qed.

Lemma b1_same_msr fuel m1 m2 off last :
  msr_read decomp fuel off m1 = msr_read decomp fuel off m2 ->
  batch_read1 decomp fuel (BSt m1 off last) = batch_read1 decomp fuel (BSt m2 off last).
Proof. intros H. unfold batch_read1, BSt. cbn [b_err b_msgs b_off]. rewrite H. reflexivity. Qed.

(* and the position reached is a good one, nearer the end of the response *)
Definition b1_good (fuel : nat) (p : apos) : Prop :=
  b1_sim fuel p
  /\ forall r p', step1 p = ARec r p' ->
       pos_ok p' /\ (tokens (a_rs p') (a_bs p') < tokens (a_rs p) (a_bs p))%nat
       /\ (length (a_bs p') <= length (a_bs p))%nat.

Lemma b1_records p fuel : pos_ok p -> a_rs p <> [] -> b1_good fuel p.
Proof.
  intros (Hj & Hbs & _ & Hin) Hne. unfold b1_good.
  destruct p as [b rs bs j hdr off last el md lr]. cbn [a_b a_rs a_bs a_j a_hdr a_off a_last a_el a_mode a_lr] in *.
  destruct rs as [|r rs']; [contradiction|].
  destruct (Hin Hne) as (Hok & Hh & Hincl & Hmd). subst hdr.
  unfold step1. cbn [a_b a_rs a_bs a_j a_off a_el a_mode].
  destruct md.
  - (* read from the response *)
    split; [apply b1_in; assumption|]. intros r0 p' Ers.
    apply (pos_ok_after MPlain b r rs' bs j off el r0 p' Hok Hincl Hbs Hmd Ers).
  - (* a compressed batch whose header was read *)
    destruct Hmd as [Hc0 Hrs].
    split; [apply b1_pending; [exact Hok|exact Hc0|symmetry; exact Hrs|exact Hj]|]. intros r0 p' Ecs.
    destruct (cstep_inv _ _ _ _ _ _ _ _ _ Ecs) as [Hpj Ers].
    apply (pos_ok_after MInside b r rs' bs (j - plen_of b + len (erecs b (r :: rs'))) off el r0 p' Hok Hincl Hbs
             ltac:(split; [exact Hc0|split; [rewrite <- Hrs; lia|lia]]) Ers).
  - (* read from the decompressed payload *)
    destruct Hmd as (Hc0 & Hlen & Hfit).
    split; [apply b1_inside; assumption|]. intros r0 p' Ers.
    apply (pos_ok_after MInside b r rs' bs j off el r0 p' Hok Hincl Hbs
             ltac:(split; [exact Hc0|split; [lia|exact Hfit]]) Ers).
Qed.

(* at a batch boundary the headers of the record-less batches are read first, then the call goes
   on as at the position entered *)
Lemma b1_step p fuel : pos_ok p -> (length (a_bs p) < fuel)%nat -> b1_good fuel p.
Proof.
  intros Hp Hfuel. unfold b1_good. destruct (a_rs p) as [|r0 rs0] eqn:Ers.
  2:{ rewrite <- Ers. apply b1_records; [exact Hp|rewrite Ers; discriminate]. }
  destruct Hp as (Hj & Hbs & Hlr & _). specialize (Hlr Ers).
  destruct p as [b rs bs j hdr off last el md lr]. cbn [a_b a_rs a_bs a_j a_hdr a_off a_last a_el a_mode a_lr] in *.
  subst rs. unfold b1_sim, step1. cbn [a_rs a_bs a_j a_off a_last a_el].
  assert (Hconc : conc (mkPos b [] bs j hdr off last el md lr) = BSt (st (ztake j (encs bs)) 0 hdr lr el) off last).
  { unfold conc, concm, BSt. cbn [a_b a_rs a_bs a_j a_hdr a_off a_last a_el a_mode a_lr length Z.of_nat].
    change (erecs b []) with (@nil N). cbn [app]. destruct md; reflexivity. }
  rewrite Hconc.
  destruct (loop_bnd bs j hdr lr el fuel Hbs Hj Hfuel)
    as [(i' & hdr' & lr' & el' & H1 & H1' & H2)|(b2 & bs2 & j2 & el2 & Hok2 & Hne2 & Hj2 & Hbs2 & Hloop & Hbstep & Htok & Hlen)].
  - rewrite H2. split; [|intros r p' H; discriminate H].
    pose proof (msr_read_via_loop_err fuel off _ _ _ _ _ _ H1) as Hm.
    destruct (b1_of_short fuel _ _ _ _ _ off last _ _ _ _ _ Hm) as (b' & Hb1 & Hb2).
    exists b'. split; [exact Hb1|]. rewrite Hb2. unfold eoff0.
    destruct H1' as [E|[E1 E2]].
    + rewrite E. reflexivity.
    + subst lr' el'. destruct Hlr as [E|E]; [rewrite E; reflexivity|].
      replace (el <? last) with false by lia. rewrite andb_false_r. reflexivity.
  - assert (Hn2 : 0 < Z.of_nat (length (pb_recs b2))) by (destruct (pb_recs b2); [contradiction|cbn [length]; lia]).
    pose proof (msr_read_via_loop_ok fuel off _ _ _ _ _ _ _ _ _ Hloop Hn2) as Hm.
    rewrite <- (concm_enter b2 bs2 j2 off last el2 Hok2) in Hm.
    rewrite (b1_same_msr fuel _ _ off last Hm), Hbstep.
    set (p2 := enter b2 bs2 j2 off last el2) in *.
    change (BSt (concm p2) off last) with (conc p2).
    destruct (b1_records p2 fuel (pos_ok_enter b2 bs2 j2 off last el2 Hok2 Hbs2 Hj2) Hne2) as [Hsim Hnext].
    split; [exact Hsim|]. intros r p' Hs. destruct (Hnext r p' Hs) as (B2 & B3 & B4). split; [exact B2|].
    unfold p2, enter in B3, B4. cbn [a_rs a_bs] in B3, B4. split; lia.
Qed.

(* Batch.ReadMessage at a position: the loop over Batch.readMessage that skips the records below the
   fetch offset *)
Inductive ares := ADeliver (r : record) (p : apos) | AStop (f : Z) | AOut.
Fixpoint a_read (fuel : nat) (p : apos) {struct fuel} : ares :=
  match fuel with
  | O => AOut
  | S f =>
    match step1 p with
    | ARec r p' => if r_off r <? o then a_read f p' else ADeliver r p'
    | AEnd x => AStop x
    end
  end.

Fixpoint a_run (fuel : nat) (p : apos) (acc : list msg) {struct fuel} : option (list msg * Z) :=
  match fuel with
  | O => None
  | S f =>
    match a_read (S f) p with
    | ADeliver r p' => a_run f p' (msg_of r :: acc)
    | AStop x => Some (rev acc, x)
    | AOut => None
    end
  end.

Lemma conc_fields p : b_has_conn (conc p) = true /\ b_conn_off (conc p) = o.
Proof. split; reflexivity. Qed.

Lemma read_refine : forall fuel p, pos_ok p -> (tokens (a_rs p) (a_bs p) < fuel)%nat ->
  match a_read fuel p with
  | ADeliver r p' => batch_read decomp fuel (conc p) = BMsg (msg_of r) (conc p') /\ pos_ok p' /\ (tokens (a_rs p') (a_bs p') < tokens (a_rs p) (a_bs p))%nat
  | AStop f => exists b', batch_read decomp fuel (conc p) = BErr EEOF b' /\ b_off b' = f
  | AOut => False
  end.
Proof.
  induction fuel as [|f IH]; intros p Hok HT; [lia|].
  cbn [a_read batch_read].
  assert (Hl : (length (a_bs p) < S f)%nat) by (pose proof (len_le_tokens (a_rs p) (a_bs p)); lia).
  destruct (b1_step p (S f) Hok Hl) as [Hs Hnext]. unfold b1_sim in Hs.
  destruct (step1 p) as [r p'|x].
  - destruct (Hnext r p' eq_refl) as (H2 & H3 & H4). rewrite Hs.
    cbn [b_has_conn b_conn_off conc g_off msg_of andb].
    destruct (r_off r <? o) eqn:E.
    + specialize (IH p' H2 ltac:(lia)).
      destruct (a_read f p') as [r2 p2|x2|]; [|exact IH|exact IH].
      destruct IH as (I1 & I2 & I3). split; [exact I1|]. split; [exact I2|]. lia.
    + split; [reflexivity|]. split; [exact H2|exact H3].
  - destruct Hs as (b' & H1 & H2). rewrite H1. exists b'. split; [reflexivity|exact H2].
Qed.

Lemma run_refine : forall fuel p acc, pos_ok p -> (tokens (a_rs p) (a_bs p) < fuel)%nat ->
  match a_run fuel p acc with
  | Some (ms, x) => batch_run decomp fuel (conc p) acc = Some (ms, EEOF, x)
  | None => False
  end.
Proof.
  induction fuel as [|f IH]; intros p acc Hok HT; [lia|].
  cbn [a_run batch_run].
  pose proof (read_refine (S f) p Hok HT) as Hr.
  destruct (a_read (S f) p) as [r p'|x|]; [| |exact Hr].
  - destruct Hr as (H1 & H2 & H3). rewrite H1. apply IH; [exact H2|lia].
  - destruct Hr as (b' & H1 & H2). rewrite H1, H2. reflexivity.
Qed.

End Run.
