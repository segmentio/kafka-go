(* Proofs/WriterHolds7.v — the extracted boolean predicate C07_holds_for is true on every
   run of the model. *)
From Coq Require Import List NArith Bool Arith Lia.
From KV Require Import Lib.LTS Model.Writer Proofs.WriterStmts Proofs.WriterBase Proofs.WriterSteps Proofs.WriterC07.
Import ListNotations.

Lemma index_of_spec : forall m l i r, index_of m l i = Some r ->
  exists x, nth_error l (r - i) = Some x /\ m_id x = m_id m /\ i <= r.
Proof.
  induction l as [|a l IH]; simpl; intros i r H; [discriminate|].
  destruct (N.eqb (m_id a) (m_id m)) eqn:E.
  - inv H. exists a. rewrite Nat.sub_diag. simpl. apply N.eqb_eq in E. auto.
  - apply IH in H. destruct H as (x & Hx & Ex & L). exists x.
    replace (r - i) with (S (r - S i)) by lia. simpl. split; auto. split; auto. lia.
Qed.

Lemma in_ranks : forall sub ms z, In z (ranks sub ms) -> exists y, In y ms /\ index_of y sub 0 = Some z.
Proof.
  intros sub ms z H. unfold ranks in H. apply in_flat_map in H. destruct H as (y & Hy & Hz).
  exists y. split; auto. destruct (index_of y sub 0); simpl in Hz; [destruct Hz as [->|[]]; auto|destruct Hz].
Qed.

Lemma increasing_cons : forall r L, increasing L = true -> (forall z, In z L -> r < z) -> increasing (r :: L) = true.
Proof.
  intros r L H K. destruct L as [|z L]; [reflexivity|].
  change (((r <? z) && increasing (z :: L)) = true). rewrite H, andb_true_r. apply Nat.ltb_lt. apply K. left; auto.
Qed.

Lemma increasing_ranks : forall sub ms,
  (forall x y rx ry, before ms x y -> index_of x sub 0 = Some rx -> index_of y sub 0 = Some ry -> rx < ry) ->
  increasing (ranks sub ms) = true.
Proof.
  intros sub. induction ms as [|m ms IH]; intros H; [reflexivity|].
  assert (IH' : increasing (ranks sub ms) = true).
  { apply IH. intros x y rx ry B. apply H. change (m :: ms) with ([m] ++ ms). apply before_app_r; auto. }
  unfold ranks in *. simpl. destruct (index_of m sub 0) as [r|] eqn:E; simpl; [|exact IH'].
  apply increasing_cons; auto. intros z Hz. apply in_ranks in Hz. destruct Hz as (y & Hy & Ey).
  eapply (H m y); eauto. change (m :: ms) with ([m] ++ ms). apply before_app_mid; [left; auto|auto].
Qed.

Fixpoint allpairs {A} (Rel : A -> A -> Prop) (l : list A) {struct l} : Prop :=
  match l with
  | [] => True
  | a :: r => (forall b, In b r -> Rel a b) /\ allpairs Rel r
  end.

Lemma allpairs_nth : forall A (Rel : A -> A -> Prop) l,
  (forall i i' a b, i < i' -> nth_error l i = Some a -> nth_error l i' = Some b -> Rel a b) -> allpairs Rel l.
Proof.
  induction l as [|a l IH]; intros H; simpl; [exact I|]. split.
  - intros b Hb. apply In_nth_error in Hb. destruct Hb as [n Hn]. apply (H 0 (S n)); auto. lia.
  - apply IH. intros i i' x y L Hi Hi'. apply (H (S i) (S i')); auto. lia.
Qed.

Lemma allpairs_filter : forall A (Rel : A -> A -> Prop) (p : A -> bool) l,
  allpairs (fun a b => p a = true -> p b = true -> Rel a b) l -> allpairs Rel (filter p l).
Proof.
  induction l as [|a l IH]; simpl; [intros _; exact I|intros [H1 H2]].
  destruct (p a) eqn:E; [|auto]. simpl. split; auto.
  intros b Hb. apply filter_In in Hb. destruct Hb. auto.
Qed.

Definition ne (b : list nat) : bool := match b with [] => false | _ => true end.

Lemma list_nat_eqb_refl : forall a, list_nat_eqb a a = true.
Proof.
  intros a. unfold list_nat_eqb. rewrite Nat.eqb_refl. simpl.
  induction a; simpl; auto. rewrite Nat.eqb_refl. auto.
Qed.

Lemma last_In : forall (l : list nat) d, l <> [] -> In (last l d) l.
Proof.
  induction l as [|a l IH]; intros d H; [congruence|]. destruct l as [|b l]; [left; reflexivity|].
  right. apply IH. discriminate.
Qed.

Lemma blocks_ok_sorted : forall A (R : A -> list nat) (E : list A),
  allpairs (fun a b => R a = R b \/ (forall x y, In x (R a) -> In y (R b) -> x < y)) E ->
  blocks_ok (filter ne (map R E)) = true.
Proof.
  intros A R. induction E as [|a E IH]; simpl; intros H; [reflexivity|]. destruct H as [Ha Hr].
  specialize (IH Hr). destruct (R a) as [|n l] eqn:Ra; simpl; [exact IH|].
  destruct (filter ne (map R E)) as [|hb t] eqn:F; [reflexivity|].
  change (((list_nat_eqb (n :: l) hb || match hb with x :: _ => last (n :: l) 0 <? x | [] => true end)
           && blocks_ok (hb :: t)) = true).
  rewrite IH, andb_true_r.
  assert (Hin : In hb (filter ne (map R E))) by (rewrite F; left; auto).
  apply filter_In in Hin. destruct Hin as [Hin Hne]. apply in_map_iff in Hin. destruct Hin as (b & Eb & Hb).
  destruct (Ha b Hb) as [Eq|Lt].
  - rewrite <- Eb, <- Eq. rewrite list_nat_eqb_refl. reflexivity.
  - apply orb_true_iff. right. destruct hb as [|y hb]; [reflexivity|]. apply Nat.ltb_lt.
    apply Lt; [apply last_In; discriminate|rewrite Eb; left; auto].
Qed.

Lemma sub_in_call : forall cs g x, In x (submitted cs g) -> exists c cl, nth_error cs c = Some cl /\ In x (c_msgs cl).
Proof.
  intros cs g x H. unfold submitted in H. apply in_flat_map in H. destruct H as (cl & Hcl & Hx).
  destruct (N.eqb (c_g cl) g && negb (rejected cl)); [|destruct Hx].
  apply In_nth_error in Hcl. destruct Hcl as [c Hc]. eauto.
Qed.

Lemma ident : forall cfg s g q x m, Inv2 cfg s -> In x (submitted (s_calls s) g) -> In m (oseq (s_pws s) q) ->
  m_id x = m_id m -> x = m.
Proof.
  intros cfg s g q x m I Hx Hm E. apply sub_in_call in Hx. destruct Hx as (c1 & cl1 & H1 & In1).
  destruct (i2_prov _ _ I _ _ Hm) as (c2 & cl2 & H2 & In2 & _).
  assert (c1 = c2) by (eapply ids_idx; eauto; apply I). subst c2. assert (cl2 = cl1) by congruence. subst cl2.
  eapply (NoDup_map_inj _ _ m_id (c_msgs cl1)); eauto. eapply ids_call_nodup; [apply I|eauto].
Qed.

Section Core.
Variable cfg : config.
Variable s : state.
Variable g : N.
Variable tp : tpart.
Hypothesis I : Inv2 cfg s.
Let sub := filter (fun m => tp_eqb (tp_of cfg m) tp) (submitted (s_calls s) g).

(* the ranks in the submission order of g follow the order in the partition writer's sequence *)
Lemma core : forall q pw m1 m2 x y, nth_error (s_pws s) q = Some pw -> before (pw_seq pw) m1 m2 ->
  index_of m1 sub 0 = Some x -> index_of m2 sub 0 = Some y -> x < y.
Proof.
  intros q pw m1 m2 x y Hq B Hx Hy.
  assert (O : oseq (s_pws s) q = pw_seq pw) by (apply oseq_some; auto).
  assert (ND : NoDup (pw_seq pw)) by (eapply NoDup_map_inv; rewrite <- O; apply (i2_nodup _ _ I)).
  apply index_of_spec in Hx, Hy. destruct Hx as (x1 & Nx & Ex & _), Hy as (y1 & Ny & Ey & _).
  rewrite Nat.sub_0_r in Nx, Ny.
  assert (Sx : In x1 (submitted (s_calls s) g)) by (apply nth_error_In in Nx; apply filter_In in Nx; tauto).
  assert (Sy : In y1 (submitted (s_calls s) g)) by (apply nth_error_In in Ny; apply filter_In in Ny; tauto).
  assert (x1 = m1) by (eapply ident; eauto; rewrite O; eapply before_in_l; eauto).
  assert (y1 = m2) by (eapply ident; eauto; rewrite O; eapply before_in_r; eauto). subst x1 y1.
  destruct (Nat.lt_ge_cases x y) as [L|L]; auto. exfalso.
  destruct (Nat.eq_dec x y) as [->|N].
  - assert (m1 = m2) by congruence. subst. eapply (NoDup_before_asym (pw_seq pw) m2 m2); eauto.
  - assert (B' : before (submitted (s_calls s) g) m2 m1).
    { eapply before_filter. exists y, x. split; [lia|split; eauto]. }
    eapply (NoDup_before_asym (pw_seq pw) m1 m2); eauto. rewrite <- O.
    eapply (i2_order _ _ I); eauto; rewrite O; [eapply before_in_r|eapply before_in_l]; eauto.
Qed.

End Core.

Lemma C07_holds_for_runs : forall cfg ls s g tp, runs cfg ls s ->
  C07_holds_for cfg (s_calls s) (s_journal s) g tp = true.
Proof.
  intros cfg ls s g tp Hr. destruct (order_invs_runs _ _ _ Hr) as [J I].
  unfold C07_holds_for.
  set (sub := filter (fun m => tp_eqb (tp_of cfg m) tp) (submitted (s_calls s) g)).
  set (p := fun a => a_applied a && tp_eqb (a_tp a) tp).
  apply andb_true_iff. split.
  - apply forallb_forall. intros blk Hb. apply filter_In in Hb. destruct Hb as [Hb _].
    apply in_map_iff in Hb. destruct Hb as (a & <- & Ha). apply filter_In in Ha. destruct Ha as [Ha _].
    destruct (jr_batch _ _ _ a Hr Ha) as (pw & b & E & T & Hb & Hm).
    apply increasing_ranks. intros x y rx ry B Hx Hy.
    eapply (core cfg s g tp I (a_pw a) pw x y); eauto.
    unfold pw_seq. eapply before_flat_map_in; [eapply nth_error_In; eauto|]. rewrite Hm. exact B.
  - apply (blocks_ok_sorted _ (fun a => ranks sub (a_msgs a))).
    apply allpairs_filter. apply allpairs_nth. intros i i' a b L Hi Hi' Pa Pb.
    unfold p in Pa, Pb. apply andb_true_iff in Pa, Pb. destruct Pa as [_ Pa], Pb as [_ Pb].
    apply tp_eqb_eq in Pa, Pb.
    destruct (C07_retries_contiguous_proof cfg ls s Hr i i' a b Hi Hi') as (_ & R2 & R3).
    assert (Epw : a_pw a = a_pw b) by (apply R3; congruence).
    assert (Le : a_k a <= a_k b) by (eapply (i1_sorted _ J i i'); eauto).
    destruct (Nat.eq_dec (a_k a) (a_k b)) as [Ek|Nk].
    + left. destruct (R2 Epw Ek) as [-> _]. reflexivity.
    + right. intros x y Hx Hy. apply in_ranks in Hx, Hy.
      destruct Hx as (m1 & In1 & E1), Hy as (m2 & In2 & E2).
      destruct (jr_batch _ _ _ a Hr (nth_error_In _ _ Hi)) as (pwa & ba & A1 & _ & A3 & A5).
      destruct (jr_batch _ _ _ b Hr (nth_error_In _ _ Hi')) as (pwb & bb & B1 & _ & B3 & B5).
      rewrite Epw in A1. assert (pwa = pwb) by congruence. subst pwb.
      eapply (core cfg s g tp I (a_pw b) pwa m1 m2); eauto. unfold pw_seq.
      eapply (before_flat_map_lt _ _ b_msgs (pw_all pwa) (a_k a) (a_k b) ba bb); eauto;
        [lia|rewrite A5; auto|rewrite B5; auto].
Qed.

Print Assumptions C07_holds_for_runs.
