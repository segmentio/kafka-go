(* Proofs/ConsumerGroupRun.v — the run goroutine: re-join only after back-off, leave on close, as one
   invariant of every run; the Prop readings of mon_backoff and mon_leave_full. *)
From Coq Require Import List ZArith Bool Arith Lia.
From KV Require Import Model.ConsumerGroup Proofs.ConsumerGroupBase.
Import ListNotations.

Definition neutral (e : event) : bool :=
  match e with
  | HCoordReq | HJoinReq _ | HFail _ | HBackoff | HRunExit _ _ | HCloseRet _
  | HLeaveReq _ | HLeaveUnreach _ => false
  | _ => true
  end.

(* run exits holding a member id only on the ErrGroupClosed exit and on the exit from the
   error offer after RebalanceInProgress *)
Definition exit_ok (e : event) : bool :=
  match e with
  | HRunExit XClosed _ => true
  | HRunExit (XOffer ERebalance) _ => true
  | HRunExit _ (Some _) => false
  | _ => true
  end.

(* per control point of run: while leaving on the way out the error offered is RebalanceInProgress; an
   error that needs a back-off is offered only after the leave cleared the member id; after exit the exit
   is recorded; elsewhere no failure waits for its back-off *)
Definition pcinv (p : pcs) (m : option nat) (h : list event) : Prop :=
  match p with
  | PLeaveConn a | PLeaveReq a => match a with LvExitOffer e => e = ERebalance | _ => True end
  | POffer e true => m = None
  | POffer e false => e = ERebalance /\ pending_fail h = false
  | PBackoff => m = None
  | PExited => existsb ev_is_runexit h = true
  | _ => pending_fail h = false
  end.

(* [Ready]: also no failure is waiting for its back-off *)
Definition Mons (h : list event) : Prop :=
  mon_backoff h = true /\ mon_leave_full h = true /\ forallb exit_ok h = true.
Definition Ready (h : list event) : Prop := Mons h /\ pending_fail h = false.
Definition RunInv (s : state) : Prop := Mons (hist s) /\ pcinv (pc s) (mid s) (hist s).

Definition plain (p : pcs) : bool :=
  match p with PLeaveConn _ | PLeaveReq _ | POffer _ _ | PBackoff | PExited => false | _ => true end.

(* all but a failure that needs a back-off, the exit of run, the return of Close *)
Definition calm (e : event) : bool :=
  match e with
  | HFail ERebalance => true
  | HFail _ | HRunExit _ _ | HCloseRet _ => false
  | _ => true
  end.

Lemma Mons_cons : forall e h, Mons h ->
  chk_backoff e h = true -> chk_leave_full e h = true -> exit_ok e = true -> Mons (e :: h).
Proof.
  intros e h (A & B & C) X Y Z. unfold Mons. cbn [mon_backoff mon_leave_full forallb].
  rewrite A, B, C, X, Y, Z. auto.
Qed.

Lemma Ready_cons : forall e h, calm e = true -> Ready h -> Ready (e :: h).
Proof.
  intros e h N [M P]. split.
  - apply Mons_cons; [exact M|..]; destruct e; try discriminate N; try reflexivity;
      cbn [chk_backoff]; rewrite P; reflexivity.
  - destruct e; try discriminate N; try exact P; try reflexivity.
    destruct e; try discriminate N. exact P.
Qed.

Lemma RunInv_plain : forall s, plain (pc s) = true -> Ready (hist s) -> RunInv s.
Proof. intros s Hp [M P]. split; [exact M|]. destruct (pc s); try discriminate Hp; exact P. Qed.

Lemma RunInv_neutral : forall p m e h, neutral e = true ->
  Mons h /\ pcinv p m h -> Mons (e :: h) /\ pcinv p m (e :: h).
Proof.
  intros p m e h N [M C]. split.
  - apply Mons_cons; [exact M|..]; destruct e; try discriminate N; reflexivity.
  - assert (P : pending_fail (e :: h) = pending_fail h) by (destruct e; try discriminate N; reflexivity).
    destruct p; try destruct backoff; cbn [pcinv] in *; rewrite ?P; try exact C.
    cbn [existsb]. rewrite C. apply orb_true_r.
Qed.

Lemma RunInv_exit_run : forall x s, Mons (hist s) ->
  (forall m, mid s = Some m -> left_since_join m (hist s) = true /\ exit_ok (HRunExit x (Some m)) = true) ->
  RunInv (exit_run x s).
Proof.
  intros x s M H. unfold exit_run, RunInv. cbn [hist pc mid set_pc ev pcinv existsb ev_is_runexit orb].
  split; [|reflexivity]. apply Mons_cons; [exact M|reflexivity|..]; cbn [chk_leave_full].
  - destruct (mid s) as [m|]; [apply (H m eq_refl)|reflexivity].
  - destruct (mid s) as [m|]; [apply (H m eq_refl)|destruct x as [|[]|]; reflexivity].
Qed.

(* the error offered on the way out may only be RebalanceInProgress if a member id is still held *)
Lemma RunInv_finish_leave : forall a s, Mons (hist s) ->
  (forall m, mid s = Some m -> left_since_join m (hist s) = true /\ forall e, a = LvExitOffer e -> e = ERebalance) ->
  RunInv (finish_leave a s).
Proof.
  intros a s M H. destruct a as [|e|e]; cbn [finish_leave].
  - apply RunInv_exit_run; [exact M|]. intros m Em. split; [apply (H m Em)|reflexivity].
  - apply RunInv_exit_run; [exact M|]. intros m Em. destruct (H m Em) as [L X]. split; [exact L|].
    rewrite (X e eq_refl). reflexivity.
  - split; [exact M|reflexivity].
Qed.

Lemma RunInv_enter_leave : forall a s, Mons (hist s) ->
  (forall m e, mid s = Some m -> a = LvExitOffer e -> e = ERebalance) -> RunInv (enter_leave a s).
Proof.
  intros a s M H. unfold enter_leave. destruct (mid s) as [m|] eqn:Em.
  - split; [exact M|]. cbn [pc set_pc pcinv]. destruct a; try exact I. apply (H m e eq_refl eq_refl).
  - apply RunInv_finish_leave; [exact M|]. intros m X. congruence.
Qed.

Lemma RunInv_fail_ng : forall e s, Ready (hist s) -> RunInv (fail_ng e s).
Proof.
  intros e s [M P]. unfold fail_ng.
  assert (M' : Mons (hist (ev (HFail e) s))) by (apply Mons_cons; [exact M|reflexivity..]).
  destruct e; [split; [exact M'|split; [reflexivity|exact P]]|..];
    (apply RunInv_enter_leave; [exact M'|discriminate]).
Qed.

Lemma RunInv_after_close : forall w s, Ready (hist s) -> RunInv (after_close w s).
Proof.
  intros w s R. destruct w; cbn [after_close].
  - apply RunInv_enter_leave; [exact (proj1 R)|discriminate].
  - apply RunInv_plain; [reflexivity|exact R].
Qed.

Lemma Ready_do_start : forall k kd s s1, do_start k kd s = Some s1 -> Ready (hist s) -> Ready (hist s1).
Proof.
  intros k kd s s1 H R. destruct (do_start_shape _ _ _ _ H) as (g & _ & _ & _ & _ & _ & _ & ->).
  apply Ready_cons; [reflexivity|exact R].
Qed.

Lemma end_gen_run : forall k g s g1 s1, end_gen k g s = (g1, s1) ->
  pc s1 = pc s /\ mid s1 = mid s /\ (hist s1 = hist s \/ hist s1 = HDone k :: hist s).
Proof.
  intros k g s g1 s1 H. unfold end_gen in H.
  destruct (g_closed g); [|destruct (g_done g)]; inversion H; cbn; auto.
Qed.

Definition run_label (l : label) : bool :=
  match l with
  | LNextCall _ | LNextClosed _ | LNextCtx _ | LCloseCall _ | LStart _ | LFnReturn _ | LFnSeeDone _
  | LHbTick _ _ | LWatchInit _ _ | LWatchTick _ _ | LFnHandler _ => false
  | _ => true
  end.

Ltac neutral_tac := repeat first [apply ext_nil | apply ext_cons; [reflexivity|]].

Lemma other_step : forall s l s', run_label l = false -> step s l = Some s' ->
  pc s' = pc s /\ mid s' = mid s /\ ext (fun e => neutral e = true) (hist s) (hist s').
Proof.
  intros s l s' Hl E. unfold step in E. destruct (panicked s); [discriminate|].
  destruct l; try discriminate Hl; clear Hl.
  all: try solve [repeat bm E; try discriminate E; inversion E; cbn; repeat split; neutral_tac].
  - repeat bm E; try discriminate E. destruct (do_start_shape _ _ _ _ E) as (g0 & _ & _ & _ & _ & A & B & C).
    rewrite C. repeat split; [exact A|exact B|neutral_tac].
  - repeat bm E; try discriminate E. unfold handler in E.
    destruct (nth_error (gens s) (f_gen f0)) as [g|]; [|discriminate E].
    destruct (end_gen (f_gen f0) g s) as [g1 s1] eqn:Eg.
    destruct (end_gen_run _ _ _ _ _ Eg) as (A & B & C).
    destruct (g_routines g1 - 1 =? 0)%Z; [destruct (g_joined g1)|]; inversion E; cbn; rewrite A, B;
      (destruct C as [-> | ->]; repeat split; neutral_tac).
Qed.

Lemma RunInv_ext : forall p m h h', ext (fun e => neutral e = true) h h' ->
  Mons h /\ pcinv p m h -> Mons h' /\ pcinv p m h'.
Proof. intros p m h h' E H. induction E as [|e h' N _ IH]; [exact H|]. apply RunInv_neutral; assumption. Qed.

Lemma plain_after_start : forall n, plain (after_start n) = true.
Proof. intros [|n]; reflexivity. Qed.

Lemma RunInv_leave_done : forall a e m s, Mons (hist s) -> mid s = Some m ->
  e = HLeaveReq m \/ e = HLeaveUnreach m -> pcinv (PLeaveConn a) (mid s) (hist s) ->
  RunInv (finish_leave a (ev e s)).
Proof.
  intros a e m s M Em He C. apply RunInv_finish_leave.
  - apply Mons_cons; [exact M|destruct He as [-> | ->]; reflexivity..].
  - cbn [mid hist ev]. intros m' Em'. assert (m' = m) by congruence. subst m'. split.
    + destruct He as [-> | ->]; cbn; rewrite Nat.eqb_refl; reflexivity.
    + intros x ->. exact C.
Qed.

(* [Ready] of a history that extends a ready one by calm events *)
Ltac ready R := cbn; repeat (apply Ready_cons; [reflexivity|]); exact R.

Lemma RunInv_step : forall s l s', RunInv s -> step s l = Some s' -> RunInv s'.
Proof.
  intros s l s' [M C] E.
  destruct (run_label l) eqn:Hl.
  2: { destruct (other_step _ _ _ Hl E) as (A & B & X). unfold RunInv. rewrite A, B. eapply RunInv_ext; eauto. }
  unfold step in E. destruct (panicked s); [discriminate|].
  revert C.
  destruct l; try discriminate Hl; clear Hl;
    (destruct (pc s) eqn:Epc; cbv beta iota zeta in E; try discriminate E; cbn [pcinv]; intro C).
  (* from a plain control point run reaches a plain one, or returns from nextGeneration with an error,
     or from gen.close() *)
  all: try (pose proof (conj M C : Ready (hist s)) as R; repeat bm E; try discriminate E; inversion E;
            first [apply RunInv_plain; [reflexivity|] | apply RunInv_fail_ng | apply RunInv_after_close]; ready R).
  - destruct (do_start (cur s) KHeartbeat s) as [s1|] eqn:Ed; [|discriminate E]. inversion E.
    apply RunInv_plain; [apply plain_after_start|exact (Ready_do_start _ _ _ _ Ed (conj M C))].
  - destruct n; [discriminate E|].
    destruct (do_start (cur s) KWatcher s) as [s1|] eqn:Ed; [|discriminate E]. inversion E.
    apply RunInv_plain; [apply plain_after_start|exact (Ready_do_start _ _ _ _ Ed (conj M C))].
  - destruct (nth_error (gens s) (cur s)) as [g|]; [|discriminate E].
    destruct (end_gen (cur s) g s) as [g1 s1] eqn:Eg. destruct (end_gen_run _ _ _ _ _ Eg) as (_ & _ & X).
    assert (R : Ready (hist s1)) by (destruct X as [-> | ->]; ready (conj M C)).
    inversion E. destruct (0 <? g_routines g1)%Z; [apply RunInv_plain; [reflexivity|]|apply RunInv_after_close]; exact R.
  - destruct (mid s) as [m|] eqn:Em; [|discriminate E]. inversion E.
    destruct a; [split; [exact M|exact C]|]. apply (RunInv_leave_done a0 _ m); auto.
  - destruct (mid s) as [m|] eqn:Em; [|discriminate E]. inversion E.
    apply (RunInv_leave_done a0 _ m); auto.
  - destruct (cg_done s); inversion E. apply RunInv_enter_leave; [exact M|].
    intros m x Em X. inversion X; subst x. destruct backoff; [congruence|exact (proj1 C)].
  - destruct (cg_done s); inversion E. apply RunInv_exit_run; [exact M|]. intros m Em. congruence.
  - inversion E. split; [apply Mons_cons; [exact M|reflexivity..]|reflexivity].
  - destruct (mem n (nexts s)); inversion E. destruct backoff.
    + split; [apply Mons_cons; [exact M|reflexivity..]|exact C].
    + apply RunInv_plain; [reflexivity|ready (conj M (proj2 C))].
  - destruct (mem c (closers s)); inversion E.
    split; [apply Mons_cons; [exact M|reflexivity|exact C|reflexivity]|].
    cbn. rewrite Epc. exact C.
Qed.

Lemma RunInv_init : forall w, RunInv (init w).
Proof. intro w. repeat split. Qed.

Lemma RunInv_run : forall w ls s, run (init w) ls = Some s -> RunInv s.
Proof.
  intros w. apply (inv_run RunInv (init w) (RunInv_init w)).
  intros s l s' H E. eapply RunInv_step; eauto.
Qed.

Theorem backoff_holds : forall w ls s, run (init w) ls = Some s -> mon_backoff (hist s) = true.
Proof. intros w ls s H. exact (proj1 (proj1 (RunInv_run w ls s H))). Qed.

Lemma pending_fail_clear : forall pre1 c pre2,
  pending_fail (pre1 ++ HFail c :: pre2) = false -> c <> ERebalance -> In HBackoff pre1.
Proof.
  induction pre1 as [|a t IH]; intros c pre2 H N; cbn [app] in H.
  - destruct c; cbn in H; [congruence | discriminate | discriminate].
  - destruct a; cbn [pending_fail] in H;
      try (right; eapply IH; eassumption);
      try (left; reflexivity).
    destruct e; try discriminate H. right; eapply IH; eassumption.
Qed.

Lemma pending_fail_set : forall pre1 c pre2,
  c <> ERebalance -> ~ In HBackoff pre1 -> pending_fail (pre1 ++ HFail c :: pre2) = true.
Proof.
  intros pre1 c pre2 N NI.
  destruct (pending_fail (pre1 ++ HFail c :: pre2)) eqn:E; [reflexivity|].
  exfalso. apply NI. eapply pending_fail_clear; eauto.
Qed.

(* between a failure other than RebalanceInProgress and any later coordinator / join
   request there is a Backoff *)
Lemma mon_backoff_spec : forall h, mon_backoff h = true ->
  forall post e pre, h = post ++ e :: pre ->
  (e = HCoordReq \/ exists m, e = HJoinReq m) ->
  forall pre1 c pre2, pre = pre1 ++ HFail c :: pre2 -> c <> ERebalance -> In HBackoff pre1.
Proof.
  intros h M post e pre -> He pre1 c pre2 -> N.
  pose proof (gmon_at chk_backoff post e _ M) as M'. clear M. rename M' into M.
  eapply pending_fail_clear; [|exact N].
  destruct He as [->|[m ->]]; cbn in M; apply negb_true_iff in M; exact M.
Qed.

Theorem leave_full_holds : forall w ls s, run (init w) ls = Some s -> mon_leave_full (hist s) = true.
Proof. intros w ls s H. exact (proj1 (proj2 (proj1 (RunInv_run w ls s H)))). Qed.

Lemma runexit_exists : forall h, existsb ev_is_runexit h = true -> exists x m, In (HRunExit x m) h.
Proof.
  intros h H. apply existsb_exists in H. destruct H as [e [I R]].
  destruct e; try discriminate R. eauto.
Qed.

Lemma left_since_join_spec : forall m h,
  left_since_join m h = true <->
  exists pre1 e pre2, h = pre1 ++ e :: pre2 /\ ev_is_leave m e = true /\
                      forall m', ~ In (HJoinReq m') pre1.
Proof.
  intros m h. split.
  - induction h as [|e t IH]; intro H; [discriminate H|].
    cbn [left_since_join] in H. destruct (ev_is_leave m e) eqn:L.
    + exists [], e, t. split; [reflexivity|]. split; [exact L|]. intros m' I; exact I.
    + assert (G : left_since_join m t = true /\ forall m', e <> HJoinReq m').
      { destruct e; try discriminate H; (split; [exact H | intros m' X; discriminate X]). }
      destruct G as [G1 G2]. destruct (IH G1) as [pre1 [e' [pre2 [-> [L' N]]]]].
      exists (e :: pre1), e', pre2. split; [reflexivity|]. split; [exact L'|].
      intros m' [I|I]; [exact (G2 m' I) | exact (N m' I)].
  - intros [pre1 [e [pre2 [-> [L N]]]]].
    induction pre1 as [|a pre1 IH]; cbn [app left_since_join].
    + rewrite L. reflexivity.
    + destruct (ev_is_leave m a); [reflexivity|].
      destruct a; try (apply IH; intros m' I; apply (N m'); right; exact I).
      exfalso. apply (N m0). left. reflexivity.
Qed.

Lemma mon_leave_full_spec : forall h, mon_leave_full h = true <->
  (forall post x m pre, h = post ++ HRunExit x (Some m) :: pre ->
     exists pre1 e pre2, pre = pre1 ++ e :: pre2 /\ ev_is_leave m e = true /\
                         forall m', ~ In (HJoinReq m') pre1) /\
  (forall post c pre, h = post ++ HCloseRet c :: pre -> exists x m, In (HRunExit x m) pre).
Proof.
  intro h. split.
  - intro M. split.
    + intros post x m pre ->. pose proof (gmon_at chk_leave_full post _ pre M) as M'. cbn in M'.
      apply left_since_join_spec in M'; exact M'.
    + intros post c pre ->. pose proof (gmon_at chk_leave_full post _ pre M) as M'. cbn in M'.
      apply runexit_exists; exact M'.
  - induction h as [|e t IH]; intros [A B]; [reflexivity|].
    cbn [mon_leave_full]. apply andb_true_iff. split.
    + destruct e; try reflexivity.
      * cbn. destruct (B [] c t eq_refl) as [x [m I]].
        apply existsb_exists. exists (HRunExit x m). split; [exact I|reflexivity].
      * destruct m as [m|]; [|reflexivity]. cbn.
        apply left_since_join_spec. exact (A [] x m t eq_refl).
    + apply IH. split.
      * intros post x m pre ->. exact (A (e :: post) x m pre eq_refl).
      * intros post c pre ->. exact (B (e :: post) c pre eq_refl).
Qed.

(* whenever run exits holding a member id, a leave of the current membership was attempted
   (sent, or coordinator unreachable): no JoinGroup request lies between it and the exit *)
Theorem leave_exit : forall w ls s, run (init w) ls = Some s ->
  forall post x m pre, hist s = post ++ HRunExit x (Some m) :: pre ->
  exists pre1 e pre2, pre = pre1 ++ e :: pre2 /\ ev_is_leave m e = true /\
                      forall m', ~ In (HJoinReq m') pre1.
Proof.
  intros w ls s H. exact (proj1 (proj1 (mon_leave_full_spec _) (leave_full_holds w ls s H))).
Qed.

Theorem close_after_exit : forall w ls s, run (init w) ls = Some s ->
  forall post c pre, hist s = post ++ HCloseRet c :: pre -> exists x m, In (HRunExit x m) pre.
Proof.
  intros w ls s H. exact (proj2 (proj1 (mon_leave_full_spec _) (leave_full_holds w ls s H))).
Qed.
