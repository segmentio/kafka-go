(* Proofs/ReaderV1Final.v — C02, L1: the fetch contract for responses made of uncompressed v0 / v1
   messages, for every fetch offset and every legal cut. *)
From Coq Require Import List NArith ZArith Bool Lia.
From Coq Require Import ZifyN ZifyNat ZifyBool.
From KV Require Import Lib.Bits Lib.Bytes Model.MsgSetReader Model.ReaderModel Spec.FetchSpec
  Proofs.ReaderPrim Proofs.ReaderV2 Proofs.ReaderV1 Proofs.ReaderV2Final Proofs.ReaderProofs Proofs.ReaderV1Run.
Import ListNotations.
Open Scope Z_scope.

Definition items_of (b : pbatch) : list item := map (fun r => (pb_fmt b, r)) (pb_recs b).
Definition all_items (bs : list pbatch) : list item := flat_map items_of bs.

Definition legacy_ok (b : pbatch) : Prop :=
  (pb_fmt b = 0 \/ pb_fmt b = 1) /\ pb_codec b = 0 /\ Forall (msg_fits (pb_fmt b)) (pb_recs b).

Lemma enc_legacy_stream compress b : legacy_ok b -> enc_batch compress b = stream (items_of b).
Proof.
  intros (Hf & Hc & _). unfold enc_batch, enc_legacy.
  replace (pb_fmt b =? 2) with false by lia. rewrite Hc. cbn [Z.eqb].
  unfold stream, items_of. induction (pb_recs b) as [|r t IH]; [reflexivity|].
  cbn [flat_map map]. rewrite IH. f_equal. unfold enc_item. cbn [fst snd]. apply enc_message_eq.
Qed.

Lemma stream_app a b : stream (a ++ b) = stream a ++ stream b.
Proof. apply flat_map_app. Qed.

Lemma encs_stream compress bs : Forall legacy_ok bs -> flat_map (enc_batch compress) bs = stream (all_items bs).
Proof.
  induction bs as [|b t IH]; intros H; [reflexivity|]. apply Forall_cons_iff in H as [Hb H].
  cbn [flat_map all_items]. fold (all_items t). rewrite stream_app, IH by exact H. f_equal.
  apply enc_legacy_stream, Hb.
Qed.

Lemma recs_items_of b : recs_of (items_of b) = pb_recs b.
Proof. unfold recs_of, items_of. rewrite map_map. apply map_id. Qed.

Lemma recs_of_items bs : recs_of (all_items bs) = flat_map pb_recs bs.
Proof.
  induction bs as [|b t IH]; [reflexivity|]. cbn [all_items flat_map]. fold (all_items t).
  unfold recs_of in *. rewrite map_app. f_equal; [apply recs_items_of|exact IH].
Qed.

Lemma items_of_ok b : Forall (msg_fits (pb_fmt b)) (pb_recs b) -> Forall item_ok (items_of b).
Proof.
  intros Hm. unfold items_of. apply Forall_forall. intros it Hit. apply in_map_iff in Hit as (r & <- & Hr).
  exact (proj1 (Forall_forall _ _) Hm r Hr).
Qed.

Lemma items_ok bs : Forall legacy_ok bs -> Forall item_ok (all_items bs).
Proof.
  induction bs as [|b t IH]; intros H; [constructor|]. apply Forall_cons_iff in H as [(_ & _ & Hm) H].
  cbn [all_items flat_map]. apply Forall_app. split; [exact (items_of_ok b Hm)|apply IH, H].
Qed.

Lemma last_off_nonempty : forall rs d e, rs <> [] -> last_off rs d = last_off rs e.
Proof. intros [|x t] d e H; [contradiction|reflexivity]. Qed.

Lemma last_off_app_ge lo a b : increasing lo (a ++ b) -> a <> [] -> last_off a 0 <= last_off (a ++ b) 0.
Proof.
  intros Hi Ha. destruct (last_off_in a 0 Ha) as (r & Hr & <-).
  apply (last_off_max' _ lo); [exact Hi|apply in_or_app; left; exact Hr].
Qed.

Lemma from_offset_app lg v2 o :
  from_offset (lg ++ v2) o = match from_offset lg o with [] => from_offset v2 o | _ :: _ => from_offset lg o ++ v2 end.
Proof.
  induction lg as [|b t IH]; [reflexivity|]. cbn [from_offset app]. destruct (pb_last b <? o); [exact IH|reflexivity].
Qed.

Lemma from_offset_forall (P : pbatch -> Prop) l o : Forall P l -> Forall P (from_offset l o).
Proof.
  intros H. destruct (from_offset_split l o) as (pre & E & _). rewrite E in H. apply Forall_app in H. apply H.
Qed.

Lemma from_offset_head l o b t : from_offset l o = b :: t -> o <= pb_last b.
Proof.
  induction l as [|c u IH]; [discriminate|]. cbn [from_offset]. destruct (pb_last c <? o) eqn:E; [exact IH|].
  intros H. injection H as <- _. lia.
Qed.

Lemma legacy_suffix log lg v2 o b1 bs' :
  log_ok log -> layout_ok log (lg ++ v2) -> pb_fmt b1 <> 2 -> from_offset lg o = b1 :: bs' ->
  exists prerecs,
    log = prerecs ++ flat_map pb_recs (b1 :: bs') ++ flat_map pb_recs v2
    /\ Forall (fun r => r_off r < o) prerecs
    /\ (exists lo, increasing lo (flat_map pb_recs (b1 :: bs') ++ flat_map pb_recs v2))
    /\ Forall pbatch_ok (b1 :: bs') /\ pb_recs b1 <> [] /\ o <= last_off (pb_recs b1) 0.
Proof.
  intros Hlog Hlay Hf1 Ebs.
  destruct (response_split log (lg ++ v2) o Hlog Hlay) as (pre & Hsplit & Hpre & Hpb & _).
  rewrite from_offset_app, Ebs, flat_map_app in *. apply Forall_app in Hpb as [Hpb _].
  destruct (Forall_inv Hpb) as (_ & _ & _ & _ & _ & _ & Hne1 & _). specialize (Hne1 Hf1).
  exists (flat_map pb_recs pre). split; [exact Hsplit|]. split; [exact Hpre|].
  split; [destruct Hlog as (_ & Hinc); rewrite Hsplit in Hinc; apply (increasing_app_r _ _ _ Hinc)|].
  split; [exact Hpb|]. split; [exact Hne1|].
  pose proof (from_offset_head lg o b1 bs' Ebs) as H. unfold pb_last in H. replace (pb_fmt b1 =? 2) with false in H by lia.
  rewrite (last_off_nonempty (pb_recs b1) 0 (pb_base b1 + pb_lod b1) Hne1). exact H.
Qed.

Lemma legacy_response compress lg v2 o k b1 bs' :
  from_offset lg o = b1 :: bs' -> valid_cut compress (lg ++ v2) o k ->
  let bytes := enc_batch compress b1 ++ flat_map (enc_batch compress) bs' ++ flat_map (enc_batch compress) v2 in
  fetch_response compress (lg ++ v2) o k = ztake (Z.of_nat k) bytes
  /\ len (enc_batch compress b1) <= Z.of_nat k <= len bytes.
Proof.
  intros Ebs Hcut. unfold valid_cut, fetch_response, fetch_bytes, enc_layout in *.
  rewrite from_offset_app, Ebs in *.
  cbn [app flat_map] in *. rewrite flat_map_app in *.
  split; [symmetry; apply ztake_firstn|unfold len; lia].
Qed.

Section Parts.
Variable decomp : Z -> list N -> option (list N).
Variable o : Z.

Lemma plain_first fuel hwm k items n tl tlr :
  hwm <> o -> Forall item_ok items ->
  len (stream (firstn n items)) <= Z.of_nat k <= len (stream items ++ tl) ->
  (exists r, In r (recs_of (firstn n items)) /\ o <= r_off r) ->
  linv o tlr (recs_of items) o -> (length items + 3 <= fuel)%nat ->
  Res decomp o true (fetch_run decomp fuel o hwm (ztake (Z.of_nat k) (stream items ++ tl)) (Z.of_nat k) false)
      fuel [] (recs_of items) tl tlr o (length items).
Proof.
  intros Hh Hok [Hk1 Hk2] Hwit HI Hf.
  destruct items as [|it1 rest]; [rewrite firstn_nil in Hwit; destruct Hwit as (r & [] & _)|].
  destruct n as [|n]; [destruct Hwit as (r & [] & _)|]. cbn [firstn] in Hk1, Hwit.
  pose proof Hok as [Hok1 Hokr]%Forall_cons_iff.
  rewrite stream_cons_len in Hk1.
  pose proof (len_nonneg (stream (firstn n rest))). pose proof (len_nonneg (mb (snd it1))).
  set (j0 := Z.of_nat k - len (mh (fst it1) (snd it1))).
  rewrite (fetch_run_header decomp o fuel hwm (Z.of_nat k) _ (in_st tl it1 rest j0 (-1)) Hh (conj (Nat2Z.is_nonneg k) Hk2)).
  2:{ rewrite (stream_cons tl), ztake_app_ge by lia. apply (mheader_ok [] 0 _ _ _ 0 hdr0 0 (-1) Hok1). }
  apply (plain_res decomp o fuel true (PIn it1 rest j0) o [] tl tlr).
  - split; [constructor; assumption|unfold j0; lia].
  - exact HI.
  - exact Hf.
  - intros _. apply (lg_read_delivers o rest it1 j0 n); [unfold j0; lia|exact Hwit].
Qed.

Lemma res_contract log prerecs recs run fuel cnt :
  log = prerecs ++ recs -> Forall (fun r => r_off r < o) prerecs ->
  Res decomp o true run fuel [] recs [] [] o cnt ->
  exists ms f, run = Some (ms, EEOF, f) /\ fetch_ok log o ms f /\ ms <> [].
Proof.
  intros Hlog Hpre HR.
  assert (Hstop : exists ms x Rp Rs, run = Some (ms, EEOF, x) /\ ms <> [] /\ recs = Rp ++ Rs
            /\ delivered o [] o Rp ms x /\ (forall r, In r Rs -> o <= r_off r -> x <= r_off r)).
  { destruct HR as [(ms & x & Rp & Rs & Hrun & Hne & G1 & GD & G4)
                   |(j & h & off' & acc' & f' & Hrun & Hne & _ & GD & (Ho0 & _) & Hf' & _)].
    - exists ms, x, Rp, Rs. rewrite app_nil_r in G4.
      split; [exact Hrun|]. split; [exact (Hne eq_refl)|]. split; [exact G1|]. split; [exact GD|exact G4].
    - (* the response ends where the records end *)
      destruct f' as [|f2]; [lia|]. rewrite (bnd_nil_done decomp o f2 j h off' acc') in Hrun.
      pose proof GD as (_ & _ & G3). unfold lfinal in Hrun. replace (off' <=? -1) with false in Hrun by lia.
      exists (rev acc'), off', recs, []. rewrite app_nil_r.
      split; [exact Hrun|]. split; [exact (rev_nonempty _ (Hne eq_refl))|]. split; [reflexivity|].
      split; [exact GD|intros r []]. }
  destruct Hstop as (ms & x & Rp & Rs & Hrun & Hms & G1 & GD & G4).
  exists ms, x. split; [exact Hrun|]. split; [|exact Hms].
  rewrite Hlog, G1. apply fetch_ok_of_split; assumption.
Qed.

End Parts.

Lemma decode_of_full (run : option (list msg * err * Z)) log o :
  (exists ms f, run = Some (ms, EEOF, f) /\ fetch_ok log o ms f /\ ms <> []) ->
  exists ms f, run = Some (ms, EEOF, f) /\ fetch_ok log o ms f.
Proof. intros (ms & f & H1 & H2 & _). exists ms, f. split; assumption. Qed.

Lemma progress_of_full (run : option (list msg * err * Z)) log o ms e f :
  (exists ms f, run = Some (ms, EEOF, f) /\ fetch_ok log o ms f /\ ms <> []) ->
  run = Some (ms, e, f) -> ms <> [].
Proof. intros (ms0 & f0 & H0 & _ & Hp) H. rewrite H0 in H. injection H as <- _ _. exact Hp. Qed.

Section Final.
Variable compress : Z -> list N -> list N.
Variable decomp : Z -> list N -> option (list N).

Theorem batch_decode_exact_legacy_uncompressed_full log l o k hwm :
  log_ok log -> layout_ok log l -> Forall legacy_ok l -> 0 <= o ->
  from_offset l o <> [] -> valid_cut compress l o k -> hwm <> o ->
  forall fuel, (length (all_items (from_offset l o)) + 4 <= fuel)%nat ->
  exists ms f,
    fetch_run decomp fuel o hwm (fetch_response compress l o k) (Z.of_nat k) false = Some (ms, EEOF, f)
    /\ fetch_ok log o ms f /\ ms <> [].
Proof.
  intros Hlog Hlay Hleg Ho0 Hne Hcut Hhwm fuel Hfuel.
  destruct (from_offset l o) as [|b1 bs'] eqn:Ebs; [contradiction|].
  rewrite <- (app_nil_r l) in Hlay, Hcut |- *.
  apply (from_offset_forall _ l o) in Hleg. rewrite Ebs in Hleg.
  assert (Hf1 : pb_fmt b1 <> 2) by (destruct (Forall_inv Hleg) as (H & _); lia).
  destruct (legacy_suffix log l [] o b1 bs' Hlog Hlay Hf1 Ebs) as (prerecs & Hlogsplit & Hpre & [lo Hinc] & _ & Hne1 & Hlast1).
  destruct (legacy_response compress l [] o k b1 bs' Ebs Hcut) as (-> & Hk1 & Hk2).
  (* nothing behind the v0 / v1 part: its records and bytes are all there is *)
  change (flat_map pb_recs []) with (@nil record) in *. change (flat_map (enc_batch compress) []) with (@nil N) in *.
  rewrite !app_nil_r in *.
  change (enc_batch compress b1 ++ flat_map (enc_batch compress) bs') with (flat_map (enc_batch compress) (b1 :: bs')) in *.
  rewrite (encs_stream compress _ Hleg) in *. rewrite (enc_legacy_stream compress b1 (Forall_inv Hleg)) in Hk1.
  set (items := all_items (b1 :: bs')) in *.
  assert (Hfirst : firstn (length (items_of b1)) items = items_of b1) by exact (firstn_app_exact (items_of b1) (all_items bs')).
  apply (res_contract decomp o log prerecs (flat_map pb_recs (b1 :: bs')) _ fuel (length items) Hlogsplit Hpre).
  rewrite <- recs_of_items. fold items. rewrite <- (app_nil_r (stream items)).
  apply (plain_first decomp o fuel hwm k items (length (items_of b1)) [] []); rewrite ?Hfirst, ?recs_items_of, ?app_nil_r.
  - exact Hhwm.
  - apply (items_ok (b1 :: bs') Hleg).
  - split; [exact Hk1|exact Hk2].
  - destruct (last_off_in (pb_recs b1) 0 Hne1) as (r & Hr & He). exists r. split; [exact Hr|lia].
  - split; [exact Ho0|]. split; [lia|]. rewrite app_nil_r. unfold items. rewrite recs_of_items.
    split; [exists lo; exact Hinc|]. split; [|intros r _ H; exact H].
    intros _. pose proof (last_off_app_ge lo (pb_recs b1) (flat_map pb_recs bs') Hinc Hne1) as H. cbn [flat_map]. lia.
  - lia.
Qed.

Theorem batch_decode_exact_legacy_uncompressed log l o k hwm :
  log_ok log -> layout_ok log l -> Forall legacy_ok l -> 0 <= o ->
  from_offset l o <> [] -> valid_cut compress l o k -> hwm <> o ->
  forall fuel, (length (all_items (from_offset l o)) + 4 <= fuel)%nat ->
  exists ms f,
    fetch_run decomp fuel o hwm (fetch_response compress l o k) (Z.of_nat k) false = Some (ms, EEOF, f)
    /\ fetch_ok log o ms f.
Proof.
  intros H1 H2 H3 H4 H5 H6 H7 fuel H8.
  apply decode_of_full, (batch_decode_exact_legacy_uncompressed_full log l o k hwm); assumption.
Qed.

(* C02_progress for v0/v1 responses: the first batch is whole and reaches the fetch offset, so
   at least one message is delivered *)
Theorem progress_legacy_uncompressed log l o k hwm :
  log_ok log -> layout_ok log l -> Forall legacy_ok l -> 0 <= o ->
  from_offset l o <> [] -> valid_cut compress l o k -> hwm <> o ->
  forall fuel ms e f, (length (all_items (from_offset l o)) + 4 <= fuel)%nat ->
  fetch_run decomp fuel o hwm (fetch_response compress l o k) (Z.of_nat k) false = Some (ms, e, f) ->
  ms <> [].
Proof.
  intros H1 H2 H3 H4 H5 H6 H7 fuel ms e f H8.
  apply (progress_of_full _ log o), (batch_decode_exact_legacy_uncompressed_full log l o k hwm); assumption.
Qed.

Theorem contract_legacy_uncompressed log l k hwm fuel g :
  log_ok log -> layout_ok log l -> Forall legacy_ok l -> 0 <= g_conn g ->
  from_offset l (g_conn g) <> [] -> valid_cut compress l (g_conn g) k -> hwm <> g_conn g ->
  (length (all_items (from_offset l (g_conn g))) + 4 <= fuel)%nat ->
  ev_ok (fetch_run decomp fuel) log g
        (GFetch (FData hwm (fetch_response compress l (g_conn g) k) (Z.of_nat k) false)).
Proof.
  intros H1 H2 H3 H4 H5 H6 H7 H8.
  apply contract_of_decode, batch_decode_exact_legacy_uncompressed; assumption.
Qed.

End Final.
