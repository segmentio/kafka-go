(* Proofs/ReaderLTS.v — C02, Reader level: the version filter of FetchMessage makes the
   sequence returned since the last (re)start the current generation's sequence. *)
From Coq Require Import List NArith ZArith Bool Lia.
From Coq Require Import ZifyBool.
From KV Require Import Lib.Bits Model.MsgSetReader Model.ReaderModel Spec.FetchSpec Proofs.ReaderProofs.
Import ListNotations.
Open Scope Z_scope.

(* Reader.offset is the position after what was returned since the last (re)start *)
Definition pos_after (s0 : Z) (ds : list msg) : Z := fold_left (fun _ g => g_off g + 1) ds s0.

Lemma pos_after_snoc s0 ds g : pos_after s0 (ds ++ [g]) = g_off g + 1.
Proof. unfold pos_after. rewrite fold_left_app. reflexivity. Qed.

Lemma from_from a p l : a <= p -> from p (from a l) = from p l.
Proof.
  intros H. unfold from. induction l as [|x t IH]; [reflexivity|]. cbn [filter].
  destruct (a <=? r_off x) eqn:E1; cbn [filter]; destruct (p <=? r_off x) eqn:E2; try lia; rewrite IH; reflexivity.
Qed.

Lemma from_increasing a : forall l lo, increasing lo l -> increasing lo (from a l).
Proof.
  induction l as [|x t IH]; intros lo H; [exact I|]. destruct H as [H1 H2]. unfold from in *. cbn [filter].
  destruct (a <=? r_off x).
  - split; [exact H1|apply IH, H2].
  - apply IH, (increasing_weaken (r_off x + 1)); [exact H2|lia].
Qed.

(* a list with increasing offsets, cut after its element x: what is at or after r_off x + 1 is the second part *)
Lemma from_after_last : forall l1 lo x l2,
  increasing lo ((l1 ++ [x]) ++ l2) -> from (r_off x + 1) ((l1 ++ [x]) ++ l2) = l2.
Proof.
  induction l1 as [|y t IH]; intros lo x l2 H.
  - cbn [app] in *. destruct H as [H1 H2]. unfold from. cbn [filter].
    replace (r_off x + 1 <=? r_off x) with false by lia.
    clear H1. induction l2 as [|z u IHu]; [reflexivity|]. destruct H2 as [G1 G2]. cbn [filter].
    replace (r_off x + 1 <=? r_off z) with true by lia. f_equal. apply IHu.
    apply (increasing_weaken (r_off z + 1)); [exact G2|lia].
  - cbn [app] in *. destruct H as [H1 H2]. unfold from. cbn [filter].
    assert (Hx : r_off y < r_off x).
    { pose proof (increasing_lb _ _ H2 x ltac:(rewrite <- app_assoc; apply in_or_app; right; left; reflexivity)). lia. }
    replace (r_off x + 1 <=? r_off y) with false by lia. apply (IH _ x l2 H2).
Qed.

Lemma mm_last ds g l : mm l = ds ++ [g] -> exists l1 x, l = l1 ++ [x] /\ mm l1 = ds /\ g_off g = r_off x.
Proof.
  intros H. unfold mm in H. apply map_eq_app in H as (l1 & l2 & -> & H1 & H2).
  destruct l2 as [|x [|y u]]; try discriminate. cbn [map] in H2. injection H2 as H2.
  exists l1, x. split; [reflexivity|]. split; [exact H1|]. rewrite <- H2. reflexivity.
Qed.

Lemma pos_after_start a b ds : ds <> [] -> pos_after a ds = pos_after b ds.
Proof.
  intros H. destruct (exists_last H) as (l & g & ->). rewrite !pos_after_snoc. reflexivity.
Qed.

Lemma rest_from_pos log a ds rest :
  increasing 0 log -> mm (from a log) = ds ++ rest -> rest = mm (from (pos_after a ds) log).
Proof.
  intros log_sorted H. induction ds as [|d0 l _] using rev_ind; [symmetry; exact H|].
  rewrite pos_after_snoc. unfold mm in H. apply map_eq_app in H as (l1 & l2 & Hl & H1 & H2).
  destruct (mm_last l d0 l1 H1) as (l1' & x & -> & _ & Hx).
  assert (Hge : a <= r_off x + 1).
  { assert (Hin : In x (from a log)) by (rewrite Hl; apply in_or_app; left; apply in_or_app; right; left; reflexivity).
    unfold from in Hin. apply filter_In in Hin as [_ Hge]. lia. }
  rewrite <- H2, Hx, <- (from_from a (r_off x + 1) log Hge), Hl. unfold mm. f_equal. symmetry.
  apply (from_after_last l1' 0 x l2). rewrite <- Hl. apply from_increasing, log_sorted.
Qed.

Definition item_msgs (v : Z) (it : Z * gout) : list msg :=
  if fst it =? v then match snd it with OMsg g _ => [g] | OErr _ => [] end else [].
Definition cur_msgs (v : Z) (q : list (Z * gout)) : list msg := flat_map (item_msgs v) q.

Lemma cur_msgs_old v q : Forall (fun it => fst it <= v - 1) q -> cur_msgs v q = [].
Proof.
  induction q as [|it t IH]; intros H; [reflexivity|].
  apply Forall_cons_iff in H as [H1 H2]. cbn [cur_msgs flat_map]. unfold item_msgs at 1.
  replace (fst it =? v) with false by lia. cbn [app]. apply IH, H2.
Qed.

Lemma cur_msgs_app v a b : cur_msgs v (a ++ b) = cur_msgs v a ++ cur_msgs v b.
Proof. apply flat_map_app. Qed.

Lemma cur_msgs_same v outs : cur_msgs v (map (fun o => (v, o)) outs) = msgs_of outs.
Proof.
  induction outs as [|o t IH]; [reflexivity|].
  cbn [map cur_msgs flat_map msgs_of]. unfold item_msgs at 1. cbn [fst snd].
  rewrite Z.eqb_refl. f_equal. exact IH.
Qed.

Lemma cur_msgs_other v v' outs : v' <> v -> cur_msgs v (map (fun o => (v', o)) outs) = [].
Proof.
  intros H. induction outs as [|o t IH]; [reflexivity|].
  cbn [map cur_msgs flat_map]. unfold item_msgs at 1. cbn [fst].
  replace (v' =? v) with false by lia. exact IH.
Qed.

Lemma find_gen_in v gs g : find_gen v gs = Some g -> In (v, g) gs.
Proof.
  induction gs as [|[v' g'] t IH]; [discriminate|]. cbn [find_gen].
  destruct (v' =? v) eqn:E; intros H.
  - injection H as <-. left. f_equal. lia.
  - right. apply IH, H.
Qed.

Lemma find_set_same v g gs g0 : find_gen v gs = Some g0 -> find_gen v (set_gen v g gs) = Some g.
Proof.
  induction gs as [|[v' g'] t IH]; [discriminate|]. cbn [find_gen set_gen].
  destruct (v' =? v) eqn:E; intros H; cbn [find_gen]; rewrite E; [reflexivity|apply IH, H].
Qed.

Lemma find_set_other v w g gs : w <> v -> find_gen w (set_gen v g gs) = find_gen w gs.
Proof.
  intros Hn. induction gs as [|[v' g'] t IH]; [reflexivity|]. cbn [find_gen set_gen].
  destruct (v' =? v) eqn:E; cbn [find_gen].
  - replace (v' =? w) with false by lia. reflexivity.
  - destruct (v' =? w); [reflexivity|exact IH].
Qed.

Lemma set_gen_keys v g gs P :
  Forall (fun vg : Z * gen => P (fst vg)) gs -> Forall (fun vg : Z * gen => P (fst vg)) (set_gen v g gs).
Proof.
  induction gs as [|[v' g'] t IH]; intros H; [constructor|].
  apply Forall_cons_iff in H as [H1 H2]. cbn [set_gen].
  destruct (v' =? v); constructor; auto.
Qed.

Section LTS.
Variable run : Z -> Z -> list N -> Z -> bool -> option (list msg * err * Z).
Variable cfg : gcfg.
Variable log : list record.
Hypothesis log_sorted : increasing 0 log.

(* only the CURRENT generation's broker answers have to obey the contract *)
Definition label_ok (s : rstate) (l : label) : Prop :=
  match l with
  | LGen v ev _ => v = r_version s -> forall g, find_gen v (r_gens s) = Some g -> ev_ok run log g ev
  | _ => True
  end.

Definition rinv (s0 : Z) (s : rstate) : Prop :=
  0 <= r_version s
  /\ Forall (fun it => fst it <= r_version s) (r_queue s)
  /\ Forall (fun vg => 1 <= fst vg <= r_version s) (r_gens s)
  /\ (r_version s = 0 -> r_delivered s = [] /\ r_queue s = [])
  /\ (r_version s <> 0 ->
      exists g, find_gen (r_version s) (r_gens s) = Some g
                /\ gen_inv log s0 g (r_delivered s ++ cur_msgs (r_version s) (r_queue s)))
  (* the snapshot of a call in progress is the current version: the lazy start comes first, and
     SetOffset does not run during a call *)
  /\ (forall snap, r_call s = Some snap -> snap = r_version s /\ r_version s <> 0)
  (* Reader.offset: the start position, then one past the last message returned *)
  /\ (r_version s <> 0 -> r_offset s = pos_after s0 (r_delivered s)).

Lemma rinv_init s0 : rinv s0 r_init.
Proof.
  unfold rinv, r_init. cbn [r_version r_queue r_gens r_delivered r_call r_offset].
  split; [lia|]. split; [constructor|]. split; [constructor|]. split; [split; reflexivity|].
  split; [intros H; exfalso; apply H; reflexivity|]. split; [intros snap H; discriminate|].
  intros H; exfalso; apply H; reflexivity.
Qed.

(* Reader.start outside a call, at position o *)
Definition at_offset (s : rstate) (o : Z) : rstate :=
  mkR (r_version s) o (r_lag s) (r_call s) (r_queue s) (r_gens s) (r_delivered s).

Lemma rinv_start s0 s o : rinv s0 s -> r_call s = None -> rinv o (r_start (at_offset s o)).
Proof.
  intros (Hv & HQ & HG & HD & HC & HK & HO) Hcall. unfold rinv, r_start, at_offset. cbn [r_version r_queue r_gens r_delivered r_call r_offset].
  split; [lia|]. split.
  { eapply Forall_impl; [|exact HQ]. cbn. intros. lia. }
  split.
  { constructor; [cbn; lia|]. eapply Forall_impl; [|exact HG]. cbn. intros. lia. }
  split; [intros; lia|]. split.
  - intros _.
    exists (gen_start o). split.
    + cbn [find_gen]. rewrite Z.eqb_refl. reflexivity.
    + cbn [app]. rewrite cur_msgs_old.
      * apply gen_start_inv.
      * eapply Forall_impl; [|exact HQ]. cbn. intros. lia.
  - split; [rewrite Hcall; intros snap H; discriminate|]. intros _. reflexivity.
Qed.

(* ghost: the offset the current generation was started at *)
Definition next_start (s : rstate) (s0 : Z) (l : label) : Z :=
  match l with
  | LBegin => if r_version s =? 0 then r_offset s else s0
  | LSetOffset o => if o =? r_offset s then s0 else if r_version s =? 0 then s0 else o
  | _ => s0
  end.

Lemma rinv_set_call s0 s c :
  rinv s0 s -> (forall snap, c = Some snap -> snap = r_version s /\ r_version s <> 0) -> rinv s0 (set_call s c).
Proof.
  intros (Hv & HQ & HG & HD & HC & HK & HO) Hc. unfold rinv, set_call. cbn [r_version r_queue r_gens r_delivered r_call r_offset].
  split; [exact Hv|]. split; [exact HQ|]. split; [exact HG|]. split; [exact HD|]. split; [exact HC|]. split; [exact Hc|exact HO].
Qed.

(* the head of the queue is taken: what it holds for the current generation moves to what was
   returned *)
Lemma rinv_pop s0 s v item q off' lag' c' d' :
  rinv s0 s -> r_queue s = (v, item) :: q -> r_version s <> 0 ->
  d' = r_delivered s ++ item_msgs (r_version s) (v, item) -> off' = pos_after s0 d' ->
  (forall snap, c' = Some snap -> snap = r_version s /\ r_version s <> 0) ->
  rinv s0 (mkR (r_version s) off' lag' c' q (r_gens s) d').
Proof.
  intros (Hv & HQ & HG & HD & HC & HK & HO) Eq Hnz -> -> Hc. rewrite Eq in HQ, HC.
  apply Forall_cons_iff in HQ as [_ HQ2]. unfold rinv. cbn [r_version r_queue r_gens r_delivered r_call r_offset].
  split; [exact Hv|]. split; [exact HQ2|]. split; [exact HG|]. split; [intros H0; contradiction|].
  split; [|split; [exact Hc|reflexivity]].
  intros _. destruct (HC Hnz) as (g0 & Hf & Hg). exists g0. split; [exact Hf|]. rewrite <- app_assoc. exact Hg.
Qed.

Theorem r_step_inv s0 s l s' ret :
  rinv s0 s -> label_ok s l -> r_step run cfg s l = RState s' ret -> rinv (next_start s s0 l) s'.
Proof.
  intros Hinv Hlab Hstep. pose proof Hinv as (Hv & HQ & HG & HD & HC & HK & HO).
  destruct l as [| | |o|v ev k]; cbn [r_step next_start] in Hstep |- *.
  - (* LBegin *)
    destruct (r_version s =? 0) eqn:E0; injection Hstep as <- <-.
    + (* the lazy start, then the snapshot *)
      assert (Hcall : r_call s = None).
      { destruct (r_call s) as [snap|] eqn:Ec; [|reflexivity]. destruct (HK snap eq_refl) as [_ Hn]. lia. }
      apply rinv_set_call; [exact (rinv_start s0 s (r_offset s) Hinv Hcall)|].
      intros snap H. injection H as <-. split; [reflexivity|]. unfold r_start. cbn [r_version]. lia.
    + apply rinv_set_call; [exact Hinv|]. intros snap H. injection H as <-. split; [reflexivity|lia].
  - (* LTake *)
    destruct (r_call s) as [snap|] eqn:Ec; [|discriminate].
    destruct (HK snap eq_refl) as [Hsnap Hnz]. subst snap.
    destruct (r_queue s) as [|[v item] q] eqn:Eq; [discriminate|].
    apply Forall_cons_iff in HQ as [HQ1 _]. cbn [fst] in HQ1.
    destruct (r_version s <=? v) eqn:Ev.
    + assert (v = r_version s) by lia. subst v. destruct item as [g hwm|e].
      * rewrite Z.eqb_refl in Hstep. injection Hstep as <- <-.
        apply (rinv_pop s0 s _ _ q _ _ None _ Hinv Eq Hnz); [|symmetry; apply pos_after_snoc|discriminate].
        unfold item_msgs. cbn [fst snd]. rewrite Z.eqb_refl. reflexivity.
      * injection Hstep as <- <-.
        apply (rinv_pop s0 s _ _ q _ _ None _ Hinv Eq Hnz); [|exact (HO Hnz)|discriminate].
        unfold item_msgs. cbn [fst snd]. rewrite Z.eqb_refl, app_nil_r. reflexivity.
    + (* a stale item is dropped, the call goes on *)
      injection Hstep as <- <-.
      apply (rinv_pop s0 s _ _ q _ _ _ _ Hinv Eq Hnz); [|exact (HO Hnz)|exact HK].
      unfold item_msgs. cbn [fst]. replace (v =? r_version s) with false by lia. rewrite app_nil_r. reflexivity.
  - (* LAbort *)
    destruct (r_call s) as [snap|]; [|discriminate]. injection Hstep as <- <-.
    apply rinv_set_call; [exact Hinv|]. intros snap' H; discriminate.
  - (* LSetOffset *)
    destruct (r_call s) as [snap|] eqn:Ec; [discriminate|].
    destruct (o =? r_offset s); [injection Hstep as <- <-; exact Hinv|].
    destruct (r_version s =? 0) eqn:E0; injection Hstep as <- <-.
    + (* not started yet: only the position changes *)
      unfold rinv. cbn [r_version r_queue r_gens r_delivered r_call r_offset].
      split; [exact Hv|]. split; [exact HQ|]. split; [exact HG|]. split; [exact HD|]. split; [exact HC|].
      split; [exact HK|]. intros Hn. exfalso. lia.
    + pose proof (rinv_start s0 s o Hinv Ec) as Hst. unfold at_offset in Hst. rewrite Ec in Hst. exact Hst.
  - (* LGen *)
    destruct (find_gen v (r_gens s)) as [g|] eqn:Ef; [|discriminate].
    destruct (gen_step run cfg g ev) as [[g' outs]|] eqn:Es; [|discriminate].
    destruct ((k <? length outs)%nat && (r_version s <=? v)) eqn:Ek; [discriminate|].
    injection Hstep as <- <-.
    pose proof (find_gen_in _ _ _ Ef) as Hin.
    pose proof (proj1 (Forall_forall _ _) HG _ Hin) as Hvr. cbn [fst] in Hvr.
    unfold rinv. cbn [r_version r_queue r_gens r_delivered r_call r_offset].
    split; [exact Hv|]. split.
    { apply Forall_app. split; [exact HQ|]. apply Forall_forall. intros it Hit.
      apply in_map_iff in Hit as (o & <- & _). cbn [fst]. lia. }
    split; [apply (set_gen_keys v _ _ (fun x => 1 <= x <= r_version s)); exact HG|].
    split; [intros H0; exfalso; lia|].
    split; [|split; [exact HK|exact HO]].
    intros Hn. destruct (HC Hn) as (g0 & Hf & Hg).
    destruct (Z.eq_dec v (r_version s)) as [Evv|Evv].
    + subst v. rewrite Ef in Hf. injection Hf as <-.
      assert (Hk : (k <? length outs)%nat = false) by (destruct (k <? length outs)%nat; [cbn in Ek; lia|reflexivity]).
      rewrite Hk. rewrite firstn_all2 by (apply Nat.ltb_ge in Hk; exact Hk).
      exists g'. split; [apply (find_set_same _ _ _ _ Ef)|].
      rewrite cur_msgs_app, cur_msgs_same, app_assoc.
      apply (gen_step_inv run cfg log log_sorted s0 g ev); [exact Hg| |exact Es].
      apply (Hlab eq_refl g Ef).
    + exists g0. split; [rewrite find_set_other by lia; exact Hf|].
      rewrite cur_msgs_app, cur_msgs_other by lia. rewrite app_nil_r. exact Hg.
Qed.

(* reach s s0: s is reachable; s0 = the offset the current generation was started at *)
Inductive reach : rstate -> Z -> Prop :=
| reach_init : reach r_init FirstOffset
| reach_step s s0 l s' ret :
    reach s s0 -> label_ok s l -> r_step run cfg s l = RState s' ret -> reach s' (next_start s s0 l).

Lemma reach_inv s s0 : reach s s0 -> rinv s0 s.
Proof.
  induction 1 as [|s s0 l s' ret _ IH Hl Hs]; [apply rinv_init|]. apply (r_step_inv s0 s l s' ret IH Hl Hs).
Qed.

(* once the fetcher was started: what FetchMessage returned since is a prefix of the stored records
   from the start position a on (increasing, no gap, no duplicate, fields as stored), and
   Reader.offset is the position after it *)
Lemma delivered_prefix s s0 : reach s s0 -> r_version s <> 0 ->
  exists a rest, (0 <= s0 -> a = s0) /\ mm (from a log) = r_delivered s ++ rest
                 /\ r_offset s = pos_after s0 (r_delivered s).
Proof.
  intros Hr Hn. destruct (reach_inv s s0 Hr) as (_ & _ & _ & _ & HC & _ & HO).
  destruct (HC Hn) as (g & _ & Hg).
  destruct (gen_inv_prefix log log_sorted s0 g _ Hg) as (a & rest & Hs0 & _ & Hp).
  exists a, (cur_msgs (r_version s) (r_queue s) ++ mm rest).
  split; [exact Hs0|]. split; [rewrite app_assoc; exact Hp|exact (HO Hn)].
Qed.

(* hence whatever the same generation returns after s is the stored records from Reader.offset of s on *)
Lemma later_from_offset s s0 s1 later :
  reach s s0 -> r_version s <> 0 -> (0 <= s0 \/ r_delivered s <> []) ->
  reach s1 s0 -> r_version s1 <> 0 -> r_delivered s1 = r_delivered s ++ later ->
  exists rest, mm (from (r_offset s) log) = later ++ rest.
Proof.
  intros Hr Hn Hpos Hr1 Hn1 Hd1.
  destruct (delivered_prefix s s0 Hr Hn) as (_ & _ & _ & _ & HO).
  destruct (delivered_prefix s1 s0 Hr1 Hn1) as (a1 & rest1 & Ha1 & H1 & _).
  rewrite Hd1, <- app_assoc in H1. exists rest1.
  rewrite (rest_from_pos log a1 _ _ log_sorted H1), HO. do 2 f_equal.
  destruct Hpos as [H0|Hd]; [rewrite (Ha1 H0); reflexivity|apply pos_after_start, Hd].
Qed.

Lemma not_started s s0 : reach s s0 -> r_version s = 0 -> r_delivered s = [].
Proof. intros Hr E0. destruct (reach_inv s s0 Hr) as (_ & _ & _ & HD & _). apply (HD E0). Qed.

End LTS.
