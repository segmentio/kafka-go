(* Proofs/BufferPoolProofs.v — a pooled buffer is never held by two live readers as long as
   every acquire is released exactly once (no ReleaseAgain). *)
From Coq Require Import List Arith Bool Lia Permutation.
From KV Require Import Model.BufferPool.
Import ListNotations.

(* every buffer that exists, pooled or held *)
Definition bufs (s : bstate) : list nat := bfree s ++ map snd (bheld s).

Definition BInv (s : bstate) : Prop :=
  NoDup (bufs s) /\ (forall b, In b (bufs s) -> b < bnext s) /\ NoDup (map fst (bheld s)).

Lemma holds_in : forall o l b, holds o l = Some b -> In (o, b) l.
Proof.
  induction l as [|[o' b'] l IH]; intros b H; simpl in H; [discriminate|].
  destruct (Nat.eqb o' o) eqn:E.
  - apply Nat.eqb_eq in E. inversion H; subst. left; reflexivity.
  - right. apply IH. exact H.
Qed.

Lemma holds_none : forall o l, holds o l = None -> ~ In o (map fst l).
Proof.
  induction l as [|[o' b'] l IH]; intros H; simpl in *; [tauto|].
  destruct (Nat.eqb o' o) eqn:E; [discriminate|]. apply Nat.eqb_neq in E.
  intros [X|X]; [congruence|]. apply IH; auto.
Qed.

Lemma drop_owner_spec : forall o l b, holds o l = Some b ->
  exists l1 l2, l = l1 ++ (o, b) :: l2 /\ drop_owner o l = l1 ++ l2.
Proof.
  induction l as [|[o' b'] l IH]; intros b H; simpl in *; [discriminate|].
  destruct (Nat.eqb o' o) eqn:E.
  - apply Nat.eqb_eq in E. inversion H; subst. exists [], l. split; reflexivity.
  - destruct (IH b H) as [l1 [l2 [A B]]].
    exists ((o', b') :: l1), l2. split; simpl; congruence.
Qed.

Lemma BInv_init : BInv binit.
Proof. repeat split; simpl; try constructor; intros b []. Qed.

Lemma step_bufs : forall s l s', disciplined l = true -> NoDup (map fst (bheld s)) ->
  bstep s l = Some s' ->
  NoDup (map fst (bheld s')) /\
  ((Permutation (bufs s) (bufs s') /\ bnext s' = bnext s) \/
   (bufs s' = bnext s :: bufs s /\ bnext s' = S (bnext s))).
Proof.
  intros s l s' D O H. destruct l; [| |discriminate D]; unfold bstep in H.
  - destruct (holds o (bheld s)) eqn:Ho; [discriminate|]. pose proof (holds_none _ _ Ho) as No.
    unfold bufs. destruct (bfree s) as [|b f]; injection H as <-; cbn [bfree bheld bnext map fst snd].
    + split; [constructor; assumption|]. right. split; reflexivity.
    + split; [constructor; assumption|]. left. split; [apply Permutation_middle|reflexivity].
  - destruct (holds o (bheld s)) as [b|] eqn:Ho; [|discriminate]. injection H as <-.
    destruct (drop_owner_spec o (bheld s) b Ho) as [l1 [l2 [E1 E2]]].
    unfold bufs. cbn [bfree bheld bnext]. rewrite E2. rewrite E1 in O |- *.
    rewrite map_app in O. split; [rewrite map_app; exact (NoDup_remove_1 _ _ _ O)|].
    left. split; [|reflexivity]. rewrite !map_app. cbn [map snd app].
    rewrite !app_assoc. symmetry. apply Permutation_middle.
Qed.

Lemma BInv_step : forall s l s', disciplined l = true -> BInv s -> bstep s l = Some s' -> BInv s'.
Proof.
  intros s l s' D [N [B O]] H.
  destruct (step_bufs s l s' D O H) as [O' [[P E]|[E1 E2]]]; (split; [|split; [|exact O']]).
  - exact (Permutation_NoDup P N).
  - intros b X. rewrite E. apply B. exact (Permutation_in _ (Permutation_sym P) X).
  - rewrite E1. constructor; [|exact N]. intros X. apply B in X. lia.
  - rewrite E1, E2. intros b [<-|X]; [lia|]. apply B in X. lia.
Qed.

Lemma BInv_run : forall ls s s', forallb disciplined ls = true -> BInv s -> brun s ls = Some s' -> BInv s'.
Proof.
  induction ls as [|l ls IH]; intros s s' D I H; simpl in *.
  - inversion H; subst; exact I.
  - apply andb_prop in D. destruct D as [D1 D2].
    destruct (bstep s l) as [s1|] eqn:E; [|discriminate].
    eapply IH; [exact D2| |exact H]. eapply BInv_step; eauto.
Qed.

Lemma BInv_exclusive : forall s, BInv s ->
  forall o1 o2 b, In (o1, b) (bheld s) -> In (o2, b) (bheld s) -> o1 = o2.
Proof.
  intros s [N _]. unfold bufs in N.
  assert (N' : NoDup (map snd (bheld s)))
    by (induction (bfree s) as [|a l IH]; [exact N|inversion N; auto]).
  clear N. revert N'.
  induction (bheld s) as [|[o' b'] l IH]; intros N o1 o2 b H1 H2; [contradiction|].
  cbn in N. apply NoDup_cons_iff in N. destruct N as [Nb N].
  assert (Out : forall o, In (o, b') l -> False) by (intros o X; exact (Nb (in_map snd _ _ X))).
  destruct H1 as [X|X], H2 as [Y|Y].
  - congruence.
  - injection X as _ <-. destruct (Out _ Y).
  - injection Y as _ <-. destruct (Out _ X).
  - exact (IH N o1 o2 b X Y).
Qed.
