(* Proofs/DRFSound.v — C10: soundness of the semantic lockset condition.
   If a trace obeys lock semantics and every access to a location respects the
   location's instance-level protection (exclusive lock, reader/writer lock, atomic
   only), then no two conflicting accesses to that location are unordered by
   happens-before. *)
From Coq Require Import List Arith Bool Relations Lia.
From KV Require Import Model.DRF.
Import ListNotations.

(* ------------------------------------------------------------ state_at *)

Lemma state_at_cons : forall s e tr n,
  state_at s (e :: tr) (S n) = match lock_step s e with Some s1 => state_at s1 tr n | None => None end.
Proof. reflexivity. Qed.

(* [state_at] read from the other end: one more event after the first n *)
Lemma state_at_snoc : forall n s tr,
  state_at s tr (S n) =
  match state_at s tr n, nth_error tr n with Some sn, Some e => lock_step sn e | _, _ => None end.
Proof.
  induction n as [|n IH]; intros s [|e tr]; try reflexivity.
  - cbn. destruct (lock_step s e); reflexivity.
  - rewrite !state_at_cons. cbn [nth_error]. destruct (lock_step s e); [apply IH|reflexivity].
Qed.

Lemma state_at_S_inv : forall n s tr s',
  state_at s tr (S n) = Some s' ->
  exists sp e, state_at s tr n = Some sp /\ nth_error tr n = Some e /\ lock_step sp e = Some s'.
Proof.
  intros n s tr s' H. rewrite state_at_snoc in H.
  destruct (state_at s tr n) as [sp|]; [|discriminate].
  destruct (nth_error tr n) as [e|]; [|discriminate]. eauto.
Qed.

Lemma state_at_step : forall n s tr sn e,
  state_at s tr n = Some sn -> nth_error tr n = Some e ->
  state_at s tr (S n) = lock_step sn e.
Proof. intros n s tr sn e H Hn. rewrite state_at_snoc, H, Hn. reflexivity. Qed.

Lemma state_at_le : forall n m s tr sn,
  m <= n -> state_at s tr n = Some sn -> exists sm, state_at s tr m = Some sm.
Proof.
  induction n as [|n IH]; intros m s tr sn Hle H.
  - assert (m = 0) by lia. subst. eauto.
  - destruct (Nat.eq_dec m (S n)) as [->|Hne]; [eauto|].
    destruct (state_at_S_inv _ _ _ _ H) as [sp [_ [Hp _]]].
    eapply IH; [|exact Hp]. lia.
Qed.

Lemma wf_locks_defined : forall tr n, wf_locks tr -> n <= length tr ->
  exists s, state_at init tr n = Some s.
Proof.
  intros tr n [s H] Hle. eapply state_at_le; eauto.
Qed.

(* Between a state satisfying P and a later one that does not, there is a step that
   takes P to ~P. *)
Lemma change_point : forall (P : lstate -> Prop), (forall s, P s \/ ~ P s) ->
  forall tr j i si sj, i <= j ->
  state_at init tr i = Some si -> state_at init tr j = Some sj -> P si -> ~ P sj ->
  exists r sr e sr', i <= r < j /\ state_at init tr r = Some sr /\ nth_error tr r = Some e /\
     lock_step sr e = Some sr' /\ state_at init tr (S r) = Some sr' /\ P sr /\ ~ P sr'.
Proof.
  intros P Pdec tr. induction j as [|j IH]; intros i si sj Hle Hi Hj HP HN.
  - assert (i = 0) by lia. subst. rewrite Hi in Hj. inversion Hj; subst. contradiction.
  - destruct (Nat.eq_dec i (S j)) as [->|Hne].
    + rewrite Hi in Hj. inversion Hj; subst. contradiction.
    + destruct (state_at_S_inv _ _ _ _ Hj) as [sp [e [Hp [He Hs]]]].
      destruct (Pdec sp) as [HPp|HNp].
      * exists j, sp, e, sj. repeat split; auto; lia.
      * destruct (IH i si sp ltac:(lia) Hi Hp HP HNp)
          as [r [sr [e' [sr' [Hr Hrest]]]]].
        exists r, sr, e', sr'. split; [lia|exact Hrest].
Qed.

(* ------------------------------------------------------------ single steps *)

Ltac step_inv H :=
  unfold lock_step in H; cbn [fst snd] in H;
  repeat match type of H with
  | context [match ?x with _ => _ end] => destruct x eqn:?; try discriminate H
  end; inversion H; subst; clear H; cbn [wr rd] in *.

Ltac upd_case l l0 :=
  unfold upd in *;
  let E := fresh "El" in
  destruct (Nat.eqb l l0) eqn:E; [apply Nat.eqb_eq in E; subst|apply Nat.eqb_neq in E].

Lemma step_wr_lose : forall s e s' l t,
  lock_step s e = Some s' -> wr s l = Some t -> wr s' l <> Some t ->
  e = (t, Rel l) /\ wr s' l = None.
Proof.
  intros s [t0 a] s' l t Hs Hw Hn.
  step_inv Hs; try contradiction.
  - upd_case l l0; [congruence|contradiction].
  - upd_case l l0; [|contradiction].
    match goal with H : Nat.eqb _ _ = true |- _ => apply Nat.eqb_eq in H; subst end.
    split; [|reflexivity]. congruence.
Qed.

Lemma step_wr_gain : forall s e s' l t,
  lock_step s e = Some s' -> wr s l <> Some t -> wr s' l = Some t ->
  e = (t, Acq l) /\ wr s l = None /\ rd s l = nil.
Proof.
  intros s [t0 a] s' l t Hs Hn Hw.
  step_inv Hs; try contradiction.
  - upd_case l l0; [|contradiction].
    inversion Hw; subst. auto.
  - upd_case l l0; [discriminate|contradiction].
Qed.

Lemma In_remove1 : forall t t' ts, t <> t' -> In t ts -> In t (remove1 t' ts).
Proof.
  induction ts as [|a ts IH]; intros Hne Hin; [contradiction|].
  cbn [remove1]. destruct (Nat.eqb t' a) eqn:E.
  - apply Nat.eqb_eq in E; subst. destruct Hin; [congruence|assumption].
  - destruct Hin; [left; assumption|right; auto].
Qed.

Lemma remove1_In : forall t t' ts, In t (remove1 t' ts) -> In t ts.
Proof.
  induction ts as [|a ts IH]; intros Hin; [contradiction|].
  cbn [remove1] in Hin. destruct (Nat.eqb t' a).
  - right; assumption.
  - destruct Hin; [left; assumption|right; auto].
Qed.

Lemma step_rd_lose : forall s e s' l t,
  lock_step s e = Some s' -> In t (rd s l) -> ~ In t (rd s' l) ->
  e = (t, RRel l).
Proof.
  intros s [t0 a] s' l t Hs Hi Hn.
  step_inv Hs; try contradiction.
  - upd_case l l0; [|contradiction]. exfalso; apply Hn; right; assumption.
  - upd_case l l0; [|contradiction].
    destruct (Nat.eq_dec t t0) as [->|Hne]; [reflexivity|].
    exfalso; apply Hn. apply In_remove1; assumption.
Qed.

Lemma step_rd_gain : forall s e s' l t,
  lock_step s e = Some s' -> ~ In t (rd s l) -> In t (rd s' l) ->
  e = (t, RAcq l) /\ wr s l = None.
Proof.
  intros s [t0 a] s' l t Hs Hn Hi.
  step_inv Hs; try contradiction.
  - upd_case l l0; [|contradiction].
    destruct Hi as [->|Hi]; [auto|contradiction].
  - upd_case l l0; [|contradiction].
    exfalso; apply Hn. eapply remove1_In; eassumption.
Qed.

(* a write-held lock has no readers *)
Definition linv (s : lstate) : Prop := forall l t, wr s l = Some t -> rd s l = nil.

Lemma linv_init : linv init.
Proof. intros l t H. discriminate. Qed.

Lemma linv_step : forall s e s', lock_step s e = Some s' -> linv s -> linv s'.
Proof.
  intros s [t0 a] s' Hs Hinv l t Hw.
  step_inv Hs; eauto.
  - upd_case l l0; [assumption|eauto].
  - upd_case l l0; [discriminate|eauto].
  - upd_case l l0; [congruence|eauto].
  - upd_case l l0; [|eauto].
    rewrite (Hinv _ _ Hw) in *. discriminate.
Qed.

Lemma linv_at : forall tr n s, state_at init tr n = Some s -> linv s.
Proof.
  intros tr. induction n as [|n IH]; intros s H.
  - cbn [state_at] in H. inversion H; subst. apply linv_init.
  - destruct (state_at_S_inv _ _ _ _ H) as [sp [e [Hp [_ Hs]]]].
    eapply linv_step; eauto.
Qed.

(* ------------------------------------------------------------ decidability *)

Lemma wr_dec : forall l t s, wr s l = Some t \/ wr s l <> Some t.
Proof.
  intros l t s. destruct (wr s l) as [t'|]; [|right; discriminate].
  destruct (Nat.eq_dec t' t); [left; congruence|right; congruence].
Qed.

Lemma nwr_dec : forall l t s, wr s l <> Some t \/ ~ wr s l <> Some t.
Proof. intros l t s. destruct (wr_dec l t s); tauto. Qed.

Lemma rd_dec : forall l t s, In t (rd s l) \/ ~ In t (rd s l).
Proof. intros l t s. destruct (in_dec Nat.eq_dec t (rd s l)); tauto. Qed.

Lemma nrd_dec : forall l t s, ~ In t (rd s l) \/ ~ ~ In t (rd s l).
Proof. intros l t s. destruct (rd_dec l t s); tauto. Qed.

(* ------------------------------------------------------------ trace lemmas *)

(* A: the holder t of l no longer holds it later: t released it in between *)
Lemma release_between : forall tr i j si sj l t, i <= j ->
  state_at init tr i = Some si -> state_at init tr j = Some sj ->
  wr si l = Some t -> wr sj l <> Some t ->
  exists r sr', i <= r < j /\ ev tr r = Some (t, Rel l) /\
     state_at init tr (S r) = Some sr' /\ wr sr' l = None.
Proof.
  intros tr i j si sj l t Hle Hi Hj Hw Hn.
  destruct (change_point (fun s => wr s l = Some t) (wr_dec l t) tr j i si sj Hle Hi Hj Hw Hn)
    as [r [sr [e [sr' [Hr [_ [He [Hs [Hsr' [HP HN]]]]]]]]]].
  destruct (step_wr_lose _ _ _ _ _ Hs HP HN) as [-> Hnone].
  exists r, sr'. auto.
Qed.

(* B: t holds l at j but not at the earlier k: t acquired it in between, at a moment
   when l had neither a writer nor readers *)
Lemma acquire_between : forall tr k j sk sj l t, k <= j ->
  state_at init tr k = Some sk -> state_at init tr j = Some sj ->
  wr sk l <> Some t -> wr sj l = Some t ->
  exists b sb, k <= b < j /\ ev tr b = Some (t, Acq l) /\
     state_at init tr b = Some sb /\ wr sb l = None /\ rd sb l = nil.
Proof.
  intros tr k j sk sj l t Hle Hk Hj Hn Hw.
  destruct (change_point (fun s => wr s l <> Some t) (nwr_dec l t) tr j k sk sj Hle Hk Hj Hn
              ltac:(tauto))
    as [b [sb [e [sb' [Hb [Hsb [He [Hs [_ [HP HN]]]]]]]]]].
  assert (Hw' : wr sb' l = Some t) by (destruct (wr_dec l t sb'); tauto).
  destruct (step_wr_gain _ _ _ _ _ Hs HP Hw') as [-> [H1 H2]].
  exists b, sb. auto.
Qed.

Lemma rrelease_between : forall tr i j si sj l t, i <= j ->
  state_at init tr i = Some si -> state_at init tr j = Some sj ->
  In t (rd si l) -> ~ In t (rd sj l) ->
  exists r, i <= r < j /\ ev tr r = Some (t, RRel l).
Proof.
  intros tr i j si sj l t Hle Hi Hj Hin Hn.
  destruct (change_point (fun s => In t (rd s l)) (rd_dec l t) tr j i si sj Hle Hi Hj Hin Hn)
    as [r [sr [e [sr' [Hr [_ [He [Hs [_ [HP HN]]]]]]]]]].
  rewrite (step_rd_lose _ _ _ _ _ Hs HP HN) in He.
  exists r. auto.
Qed.

Lemma racquire_between : forall tr k j sk sj l t, k <= j ->
  state_at init tr k = Some sk -> state_at init tr j = Some sj ->
  ~ In t (rd sk l) -> In t (rd sj l) ->
  exists b sb, k <= b < j /\ ev tr b = Some (t, RAcq l) /\
     state_at init tr b = Some sb /\ wr sb l = None.
Proof.
  intros tr k j sk sj l t Hle Hk Hj Hn Hin.
  destruct (change_point (fun s => ~ In t (rd s l)) (nrd_dec l t) tr j k sk sj Hle Hk Hj Hn
              ltac:(tauto))
    as [b [sb [e [sb' [Hb [Hsb [He [Hs [_ [HP HN]]]]]]]]]].
  assert (Hin' : In t (rd sb' l)) by (destruct (rd_dec l t sb'); tauto).
  destruct (step_rd_gain _ _ _ _ _ Hs HP Hin') as [-> H1].
  exists b, sb. auto.
Qed.

Lemma edge_lt : forall tr i j, edge tr i j -> i < j.
Proof. intros tr i j H. inversion H; assumption. Qed.

Lemma hb_lt : forall tr i j, hb tr i j -> i < j.
Proof.
  intros tr i j H. induction H as [i j H|i k j _ H1 _ H2]; [eapply edge_lt; eauto|lia].
Qed.

(* three-edge happens-before chain: program order, lock hand-over, program order *)
Lemma hb_chain : forall tr i r b j t1 t2 a1 a2 er eb,
  i < r -> r < b -> b < j ->
  ev tr i = Some (t1, a1) -> ev tr r = Some (t1, er) ->
  ev tr b = Some (t2, eb) -> ev tr j = Some (t2, a2) ->
  edge tr r b -> hb tr i j.
Proof.
  intros tr i r b j t1 t2 a1 a2 er eb Hir Hrb Hbj Hi Hr Hb Hj He.
  apply t_trans with r; [apply t_step; eapply e_po; eauto|].
  apply t_trans with b; [apply t_step; exact He|].
  apply t_step; eapply e_po; eauto.
Qed.

(* an access event is not a lock operation *)
Lemma acc_ne : forall tr i r t a x t' e,
  ev tr i = Some (t, a) -> acc_loc a = Some x -> ev tr r = Some (t', e) ->
  acc_loc e = None -> i <> r.
Proof.
  intros tr i r t a x t' e Hi Ha Hr He Heq. subst r.
  rewrite Hi in Hr. inversion Hr; subst. congruence.
Qed.

(* both hold l exclusively *)
Lemma ww_hb : forall tr i j t1 t2 a1 a2 x l,
  i < j -> ev tr i = Some (t1, a1) -> ev tr j = Some (t2, a2) -> t1 <> t2 ->
  acc_loc a1 = Some x ->
  holdsW tr i t1 l -> holdsW tr j t2 l -> hb tr i j.
Proof.
  intros tr i j t1 t2 a1 a2 x l Hij Hi Hj Hne Ha1 [si [Hsi Hwi]] [sj [Hsj Hwj]].
  destruct (release_between tr i j si sj l t1 ltac:(lia) Hsi Hsj Hwi ltac:(congruence))
    as [r [sr' [Hr [Hevr [Hsr' Hnone]]]]].
  assert (i <> r) by (eapply acc_ne; eauto).
  destruct (acquire_between tr (S r) j sr' sj l t2 ltac:(lia) Hsr' Hsj ltac:(congruence) Hwj)
    as [b [sb [Hb [Hevb _]]]].
  eapply hb_chain with (r := r) (b := b); eauto; try lia.
  eapply e_rel_acq; eauto; lia.
Qed.

(* first holds l exclusively, second holds it shared *)
Lemma wr_hb : forall tr i j t1 t2 a1 a2 x l,
  i < j -> ev tr i = Some (t1, a1) -> ev tr j = Some (t2, a2) ->
  acc_loc a1 = Some x ->
  holdsW tr i t1 l -> holdsR tr j t2 l -> hb tr i j.
Proof.
  intros tr i j t1 t2 a1 a2 x l Hij Hi Hj Ha1 [si [Hsi Hwi]] [sj [Hsj Hrj]].
  assert (Hnil : rd si l = nil) by (eapply (linv_at tr i si Hsi); eauto).
  destruct (racquire_between tr i j si sj l t2 ltac:(lia) Hsi Hsj
              ltac:(rewrite Hnil; intros []) Hrj)
    as [b [sb [Hb [Hevb [Hsb Hnone]]]]].
  destruct (release_between tr i b si sb l t1 ltac:(lia) Hsi Hsb Hwi ltac:(congruence))
    as [r [sr' [Hr [Hevr _]]]].
  assert (i <> r) by (eapply acc_ne; eauto).
  eapply hb_chain with (r := r) (b := b); eauto; try lia.
  eapply e_rel_racq; eauto; lia.
Qed.

(* first holds l shared, second holds it exclusively *)
Lemma rw_hb : forall tr i j t1 t2 a1 a2 x l,
  i < j -> ev tr i = Some (t1, a1) -> ev tr j = Some (t2, a2) ->
  acc_loc a1 = Some x ->
  holdsR tr i t1 l -> holdsW tr j t2 l -> hb tr i j.
Proof.
  intros tr i j t1 t2 a1 a2 x l Hij Hi Hj Ha1 [si [Hsi Hri]] [sj [Hsj Hwj]].
  assert (Hnw : wr si l <> Some t2).
  { intros Hw. rewrite (linv_at tr i si Hsi _ _ Hw) in Hri. contradiction. }
  destruct (acquire_between tr i j si sj l t2 ltac:(lia) Hsi Hsj Hnw Hwj)
    as [b [sb [Hb [Hevb [Hsb [_ Hnil]]]]]].
  destruct (rrelease_between tr i b si sb l t1 ltac:(lia) Hsi Hsb Hri
              ltac:(rewrite Hnil; intros []))
    as [r [Hr Hevr]].
  assert (i <> r) by (eapply acc_ne; eauto).
  eapply hb_chain with (r := r) (b := b); eauto; try lia.
  eapply e_rrel_acq; eauto; lia.
Qed.

(* ------------------------------------------------------------ the theorem *)

Lemma guarded_no_race : forall (pol : loc -> iprot) (tr : trace),
  wf_locks tr -> respects pol tr ->
  forall x l, pol x = IGuarded l -> ~ race_on tr x.
Proof.
  intros pol tr _ Hresp x l Hp
    [i [j [t1 [t2 [a1 [a2 [Hij [Hi [Hj [Hne [Ha1 [Ha2 [_ Hnhb]]]]]]]]]]]]].
  pose proof (Hresp i t1 a1 x Hi Ha1) as H1.
  pose proof (Hresp j t2 a2 x Hj Ha2) as H2.
  rewrite Hp in H1, H2.
  apply Hnhb. eapply ww_hb; eauto.
Qed.

Lemma atomic_no_race : forall (pol : loc -> iprot) (tr : trace),
  wf_locks tr -> respects pol tr ->
  forall x, pol x = IAtomic -> ~ race_on tr x.
Proof.
  intros pol tr _ Hresp x Hp
    [i [j [t1 [t2 [a1 [a2 [Hij [Hi [Hj [Hne [Ha1 [Ha2 [Hc _]]]]]]]]]]]]].
  pose proof (Hresp i t1 a1 x Hi Ha1) as H1.
  pose proof (Hresp j t2 a2 x Hj Ha2) as H2.
  rewrite Hp in H1, H2.
  unfold conflict in Hc. rewrite H1, H2 in Hc.
  rewrite andb_false_r in Hc. discriminate.
Qed.

Lemma rguarded_no_race : forall (pol : loc -> iprot) (tr : trace),
  wf_locks tr -> respects pol tr ->
  forall x l, pol x = IRGuarded l -> ~ race_on tr x.
Proof.
  intros pol tr _ Hresp x l Hp
    [i [j [t1 [t2 [a1 [a2 [Hij [Hi [Hj [Hne [Ha1 [Ha2 [Hc Hnhb]]]]]]]]]]]]].
  pose proof (Hresp i t1 a1 x Hi Ha1) as H1.
  pose proof (Hresp j t2 a2 x Hj Ha2) as H2.
  rewrite Hp in H1, H2.
  apply Hnhb.
  destruct H1 as [W1|[R1 HR1]]; destruct H2 as [W2|[R2 HR2]].
  - eapply ww_hb; eauto.
  - eapply wr_hb; eauto.
  - eapply rw_hb; eauto.
  - unfold conflict in Hc. rewrite R1, R2 in Hc. discriminate.
Qed.

Theorem lockset_sound : forall (pol : loc -> iprot) (tr : trace),
  wf_locks tr -> respects pol tr ->
  forall x, pol x <> IOther -> ~ race_on tr x.
Proof.
  intros pol tr Hwf Hresp x Hx.
  destruct (pol x) as [l|l| |] eqn:E.
  - eapply guarded_no_race; eauto.
  - eapply rguarded_no_race; eauto.
  - eapply atomic_no_race; eauto.
  - congruence.
Qed.

(* ------------------------------------------------------------ non-vacuity *)

Definition tr_ok : trace :=
  [(0, Go 1); (0, Acq 0); (0, Wr 5); (0, Rel 0); (1, Acq 0); (1, Rd 5); (1, Rel 0)].
Definition pol_ok : loc -> iprot := fun x => if Nat.eqb x 5 then IGuarded 0 else IOther.

Example tr_ok_wf : wf_locks tr_ok.
Proof. unfold wf_locks. eexists. vm_compute. reflexivity. Qed.

Example tr_ok_respects : respects pol_ok tr_ok.
Proof.
  intros i t a x Hev Ha.
  do 7 (destruct i as [|i];
        [cbv in Hev; inversion Hev; subst; cbv in Ha; try discriminate;
         inversion Ha; subst; cbv [pol_ok Nat.eqb]; eexists; split; vm_compute; reflexivity|]).
  destruct i; discriminate.
Qed.

Example tr_ok_no_race : ~ race_on tr_ok 5.
Proof.
  apply (lockset_sound pol_ok tr_ok tr_ok_wf tr_ok_respects). cbv. discriminate.
Qed.

(* the same two accesses without the lock race (the go edge orders nothing after it
   in the spawner with respect to the new thread) *)
Definition tr_racy : trace := [(0, Go 1); (0, Wr 5); (1, Rd 5)].

Example tr_racy_race : race_on tr_racy 5.
Proof.
  exists 1, 2, 0, 1, (Wr 5), (Rd 5).
  repeat split; try reflexivity; try lia; try discriminate.
  intros H.
  assert (He : edge tr_racy 1 2).
  { inversion H as [y He|y z H1 H2]; subst; [exact He|].
    apply hb_lt in H1. apply hb_lt in H2. lia. }
  inversion He;
    match goal with
    | H1 : ev tr_racy 1 = Some _, H2 : ev tr_racy 2 = Some _ |- _ =>
        cbv in H1, H2; congruence
    end.
Qed.
