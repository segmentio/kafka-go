(* Proofs/LifecycleCalls.v — use after close: the calls that began after a Close call had returned *)
From Coq Require Import List Arith Bool Lia.
From KV Require Import Lib.LTS Model.Lifecycle Proofs.LifecycleBase Proofs.LifecycleSafe Proofs.LifecycleGen Proofs.LifecyclePost.
Import ListNotations.

(* A call that began after a Close call had returned (late) is, for as long as it exists, either a
   FetchMessage / ReadMessage at the head of its loop (about to take r.mutex and find r.closed) or
   already returned with io.EOF, or a CommitMessages at its non-blocking closed check or already
   returned with io.ErrClosedPipe (without a group: errOnlyAvailableWithGroup). *)
Definition late_ok (g : bool) (k : call) : bool :=
  match k_kind k, k_ph k with
  | KTrip, _ => true
  | KFetch, PFLock | KFetch, PDone REOF | KRead, PFLock | KRead, PDone REOF => true
  | KCommit, PCCheck | KCommit, PDone RClosedPipe => true
  | KCommit, PDone ROther => negb g
  | _, _ => false
  end.
Definition inv6 (g : bool) (s : state) : Prop :=
  forall c k, nth_error (calls s) c = Some k ->
    exists late pre, call_info c (hist s) = Some (k_kind k, late, pre) /\
      (late = true -> existsb is_closed_ev (hist s) = true /\ late_ok g k = true).

Lemma reply_all_nth : forall cs ok s c k', nth_error (calls (reply_all cs ok s)) c = Some k' ->
  exists k, nth_error (calls s) c = Some k /\ k_kind k' = k_kind k /\ (k' = k \/ k_ph k = PCWait None).
Proof.
  induction cs; intros ok s c k' H; simpl in H; [exists k'; auto|].
  destruct (IHcs _ _ _ _ H) as (k1 & H1 & K1 & D1). clear H IHcs.
  unfold reply in H1. destruct (nth_error (calls s) a) eqn:E; [|exists k1; auto].
  destruct (k_ph c0) as [| | | |[rp|]| | |] eqn:P; try (exists k1; auto; fail).
  unfold set_call in H1. cbn in H1. rewrite nth_upd in H1. destruct (Nat.eqb_spec a c).
  - subst. rewrite E in H1. inversion H1; subst k1. exists c0. cbn in K1. auto.
  - exists k1. auto.
Qed.

Lemma late_ok_wait : forall g k k', k_kind k' = k_kind k -> k_ph k = PCWait None -> late_ok g k = true -> late_ok g k' = true.
Proof. intros g k k' K P L. unfold late_ok in *. rewrite K. rewrite P in L. destruct (k_kind k); try discriminate. reflexivity. Qed.
Lemma inv6_keep : forall g s s', inv6 g s ->
  (existsb is_closed_ev (hist s) = true -> existsb is_closed_ev (hist s') = true) ->
  (forall c, call_info c (hist s') = call_info c (hist s)) ->
  (forall c k', nth_error (calls s') c = Some k' -> exists k, nth_error (calls s) c = Some k /\ k_kind k' = k_kind k /\
     (existsb is_closed_ev (hist s) = true -> late_ok g k = true -> late_ok g k' = true)) -> inv6 g s'.
Proof.
  intros g s s' I M Hi Hc c k' Hk'. destruct (Hc c k' Hk') as (k & Hk & K & L).
  destruct (I c k Hk) as (late & pre & Hi' & Hl). exists late, pre. rewrite Hi, K. split; [exact Hi'|].
  intros E. destruct (Hl E). auto.
Qed.

Lemma inv6_set_call : forall g s s' c k ctx ph, inv6 g s -> nth_error (calls s) c = Some k ->
  calls s' = upd c (mkCall (k_kind k) ctx ph) (calls s) ->
  (existsb is_closed_ev (hist s) = true -> existsb is_closed_ev (hist s') = true) ->
  (forall c, call_info c (hist s') = call_info c (hist s)) ->
  (existsb is_closed_ev (hist s) = true -> late_ok g k = true -> late_ok g (mkCall (k_kind k) ctx ph) = true) -> inv6 g s'.
Proof.
  intros g s s' c k ctx ph I Hk E M Hi L. apply (inv6_keep g s); auto. intros i k' Hk'. rewrite E, nth_upd in Hk'.
  destruct (Nat.eqb_spec c i) as [<-|N]; [|exists k'; auto]. rewrite Hk in Hk'. injection Hk' as <-. exists k. auto.
Qed.

Lemma inv6_step : forall g s l s', c_group (cfg s) = g ->
  (existsb is_closed_ev (hist s) = true -> closed s = true /\ stctx s = true) ->
  inv6 g s -> step s l = Some s' -> inv6 g s'.
Proof.
  intros g s l s' G Q IH St. pose proof (step_frame _ _ _ St) as F. pose proof (fr_closed_ev _ _ _ F) as M.
  destruct (call_label l) eqn:CL.
  2: { destruct (fr_calls _ _ _ F CL) as (E & Fi & _). apply (inv6_keep g s); auto. rewrite E. eauto. }
  clear F. destruct l; try discriminate CL; clear CL.
  all: try (lazymatch type of St with step _ (LCall _) = _ => fail | step _ (LClCommit _ _) = _ => fail
                                     | step _ (LClSeeStop _) = _ => fail | _ => idtac end;
    step_inv St; unf; destr_goal;
    (eapply inv6_set_call; [exact IH | eassumption | cbn; reflexivity | exact M | reflexivity | ]);
    intros L1 L2; destruct (Q L1) as [Qa Qb]; unfold late_ok in *; cbn [k_kind k_ph] in *;
    repeat match goal with P : k_ph _ = _ |- _ => rewrite P in *; clear P end;
    destr_in L2; try discriminate; try reflexivity; congruence).
  all: try (lazymatch type of St with step _ (LCall _) = _ => fail | _ => idtac end;
    step_inv St; unf; try rewrite reply_all_calls_only in *; destr_goal;
    (apply (inv6_keep g s); [exact IH | exact M | reflexivity | ]); cbn; intros c1 k1 Hn;
    first [ exists k1; solve [auto]
          | apply reply_all_nth in Hn as (k0 & H0 & K0 & [->|D0]); exists k0; solve [eauto using late_ok_wait] ]).
  clear M. unfold inv6 in *. subst g; step_inv St; intros c1 k1 Hn; cbn in Hn; apply nth_app_cases in Hn as [Hn|[Ec Ek]];
  first
  [ subst c1 k1; eexists; eexists; split;
    [cbn; rewrite Nat.eqb_refl; reflexivity
    |intros L; split; [cbn; rewrite L; rewrite ?orb_true_r; reflexivity|try reflexivity; cbn; rewrite ?Heqb; reflexivity]]
  | pose proof (nth_some_lt _ _ _ _ Hn) as Lt; destruct (IH c1 k1 Hn) as (late & pre & Hi & Hl); exists late, pre; split;
    [cbn; destruct (Nat.eqb_spec c1 (length (calls s))); [lia|exact Hi]
    |intros L; destruct (Hl L) as [L1 L2]; split; [cbn; rewrite ?L1, ?orb_true_r; reflexivity|exact L2]] ].
Qed.

(* the monitor's verdict on a return event is [late_ok] of the call that has returned *)
Local Arguments chk_after_close : simpl never.
Lemma ret_ok : forall g s' c r h k', inv6 g s' -> hist s' = ERet c r :: h -> nth_error (calls s') c = Some k' ->
  k_ph k' = PDone r -> chk_after_close g (ERet c r) h = true.
Proof.
  intros g s' c r h k' I Hh Hc P. destruct (I c k' Hc) as (late & pre & Hi & Hl). rewrite Hh in Hi. cbn in Hi.
  unfold chk_after_close. rewrite Hi. destruct late; [|reflexivity]. destruct (Hl eq_refl) as [_ L].
  unfold late_ok in L. rewrite P in L. destruct (k_kind k'), r; try discriminate L; try reflexivity; exact L.
Qed.

(* [inv6] of the state AFTER the step: the returned call is looked up there *)
Lemma after_close_step : forall g s l s', inv6 g s' -> mon_after_close g (hist s) = true -> step s l = Some s' ->
  mon_after_close g (hist s') = true.
Proof.
  intros g s l s' I6 IH St. destruct (call_label l) eqn:CL.
  2: { destruct (fr_calls _ _ _ (step_frame _ _ _ St) CL) as (_ & _ & ->). exact IH. }
  destruct l; try discriminate CL; step_inv St; unf; try rewrite reply_all_calls_only in *; destr_goal; cbn;
  rewrite ?IH, ?andb_true_r; repeat (apply andb_true_intro; split);
  first [ reflexivity
        | eapply ret_ok; [exact I6 | reflexivity | cbn; first [eapply nth_upd_eq; eassumption | apply nth_app_last] | reflexivity] ].
Qed.

Lemma inv6_after_close_reach : forall c ls s, run step (init c) ls = Some s ->
  inv6 (c_group c) s /\ mon_after_close (c_group c) (hist s) = true.
Proof.
  intros c. apply (rinv_ind c (fun s => inv6 (c_group c) s /\ mon_after_close (c_group c) (hist s) = true)).
  - split; [intros i k H; destruct i; discriminate|reflexivity].
  - intros s l s' I [I6 IH] St.
    assert (I6' : inv6 (c_group c) s').
    { eapply inv6_step; eauto; [rewrite (r_cfg _ _ I); reflexivity|intros H].
      destruct (rinv_returned _ _ I (r_inv_h1 _ _ I H)) as (A & B & _). auto. }
    split; [exact I6'|exact (after_close_step _ _ _ _ I6' IH St)].
Qed.

Lemma no_push : forall s l s', all_exited s = true -> step s l = Some s' -> length (msgs s') <= length (msgs s).
Proof.
  intros s l s' Q1 St. destruct (msgs_label l) eqn:M.
  - destruct l; try discriminate M; step_inv St; unf; destr_goal; try fexit_contra; cbn; lia.
  - rewrite (fr_msgs _ _ _ (step_frame _ _ _ St) M). auto.
Qed.
