(* Proofs/WriterTrickle.v — the batch deadline counts from the OPENING of the batch
   (take_batch / batches_by_deadline / span_ok at the end of Model/Writer.v).
   Sortedness hypothesis: StronglySorted Z.le. *)
From Coq Require Import List ZArith Bool Arith Lia Sorted.
From KV Require Import Model.Writer.
Import ListNotations.

Lemma take_batch_spec : forall ts t0 timeout room b rem,
  take_batch t0 timeout room ts = (b, rem) ->
  ts = b ++ rem /\ length b <= room /\ forall t, In t b -> (t < t0 + timeout)%Z.
Proof.
  induction ts as [|x r IH]; intros t0 timeout room b rem H; cbn [take_batch] in H.
  - inversion H; subst. split; [reflexivity|]. split; [simpl; lia|intros t []].
  - destruct room as [|room].
    + inversion H; subst. split; [reflexivity|]. split; [simpl; lia|intros t []].
    + destruct (Z.ltb x (t0 + timeout)) eqn:E.
      * destruct (take_batch t0 timeout room r) as [b' rem'] eqn:T.
        inversion H; subst; clear H.
        destruct (IH _ _ _ _ _ T) as [E1 [E2 E3]].
        split; [simpl; f_equal; exact E1|]. split; [simpl; lia|].
        intros t [<-|Hi]; [apply Z.ltb_lt; exact E|apply E3; exact Hi].
      * inversion H; subst. split; [reflexivity|]. split; [simpl; lia|intros t []].
Qed.

Lemma StronglySorted_app_r : forall (l1 l2 : list Z),
  StronglySorted Z.le (l1 ++ l2) -> StronglySorted Z.le l2.
Proof.
  induction l1 as [|x r IH]; intros l2 H; simpl in H; [exact H|].
  apply IH. inversion H; assumption.
Qed.

(* General form (0 <= timeout): the first message opens the batch, every LATER message of
   the batch was accepted strictly before t0 + timeout. *)
Lemma C08_timeout_counts_from_opening_nonneg_proof : forall fuel timeout bsize ts b,
  (0 <= timeout)%Z -> 1 <= bsize -> StronglySorted Z.le ts ->
  In b (batches_by_deadline fuel timeout bsize ts) ->
  exists t0 rest, b = t0 :: rest /\
    (forall t, In t rest -> (t0 <= t < t0 + timeout)%Z) /\
    (forall t, In t b -> (t0 <= t <= t0 + timeout)%Z) /\
    length b <= bsize /\ span_ok timeout 0 bsize b = true.
Proof.
  induction fuel as [|f IH]; intros timeout bsize ts b Ht Hb Hs Hi; cbn [batches_by_deadline] in Hi.
  - destruct Hi.
  - destruct ts as [|t0 rest]; [destruct Hi|].
    destruct (take_batch t0 timeout (pred bsize) rest) as [b' rem] eqn:T.
    destruct (take_batch_spec _ _ _ _ _ _ T) as [E1 [E2 E3]].
    inversion Hs as [|? ? Hs' Hall]; subst.
    destruct Hi as [<-|Hi].
    + assert (Hlo : forall t, In t b' -> (t0 <= t)%Z).
      { intros t Hin. rewrite Forall_forall in Hall. apply Hall. apply in_or_app; left; exact Hin. }
      assert (Hin2 : forall t, In t (t0 :: b') -> (t0 <= t <= t0 + timeout)%Z).
      { intros t [<-|Hin]; [lia|]. specialize (Hlo t Hin). specialize (E3 t Hin). lia. }
      exists t0, b'. split; [reflexivity|].
      split; [intros t Hin; split; [apply Hlo; exact Hin|apply E3; exact Hin]|].
      split; [exact Hin2|].
      split; [simpl; lia|].
      unfold span_ok. apply andb_true_iff. split.
      * apply forallb_forall. intros t Hin. specialize (Hin2 t Hin).
        apply andb_true_iff. split; apply Z.leb_le; lia.
      * apply Nat.leb_le. simpl; lia.
    + apply (IH timeout bsize rem b Ht Hb); [eapply StronglySorted_app_r; exact Hs'|exact Hi].
Qed.

(* With timeout = 0 the conclusion fails for the opening message itself (t0 < t0 + 0 is
   false): the hypothesis 0 <= timeout is not enough, 0 < timeout is needed. *)
Lemma C08_timeout_counts_from_opening_zero_refuted :
  ~ (forall fuel timeout bsize ts b,
      (0 <= timeout)%Z -> 1 <= bsize -> StronglySorted Z.le ts ->
      In b (batches_by_deadline fuel timeout bsize ts) ->
      exists t0 rest, b = t0 :: rest /\
        (forall t, In t b -> (t0 <= t < t0 + timeout)%Z) /\
        length b <= bsize /\ span_ok timeout 0 bsize b = true).
Proof.
  intros H.
  destruct (H 1 0%Z 1 [0%Z] [0%Z]) as [t0 [rest [E [H1 _]]]].
  - lia.
  - lia.
  - repeat constructor.
  - simpl. left; reflexivity.
  - inversion E; subst. specialize (H1 0%Z (or_introl eq_refl)). lia.
Qed.
