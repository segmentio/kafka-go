(* Proofs/GroupBalancersRange.v — what the three group balancers share: [exact_partition],
   [even_loads], AssignGroups as the [lift] of a per-topic function, balancers selecting by
   member index; RangeGroupBalancer as the first instance *)
From Coq Require Import List NArith ZArith Bool Arith Lia Permutation Sorted.
From KV Require Import Model.GroupBalancers Proofs.GroupBalancersBase.
Import ListNotations.

Definition topic_parts (a : list triple) (t : bytes) : list Z :=
  flat_map (fun tr => if bytes_eqb (snd (fst tr)) t then snd tr else []) a.
Definition tkeys (a : list triple) : list (bytes * bytes) := map fst a.

(* [topic_parts] and [assigned] both concatenate the partition lists of the entries that
   pass a test on the key *)
Definition pick (q : triple -> bool) (a : list triple) : list Z :=
  flat_map (fun tr => if q tr then snd tr else []) a.

Lemma pick_app q a b : pick q (a ++ b) = pick q a ++ pick q b.
Proof. apply flat_map_app. Qed.

Lemma pick_none q a : (forall tr, In tr a -> q tr = false) -> pick q a = [].
Proof.
  induction a as [|tr a IH]; intros H; [reflexivity|]. cbn [pick flat_map].
  rewrite (H tr (or_introl eq_refl)). apply IH. intros; apply H; right; assumption.
Qed.

Lemma pick_every q a : (forall tr, In tr a -> q tr = true) -> pick q a = concat (map snd a).
Proof.
  induction a as [|tr a IH]; intros H; [reflexivity|]. cbn [pick flat_map map concat].
  rewrite (H tr (or_introl eq_refl)). f_equal. apply IH. intros; apply H; right; assumption.
Qed.

Lemma assigned_app a b id t : assigned (a ++ b) id t = assigned a id t ++ assigned b id t.
Proof. apply pick_app. Qed.

Lemma assigned_notin a id t : (forall tr, In tr a -> fst (fst tr) <> id) -> assigned a id t = [].
Proof. intros H. apply pick_none. intros tr Htr. rewrite (bytes_eqb_neq _ _ (H tr Htr)). reflexivity. Qed.

Lemma assigned_cons tr a id t :
  assigned (tr :: a) id t =
  (if bytes_eqb (fst (fst tr)) id && bytes_eqb (snd (fst tr)) t then snd tr else []) ++ assigned a id t.
Proof. reflexivity. Qed.

(* the output is a map keyed by (member, topic), every key is a subscription of a listed
   member, and what is assigned for a topic is exactly its listed partitions (as a multiset)
   when somebody subscribes to it, nothing otherwise *)
Definition exact_partition (ms : list member) (ps : list partition) (a : list triple) : Prop :=
  NoDup (tkeys a) /\
  (forall tr, In tr a ->
     exists m, In m ms /\ m_id m = fst (fst tr) /\ In (snd (fst tr)) (m_topics m)) /\
  (forall t, Permutation (topic_parts a t)
                         (if existsb (subscribes t) ms then find_partitions t ps else [])).

(* per topic: every subscriber holds floor(P/M) or floor(P/M)+1 partitions, so any two
   subscribers differ by at most one *)
Definition even_loads (ms : list member) (ps : list partition) (a : list triple) : Prop :=
  forall t m1 m2, In m1 ms -> In m2 ms -> In t (m_topics m1) -> In t (m_topics m2) ->
    let P := length (find_partitions t ps) in
    let M := length (filter (subscribes t) ms) in
    length (assigned a (m_id m1) t) <= length (assigned a (m_id m2) t) + 1 /\
    P / M <= length (assigned a (m_id m1) t) <= P / M + 1.

Lemma even_loads_intro ms ps a :
  (forall t m, In m ms -> In t (m_topics m) ->
     let P := length (find_partitions t ps) in
     let M := length (filter (subscribes t) ms) in
     P / M <= length (assigned a (m_id m) t) <= P / M + 1) ->
  even_loads ms ps a.
Proof.
  intros H t m1 m2 I1 I2 T1 T2 P M.
  pose proof (H t m1 I1 T1) as B1. pose proof (H t m2 I2 T2) as B2.
  cbv zeta in B1, B2. fold P M in B1, B2. lia.
Qed.

Definition bucket (ms : list member) (t : bytes) (mems : list member) : Prop :=
  Permutation mems (filter (subscribes t) ms).

Lemma bucket_ids_nd ms t mems : NoDup (map m_id ms) -> bucket ms t mems -> NoDup (map m_id mems).
Proof.
  intros H Hb. eapply Permutation_NoDup; [apply Permutation_map, Permutation_sym, Hb|].
  apply NoDup_map_filter, H.
Qed.

Section Lift.
Variable G : bytes -> list member -> list triple.
Hypothesis G_topic : forall t mems tr, In tr (G t mems) -> snd (fst tr) = t.
Hypothesis G_nil : forall t, G t [] = [].

Definition lift (mbt : amap member) : list triple :=
  flat_map (fun e => G (fst e) (snd e)) mbt.

Lemma lift_topic mbt tr : In tr (lift mbt) -> In (snd (fst tr)) (akeys mbt).
Proof.
  unfold lift. rewrite in_flat_map. intros [[k l] [H1 H2]]. cbn [fst snd] in H2.
  apply G_topic in H2. rewrite H2. apply (in_map fst) in H1. exact H1.
Qed.

Lemma pick_lift q t mbt : (forall tr, q tr = true -> snd (fst tr) = t) -> NoDup (akeys mbt) ->
  pick q (lift mbt) = pick q (G t (aget t mbt)).
Proof.
  intros Hq. assert (Hno : forall a, (forall tr, In tr a -> snd (fst tr) <> t) -> pick q a = []).
  { intros a Ha. apply pick_none. intros tr Htr. destruct (q tr) eqn:E; [|reflexivity].
    destruct (Ha tr Htr (Hq tr E)). }
  unfold akeys. induction mbt as [|[k l] r IH]; cbn [lift flat_map aget map fst snd]; intros Hnd.
  - rewrite G_nil. reflexivity.
  - apply NoDup_cons_iff in Hnd; destruct Hnd as [Hk Hr]. fold (lift r). rewrite pick_app.
    destruct (bytes_eqb_spec t k) as [->|N0].
    + rewrite (Hno (lift r)); [apply app_nil_r|].
      intros tr Htr E. apply Hk. rewrite <- E. apply lift_topic. exact Htr.
    + rewrite (Hno (G k l)); [apply IH; assumption|].
      intros tr Htr. rewrite (G_topic _ _ _ Htr). congruence.
Qed.

Lemma topic_parts_lift t mbt : NoDup (akeys mbt) ->
  topic_parts (lift mbt) t = concat (map snd (G t (aget t mbt))).
Proof.
  intros Hnd. transitivity (pick (fun tr => bytes_eqb (snd (fst tr)) t) (G t (aget t mbt))).
  - apply pick_lift; [|exact Hnd]. intros tr E. destruct (bytes_eqb_spec (snd (fst tr)) t); congruence.
  - apply pick_every. intros tr Htr. rewrite (G_topic _ _ _ Htr). apply bytes_eqb_refl.
Qed.

Lemma assigned_lift id t mbt : NoDup (akeys mbt) ->
  assigned (lift mbt) id t = assigned (G t (aget t mbt)) id t.
Proof.
  intros Hnd. apply pick_lift; [|exact Hnd]. intros tr E. apply andb_prop in E.
  destruct (bytes_eqb_spec (snd (fst tr)) t); [assumption|destruct E; discriminate].
Qed.

Lemma NoDup_tkeys_lift mbt : NoDup (akeys mbt) ->
  (forall k l, In (k, l) mbt -> NoDup (tkeys (G k l))) -> NoDup (tkeys (lift mbt)).
Proof.
  unfold akeys, tkeys. induction mbt as [|[k l] r IH]; cbn [lift flat_map map fst snd]; intros Hnd H.
  - constructor.
  - apply NoDup_cons_iff in Hnd; destruct Hnd as [Hk Hr]. fold (lift r). rewrite map_app. apply NoDup_app_intro.
    + apply (H k l). left. reflexivity.
    + apply IH; [assumption|]. intros k' l' Hin. apply H. right. exact Hin.
    + intros x Hx1 Hx2. apply in_map_iff in Hx1. destruct Hx1 as [tr1 [E1 Hx1]].
      apply in_map_iff in Hx2. destruct Hx2 as [tr2 [E2 Hx2]].
      apply G_topic in Hx1. apply lift_topic in Hx2.
      apply Hk. rewrite <- Hx1. rewrite E1, <- E2. exact Hx2.
Qed.

Lemma in_lift tr mbt : In tr (lift mbt) -> NoDup (akeys mbt) ->
  In tr (G (snd (fst tr)) (aget (snd (fst tr)) mbt)).
Proof.
  unfold lift. rewrite in_flat_map. intros [[k l] [H1 H2]] Hnd. cbn [fst snd] in H2.
  rewrite (G_topic _ _ _ H2). rewrite (aget_in k l mbt Hnd H1). exact H2.
Qed.
(* AssignGroups of all three balancers is [lift G mbt]; what is asked of [G] on a bucket of
   subscribers *)
Section LiftSpec.
Variables (ms : list member) (ps : list partition) (mbt : amap member).
Hypothesis mbt_nd : NoDup (akeys mbt).
Hypothesis mbt_bucket : forall t, bucket ms t (aget t mbt).

Lemma lift_exact_partition :
  (forall t mems, bucket ms t mems -> NoDup (tkeys (G t mems))) ->
  (forall t mems tr, bucket ms t mems -> In tr (G t mems) -> In (fst (fst tr)) (map m_id mems)) ->
  (forall t mems, bucket ms t mems -> mems <> [] ->
     Permutation (concat (map snd (G t mems))) (find_partitions t ps)) ->
  exact_partition ms ps (lift mbt).
Proof.
  intros Hkeys Hids Hparts. split; [|split].
  - apply NoDup_tkeys_lift; [exact mbt_nd|]. intros k l Hin.
    rewrite <- (aget_in k l mbt mbt_nd Hin). apply Hkeys, mbt_bucket.
  - intros tr Htr. apply in_lift in Htr; [|exact mbt_nd]. apply Hids in Htr; [|apply mbt_bucket].
    apply in_map_iff in Htr. destruct Htr as [m [E Hm]].
    apply (Permutation_in _ (mbt_bucket _)), filter_In in Hm. rewrite subscribes_iff in Hm.
    exists m. tauto.
  - intros t. rewrite topic_parts_lift by exact mbt_nd. rewrite existsb_filter.
    pose proof (mbt_bucket t) as Hb. unfold bucket in Hb.
    destruct (filter (subscribes t) ms) as [|m l] eqn:Ef.
    + apply Permutation_sym, Permutation_nil in Hb. rewrite Hb, G_nil. reflexivity.
    + apply Hparts; [apply mbt_bucket|]. intros E. rewrite E in Hb. apply Permutation_nil in Hb. discriminate.
Qed.

Lemma lift_even_loads :
  (forall t mems m, bucket ms t mems -> In m mems ->
     let P := length (find_partitions t ps) in
     P / length mems <= length (assigned (G t mems) (m_id m) t) <= P / length mems + 1) ->
  even_loads ms ps (lift mbt).
Proof.
  intros Hlen. apply even_loads_intro. intros t m Hm Ht P M.
  rewrite assigned_lift by exact mbt_nd. unfold M. rewrite <- (Permutation_length (mbt_bucket t)).
  apply Hlen; [apply mbt_bucket|].
  apply (Permutation_in _ (Permutation_sym (mbt_bucket t))), filter_In. rewrite subscribes_iff. tauto.
Qed.
End LiftSpec.
End Lift.

(* both balancers produce, per topic, (m_id m, topic, sel i) for the i-th member *)
Section Indexed.
Variable topic : bytes.
Variable sel : nat -> list Z.
Definition idx_topic (s : nat) (mems : list member) : list triple :=
  mapi_from (fun i m => (m_id m, topic, sel i)) s mems.

Lemma idx_topic_topic s mems tr : In tr (idx_topic s mems) -> snd (fst tr) = topic.
Proof.
  unfold idx_topic. revert s. induction mems as [|m mems IH]; intros s; cbn [mapi_from In]; [tauto|].
  intros [<-|H]; [reflexivity|]. eapply IH. exact H.
Qed.

Lemma idx_topic_tkeys s mems : tkeys (idx_topic s mems) = map (fun m => (m_id m, topic)) mems.
Proof.
  unfold idx_topic, tkeys. revert s. induction mems as [|m mems IH]; intros s; cbn [mapi_from map fst]; [reflexivity|].
  f_equal. apply IH.
Qed.

Lemma idx_topic_parts s mems :
  concat (map snd (idx_topic s mems)) = flat_map sel (seq s (length mems)).
Proof.
  unfold idx_topic. revert s. induction mems as [|m mems IH]; intros s;
    cbn [mapi_from map snd concat length seq flat_map]; [reflexivity|].
  f_equal. apply IH.
Qed.

Lemma idx_topic_in_id s mems tr : In tr (idx_topic s mems) ->
  exists m, In m mems /\ m_id m = fst (fst tr).
Proof.
  unfold idx_topic. revert s. induction mems as [|m l IH]; intros s; cbn [mapi_from In]; [tauto|].
  intros [<-|Hi]; [exists m; cbn; auto|]. destruct (IH _ Hi) as [m' [? ?]]. exists m'. auto.
Qed.

Lemma idx_topic_assigned s mems i m : NoDup (map m_id mems) -> nth_error mems i = Some m ->
  assigned (idx_topic s mems) (m_id m) topic = sel (s + i).
Proof.
  unfold idx_topic. revert s i. induction mems as [|x mems IH]; intros s i Hnd Hn.
  - destruct i; discriminate.
  - cbn [map] in Hnd. inversion Hnd; subst. cbn [mapi_from]. rewrite assigned_cons. cbn [fst snd].
    destruct i as [|i]; cbn [nth_error] in Hn.
    + inversion Hn; subst. rewrite !bytes_eqb_refl. cbn [andb].
      rewrite assigned_notin; [rewrite app_nil_r, Nat.add_0_r; reflexivity|].
      intros tr Htr E. apply H1. destruct (idx_topic_in_id _ _ _ Htr) as [m' [Hm' E']].
      rewrite <- E, <- E'. apply in_map, Hm'.
    + rewrite (bytes_eqb_neq (m_id x) (m_id m)).
      * cbn [andb app]. rewrite (IH (S s) i) by assumption. f_equal. lia.
      * intros E. apply H1. rewrite E. apply in_map. eapply nth_error_In. exact Hn.
Qed.
End Indexed.

(* l[lo:hi] *)
Definition slice (lo hi : nat) (l : list Z) : list Z := firstn (hi - lo) (skipn lo l).

Lemma select_range lo hi s l :
  select_from (fun j => (lo <=? j) && (j <? hi)) s l =
  firstn (hi - Nat.max lo s) (skipn (lo - s) l).
Proof.
  revert s. induction l as [|p t IH]; intros s; cbn [select_from].
  - rewrite skipn_nil, firstn_nil. reflexivity.
  - rewrite IH. destruct (Nat.leb_spec lo s); cbn [andb].
    + destruct (Nat.ltb_spec s hi).
      * replace (lo - s) with 0 by lia. replace (lo - S s) with 0 by lia. cbn [skipn].
        replace (hi - Nat.max lo s) with (S (hi - Nat.max lo (S s))) by lia. reflexivity.
      * replace (hi - Nat.max lo (S s)) with 0 by lia.
        replace (hi - Nat.max lo s) with 0 by lia. reflexivity.
    + replace (lo - s) with (S (lo - S s)) by lia. cbn [skipn].
      replace (Nat.max lo (S s)) with (Nat.max lo s) by lia. reflexivity.
Qed.

Lemma select_range0 lo hi l :
  select_from (fun j => (lo <=? j) && (j <? hi)) 0 l = slice lo hi l.
Proof. rewrite select_range. unfold slice. rewrite Nat.max_0_r, Nat.sub_0_r. reflexivity. Qed.

Lemma slice_app a b c l : a <= b -> b <= c -> slice a b l ++ slice b c l = slice a c l.
Proof.
  intros H1 H2. unfold slice.
  replace (skipn b l) with (skipn (b - a) (skipn a l)).
  - rewrite firstn_app_skipn. f_equal. lia.
  - rewrite skipn_skipn'. f_equal. lia.
Qed.

Lemma steps_mono (b : nat -> nat) n : (forall i, b i <= b (S i)) -> b 0 <= b n.
Proof. intros Hb. induction n as [|n IH]; [lia|]. etransitivity; [exact IH|apply Hb]. Qed.

Lemma slice_tiling (b : nat -> nat) l n : (forall i, b i <= b (S i)) ->
  flat_map (fun i => slice (b i) (b (S i)) l) (seq 0 n) = slice (b 0) (b n) l.
Proof.
  intros Hb. induction n as [|n IH].
  - cbn [seq flat_map]. unfold slice. rewrite Nat.sub_diag. reflexivity.
  - rewrite seq_S, flat_map_app, IH. cbn [flat_map plus]. rewrite app_nil_r.
    apply slice_app; [apply steps_mono, Hb|apply Hb].
Qed.

Lemma range_bounds_mono P M i : i * P / M <= S i * P / M.
Proof.
  destruct M as [|M]; [reflexivity|]. apply Nat.div_le_mono; lia.
Qed.

Lemma range_bounds_width P M i : 0 < M ->
  P / M <= S i * P / M - i * P / M <= P / M + 1.
Proof.
  intros HM.
  pose proof (Nat.div_mod_eq (i * P) M) as E1.
  pose proof (Nat.div_mod_eq (S i * P) M) as E2.
  pose proof (Nat.div_mod_eq P M) as E3.
  pose proof (Nat.mod_upper_bound (i * P) M ltac:(lia)) as B1.
  pose proof (Nat.mod_upper_bound (S i * P) M ltac:(lia)) as B2.
  pose proof (Nat.mod_upper_bound P M ltac:(lia)) as B3.
  set (q1 := i * P / M) in *. set (q2 := S i * P / M) in *. set (T := P / M) in *.
  set (r1 := (i * P) mod M) in *. set (r2 := (S i * P) mod M) in *. set (r := P mod M) in *.
  assert (E : M * q2 + r2 = M * q1 + r1 + M * T + r) by lia.
  split; nia.
Qed.

Lemma range_bounds_top P M i : 0 < M -> S i <= M -> S i * P / M <= P.
Proof.
  intros HM Hi. replace P with (M * P / M) at 2 by (rewrite Nat.mul_comm; apply Nat.div_mul; lia).
  apply Nat.div_le_mono; [lia|]. nia.
Qed.

Definition range_sel (parts : list Z) (mc i : nat) : list Z :=
  slice (i * length parts / mc) (S i * length parts / mc) parts.

Lemma mapi_from_ext {A B} (f g : nat -> A -> B) s l :
  (forall i a, f i a = g i a) -> mapi_from f s l = mapi_from g s l.
Proof.
  intros H. revert s. induction l as [|a l IH]; intros s; cbn [mapi_from]; [reflexivity|].
  rewrite H, IH. reflexivity.
Qed.

Lemma range_topic_idx topic mems parts :
  range_topic topic mems parts = idx_topic topic (range_sel parts (length mems)) 0 mems.
Proof.
  unfold range_topic, idx_topic, range_sel. apply mapi_from_ext.
  intros i m. rewrite select_range0. reflexivity.
Qed.

Lemma range_sel_all parts mc : 0 < mc ->
  flat_map (range_sel parts mc) (seq 0 mc) = parts.
Proof.
  intros H. unfold range_sel.
  rewrite (slice_tiling (fun i => i * length parts / mc)) by (intros; apply range_bounds_mono).
  cbn [mult]. rewrite Nat.div_0_l by lia.
  replace (mc * length parts / mc) with (length parts) by (rewrite Nat.mul_comm, Nat.div_mul; lia).
  unfold slice. cbn [skipn]. rewrite Nat.sub_0_r. apply firstn_all.
Qed.

Lemma slice_length lo hi l : hi <= length l -> length (slice lo hi l) = hi - lo.
Proof.
  intros H. unfold slice. rewrite firstn_length, skipn_length. lia.
Qed.

Lemma range_sel_length parts mc i : i < mc ->
  length parts / mc <= length (range_sel parts mc i) <= length parts / mc + 1.
Proof.
  intros H. unfold range_sel. rewrite slice_length by (apply range_bounds_top; lia).
  apply range_bounds_width. lia.
Qed.

Lemma NoDup_akeys_fmbt ms : NoDup (akeys (find_members_by_topic ms)).
Proof.
  unfold find_members_by_topic. rewrite akeys_map_values. apply NoDup_akeys_group_by_topic.
Qed.

Lemma subscriber_index ms t m : In m ms -> In t (m_topics m) ->
  exists i, i < length (subscribers t ms) /\ nth_error (subscribers t ms) i = Some m.
Proof.
  intros Hm Ht. assert (Hs : In m (subscribers t ms)) by (apply in_subscribers; tauto).
  apply In_nth_error in Hs. destruct Hs as [i Hi]. exists i. split; [|exact Hi].
  apply nth_error_Some. congruence.
Qed.

Section IndexedBalancer.
Variable sel : list Z -> nat -> nat -> list Z.   (* parts, member count, member index *)
Hypothesis sel_all : forall parts mc, 0 < mc ->
  Permutation (flat_map (sel parts mc) (seq 0 mc)) parts.
Hypothesis sel_len : forall parts mc i, i < mc ->
  length parts / mc <= length (sel parts mc i) <= length parts / mc + 1.

Definition ib_topic (ps : list partition) (t : bytes) (mems : list member) : list triple :=
  idx_topic t (sel (find_partitions t ps) (length mems)) 0 mems.
Definition ib_assign (ms : list member) (ps : list partition) : list triple :=
  lift (ib_topic ps) (find_members_by_topic ms).

Lemma ib_topic_topic ps t mems tr : In tr (ib_topic ps t mems) -> snd (fst tr) = t.
Proof. apply idx_topic_topic. Qed.
Lemma ib_topic_nil ps t : ib_topic ps t [] = [].
Proof. reflexivity. Qed.

Lemma ib_assigned ms ps id t : wf_group ms ->
  assigned (ib_assign ms ps) id t = assigned (ib_topic ps t (subscribers t ms)) id t.
Proof.
  intros H. unfold ib_assign.
  rewrite (assigned_lift _ (ib_topic_topic ps) (ib_topic_nil ps)) by apply NoDup_akeys_fmbt.
  rewrite aget_find_members_by_topic by exact H. reflexivity.
Qed.

Lemma ib_assigned_nth ms ps t i m : wf_group ms -> nth_error (subscribers t ms) i = Some m ->
  assigned (ib_assign ms ps) (m_id m) t =
  sel (find_partitions t ps) (length (subscribers t ms)) i.
Proof.
  intros H Hn. rewrite ib_assigned by exact H. unfold ib_topic.
  rewrite (idx_topic_assigned _ _ 0 _ i m); [reflexivity| |exact Hn].
  apply NoDup_ids_subscribers. apply H.
Qed.

Lemma ib_order_independent ms ms' ps id t : wf_group ms -> Permutation ms ms' ->
  assigned (ib_assign ms ps) id t = assigned (ib_assign ms' ps) id t.
Proof.
  intros H Hp. rewrite !ib_assigned by (try exact H; eapply wf_group_perm; eassumption).
  rewrite (subscribers_perm t ms ms' H Hp). reflexivity.
Qed.

Lemma fmbt_bucket ms t : wf_group ms -> bucket ms t (aget t (find_members_by_topic ms)).
Proof. intros H. rewrite aget_find_members_by_topic by exact H. apply sort_members_perm. Qed.

Lemma ib_even ms ps : wf_group ms -> even_loads ms ps (ib_assign ms ps).
Proof.
  intros H. apply (lift_even_loads _ (ib_topic_topic ps) (ib_topic_nil ps));
    [apply NoDup_akeys_fmbt|intros; apply fmbt_bucket, H|].
  intros t mems m Hb Hm P. apply In_nth_error in Hm. destruct Hm as [i Hi]. unfold ib_topic.
  rewrite (idx_topic_assigned _ _ 0 mems i m (bucket_ids_nd ms t mems (proj1 H) Hb) Hi).
  cbn [plus]. apply sel_len, nth_error_Some. congruence.
Qed.

Lemma ib_partition ms ps : wf_group ms -> exact_partition ms ps (ib_assign ms ps).
Proof.
  intros H. apply (lift_exact_partition _ (ib_topic_topic ps) (ib_topic_nil ps));
    [apply NoDup_akeys_fmbt|intros; apply fmbt_bucket, H| | |]; unfold ib_topic.
  - intros t mems Hb. rewrite idx_topic_tkeys.
    apply NoDup_map_pair, (bucket_ids_nd ms t mems (proj1 H) Hb).
  - intros t mems tr _ Htr. apply idx_topic_in_id in Htr. destruct Htr as [m [Hm <-]].
    apply in_map, Hm.
  - intros t mems _ Hne. rewrite idx_topic_parts. apply sel_all.
    destruct mems; [congruence|cbn [length]; lia].
Qed.
End IndexedBalancer.

Lemma range_assign_ib ms ps : range_assign ms ps = ib_assign range_sel ms ps.
Proof.
  unfold range_assign, ib_assign, lift, ib_topic. apply flat_map_ext.
  intros [k l]. cbn [fst snd]. apply range_topic_idx.
Qed.
