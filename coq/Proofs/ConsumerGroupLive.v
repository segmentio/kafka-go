(* Proofs/ConsumerGroupLive.v — one live generation (mon_one_live), heartbeats (mon_heartbeat) and the
   order of a generation's end (mon_done) hold on every run. *)
From Coq Require Import List ZArith Bool Arith Lia ZifyNat ZifyBool.
From KV Require Import Model.ConsumerGroup Proofs.ConsumerGroupBase Proofs.ConsumerGroupAcc.
Import ListNotations.

Definition says (gs : list gen) (fs : list fn) (p : pcs) (e : event) : Prop :=
  match e with
  | HStart k f a => exists fn, nth_error fs f = Some fn /\ f_gen fn = k /\ f_acc fn = a
  | HFnRet _ i => exists f, nth_error fs i = Some f /\ f_st f <> FRunning
  | HNextRet _ j | HGenNew j _ => j < length gs
  | HDone k => exists g, nth_error gs k = Some g /\ g_done g = true
  | HRunExit _ _ => p = PExited
  | _ => True
  end.

(* hl_says: what each recorded event says; the other fields: which events must have been recorded *)
Record HL (gs : list gen) (fs : list fn) (p : pcs) (h : list event) : Prop := {
  hl_says : forall e, In e h -> says gs fs p e;
  hl_start' : forall i f, nth_error fs i = Some f -> In (HStart (f_gen f) i (f_acc f)) h;
  hl_ret' : forall i f, nth_error fs i = Some f -> f_st f <> FRunning -> In (HFnRet (f_gen f) i) h;
  hl_new' : forall k g, nth_error gs k = Some g -> In (HGenNew k (g_mid g)) h;
  hl_done' : forall k g, nth_error gs k = Some g -> g_done g = true -> In (HDone k) h }.

Definition gkeep (gs gs' : list gen) : Prop :=
  forall k g, nth_error gs k = Some g -> exists g', nth_error gs' k = Some g' /\ (g_done g = true -> g_done g' = true).

Definition fkeep (fs fs' : list fn) : Prop :=
  forall i f, nth_error fs i = Some f -> exists f', nth_error fs' i = Some f' /\
    f_gen f' = f_gen f /\ f_acc f' = f_acc f /\ (f_st f <> FRunning -> f_st f' <> FRunning).

Lemma gkeep_refl : forall gs, gkeep gs gs.
Proof. intros gs k g H. exists g. auto. Qed.

Lemma gkeep_upd : forall gs k g g', nth_error gs k = Some g -> (g_done g = true -> g_done g' = true) ->
  gkeep gs (upd k g' gs).
Proof.
  intros gs k g g' Hk D j x Hj. destruct (Nat.eq_dec k j) as [<-|N].
  - exists g'. assert (x = g) by congruence. subst x. split; [eapply nth_upd_eq; eauto|exact D].
  - exists x. rewrite nth_error_upd_other by exact N. auto.
Qed.

Lemma gkeep_lt : forall gs gs' j, gkeep gs gs' -> j < length gs -> j < length gs'.
Proof.
  intros gs gs' j K L. destruct (nth_error gs j) as [g|] eqn:E; [|apply nth_error_None in E; lia].
  destruct (K _ _ E) as (g' & E' & _). eapply nth_lt; eauto.
Qed.

Lemma fkeep_refl : forall fs, fkeep fs fs.
Proof. intros fs i f H. exists f. auto. Qed.

Lemma fkeep_snoc : forall fs x, fkeep fs (fs ++ [x]).
Proof. intros fs x i f H. exists f. split; [apply nth_snoc_old; exact H|auto]. Qed.

Lemma fkeep_upd : forall fs i f f', nth_error fs i = Some f -> f_gen f' = f_gen f -> f_acc f' = f_acc f ->
  (f_st f <> FRunning -> f_st f' <> FRunning) -> fkeep fs (upd i f' fs).
Proof.
  intros fs i f f' Hf Eg Ea Es j x Hj. destruct (Nat.eq_dec i j) as [<-|N].
  - exists f'. assert (x = f) by congruence. subst x. split; [eapply nth_upd_eq; eauto|auto].
  - exists x. rewrite nth_error_upd_other by exact N. auto.
Qed.

Lemma says_keep : forall gs fs p gs' fs' p' e, gkeep gs gs' -> fkeep fs fs' ->
  (p = PExited -> p' = PExited) -> says gs fs p e -> says gs' fs' p' e.
Proof.
  intros gs fs p gs' fs' p' e K F X H. destruct e; cbn in *; auto; try (eapply gkeep_lt; eassumption).
  - destruct H as (fn & E & A & B). destruct (F _ _ E) as (f' & E' & G & C & _).
    exists f'. repeat split; congruence.
  - destruct H as (f0 & E & N). destruct (F _ _ E) as (f' & E' & _ & _ & S). exists f'. auto.
  - destruct H as (g & E & D). destruct (K _ _ E) as (g' & E' & D'). exists g'. auto.
Qed.

Lemma HL_cons : forall gs fs p h e, HL gs fs p h -> says gs fs p e -> HL gs fs p (e :: h).
Proof. intros gs fs p h e [A B C D E] S. constructor; [intros e' [<-|I]; auto|intros; right; eauto..]. Qed.

Lemma HL_pc : forall gs fs p p' h, HL gs fs p h -> (p = PExited -> p' = PExited) -> HL gs fs p' h.
Proof.
  intros gs fs p p' h [A B C D E] X. constructor; eauto.
  intros e I. apply (says_keep gs fs p); [apply gkeep_refl|apply fkeep_refl|exact X|auto].
Qed.

Lemma boring_says : forall gs fs p e, boring e = true -> (ev_is_runexit e = true -> p = PExited) -> says gs fs p e.
Proof. intros gs fs p [] B X; try discriminate B; cbn; auto. Qed.

Lemma HL_ext : forall gs fs p s' h h', HL gs fs p h -> (p = PExited -> pc s' = PExited) ->
  ext (evP s') h h' -> HL gs fs (pc s') h'.
Proof.
  intros gs fs p s' h h' H X E. induction E as [|e h' [Pb Pr] _ IH].
  - eapply HL_pc; eauto.
  - apply HL_cons; [exact IH|apply boring_says; assumption].
Qed.

Lemma HL_gen_upd : forall gs fs p h h' k g g', HL gs fs p h -> nth_error gs k = Some g ->
  g_mid g' = g_mid g -> (g_done g = true -> g_done g' = true) ->
  ((h' = h /\ (g_done g' = true -> g_done g = true)) \/ (h' = HDone k :: h /\ g_done g' = true)) ->
  HL (upd k g' gs) fs p h'.
Proof.
  intros gs fs p h h' k g g' [A B C D E] Hk Em Dm Hh.
  assert (K : forall e, In e h -> says (upd k g' gs) fs p e).
  { intros e I. apply (says_keep gs fs p); [eapply gkeep_upd; eauto|apply fkeep_refl|auto|auto]. }
  assert (Inc : forall e, In e h -> In e h').
  { destruct Hh as [[-> _]|[-> _]]; intros; [assumption|right; assumption]. }
  constructor; auto.
  - destruct Hh as [[-> _]|[-> X]]; [exact K|]. intros e [<-|I]; [|auto].
    exists g'. split; [eapply nth_upd_eq; eauto|exact X].
  - intros j x Hj. apply Inc.
    destruct (nth_upd_cases _ _ _ _ _ _ _ Hk Hj) as [[-> ->]|[N Hj']]; [rewrite Em|]; eauto.
  - intros j x Hj Dx.
    destruct (nth_upd_cases _ _ _ _ _ _ _ Hk Hj) as [[-> ->]|[N Hj']]; [|apply Inc; eauto].
    destruct Hh as [[-> X]|[-> X]]; [eauto|left; reflexivity].
Qed.

Lemma HL_close : forall gs fs p h k g g', HL gs fs p h -> nth_error gs k = Some g ->
  g_closed g = g_done g -> g_mid g' = g_mid g -> g_done g' = true ->
  HL (upd k g' gs) fs p (if g_closed g then h else HDone k :: h).
Proof.
  intros gs fs p h k g g' H Hk A Em D. apply (HL_gen_upd gs fs p h _ k g); auto.
  destruct (g_closed g); [left|right]; auto.
Qed.

Lemma HL_start_gens : forall gs fs p h k g, HL gs fs p h -> nth_error gs k = Some g ->
  HL (start_gens k g gs) fs p h.
Proof.
  intros gs fs p h k g H Hk. unfold start_gens. destruct (g_closed g); [exact H|].
  apply (HL_gen_upd gs fs p h h k g); auto.
Qed.

Lemma HL_start : forall gs fs p h k kd a, HL gs fs p h ->
  HL gs (fs ++ [mkfn k kd a FRunning false]) p (HStart k (length fs) a :: h).
Proof.
  intros gs fs p h k kd a [A B C D E]. constructor.
  - intros e [<-|I]; [eexists; split; [apply nth_snoc_new|split; reflexivity]|].
    apply (says_keep gs fs p); [apply gkeep_refl|apply fkeep_snoc|auto|auto].
  - intros i f Hf. apply nth_snoc in Hf. destruct Hf as [Hf|[-> ->]]; [right; eauto|left; reflexivity].
  - intros i f Hf N. apply nth_snoc in Hf. destruct Hf as [Hf|[-> ->]]; [right; eauto|].
    exfalso. apply N. reflexivity.
  - intros; right; eauto.
  - intros; right; eauto.
Qed.

Lemma HL_newgen : forall gs fs p h m, HL gs fs p h ->
  HL (gs ++ [new_gen m]) fs p (HGenNew (length gs) m :: h).
Proof.
  intros gs fs p h m [A B C D E].
  assert (K : gkeep gs (gs ++ [new_gen m])).
  { intros k g Hk. exists g. split; [apply nth_snoc_old; exact Hk|auto]. }
  constructor.
  - intros e [<-|I]; [cbn; rewrite app_length, Nat.add_1_r; apply Nat.lt_succ_diag_r|].
    apply (says_keep gs fs p); [exact K|apply fkeep_refl|auto|auto].
  - intros; right; eauto.
  - intros; right; eauto.
  - intros k g Hk. apply nth_snoc in Hk. destruct Hk as [Hk|[-> ->]]; [right; eauto|left; reflexivity].
  - intros k g Hk Dg. apply nth_snoc in Hk. destruct Hk as [Hk|[-> ->]]; [right; eauto|discriminate Dg].
Qed.

Lemma HL_fn_upd : forall gs fs p h h' i f f', HL gs fs p h -> nth_error fs i = Some f ->
  f_gen f' = f_gen f -> f_acc f' = f_acc f ->
  (f_st f <> FRunning -> f_st f' <> FRunning) ->
  ((h' = h /\ (f_st f' <> FRunning -> f_st f <> FRunning)) \/
   (h' = HFnRet (f_gen f) i :: h /\ f_st f' <> FRunning)) ->
  HL gs (upd i f' fs) p h'.
Proof.
  intros gs fs p h h' i f f' [A B C D E] Hf Eg Ea Hs Hh.
  assert (K : forall e, In e h -> says gs (upd i f' fs) p e).
  { intros e I. apply (says_keep gs fs p); [apply gkeep_refl|eapply fkeep_upd; eauto|auto|auto]. }
  assert (Inc : forall e, In e h -> In e h').
  { destruct Hh as [[-> _]|[-> _]]; intros; [assumption|right; assumption]. }
  constructor.
  - destruct Hh as [[-> _]|[-> X]]; [exact K|]. intros e [<-|I]; [|auto].
    exists f'. split; [eapply nth_upd_eq; eauto|exact X].
  - intros j x Hj. apply Inc.
    destruct (nth_upd_cases _ _ _ _ _ _ _ Hf Hj) as [[-> ->]|[N Hj']]; [rewrite Eg, Ea|]; eauto.
  - intros j x Hj N.
    destruct (nth_upd_cases _ _ _ _ _ _ _ Hf Hj) as [[-> ->]|[N' Hj']]; [|apply Inc; eauto].
    rewrite Eg. destruct Hh as [[-> X]|[-> X]]; [apply C; auto|left; reflexivity].
  - intros; apply Inc; eauto.
  - intros; apply Inc; eauto.
Qed.

Definition HLs (s : state) : Prop := HL (gens s) (fns s) (pc s) (hist s).

Lemma HL_shape : forall s l s', shape s l s' -> Inv s -> HLs s -> HLs s'.
Proof.
  unfold HLs. intros s l s' Sh [P [H1 H2] B] H. inv_shape Sh; rewrite ?Hg, ?Hf.
  - (* inert *) eapply HL_ext; eauto.
  - (* newgen *) rewrite Hh, Hpc'. eapply HL_pc; [apply HL_newgen; apply HL_cons; [exact H|exact I]|].
    rewrite Hpc. discriminate.
  - (* Start *) rewrite Hh. fold (start_gens k g (gens s)).
    eapply HL_pc; [apply HL_start_gens; [apply HL_start; exact H|exact Hk]|].
    destruct Hctx as [(_ & _ & E) | [(_ & _ & E & _) | (_ & _ & n & E & _)]]; rewrite E; try discriminate; auto.
  - (* publish *) rewrite Hh. eapply HL_pc; [eapply (HL_gen_upd _ _ _ _ _ _ g); [apply HL_cons; [exact H|]|exact Hk|reflexivity|auto|left; auto]|].
    + cbn. eapply nth_lt; eauto.
    + rewrite Hpc. discriminate.
  - (* close *) destruct (H2 _ _ Hk) as (A & _).
    eapply HL_ext; [apply HL_close; [exact H|exact Hk|exact A|apply cg_mid|apply cg_gdone; exact A]| |exact Hh].
    rewrite Hpc. discriminate.
  - (* joined *) eapply HL_ext; eauto. rewrite Hpc. discriminate.
  - (* return *) rewrite Hpc. destruct Hh as [Hh|(_ & g & Eg & Hh)]; rewrite Hh.
    + eapply HL_fn_upd; [exact H|exact Hi|reflexivity|reflexivity|intro X; congruence|].
      right. split; [reflexivity|]. cbn [f_set_st f_st]. destruct (f_acc f); discriminate.
    + eapply (HL_fn_upd _ _ _ (HHeartbeat (f_gen f) i (g_mid g) :: hist s));
        [apply HL_cons; [exact H|exact I]|exact Hi
                        |reflexivity|reflexivity|intro X; congruence|].
      right. split; [reflexivity|]. cbn [f_set_st f_st]. destruct (f_acc f); discriminate.
  - (* heartbeat *) rewrite Hh, Hpc. apply HL_cons; [exact H|exact I].
  - (* init *) rewrite Hh, Hpc. eapply HL_fn_upd; [exact H|exact Hi|reflexivity|reflexivity|auto|].
    left. split; [reflexivity|auto].
  - (* handler *) destruct (H2 _ _ Hk) as (A & _). rewrite Hpc.
    eapply (HL_fn_upd _ _ _ (hist s') (hist s')); [|exact Hi|reflexivity|reflexivity|cbn [f_set_st f_st]; discriminate|].
    + assert (X : HL (upd (f_gen f) (dec_gen (closed_gen g)) (gens s)) (fns s) (pc s)
                     (if g_closed g then hist s else HDone (f_gen f) :: hist s)).
      { apply HL_close; [exact H|exact Hk|exact A|apply cg_mid|apply cg_gdone; exact A]. }
      rewrite Hh. destruct (g_routines g - 1 =? 0)%Z, (g_closed g); cbn [app];
        try (apply HL_cons; [|exact I]); exact X.
    + left. split; [reflexivity|]. intros _. rewrite Hst. discriminate.
Qed.

Lemma HLs_init : forall w, HLs (init w).
Proof.
  intro w. constructor; cbn; try (intros; contradiction); intros [|i] f H; discriminate H.
Qed.

Lemma negb_existsb : forall A (p : A -> bool) l,
  (forall e, In e l -> p e = true -> False) -> negb (existsb p l) = true.
Proof.
  intros A p l H. destruct (existsb p l) eqn:E; [|reflexivity].
  apply existsb_exists in E. destruct E as (e & I & X). exfalso. eauto.
Qed.

Lemma hb_chk : forall s i f g, Inv s -> HLs s ->
  nth_error (fns s) i = Some f -> f_st f = FRunning -> is_hb f = true ->
  nth_error (gens s) (f_gen f) = Some g ->
  chk_heartbeat (HHeartbeat (f_gen f) i (g_mid g)) (hist s) = true.
Proof.
  intros s i f g Iv L Hf Hs Hb Hk.
  assert (Ha : f_acc f = true) by (apply (ctl_acc _ _ _ (inv_ctl _ Iv) f); [eapply nth_error_In; eauto|exact Hb]).
  assert (Lv : live_of (f_gen f) f = true) by (apply live_self; [exact Ha|rewrite Hs; discriminate]).
  destruct (live_fn_is_cur s i f Iv Hf Lv) as [Q Kc]. unfold cur in Kc.
  unfold chk_heartbeat. repeat (apply andb_true_iff; split).
  - apply existsb_exists. exists (HStart (f_gen f) i true). split.
    + rewrite <- Ha. apply (hl_start' _ _ _ _ L). exact Hf.
    + cbn. rewrite !Nat.eqb_refl. reflexivity.
  - apply negb_existsb. intros e I X. destruct e; try discriminate X. cbn in X.
    apply andb_true_iff in X. destruct X as [X1 X2]. apply Nat.eqb_eq in X1, X2. subst.
    destruct (hl_says _ _ _ _ L _ I) as (fx & E0 & N). congruence.
  - apply existsb_exists. exists (HGenNew (f_gen f) (g_mid g)). split.
    + apply (hl_new' _ _ _ _ L). exact Hk.
    + cbn. rewrite !Nat.eqb_refl. reflexivity.
  - apply negb_existsb. intros e I X. destruct e; try discriminate X. cbn in X.
    apply Nat.ltb_lt in X. apply (hl_says _ _ _ _ L) in I. cbn in I. clear - Kc X I. lia.
  - apply negb_existsb. intros e I X. destruct e; try discriminate X. cbn in X.
    apply Nat.ltb_lt in X. apply (hl_says _ _ _ _ L) in I. cbn in I. clear - Kc X I. lia.
  - apply negb_existsb. intros e I X. destruct e; try discriminate X.
    apply (hl_says _ _ _ _ L) in I. cbn in I. rewrite I in Q. discriminate Q.
Qed.

Lemma start_chk : forall s k g, Inv s -> HLs s -> nth_error (gens s) k = Some g -> g_closed g = false ->
  negb (existsb (ev_is_nextret_above k) (hist s)) = true.
Proof.
  intros s k g Iv L Hk Hc. apply negb_existsb. intros e I X.
  destruct e; try discriminate X. cbn in X. apply Nat.ltb_lt in X.
  apply (hl_says _ _ _ _ L) in I. cbn in I.
  destruct (open_gen_is_cur s k g Iv Hk (or_introl Hc)) as [_ Kc]. unfold cur in Kc. lia.
Qed.

Lemma next_chk : forall s n, Inv s -> HLs s -> pc s = PPublish ->
  chk_one_live (HNextRet n (cur s)) (hist s) = true.
Proof.
  intros s n Iv L Epc. cbn [chk_one_live]. apply forallb_forall. intros e I.
  destruct e; try reflexivity. destruct acc; [|reflexivity].
  destruct (Nat.ltb_spec k (cur s)) as [Lt|Ge]; [|reflexivity].
  destruct (hl_says _ _ _ _ L _ I) as (fn & Ef & Eg & Ea).
  assert (Lv : live_of k fn = false).
  { destruct (live_of k fn) eqn:Lv; [|reflexivity]. rewrite <- Eg in Lv.
    destruct (live_fn_is_cur s f fn Iv Ef Lv) as [_ X]. lia. }
  unfold live_of, acc_of in Lv. rewrite Eg, Nat.eqb_refl, Ea in Lv. cbn [andb] in Lv.
  apply existsb_exists. exists (HFnRet k f). split.
  - rewrite <- Eg. apply (hl_ret' _ _ _ _ L _ _ Ef). destruct (f_st fn); discriminate.
  - cbn. rewrite !Nat.eqb_refl. reflexivity.
Qed.

Definition Mon (s : state) : Prop := mon_one_live (hist s) = true /\ mon_heartbeat (hist s) = true.

Lemma Mon_ext : forall s' h h', ext (evP s') h h' ->
  mon_one_live h = true /\ mon_heartbeat h = true ->
  mon_one_live h' = true /\ mon_heartbeat h' = true.
Proof.
  intros s' h h' E M. induction E as [|e h' [Pb _] _ [IH1 IH2]]; [exact M|].
  cbn [mon_one_live mon_heartbeat]. rewrite IH1, IH2.
  destruct e; try discriminate Pb; split; reflexivity.
Qed.

Lemma Mon_shape : forall s l s', shape s l s' -> Inv s -> HLs s -> Mon s -> Mon s'.
Proof.
  unfold Mon. intros s l s' Sh Iv L [M1 M2]. inv_shape Sh.
  - (* inert *) eapply Mon_ext; eauto.
  - (* newgen *) rewrite Hh. cbn. rewrite M1, M2. split; reflexivity.
  - (* Start *) rewrite Hh. cbn [mon_one_live mon_heartbeat chk_heartbeat]. rewrite M1, M2.
    split; [|reflexivity]. rewrite andb_true_r.
    destruct (g_closed g) eqn:Ec; cbn [negb chk_one_live]; [reflexivity|].
    eapply start_chk; eauto.
  - (* publish *) rewrite Hh. cbn [mon_one_live mon_heartbeat chk_heartbeat]. rewrite M1, M2.
    split; [|reflexivity]. rewrite andb_true_r. apply next_chk; assumption.
  - (* close *) eapply Mon_ext; [exact Hh|]. destruct (g_closed g); [auto|].
    cbn. rewrite M1, M2. split; reflexivity.
  - (* joined *) eapply Mon_ext; eauto.
  - (* return *) destruct Hh as [Hh|(Hb & g & Eg & Hh)]; rewrite Hh.
    + cbn. rewrite M1, M2. split; reflexivity.
    + cbn [mon_one_live mon_heartbeat]. rewrite M1, M2.
      rewrite (hb_chk s i f g) by auto. cbn. split; reflexivity.
  - (* heartbeat *) rewrite Hh. cbn [mon_one_live mon_heartbeat]. rewrite M1, M2.
    rewrite (hb_chk s i f g) by auto. cbn. split; reflexivity.
  - (* init *) rewrite Hh. auto.
  - (* handler *) rewrite Hh. destruct (g_routines g - 1 =? 0)%Z, (g_closed g); cbn; rewrite M1, M2; split; reflexivity.
Qed.

Lemma mon_one_live_spec : forall h, mon_one_live h = true ->
  forall post n j pre, h = post ++ HNextRet n j :: pre ->
  forall k f, k < j -> In (HStart k f true) h -> In (HFnRet k f) pre.
Proof.
  intros h M post. revert h M. induction post as [|e post IH]; intros h M n j pre E k f Lt I; subst h.
  - cbn [app mon_one_live chk_one_live] in M. apply andb_true_iff in M. destruct M as [C _].
    destruct I as [I|I]; [discriminate I|].
    rewrite forallb_forall in C. specialize (C _ I). cbv beta iota in C.
    apply Nat.ltb_lt in Lt. rewrite Lt in C.
    apply existsb_exists in C. destruct C as (e & Ie & X). destruct e; try discriminate X.
    cbn in X. apply andb_true_iff in X. destruct X as [X1 X2]. apply Nat.eqb_eq in X1, X2. subst. exact Ie.
  - cbn [app mon_one_live] in M. apply andb_true_iff in M. destruct M as [C M].
    cbn [app] in I. destruct I as [I|I].
    + subst e. cbn [chk_one_live] in C. exfalso.
      apply negb_true_iff in C. assert (X : existsb (ev_is_nextret_above k) (post ++ HNextRet n j :: pre) = true).
      { apply existsb_exists. exists (HNextRet n j). split; [apply in_or_app; right; left; reflexivity|].
        cbn. apply Nat.ltb_lt. exact Lt. }
      congruence.
    + eapply IH; eauto.
Qed.

Lemma done_in : forall gs fs p h k g, HL gs fs p h -> nth_error gs k = Some g -> g_done g = true ->
  existsb (ev_is_done k) h = true.
Proof.
  intros gs fs p h k g L Hk D. apply existsb_exists. exists (HDone k).
  split; [exact (hl_done' _ _ _ _ L _ _ Hk D)|]. cbn. apply Nat.eqb_refl.
Qed.

Lemma done_notin : forall gs fs p h k g, HL gs fs p h -> nth_error gs k = Some g -> g_done g = false ->
  negb (existsb (ev_is_done k) h) = true.
Proof.
  intros gs fs p h k g L Hk D. apply negb_existsb. intros e I X. destruct e; try discriminate X.
  cbn in X. apply Nat.eqb_eq in X. subst. destruct (hl_says _ _ _ _ L _ I) as (g0 & E0 & D0). congruence.
Qed.

Lemma Done_ext : forall s' h h', ext (evP s') h h' -> mon_done h = true -> mon_done h' = true.
Proof.
  intros s' h h' E M. induction E as [|e h' [Pb _] _ IH]; [exact M|].
  cbn [mon_done]. rewrite IH. destruct e; try discriminate Pb; reflexivity.
Qed.

Lemma Done_shape : forall s l s', shape s l s' -> Inv s -> HLs s -> mon_done (hist s) = true ->
  mon_done (hist s') = true.
Proof.
  unfold HLs. intros s l s' Sh [P [H1 H2] B] H M. inv_shape Sh.
  - (* inert *) eapply Done_ext; eauto.
  - (* newgen *) rewrite Hh. cbn [mon_done chk_done]. rewrite M, !andb_true_r.
    apply forallb_forall. intros k I. apply in_seq in I.
    destruct (nth_error (gens s) k) as [gk|] eqn:Ek; [|apply nth_error_None in Ek; lia].
    rewrite Hpc in B. destruct (ctl_q _ _ _ B eq_refl _ _ Ek) as [C _].
    destruct (H2 _ _ Ek) as (A & _). cbn [existsb ev_is_done orb].
    eapply done_in; [exact H|eassumption|congruence].
  - (* Start *) rewrite Hh. cbn [mon_done]. rewrite M, andb_true_r.
    destruct (g_closed g) eqn:Ec; cbn [negb chk_done]; [|reflexivity].
    destruct (H2 _ _ Hk) as (A & _). eapply done_in; [exact H|eassumption|congruence].
  - (* publish *) rewrite Hh. cbn. exact M.
  - (* close *) eapply Done_ext; [exact Hh|]. destruct (g_closed g) eqn:Ec; [exact M|].
    cbn [mon_done chk_done]. rewrite M, andb_true_r.
    destruct (H2 _ _ Hk) as (A & _). eapply done_notin; [exact H|eassumption|congruence].
  - (* joined *) eapply Done_ext; eauto.
  - (* return *) destruct Hh as [Hh|(_ & g & Eg & Hh)]; rewrite Hh; cbn; exact M.
  - (* heartbeat *) rewrite Hh. cbn. exact M.
  - (* init *) rewrite Hh. exact M.
  - (* handler *) destruct (H2 _ _ Hk) as (A & _). rewrite Hh.
    destruct (g_routines g - 1 =? 0)%Z, (g_closed g) eqn:Ec; cbn [app mon_done chk_done]; rewrite M, ?andb_true_r.
    + eapply done_in; [exact H|eassumption|congruence].
    + cbn [existsb ev_is_done]. rewrite Nat.eqb_refl. cbn [orb andb].
      eapply done_notin; [exact H|eassumption|congruence].
    + reflexivity.
    + eapply done_notin; [exact H|eassumption|congruence].
Qed.

Record Full (s : state) : Prop := {
  full_inv : Inv s; full_hl : HLs s; full_mon : Mon s; full_done : mon_done (hist s) = true }.

Lemma Full_run : forall w ls s, run (init w) ls = Some s -> Full s.
Proof.
  intros w ls s H. eapply (inv_run Full); [| |exact H].
  - constructor; [apply Inv_init|apply HLs_init|split; reflexivity|reflexivity].
  - intros s1 l s2 [I L M Dn] E. pose proof (Inv_step _ _ _ I E) as I'.
    apply step_shape in E. rename E into Sh.
    constructor; [exact I'|eapply HL_shape|eapply Mon_shape|eapply Done_shape]; eauto.
Qed.

Theorem one_live_holds : forall w ls s, run (init w) ls = Some s -> mon_one_live (hist s) = true.
Proof. intros w ls s H. exact (proj1 (full_mon _ (Full_run w ls s H))). Qed.

Theorem heartbeat_holds : forall w ls s, run (init w) ls = Some s -> mon_heartbeat (hist s) = true.
Proof. intros w ls s H. exact (proj2 (full_mon _ (Full_run w ls s H))). Qed.
