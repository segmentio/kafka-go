(* Proofs/ConnOpsProofs.v — alignment (C11) and truncation (C17, Conn half) of conn_do. *)
From Coq Require Import List NArith ZArith Bool Lia.
From Coq Require Import ZifyN ZifyNat ZifyBool.
From KV Require Import Lib.Bits Lib.Bytes Model.Legacy Model.ConnOps.
From KV Require Import Proofs.ConnOpsBase Proofs.ConnOpsCodec.
Import ListNotations.
Open Scope Z_scope.

(* the errors the parsers raise themselves, besides the codes reported by the broker *)
Definition parse_err (e : err) : bool :=
  match e with EShort | EFmt _ | EUnmodelled | EPanic => true | _ => false end.

(* every response reader of ConnOps is a [reader]: by its syntax, one constructor or derived
   lemma per combinator (found by auto once the definition is unfolded; the lemmas of this section
   are handed to auto as hypotheses) *)
Section Readers.
  Variable C : err -> bool.
  Hypothesis HC : forall e, parse_err e = true -> C e = true.
  Local Hint Constructors reader : core.
  Local Hint Resolve reader_if reader_pmap reader_rep reader_read_int reader_read_ty reader_readBytesWith
    reader_discardString reader_readArrayWith : core.
  Local Hint Extern 1 (C _ = true) => apply HC; reflexivity : core.
  Local Hint Extern 1 (reader C readVarInt) => apply reader_readVarInt : core.

  Lemma reader_next_header : reader C next_header.
  Proof. unfold next_header, readInt8, readInt16, readInt32, readInt64. auto 30. Qed.
  Lemma reader_discard_remaining : reader C discard_remaining.
  Proof. unfold discard_remaining. auto. Qed.
  Lemma reader_read_one K V (key : Z -> P K) (val : Z -> P V) min m :
    (forall n, reader C (key n)) -> (forall n, reader C (val n)) -> reader C (read_one key val min m).
  Proof.
    intros Hk Hv. pose proof reader_next_header.
    unfold read_one, read_header, read_v1, read_v2, record_header, readInt8. auto 30.
  Qed.
  Lemma reader_run_acts acts : forall m boff outs, reader C (run_acts acts m boff outs).
  Proof.
    induction acts as [|a rest IH]; intros m boff outs; cbn [run_acts]; [auto|].
    apply reader_if; apply r_bind.
    - apply r_try_short, reader_read_one; auto.
    - intros [[[[m' off] k] v]|]; auto.
    - apply r_try_short, reader_read_one; intros n; unfold read_key_cb, read_val_cb; auto 10.
    - intros [[[[m' off] k] [n b]]|]; auto.
  Qed.

  (* the parsers that stop at an error code of the broker *)
  Hypothesis HK : forall c, C (EKafka c) = true.
  Local Hint Extern 1 (C (EKafka _) = true) => apply HK : core.

  Lemma reader_fetch_header v : reader C (fetch_header v).
  Proof.
    unfold fetch_header, fetch_header_v10, fetch_header_v5, fetch_header_v2, fetch_partition_v5,
      expect_one, aborted_txs, check_msgset_size, readArrayLen, discardInt32, readInt16, readInt32.
    auto 30.
  Qed.
  Lemma reader_op_read a v off : reader C (op_read a v off).
  Proof.
    pose proof reader_next_header. pose proof reader_discard_remaining. pose proof reader_run_acts.
    pose proof reader_fetch_header.
    destruct a; cbn [op_read]; auto.   (* leaves the five inline readers *)
    - unfold produce_read, produce_partition, discardInt32. auto 20.
    - unfold fetch_read, msg_header. auto 20.
    - unfold listoffsets_read. auto 20.
    - unfold apiversions_read, readInt16, readInt32. auto 20.
    - (* fetch with Read / ReadMessage actions: the match on the actions is not a combinator *)
      unfold fetch_reads. apply r_bind; [auto|]. intros h. apply reader_if; [destruct acts|]; auto 10.
  Qed.
End Readers.

Theorem good_op_read a v off : good (op_read a v off).
Proof. apply (good_reader (fun _ => true)), reader_op_read; reflexivity. Qed.
Theorem safe_op_read a v off : safe (op_read a v off).
Proof.
  apply (safe_reader (fun e => negb (transport e))); [intros e H; destruct (transport e); [discriminate H|reflexivity]|].
  apply reader_op_read.
  - (* the parsers' own errors are not errors of the stream *) intros [] H; try discriminate H; reflexivity.
  - (* nor is a code reported by the broker *) reflexivity.
Qed.

(* readers that can never produce a kafka.Error *)
Definition nk {A} (p : P A) : Prop :=
  forall sz s e sz' s', p sz s = (inr e, sz', s') -> is_kafka e = false.
Definition rkafka {A} (r : sum A err) : bool := match r with inr e => is_kafka e | inl _ => false end.

Lemma nk_takes A (p : P A) m v : takes p m v -> (forall sz c, rkafka (v sz c) = false) -> nk p.
Proof.
  intros T Hv sz s e sz' s' H. destruct (le_lt_dec (m sz) (length s)) as [Hl|Hl].
  - rewrite (proj1 (T sz s) Hl) in H. injection H as Hr _ _.
    specialize (Hv sz (firstn (m sz) s)). rewrite Hr in Hv. exact Hv.
  - destruct (proj2 (T sz s) Hl) as (e0 & sz2 & Ht & [E|E]); rewrite E in H; inversion H; subst;
      destruct e; try discriminate Ht; reflexivity.
Qed.
Lemma nk_bind A B (p : P A) (f : A -> P B) : nk p -> (forall a, nk (f a)) -> nk (bind p f).
Proof.
  intros Hp Hf sz s e sz' s' H. unfold bind in H.
  destruct (p sz s) as [[[a|e0] sz1] s1] eqn:E.
  - eapply Hf; exact H.
  - inversion H; subst. eapply Hp; exact E.
Qed.
Lemma nk_discardN n : nk (discardN n).
Proof.
  apply (nk_takes _ _ _ _ (takes_discardN n)). intros sz _.
  destruct (_ <? 0); [reflexivity|]. destruct (n <=? sz); reflexivity.
Qed.
Lemma nk_drained A B sel pass (p : P A) (w : P B) :
  (forall sz s, w sz s = then_drain sel pass p sz s) ->
  (forall r sz1, rkafka r = false ->
     match sel r with Some out => rkafka out = false | None => rkafka (pass r sz1) = false end) ->
  nk p -> nk w.
Proof.
  intros E Hsel Hp sz s e sz' s' H. rewrite E in H. unfold then_drain in H.
  destruct (p sz s) as [[ra sz1] s1] eqn:Ep.
  assert (Hra : rkafka ra = false) by (destruct ra as [a|e0]; [reflexivity|exact (Hp _ _ _ _ _ Ep)]).
  specialize (Hsel ra sz1 Hra). destruct (sel ra) as [out|].
  - destruct (discardN sz1 sz1 s1) as [[[u|e1] sz2] s2] eqn:Ed; inversion H; subst.
    + exact Hsel.
    + exact (nk_discardN _ _ _ _ _ _ Ed).
  - injection H as Hr _ _. rewrite Hr in Hsel. exact Hsel.
Qed.
Lemma nk_ext A (p q : P A) : (forall sz s, p sz s = q sz s) -> nk q -> nk p.
Proof. intros E Hq sz s e sz' s' H. rewrite E in H. exact (Hq _ _ _ _ _ H). Qed.

Theorem nk_reader C A (p : P A) : (forall e, C e = true -> is_kafka e = false) -> reader C p -> nk p.
Proof.
  intros HC. induction 1; eauto using nk_bind, nk_discardN, nk_ext.
  - apply (nk_takes _ _ _ _ (takes_ret A a)). reflexivity.
  - apply (nk_takes _ _ _ _ (takes_fail A e)). intros _ _. exact (HC e H).
  - apply (nk_takes _ _ _ _ takes_get_sz). reflexivity.
  - apply (nk_takes _ _ _ _ (takes_peek_read n)). intros sz c. destruct (_ <? _); reflexivity.
  - apply (nk_takes _ _ _ _ (takes_guard_short n)). intros sz _. destruct (sz <? n); reflexivity.
  - apply (nk_takes _ _ _ _ (takes_readNewBytes n)). intros sz c.
    destruct (0 <? n); [|reflexivity]. destruct (_ <? 0); [reflexivity|]. destruct (sz <? n); reflexivity.
  - apply (nk_drained _ _ _ _ _ _ (expectZeroSize_drain A p)); [|exact IHreader].
    intros [a|e] sz1 Hr; [cbn; destruct (sz1 =? 0); reflexivity|exact Hr].
  - apply (nk_drained _ _ _ _ _ _ (skipRemaining_drain A p)); [|exact IHreader].
    intros [a|[]] sz1 Hr; try reflexivity. discriminate Hr.
  - apply (nk_drained _ _ _ _ _ _ (try_short_drain A p)); [|exact IHreader].
    intros [a|[]] sz1 Hr; try reflexivity. discriminate Hr.
Qed.

Lemma nk_parser A (p : P A) : reader parse_err p -> nk p.
Proof. apply nk_reader. intros []; try discriminate; reflexivity. Qed.
Lemma nk_next_header : nk next_header.
Proof. apply nk_parser, reader_next_header. auto. Qed.
Lemma nk_msg_header : nk msg_header.
Proof. apply nk_bind; [apply nk_next_header|]. intros m. apply nk_parser, r_ret. Qed.
Lemma nk_run_acts acts m boff outs : nk (run_acts acts m boff outs).
Proof. apply nk_parser, reader_run_acts. auto. Qed.

(* the int32 size field of a frame counts the correlation id (4 bytes) and the body *)
Definition fits (body : list N) : Prop := Z.of_nat (length body) + 4 < ZM31.

(* the operation consumed exactly the frame announced by the size prefix at the head of s *)
Definition consumed_frame (s s' : list N) : Prop :=
  exists c, (8 <= length s)%nat /\ s = firstn 8 s ++ c ++ s' /\
            Z.of_nat (length c) = get_bes 4 (firstn 4 s) - 4.

(* when a reader is done (success, or a Kafka error after which the connection is kept),
   nothing of the frame is left: every such path ends in expectZeroSize or in a discard of the
   remainder.  (list-offsets returns early on a partition error without draining, ApiVersions does
   not check the size: both are treated on well-formed responses in ConnOpsCustom.) *)
Definition done_read {A} (r : sum A err) : Prop :=
  match r with inl _ | inr (EKafka _) => True | _ => False end.
(* done, but for the exception the frame theorems carry: a Kafka error of list-offsets (it returns
   early, without draining) *)
Definition frame_done (a : api) {A} (r : sum A err) : Prop :=
  match r with inl _ => True | inr (EKafka _) => a <> AListOffsets | _ => False end.
Definition drains {A} (p : P A) : Prop :=
  forall sz s r sz' s', p sz s = (r, sz', s') -> done_read r -> sz' = 0.

Lemma done_nk A (p : P A) sz s e sz' s' : nk p -> p sz s = (inr e, sz', s') -> ~ done_read (@inr A err e).
Proof. intros Hp H Hd. apply Hp in H. destruct e; try contradiction. discriminate H. Qed.

Lemma expectZeroSize_inl A (p : P A) sz s a sz' s' :
  expectZeroSize p sz s = (inl a, sz', s') -> sz' = 0.
Proof.
  unfold expectZeroSize. destruct (p sz s) as [[[x|e] sz1] s1].
  - destruct (Z.eqb_spec sz1 0); intros H; inversion H; subst; auto.
  - intros H; inversion H.
Qed.
Lemma discardN_all_zero sz s u sz' s' : discardN sz sz s = (inl u, sz', s') -> sz' = 0.
Proof.
  rewrite discardN_min, Z.min_id, Z.leb_refl.
  destruct (bufio_discard_spec sz s) as [[_ E]|[[_ E]|[_ [_ E]]]]; rewrite E; intros HH; inversion HH. lia.
Qed.
Lemma skip_kafka_zero A (p : P A) sz s c sz' s' :
  skipRemainingOnKafkaError p sz s = (inr (EKafka c), sz', s') -> sz' = 0.
Proof.
  unfold skipRemainingOnKafkaError. destruct (p sz s) as [[[a|e] sz1] s1].
  - intros H; inversion H.
  - destruct e; try (intros H; inversion H; fail).
    destruct (discardN sz1 sz1 s1) as [[[u|e] sz2] s2] eqn:Ed.
    + intros H; inversion H; subst. eapply discardN_all_zero; exact Ed.
    + intros H; inversion H; subst. pose proof (nk_discardN _ _ _ _ _ _ Ed) as Hk. discriminate Hk.
Qed.

Lemma drains_expect_skip A (p : P A) : drains (expectZeroSize (skipRemainingOnKafkaError p)).
Proof.
  intros sz s [a|e] sz' s' H Hd; [exact (expectZeroSize_inl _ _ _ _ _ _ _ H)|].
  destruct e; try contradiction. unfold expectZeroSize in H.
  destruct (skipRemainingOnKafkaError p sz s) as [[[x|e0] sz1] s1] eqn:E.
  - destruct (sz1 =? 0); inversion H.
  - inversion H; subst. exact (skip_kafka_zero _ _ _ _ _ _ _ E).
Qed.
Lemma drains_expect_nk A (p : P A) : nk p -> drains (expectZeroSize p).
Proof.
  intros Hp sz s [a|e] sz' s' H Hd; [exact (expectZeroSize_inl _ _ _ _ _ _ _ H)|].
  exfalso. unfold expectZeroSize in H. destruct (p sz s) as [[[x|e0] sz1] s1] eqn:E.
  - destruct (sz1 =? 0); inversion H; subst. exact Hd.
  - inversion H; subst. exact (done_nk _ _ _ _ _ _ _ Hp E Hd).
Qed.
(* a Kafka error of p leaves nothing of the frame: p cannot report one, or p skips the remainder *)
Definition kdrained {A} (p : P A) : Prop :=
  forall sz s c sz' s', p sz s = (inr (EKafka c), sz', s') -> sz' = 0.
Lemma kdrained_nk A (p : P A) : nk p -> kdrained p.
Proof. intros Hp sz s c sz' s' H. apply Hp in H. discriminate H. Qed.

Lemma drains_bind A B (p : P A) (f : A -> P B) : kdrained p -> (forall a, drains (f a)) -> drains (bind p f).
Proof.
  intros Hp Hf sz s r sz' s' H Hd. unfold bind in H.
  destruct (p sz s) as [[[a|e] sz1] s1] eqn:E; [exact (Hf a _ _ _ _ _ H Hd)|].
  inversion H; subst. destruct e; try contradiction. exact (Hp _ _ _ _ _ E).
Qed.
(* Batch.close: the remainder is discarded; what follows does not read *)
Lemma drains_discard_then A (q : P A) :
  (forall sz s, exists r, q sz s = (r, sz, s)) -> drains (_ <- discard_remaining ;; q).
Proof.
  intros Hq sz s r sz' s' H Hd. unfold bind, discard_remaining at 1, bind, get_sz in H.
  destruct (discardN sz sz s) as [[[u|e] sz1] s1] eqn:Ed.
  - destruct (Hq sz1 s1) as (r0 & E). rewrite E in H. inversion H; subst.
    exact (discardN_all_zero _ _ _ _ _ Ed).
  - inversion H; subst. destruct (done_nk _ _ _ _ _ _ _ (nk_discardN sz) Ed Hd).
Qed.

Lemma drains_op_read a v off : a <> AApiVersions -> a <> AListOffsets -> drains (op_read a v off).
Proof.
  intros Ha Hl.
  assert (Hret : forall x : val, forall sz s, exists r, ret x sz s = (r, sz, s)) by (intros; eexists; reflexivity).
  destruct a; try contradiction; cbn [op_read];
    try (apply drains_expect_nk, nk_parser, reader_read_ty).
  - (* produce *) apply drains_expect_skip.
  - (* fetch *)
    unfold fetch_read. apply drains_bind; [exact (skip_kafka_zero _ _)|]. intros h.
    destruct (snd h =? off); [apply drains_discard_then, Hret|].
    apply drains_bind; [apply kdrained_nk, nk_msg_header|]. intros _. apply drains_discard_then, Hret.
  - (* fetch with Read / ReadMessage actions *)
    unfold fetch_reads. apply drains_bind; [exact (skip_kafka_zero _ _)|]. intros h.
    destruct (snd h =? off).
    + apply drains_discard_then. destruct acts; [apply Hret|]. intros; eexists; reflexivity.
    + apply drains_bind; [apply kdrained_nk, nk_next_header|]. intros m.
      apply drains_bind; [apply kdrained_nk, nk_run_acts|]. intros r. apply drains_discard_then, Hret.
Qed.

Lemma op_read_exact a v off size s r sz' s' :
  op_read a v off size s = (r, sz', s') -> a <> AApiVersions -> frame_done a r ->
  exists c, s = c ++ s' /\ Z.of_nat (length c) = size.
Proof.
  intros H Ha Hr.
  assert (Hz : sz' = 0 /\ rtransport r = false).
  { destruct r as [x|[]]; try contradiction; (split; [|reflexivity]).
    - destruct a; try contradiction; try exact (drains_op_read _ v off Ha ltac:(discriminate) _ _ _ _ _ H I).
      (* list-offsets: a success went through expectZeroSize (only its Kafka errors return early) *)
      exact (expectZeroSize_inl _ _ _ _ _ _ _ H).
    - exact (drains_op_read _ v off Ha Hr _ _ _ _ _ H I). }
  destruct (good_op_read a v off _ _ _ _ _ H) as (c & Hs & Hb & _).
  destruct (Hb (proj2 Hz)) as [Hsz _]. exists c. split; [exact Hs|lia].
Qed.

Lemma wait_response_app id h x : length h = 8%nat ->
  wait_response id (h ++ x) =
  if get_bes 4 (skipn 4 h) =? id then (inl (get_bes 4 (firstn 4 h) - 4), x, false)
  else (inr ENoProgress, h ++ x, false).
Proof.
  intros Hh. unfold wait_response.
  destruct (Nat.ltb_spec (length (h ++ x)) 8) as [Hx|_]; [rewrite app_length in Hx; lia|].
  rewrite firstn_app_lt by lia. rewrite skipn_app, Hh. change (skipn (4 - 8) x) with x.
  rewrite firstn_exact by (rewrite skipn_length; lia). rewrite skipn_exact by exact Hh. reflexivity.
Qed.

Lemma map_err_kafka a e c : map_err a e = EKafka c -> e = EKafka c.
Proof. destruct a, e; cbn; intros H; try discriminate H; exact H. Qed.
Lemma map_err_of_kafka a c : map_err a (EKafka c) = EKafka c.
Proof. destruct a; reflexivity. Qed.
Lemma map_err_is_kafka a e : is_kafka (map_err a e) = is_kafka e.
Proof. destruct a, e; reflexivity. Qed.

(* conn_do by the first 8 bytes of the stream: fewer than 8 (the peek fails, the Conn closes), a
   foreign correlation id (io.ErrNoProgress, nothing consumed), or the read callback on what
   follows, with the announced size *)
Lemma conn_do_short st o s : closed st = false -> (length s < 8)%nat ->
  conn_do st o s = (mkConn true (wrap32 (corr st + 1)) (cfg_topic st) (op_offset st o),
                    RErr (map_err (op_api o) EEOF), s).
Proof.
  intros Hcl Hl. unfold conn_do, wait_response. rewrite Hcl.
  destruct (Nat.ltb_spec (length s) 8); [reflexivity|lia].
Qed.
Lemma conn_do_hdr st o h x : closed st = false -> length h = 8%nat ->
  conn_do st o (h ++ x) =
    let a := op_api o in
    let st1 := mkConn false (wrap32 (corr st + 1)) (cfg_topic st) (op_offset st o) in
    if get_bes 4 (skipn 4 h) =? wrap32 (corr st + 1) then
      match op_read a (op_ver o) (op_offset st o) (get_bes 4 (firstn 4 h) - 4) x with
      | (inl v, _, s'') => (st1, post (cfg_topic st) a (op_ver o) v, s'')
      | (inr e, _, s'') => (set_closed st1 (negb (is_kafka (map_err a e))), RErr (map_err a e), s'')
      end
    else (st1, RErr (map_err a ENoProgress), h ++ x).
Proof.
  intros Hcl Hh. unfold conn_do. rewrite Hcl, wait_response_app by exact Hh.
  destruct (_ =? _); reflexivity.
Qed.
(* a stream of 8 bytes or more, split behind the 8th *)
Lemma split8 (s : list N) : (8 <= length s)%nat -> exists h x, s = h ++ x /\ length h = 8%nat.
Proof.
  intros Hl. exists (firstn 8 s), (skipn 8 s). split; [symmetry; apply firstn_skipn|].
  apply firstn_length_le, Hl.
Qed.

Lemma conn_do_state st o s st' r s' :
  conn_do st o s = (st', r, s') ->
  corr st' = wrap32 (corr st + 1) /\ cfg_topic st' = cfg_topic st /\ offset st' = op_offset st o.
Proof.
  unfold conn_do. destruct (closed st); [intros H; inversion H; auto|].
  destruct (wait_response _ s) as [[[size|e] s1] cl]; [|intros H; inversion H; auto].
  destruct (op_read _ _ _ size s1) as [[[x|e] sz1] s2]; intros H; inversion H; auto.
Qed.

Lemma post_err_kafka topic a v x e : post topic a v x = RErr e -> exists c, e = EKafka c.
Proof.
  unfold post. destruct (post_error topic a v x); [intros H; inversion H; eauto|].
  destruct a; intros H; discriminate H.
Qed.

(* C11, the structural half: whenever an operation returns success or a Kafka error — on ANY
   incoming bytes — it has consumed exactly its own frame (the one announced by the size prefix)
   and the connection is kept.  (ApiVersions / a Kafka error of list-offsets: on well-formed
   responses, ConnOpsCustom.) *)
Theorem frame_exact st o s st' r s' :
  closed st = false -> op_api o <> AApiVersions ->
  conn_do st o s = (st', r, s') ->
  match r with
  | ROk _ => True
  | RErr (EKafka _) => op_api o <> AListOffsets
  | _ => False
  end ->
  consumed_frame s s' /\ closed st' = false.
Proof.
  intros Hcl Ha H Hr.
  destruct (Nat.lt_ge_cases (length s) 8) as [Hl|Hl].
  { rewrite conn_do_short in H by assumption. inversion H; subst r. destruct (op_api o); contradiction. }
  destruct (split8 s Hl) as (h & x & -> & Hh). rewrite conn_do_hdr in H by assumption. cbv zeta in H.
  destruct (_ =? _); [|inversion H; subst r; destruct (op_api o); contradiction].
  destruct (op_read _ _ _ _ x) as [[ra sz1] s2] eqn:Er.
  assert (Hexact : frame_done (op_api o) ra -> consumed_frame (h ++ x) s2).
  { intros Hra. destruct (op_read_exact _ _ _ _ _ _ _ _ Er Ha Hra) as (c & Hc & Hlc).
    exists c. rewrite firstn_exact by exact Hh. rewrite firstn_app_lt by lia.
    split; [exact Hl|]. split; [rewrite Hc; reflexivity|exact Hlc]. }
  destruct ra as [v|e].
  - inversion H; subst st' s2. split; [apply Hexact; exact I|reflexivity].
  - inversion H; subst st' r s2. destruct (map_err (op_api o) e) eqn:Em; try contradiction.
    apply map_err_kafka in Em. subst e. split; [apply Hexact; exact Hr|reflexivity].
Qed.

Lemma wrap32_in_signed z : in_signed 4 (wrap32 z).
Proof.
  unfold in_signed, wrap32, pow256, ZM31, ZM32. cbn.
  pose proof (Z.mod_pos_bound (z + 2147483648) 4294967296 ltac:(lia)). lia.
Qed.

Lemma conn_do_on_frame st o body rest :
  fits body -> closed st = false ->
  conn_do st o (frame (wrap32 (corr st + 1)) body ++ rest) =
    let a := op_api o in
    let st1 := mkConn false (wrap32 (corr st + 1)) (cfg_topic st) (op_offset st o) in
    match op_read a (op_ver o) (op_offset st o) (Z.of_nat (length body)) (body ++ rest) with
    | (inl v, _, s'') => (st1, post (cfg_topic st) a (op_ver o) v, s'')
    | (inr e, _, s'') => (set_closed st1 (negb (is_kafka (map_err a e))), RErr (map_err a e), s'')
    end.
Proof.
  intros Hfit Hcl. unfold fits, ZM31 in Hfit. unfold frame. rewrite app_assoc, <- app_assoc.
  rewrite conn_do_hdr by (try assumption; rewrite app_length, !put_bes_length; reflexivity).
  rewrite firstn_exact, skipn_exact by apply put_bes_length.
  rewrite !get_put_bes by (try lia; try apply wrap32_in_signed; unfold in_signed, pow256; cbn; lia).
  rewrite Z.eqb_refl. cbv zeta. replace (Z.of_nat (length body) + 4 - 4) with (Z.of_nat (length body)) by lia.
  reflexivity.
Qed.

Lemma consumed_frame_frame id body rest s' :
  fits body -> consumed_frame (frame id body ++ rest) s' -> s' = rest.
Proof.
  intros Hfit (c & Hlen & Hs & Hc). unfold fits, ZM31 in Hfit. revert Hc Hs.
  unfold frame. rewrite app_assoc, <- app_assoc.
  set (h := put_bes 4 (Z.of_nat (length body) + 4) ++ put_bes 4 id).
  assert (Hh : length h = 8%nat) by (unfold h; rewrite app_length, !put_bes_length; reflexivity).
  replace (firstn 4 (h ++ body ++ rest)) with (put_bes 4 (Z.of_nat (length body) + 4))
    by (unfold h; rewrite <- app_assoc; symmetry; apply firstn_exact, put_bes_length).
  rewrite (firstn_exact h) by exact Hh.
  rewrite get_put_bes by (try lia; unfold in_signed, pow256; cbn; lia).
  intros Hc Hs. apply app_inv_head in Hs. apply (f_equal (skipn (length c))) in Hs.
  rewrite skipn_exact in Hs by lia. rewrite skipn_exact in Hs by reflexivity. symmetry. exact Hs.
Qed.

Lemma op_read_schema a v off : schema_api a = true ->
  op_read a v off = expectZeroSize (read_ty (resp_ty a v)).
Proof. destruct a; try discriminate; reflexivity. Qed.

(* what conn_do does on a well-formed frame of a "read everything, then check" operation *)
Lemma conn_do_schema_frame st a v off w rest :
  schema_api a = true -> wt (resp_ty a v) w -> fits (enc (resp_ty a v) w) -> closed st = false ->
  conn_do st (mkOp a v off) (frame (wrap32 (corr st + 1)) (enc (resp_ty a v) w) ++ rest)
  = (mkConn false (wrap32 (corr st + 1)) (cfg_topic st) (offset st),
     post (cfg_topic st) a v (dec_val (resp_ty a v) w), rest).
Proof.
  intros Hs Hwt Hfit Hcl. rewrite conn_do_on_frame by assumption. cbv zeta. cbn [op_api op_ver op_off].
  rewrite op_read_schema by exact Hs. unfold expectZeroSize.
  rewrite read_ty_enc by (try exact Hwt; lia). rewrite Z.sub_diag. cbn [Z.eqb].
  destruct a; try discriminate Hs; reflexivity.
Qed.

(* "a Kafka error keeps the connection, any other error closes it" *)
Theorem closed_after_other_error st o s st' e s' :
  conn_do st o s = (st', RErr e, s') ->
  is_kafka e = false -> e <> ENoProgress ->
  closed st' = true.
Proof.
  intros H Hk Hnp. destruct (closed st) eqn:Hcl; [unfold conn_do in H; rewrite Hcl in H; inversion H; reflexivity|].
  destruct (Nat.lt_ge_cases (length s) 8) as [Hl|Hl].
  { rewrite conn_do_short in H by assumption. inversion H. reflexivity. }
  destruct (split8 s Hl) as (h & x & -> & Hh). rewrite conn_do_hdr in H by assumption. cbv zeta in H.
  destruct (_ =? _).
  - destruct (op_read _ _ _ _ x) as [[[v|e1] sz1] s2].
    + inversion H as [[H1 H2 H3]]. apply post_err_kafka in H2 as [c Hc]. subst e. discriminate Hk.
    + inversion H; subst. cbn. rewrite Hk. reflexivity.
  - inversion H; subst. exfalso. apply Hnp. destruct (op_api o); reflexivity.
Qed.

Theorem closed_run st ops s :
  closed st = true ->
  exists st', conn_run st ops s = (st', map (fun _ => RErr EClosed) ops, s) /\ closed st' = true.
Proof.
  revert st. induction ops as [|o ops IH]; intros st H; cbn [conn_run map]; [eauto|].
  unfold conn_do. rewrite H.
  destruct (IH (mkConn true (wrap32 (corr st + 1)) (cfg_topic st) (op_offset st o)) eq_refl) as (st2 & E2 & H2).
  rewrite E2. eauto.
Qed.

Lemma transport_not_kafka e : transport e = true -> is_kafka e = false.
Proof. destruct e; cbn; congruence. Qed.
Lemma map_err_transport a e : transport e = true -> transport (map_err a e) = true.
Proof. destruct a, e; cbn; congruence. Qed.

(* C17 (Conn half), structural form, EVERY operation, ANY incoming bytes: cut the stream
   anywhere strictly inside what the complete exchange consumed: the operation fails with
   io.EOF / io.ErrUnexpectedEOF as [map_err] hands it on (for fetch always io.ErrUnexpectedEOF)
   and the Conn closes itself. *)
Theorem conn_do_cut st o s st' r s' k :
  closed st = false ->
  conn_do st o s = (st', r, s') ->
  (k + length s' < length s)%nat ->
  exists e st2 s2, transport e = true /\
    conn_do st o (firstn k s) = (st2, RErr (map_err (op_api o) e), s2) /\ closed st2 = true.
Proof.
  intros Hcl H Hk.
  destruct (Nat.lt_ge_cases (length s) 8) as [Hl|Hl].
  { rewrite conn_do_short in H by assumption. inversion H; subst. lia. }
  destruct (split8 s Hl) as (h & x & -> & Hh). rewrite conn_do_hdr in H by assumption. cbv zeta in H.
  destruct (_ =? _) eqn:Eid; [|inversion H; subst; lia].
  destruct (op_read _ _ _ _ x) as [[ra sz1] s2] eqn:Er.
  assert (Hs2 : s' = s2) by (destruct ra; inversion H; reflexivity). subst s2.
  destruct (good_op_read _ _ _ _ _ _ _ _ Er) as (c & Hc & _ & Hd).
  rewrite Hc, !app_length, Hh in Hk.
  destruct (Nat.lt_ge_cases k 8) as [Hk8|Hk8].
  - exists EEOF. rewrite conn_do_short by (try assumption; rewrite firstn_length; lia). eauto.
  - rewrite firstn_app_ge, Hh, conn_do_hdr, Eid by (try assumption; lia). cbv zeta.
    rewrite Hc, firstn_app_lt by lia.
    destruct (Hd (k - 8)%nat ltac:(lia)) as (e & sz2 & s3 & He & Ht).
    rewrite He. exists e. eexists. eexists. split; [exact Ht|]. split; [reflexivity|].
    cbn. rewrite map_err_is_kafka, (transport_not_kafka _ Ht). reflexivity.
Qed.

(* a cut at or beyond what the complete exchange consumed changes nothing but the rest *)
Theorem conn_do_cut_beyond st o s st' r s' k :
  closed st = false -> (8 <= k)%nat ->
  conn_do st o s = (st', r, s') ->
  get_bes 4 (firstn 4 s) - 4 <= Z.of_nat (length s) - 8 ->     (* the announced frame is there *)
  (length s <= k + length s')%nat ->
  exists s2, conn_do st o (firstn k s) = (st', r, s2).
Proof.
  intros Hcl Hk8 H Hfull Hk.
  destruct (Nat.lt_ge_cases (length s) 8) as [Hl|Hl]; [rewrite firstn_all2 by lia; eauto|].
  destruct (split8 s Hl) as (h & x & -> & Hh). rewrite firstn_app_lt in Hfull by lia.
  rewrite conn_do_hdr in H by assumption. rewrite firstn_app_ge, Hh, conn_do_hdr by (try assumption; lia).
  cbv zeta in *. destruct (_ =? _); [|inversion H; subst; eauto].
  destruct (op_read _ _ _ _ x) as [[ra sz1] s2] eqn:Er.
  assert (Hs2 : s' = s2) by (destruct ra; inversion H; reflexivity). subst s2.
  destruct (good_op_read _ _ _ _ _ _ _ _ Er) as (c & Hc & Hb & _).
  assert (Hnt : rtransport ra = false).
  { refine (proj1 (safe_op_read _ _ _ _ _ _ _ _ Er _)). rewrite app_length, Hh in Hfull. lia. }
  destruct (Hb Hnt) as [_ Hloc]. rewrite Hc, !app_length, Hh in Hk.
  rewrite Hc, firstn_app_ge, Hloc by lia. destruct ra; inversion H; subst; eauto.
Qed.
