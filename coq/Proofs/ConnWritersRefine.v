(* Proofs/ConnWritersRefine.v — every frame a hand-written Conn writer produces is the frame
   [Schema.write_request] produces for the grammar the translator regenerates from /repo's
   protocol package for that (api key, version), applied to the value built from the same
   arguments. *)
From Coq Require Import List NArith ZArith Bool Lia.
From Coq Require Import ZifyN ZifyNat ZifyBool.
From KV Require Import Lib.Bits Lib.Bytes Lib.Varint Spec.RecordFormat Model.Records Model.ConnWriters
  Model.Schema Gen.Schemas Proofs.BitsLemmas Proofs.RecordsCodec Proofs.SchemaBase Proofs.SchemaDefs Proofs.SchemaEqns
  Proofs.ConnWritersSize Proofs.ConnWritersDefs.
Import ListNotations.
Open Scope Z_scope.

Lemma lookup_creq_ty r :
  lookup_schema schemas false (creq_key r) (creq_ver r) = Some (false, creq_ty true r).
Proof. destruct r; try destruct v; vm_compute; reflexivity. Qed.

Lemma conn_view_ty r : conn_view r (creq_ty true r) = creq_ty false r.
Proof. destruct r; try destruct v; reflexivity. Qed.

(* [encode] computes on a concrete grammar and value down to the fields that are variables; what
   does not compute: a string in a position whose nullable flag is a variable, an array over a
   list that is a variable *)
Lemma enc_nstr nl (s : gostr) : (nl = true -> nonempty s = true) -> encode false (TString nl) (VString s) = Some (w_string s).
Proof.
  intros H. destruct nl; [|reflexivity]. destruct s as [|x s]; [specialize (H eq_refl); discriminate|reflexivity].
Qed.

Lemma enc_struct fields vs : encode false (TStruct fields []) (vstruct vs) = enc_fields (encode false) fields vs.
Proof.
  unfold vstruct. rewrite encode_struct_eq. change (enc_tags (encode false) [] []) with (Some (0%N, @nil N)).
  destruct (enc_fields (encode false) fields vs); reflexivity.
Qed.

Lemma enc_list_map {A} (E : value -> option (list N)) (g : A -> value) (f : A -> list N) l :
  (forall x, In x l -> E (g x) = Some (f x)) -> enc_list E (map g l) = Some (concat (map f l)).
Proof.
  induction l as [|x l IH]; intros H; [reflexivity|].
  cbn [map concat]. change (enc_list E (g x :: map g l)) with
    (match E (g x), enc_list E (map g l) with Some bx, Some br => Some (bx ++ br) | _, _ => None end).
  rewrite H by (left; reflexivity). rewrite IH by (intros y Hy; apply H; right; exact Hy). reflexivity.
Qed.

(* writeArray over the elements = the ARRAY of the grammar *)
Lemma enc_varr {A} nullable esize elem (g : A -> value) (f : A -> list N) l :
  (forall x, In x l -> encode false elem (g x) = Some (f x)) ->
  encode false (TArray nullable esize elem) (varr g l) = Some (w_array f l).
Proof.
  intros H. unfold varr. rewrite encode_array_eq. cbn [negb N.eqb].
  cbv zeta. rewrite (enc_list_map _ g f l H).
  rewrite andb_false_r. unfold w_array, w_array_len, w_int32, enc_i32, lenZ, zlen. rewrite map_length. reflexivity.
Qed.

Lemma enc_bool b : encode false TBool (VBool b) = Some (w_bool b).
Proof. destruct b; reflexivity. Qed.
Lemma enc_bytes b : encode false (TBytes false) (VBytes b) = Some (w_non_null_bytes b).
Proof. destruct b; reflexivity. Qed.

(* the fields of a struct, each still to be encoded; then what is left computes *)
Ltac enc_open := rewrite enc_struct; cbn [enc_fields].
Ltac enc_close :=
  rewrite ?enc_bool, ?enc_bytes; unfold w_string;
  cbn [encode enc_fields vstruct v_one t_one negb andb N.eqb]; rewrite ?app_nil_r, <- ?app_assoc; reflexivity.

Lemma enc_name_bytes_arr l : encode false t_name_bytes (varr v_name_bytes l) = Some (w_array sb_write l).
Proof. apply enc_varr. intros p _. unfold v_name_bytes, sb_write. enc_open. enc_close. Qed.
Lemma enc_varr_int nullable esize l :
  encode false (TArray nullable esize (TInt 4)) (varr VInt l) = Some (w_int32_array l).
Proof. apply enc_varr. intros x _. reflexivity. Qed.
Lemma enc_varr_str nullable esize l :
  encode false (TArray nullable esize (TString false)) (varr VString l) = Some (w_string_array l).
Proof. apply enc_varr. intros x _. reflexivity. Qed.

Lemma enc_commit_topics nl (topics : list (gostr * list (Z * Z * gostr))) :
  (nl = true -> forallb (fun t => forallb (fun p : Z * Z * gostr => nonempty (snd p)) (snd t)) topics = true) ->
  encode false (TArray false 40 (TStruct [TString false;
                                          TArray false 48 (TStruct [TInt 4; TInt 8; TString nl] [])] []))
         (varr v_commit_topic topics) = Some (w_array oct_write topics).
Proof.
  intros Hs. apply enc_varr. intros t Ht. unfold v_commit_topic, oct_write. enc_open.
  rewrite (enc_varr _ _ _ v_commit_partition ocp_write); [enc_close|].
  intros p Hp. unfold v_commit_partition, ocp_write. enc_open. rewrite enc_nstr; [enc_close|].
  intros E. specialize (Hs E). rewrite forallb_forall in Hs. specialize (Hs t Ht).
  rewrite forallb_forall in Hs. exact (Hs p Hp).
Qed.
Lemma enc_fetch_topics (topics : list (gostr * list Z)) :
  encode false (TArray true 40 (TStruct [TString false; TArray false 4 (TInt 4)] []))
         (varr v_fetch_topic topics) = Some (w_array oft_write topics).
Proof.
  apply enc_varr. intros t _. unfold v_fetch_topic, oft_write. enc_open. rewrite enc_varr_int. enc_close.
Qed.
Lemma enc_ct_topics nl (topics : list ct_topic) :
  (nl = true -> forallb (fun t => forallb (fun e : gostr * gostr => nonempty (snd e)) (ct_configs t)) topics = true) ->
  encode false (TArray false 72 (TStruct [TString false; TInt 4; TInt 2;
                                          TArray false 32 (TStruct [TInt 4; TArray false 4 (TInt 4)] []);
                                          TArray false 32 (TStruct [TString false; TString nl] [])] []))
         (varr v_ct_topic topics) = Some (w_array ctt_write topics).
Proof.
  intros Hs. apply enc_varr. intros t Ht. unfold v_ct_topic, ctt_write. enc_open.
  rewrite (enc_varr _ _ _ v_ct_assignment cta_write), (enc_varr _ _ _ v_ct_config cte_write); [enc_close| |].
  - intros e He. unfold v_ct_config, cte_write. enc_open. rewrite (enc_nstr nl); [enc_close|].
    intros E. specialize (Hs E). rewrite forallb_forall in Hs. specialize (Hs t Ht).
    rewrite forallb_forall in Hs. exact (Hs e He).
  - intros a _. unfold v_ct_assignment, cta_write. enc_open. rewrite enc_varr_int. enc_close.
Qed.

Lemma enc_txid txid : match txid with Some s => nonempty s | None => true end = true ->
  encode false (TString true) (vnstr txid) = Some (w_nullable_string txid).
Proof. destruct txid as [[|x s]|]; [discriminate|reflexivity|reflexivity]. Qed.
Lemma enc_topic_names nl (topics : option (list gostr)) :
  (nl = true -> match topics with Some l => forallb nonempty l | None => true end = true) ->
  encode false (TArray true 16 (TString nl))
         (VArray (match topics with None => None | Some l => Some (map VString l) end) 0)
  = Some (match topics with None => w_array_len (-1) | Some l => w_string_array l end).
Proof.
  intros Hs. destruct topics as [l|]; [|reflexivity].
  apply (enc_varr true 16 (TString nl) VString w_string l). intros x Hx. apply enc_nstr. intros E.
  specialize (Hs E). rewrite forallb_forall in Hs. apply Hs, Hx.
Qed.

Theorem creq_encode nl r :
  creq_txid_ok r = true -> (nl = true -> creq_strs_ok r = true) ->
  encode false (creq_ty nl r) (creq_value r) = Some (creq_body r).
Proof.
  intros Htx Hs. destruct r; cbn [creq_ty creq_value creq_body].
  - (* produce *)
    unfold produce_body. destruct v; cbn [app]; enc_open; rewrite ?(enc_txid txid Htx); enc_close.
  - (* fetch *) destruct v; cbn [creq_ty creq_value fetch_body]; enc_open; enc_close.
  - (* list offsets *) unfold list_offsets_body. enc_open. enc_close.
  - (* api versions *) reflexivity.
  - (* metadata *) destruct v; enc_open; rewrite (enc_topic_names nl topics Hs); enc_close.
  - (* find coordinator *) enc_open. enc_close.
  - (* join group *) enc_open. rewrite enc_name_bytes_arr. enc_close.
  - (* sync group *) enc_open. rewrite enc_name_bytes_arr. enc_close.
  - (* heartbeat *) enc_open. enc_close.
  - (* leave group *) enc_open. enc_close.
  - (* offset commit *) enc_open. rewrite (enc_commit_topics nl topics Hs). enc_close.
  - (* offset fetch *) enc_open. rewrite enc_fetch_topics. enc_close.
  - (* list groups *) reflexivity.
  - (* create topics *) destruct v; enc_open; rewrite (enc_ct_topics nl topics Hs); enc_close.
  - (* delete topics *) enc_open. rewrite enc_varr_str. enc_close.
  - (* sasl handshake *) enc_open. enc_close.
  - (* sasl authenticate *) enc_open. enc_close.
Qed.

Lemma N_of_nat_mod_M32 n : Z.to_N (Z.of_nat n mod ZM32) = (N.of_nat n mod M32)%N.
Proof.
  unfold ZM32, M32.
  pose proof (Z.mod_pos_bound (Z.of_nat n) 4294967296 ltac:(lia)).
  pose proof (N.mod_lt (N.of_nat n) 4294967296 ltac:(lia)).
  apply N2Z.inj. rewrite Z2N.id by lia. rewrite N2Z.inj_mod by lia. rewrite nat_N_Z. reflexivity.
Qed.

(* the Conn's size prefix (int32 of the pre-computed size) is the prefix [Schema.frame] puts
   (uint32 of the number of bytes): for all lengths *)
Lemma conn_frame_is_frame corr client r :
  conn_frame corr client r = frame (frame_rest corr client r).
Proof.
  rewrite conn_frame_split. unfold frame. f_equal.
  rewrite put_bes4_wrap32. unfold put_bes, zlen. change (Z.of_N (pow256 4)) with ZM32.
  rewrite N_of_nat_mod_M32. reflexivity.
Qed.

Theorem conn_frame_refines nl corr client r :
  creq_txid_ok r = true -> (nl = true -> creq_strs_ok r = true) ->
  write_request false (creq_ty nl r) (creq_key r) (creq_ver r) corr client (creq_value r)
  = Some (conn_frame corr client r).
Proof.
  intros Htx Hs. unfold write_request. rewrite (creq_encode nl r Htx Hs).
  rewrite conn_frame_is_frame. reflexivity.
Qed.
