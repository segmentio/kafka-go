(* Proofs/SchemaC20.v — the generated schema table: totality, the residual allocation witness,
   the allocation bound with its constant. *)
From Coq Require Import List NArith ZArith Bool Lia.
From KV Require Import Lib.Bits Lib.Bytes Lib.Varint Model.Schema Gen.Schemas
  Proofs.SchemaBase Proofs.SchemaDefs Proofs.SchemaPrims Proofs.SchemaTotal Proofs.SchemaAlloc Proofs.SchemaGen.
Import ListNotations.

Lemma registered_schema_ok m : In m schemas -> schema_ok (ms_flex m) (ms_ty m) = true.
Proof.
  intros Hin. pose proof gen_schemas_ok as Hok. unfold schemas_ok in Hok. rewrite forallb_forall in Hok.
  specialize (Hok m Hin). apply andb_true_iff in Hok as [Hok _]. exact Hok.
Qed.

Lemma every_registered_type_total c m input :
  In m schemas -> bytes_ok input ->
  match read_response c m.(ms_flex) m.(ms_ty) input with
  | Panic => False | OutOfFuel => False | _ => True
  end.
Proof.
  intros Hin Hb.
  pose proof (read_response_total c (ms_flex m) (ms_ty m) input (registered_schema_ok m Hin) Hb) as H.
  destruct (read_response c (ms_flex m) (ms_ty m) input); try exact H; exact I.
Qed.

(* known finding F8b: a declared frame size of 2^31-1 and a bytes length of 2^31-16 in 14 bytes *)
Definition f8b_ty : ty := TStruct [TBytes true] [].
Definition f8b_input : list N := [127; 255; 255; 255; 0; 0; 0; 1; 127; 255; 255; 240; 1; 2]%N.

Lemma f8b_oom :
  schema_ok false f8b_ty = true /\ length f8b_input = 14%nat /\ bytes_ok f8b_input /\
  read_response {| budget := 1073741824 |} false f8b_ty f8b_input = Oom.
Proof.
  split; [reflexivity|]. split; [reflexivity|]. split; [repeat constructor|vm_compute; reflexivity].
Qed.


(* attained by the DescribeGroups responses (api key 15, v0-v5) *)
Definition KMAX : Z := 217.

Lemma registered_kfac_le : forall m, In m schemas -> (kfac (ms_ty m) <= KMAX)%Z.
Proof.
  assert (H : forallb (fun m => (kfac (ms_ty m) <=? KMAX)%Z) schemas = true) by (vm_compute; reflexivity).
  rewrite forallb_forall in H. intros m Hm. specialize (H m Hm). apply Z.leb_le in H. exact H.
Qed.

Lemma every_registered_type_alloc c m input :
  In m schemas -> bytes_ok input ->
  let size := get_bes 4 (firstn 4 input) in
  match read_response c m.(ms_flex) m.(ms_ty) input with
  | Ok _ s' => (zal s' <= 2 * KMAX * Z.max 0 size)%Z
  | Err _ _ al => (Z.of_N al <= 2 * KMAX * Z.max 0 size)%Z
  | Oom => (Z.of_N (budget c) < 2 * KMAX * Z.max 0 size)%Z
  | Panic => False
  | OutOfFuel => False
  end.
Proof.
  intros Hin Hb size.
  pose proof (response_alloc_bounded c (ms_flex m) (ms_ty m) input (registered_schema_ok m Hin) Hb) as H.
  cbv zeta in H. fold size in H.
  pose proof (every_registered_type_total c m input Hin Hb) as HT.
  pose proof (registered_kfac_le m Hin) as HK. pose proof (kfac_nonneg (ms_ty m)) as HK0.
  unfold KMAX in *.
  destruct (read_response c (ms_flex m) (ms_ty m) input); try exact HT; nia.
Qed.
