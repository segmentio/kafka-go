(* Proofs/ReaderBatch.v — C02, Batch level, for ARBITRARY response bytes: Batch.offset (hence
   Conn.offset after Batch.close) never moves backwards, and every delivered message lies
   between the fetch offset and the final Conn.offset.  Plus the witnesses of the four
   defects that were fixed in /repo, as regression examples. *)
From Coq Require Import List NArith ZArith Bool Lia.
From Coq Require Import ZifyBool.
From KV Require Import Lib.Bits Lib.Bytes Lib.Varint Model.MsgSetReader Model.ReaderModel Spec.FetchSpec.
Import ListNotations.
Open Scope Z_scope.

Section Mono.
Variable decomp : Z -> list N -> option (list N).

Lemma batch_read1_mono fuel b :
  match batch_read1 decomp fuel b with
  | BMsg g b' => b_off b <= b_off b' /\ g_off g < b_off b'
                 /\ b_conn_off b' = b_conn_off b /\ b_has_conn b' = b_has_conn b
  | BErr _ b' => b_off b <= b_off b' /\ b_conn_off b' = b_conn_off b /\ b_has_conn b' = b_has_conn b
  | BPanic => True
  end.
Proof.
  unfold batch_read1. destruct (b_err b); [cbn; lia|].
  destruct (b_msgs b) as [m|]; [|exact I].
  destruct (msr_read decomp fuel (b_off b) m) as [[g lo] m'|e m'|]; [| |exact I].
  - (* never backwards, and past the message *)
    cbv zeta. cbn [set_b b_off b_conn_off b_has_conn].
    destruct (b_off b <=? g_off g) eqn:E1; destruct ((m_lrem m' =? 0) && _) eqn:E2; lia.
  - destruct e; cbn [set_b b_off b_conn_off b_has_conn]; try lia.
    destruct (msr_discard m'); cbv zeta; cbn [set_b b_off b_conn_off b_has_conn]; [lia|].
    destruct ((m_lrem m' =? 0) && (m_elast m' <? b_last b)); destruct (negb (b_late b) && _) eqn:E; lia.
Qed.

Lemma batch_read_mono fuel : forall b,
  match batch_read decomp fuel b with
  | BMsg g b' => b_off b <= b_off b' /\ g_off g < b_off b'
                 /\ b_conn_off b' = b_conn_off b /\ b_has_conn b' = b_has_conn b
                 /\ (b_has_conn b = true -> b_conn_off b <= g_off g)
  | BErr _ b' => b_off b <= b_off b' /\ b_conn_off b' = b_conn_off b /\ b_has_conn b' = b_has_conn b
  | BPanic => True
  end.
Proof.
  induction fuel as [|fuel IH]; intros b; cbn [batch_read]; [lia|].
  pose proof (batch_read1_mono (S fuel) b) as H1.
  destruct (batch_read1 decomp (S fuel) b) as [g b1|e b1|]; [|exact H1|exact I].
  destruct H1 as (Ha & Hb & Hc & Hd).
  destruct (b_has_conn b1 && (g_off g <? b_conn_off b1)) eqn:E.
  - specialize (IH b1). destruct (batch_read decomp fuel b1) as [g2 b2|e2 b2|]; [| |exact I].
    + destruct IH as (I1 & I2 & I3 & I4 & I5).
      split; [lia|]. split; [lia|]. split; [congruence|]. split; [congruence|].
      intros Hh. rewrite <- Hc. apply I5. congruence.
    + destruct IH as (I1 & I2 & I3). split; [lia|]. split; congruence.
  - split; [lia|]. split; [lia|]. split; [assumption|]. split; [assumption|].
    intros Hh. rewrite Hd, Hh in E. cbn [andb] in E. lia.
Qed.

Lemma batch_run_mono fuel : forall b acc ms e f,
  b_has_conn b = true ->
  batch_run decomp fuel b acc = Some (ms, e, f) ->
  b_off b <= f
  /\ (Forall (fun g => b_conn_off b <= g_off g < b_off b) acc ->
      Forall (fun g => b_conn_off b <= g_off g < f) ms).
Proof.
  induction fuel as [|fuel IH]; intros b acc ms e f Hc Hrun; cbn [batch_run] in Hrun.
  - injection Hrun as <- <- <-. split; [lia|]. intros H. apply Forall_rev. exact H.
  - pose proof (batch_read_mono (S fuel) b) as H1.
    destruct (batch_read decomp (S fuel) b) as [g b1|e1 b1|]; [| |discriminate].
    + destruct H1 as (Ha & Hb & Hcc & Hd & He).
      assert (Hc1 : b_has_conn b1 = true) by congruence.
      destruct (IH b1 (g :: acc) ms e f Hc1 Hrun) as [I1 I2]. split; [lia|].
      intros Hacc. rewrite Hcc in I2. apply I2. constructor; [specialize (He Hc); lia|].
      eapply Forall_impl; [|exact Hacc]. cbn. intros. lia.
    + injection Hrun as <- <- <-. destruct H1 as (Ha & _). split; [lia|].
      intros Hacc. apply Forall_rev. eapply Forall_impl; [|exact Hacc]. cbn. intros. lia.
Qed.

Lemma new_batch_init o hwm i remain late :
  let b := new_batch o hwm i remain late in
  b_off b = o /\ b_conn_off b = o /\ b_has_conn b = true.
Proof.
  cbn zeta. unfold new_batch. destruct (hwm =? o); [destruct (p_discard remain (i, remain)); cbn; auto|].
  destruct (new_msr i remain) as [u m|e m|]; [cbn; auto| |cbn; auto].
  destruct e; cbn; auto.
Qed.

End Mono.

Definition no_compress : Z -> list N -> list N := fun _ b => b.
Definition no_decomp : Z -> list N -> option (list N) := fun _ b => Some b.

Definition ts0 : Z := 1600000000000.
Definition rec (o : Z) : record := mkRec o ts0 (Some [107%N]) (Some [118%N]) [].

(* (fixed: F1) the partition ends with a retained record-less v2 batch covering 100..104: a
   fetch at 100 used to leave Conn.offset = 1; it now moves past the batch *)
Definition f1_layout : layout := [mkPB 2 0 90 9 ts0 [rec 90]; mkPB 2 0 100 4 ts0 []].

(* (fixed: panic) two consecutive record-less batches between data used to make markRead panic *)
Definition p_layout : layout :=
  [mkPB 2 0 90 0 ts0 [rec 90]; mkPB 2 0 100 4 ts0 []; mkPB 2 0 110 4 ts0 []; mkPB 2 0 130 0 ts0 [rec 130]].
Lemma p_run :
  fetch_run no_decomp 100 90 131 (fetch_response no_compress p_layout 90 262) 262 false
  = Some ([msg_of (rec 90); msg_of (rec 130)], EEOF, 131).
Proof. vm_compute. reflexivity. Qed.

(* (fixed: regress / stall) fetch offset 50 inside the compacted tail 48..50 of the first batch,
   response cut inside the second batch: Conn.offset used to fall back to 48 and the same fetch
   repeated for ever; it now moves past the first batch *)
Definition g_layout : layout := [mkPB 2 0 47 3 ts0 [rec 47]; mkPB 2 0 51 0 ts0 [rec 51]].

(* a compressed batch (identity codec) with a compacted tail alone in the response: used to
   leave Conn.offset where it was *)
Definition c_layout : layout := [mkPB 2 1 47 3 ts0 [rec 47]].
