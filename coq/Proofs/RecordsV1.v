(* Proofs/RecordsV1.v — the format-1 writers (protocol writeToVersion1, legacy
   writeProduceRequestV2 / compressMessageSet): what they write is the reference encoding of
   magic-1 messages, wrapped into one compressed wrapper message when a codec is given. *)
From Coq Require Import List NArith ZArith Bool Lia.
From Coq Require Import ZifyN ZifyNat ZifyBool.
From KV Require Import Lib.Bits Lib.Bytes Lib.Varint Lib.Crc Spec.RecordFormat Model.Records
  Proofs.BitsLemmas Proofs.RecordsCodec Proofs.RecordsSet Proofs.RecordsWriters Proofs.RecordsLegacy.
Import ListNotations.
Open Scope Z_scope.

Definition mk_msg (off attrs ts : Z) (k v : obytes) : msg :=
  {| m_magic := 1; m_off := off; m_attrs := attrs; m_ts := ts; m_key := k; m_val := v |}.

Lemma proto_message_enc i a t k v : proto_message i a t k v = enc_msg (mk_msg i a t k v).
Proof. reflexivity. Qed.

Lemma zlen_wb_bytes b : zlen (wb_bytes b) = 4 + blen b.
Proof. destruct b as [l|]; cbn [wb_bytes blen]; [rewrite zlen_app|]; rewrite zlen_put_bes; lia. Qed.
Lemma wb_bytes_enc b : wb_bytes b = enc_nbytes b.
Proof. destruct b; reflexivity. Qed.

Lemma write_message_enc off a t k v : write_message off a t k v = enc_msg (mk_msg off a t k v).
Proof.
  unfold write_message, enc_msg, msg_body, mk_msg. cbn [m_magic m_off m_attrs m_ts m_key m_val].
  change (1 =? 0) with false. cbv iota. cbn zeta. rewrite !wb_bytes_enc.
  f_equal. f_equal. f_equal. unfold message_size.
  rewrite !zlen_app, !zlen_put_bes. rewrite <- !wb_bytes_enc, !zlen_wb_bytes. lia.
Qed.

Lemma zlen_enc_msg m : zlen (enc_msg m) = 16 + zlen (msg_body m).
Proof. unfold enc_msg. cbn zeta. rewrite !zlen_app, !zlen_put_bes, zlen_put_be. lia. Qed.

Lemma zlen_concat_ge {A} (g : A -> list N) l x : In x l -> zlen (g x) <= zlen (concat (map g l)).
Proof.
  induction l as [|y l IH]; intros H; [destruct H|]. cbn [map concat]. rewrite zlen_app.
  pose proof (zlen_nonneg (g y)). pose proof (zlen_nonneg (concat (map g l))).
  destruct H as [->|H]; [lia|]. specialize (IH H). lia.
Qed.

Lemma mk_msg_wf off a ts k v :
  -128 <= a < 128 -> in_i64 ts -> in_i64 off -> osmall k -> osmall v ->
  4 + zlen (msg_body (mk_msg off a ts k v)) < ZM31 -> wf_msg (mk_msg off a ts k v).
Proof.
  intros Ha Hts Ho Hk Hv Hsz. unfold wf_msg. cbn [mk_msg m_magic m_off m_attrs m_ts m_key m_val].
  split; [right; reflexivity|]. split; [intros H; discriminate H|].
  exact (conj Ha (conj Hts (conj Ho (conj Hk (conj Hv Hsz))))).
Qed.

(* messages written for a record list: offsets off(i, r), attributes 0 *)
Definition msgs_of (off : Z -> irec -> Z) (ts : irec -> Z) (rs : list irec) : list msg :=
  mapi_from (fun i r => mk_msg (off i r) 0 (ts r) (i_key r) (i_val r)) 0 rs.

Lemma msgs_wf off ts rs :
  Forall wf_in rs -> (forall r, In r rs -> in_i64 (ts r)) ->
  (forall i r, 0 <= i < zlen rs -> In r rs -> in_i64 (off i r)) ->
  zlen (concat (map enc_msg (msgs_of off ts rs))) < ZM31 ->
  Forall wf_msg (msgs_of off ts rs) /\ forallb plain (msgs_of off ts rs) = true.
Proof.
  intros Hwf Hts Hoff Hsz. split.
  - apply Forall_forall. intros m Hm.
    pose proof (zlen_concat_ge enc_msg _ m Hm) as Hle. rewrite zlen_enc_msg in Hle.
    apply mapi_In in Hm as (j & r & Hj & Hr & ->).
    rewrite Forall_forall in Hwf. destruct (Hwf r Hr) as (Hk & Hv & _).
    apply mk_msg_wf; [lia|apply Hts, Hr|apply Hoff; [lia|exact Hr]|exact Hk|exact Hv|lia].
  - apply forallb_forall. intros m Hm. apply mapi_In in Hm as (j & r & _ & _ & ->). reflexivity.
Qed.

Lemma map_rec_of_msg_from off ts rs i :
  map (rec_of_msg 0) (mapi_from (fun i r => mk_msg (off i r) 0 (ts r) (i_key r) (i_val r)) i rs) =
  mapi_from (fun i r => mk_rec (off i r) (ts r) (i_key r) (i_val r) []) i rs.
Proof.
  rewrite map_mapi. apply mapi_ext. intros j r.
  unfold rec_of_msg, mk_msg, mk_rec. cbn [m_off m_ts m_key m_val]. f_equal. lia.
Qed.
Lemma raw_records_IMsg ms : raw_records (map IMsg ms) = map (rec_of_msg 0) ms.
Proof.
  unfold raw_records. induction ms as [|m ms IH]; [reflexivity|].
  cbn [map flat_map raw_records_of app]. rewrite IH. reflexivity.
Qed.
Lemma raw_records_msgs off ts rs :
  raw_records (map IMsg (msgs_of off ts rs)) =
  mapi_from (fun i r => mk_rec (off i r) (ts r) (i_key r) (i_val r) []) 0 rs.
Proof. rewrite raw_records_IMsg. apply map_rec_of_msg_from. Qed.
Lemma raw_records_wrap magic o a t off ts rs :
  raw_records [IWrap magic o a t (msgs_of off ts rs)] =
  mapi_from (fun i r => mk_rec (off i r) (ts r) (i_key r) (i_val r) []) 0 rs.
Proof.
  unfold raw_records. cbn [flat_map raw_records_of]. rewrite app_nil_r. apply map_rec_of_msg_from.
Qed.

Lemma enc_items_msgs comp ms : enc_items comp (map IMsg ms) = concat (map enc_msg ms).
Proof. unfold enc_items. rewrite map_map. reflexivity. Qed.

Lemma wf_items_msgs comp ms : Forall wf_msg ms -> forallb plain ms = true -> Forall (wf_item comp) (map IMsg ms).
Proof.
  intros Hw Hp. apply Forall_forall. intros it Hit. apply in_map_iff in Hit as (m & <- & Hm).
  cbn [wf_item]. rewrite Forall_forall in Hw. rewrite forallb_forall in Hp. split; [apply Hw, Hm|apply Hp, Hm].
Qed.

Section Codec.
Variable comp decomp : N -> list N -> list N.
Hypothesis decomp_comp : forall c b, decomp c (comp c b) = b.

(* the items one expects from a format-1 writer *)
Definition v1_items (codec : N) (wts : Z) (off : Z -> irec -> Z) (ts : irec -> Z) (rs : list irec) : list item :=
  if (codec =? 0)%N then map IMsg (msgs_of off ts rs)
  else [IWrap 1 0 (Z.of_N codec) wts (msgs_of (fun i _ => i) ts rs)].

Lemma raw_records_v1_items codec wts off ts rs :
  raw_records (v1_items codec wts off ts rs) =
  mapi_from (fun i r => mk_rec (if (codec =? 0)%N then off i r else i) (ts r) (i_key r) (i_val r) []) 0 rs.
Proof.
  unfold v1_items. destruct (codec =? 0)%N; [apply raw_records_msgs|apply raw_records_wrap].
Qed.

Lemma v1_items_decodable codec wts off ts rs :
  (codec <= 4)%N -> in_i64 wts -> Forall wf_in rs -> (forall r, In r rs -> in_i64 (ts r)) ->
  (forall i r, 0 <= i < zlen rs -> In r rs -> in_i64 (off i r)) -> small rs ->
  zlen (concat (map enc_msg (msgs_of (if (codec =? 0)%N then off else (fun i _ => i)) ts rs))) < ZM31 ->
  zlen (enc_items comp (v1_items codec wts off ts rs)) < ZM31 ->
  dec_set decomp (enc_set comp (v1_items codec wts off ts rs)) = Some (v1_items codec wts off ts rs).
Proof.
  intros Hc Hw Hwf Hts Hoff Hn Hinner Hsz. apply dec_enc_set; [exact decomp_comp| |exact Hsz].
  unfold v1_items in *. destruct (N.eqb_spec codec 0) as [E|E].
  - destruct (msgs_wf off ts rs Hwf Hts Hoff Hinner) as [A B]. apply wf_items_msgs; assumption.
  - assert (Hoff' : forall i r, 0 <= i < zlen rs -> In r rs -> in_i64 ((fun i _ => i) i r)).
    { intros i r Hi _. unfold small in Hn. unfold in_i64, ZM63, ZM31 in *. lia. }
    destruct (msgs_wf (fun i _ => i) ts rs Hwf Hts Hoff' Hinner) as [A B].
    constructor; [|constructor]. cbn [wf_item]. unfold wf_wrap. rewrite codec_of_small by exact Hc.
    split; [|split; [exact E|split; assumption]].
    unfold enc_items in Hsz. cbn [map concat enc_item] in Hsz. rewrite app_nil_r in Hsz.
    unfold enc_wrap in Hsz. rewrite codec_of_small in Hsz by exact Hc. rewrite zlen_enc_msg in Hsz.
    set (C := comp codec _) in *.
    apply (mk_msg_wf 0 (Z.of_N codec) wts None (Some C)); [lia|exact Hw|unfold in_i64, ZM63; lia|exact I| |unfold mk_msg; lia].
    (* the compressed set is shorter than the wrapper around it *)
    revert Hsz. unfold msg_body. cbn [m_magic m_attrs m_ts m_key m_val enc_nbytes]. change (1 =? 0) with false. cbv iota.
    rewrite !zlen_app, !zlen_put_bes. pose proof (zlen_nonneg C). unfold osmall, small. lia.
Qed.

Lemma proto_messages_enc now rs :
  proto_messages 0 now rs = concat (map enc_msg (msgs_of (fun i _ => i) (fun r => pts now (i_ns r)) rs)).
Proof. unfold proto_messages, msgs_of. rewrite map_mapi. reflexivity. Qed.

Lemma land_lnot7_small c : (c <= 4)%N -> Z.land (Z.of_N c) (Z.lnot 7) = 0.
Proof. intros H. destruct (codec_le4 c H) as [->|[->|[->|[->| ->]]]]; reflexivity. Qed.

Lemma proto_v1_is_enc codec now rs : (codec <= 4)%N ->
  proto_v1 comp (Z.of_N codec) now rs =
  enc_set comp (v1_items codec now (fun i _ => i) (fun r => pts now (i_ns r)) rs).
Proof.
  intros Hc. unfold proto_v1, v1_items, enc_set. rewrite codec_of_small by exact Hc. unfold codec_known.
  destruct (N.eqb_spec codec 0) as [E|E].
  - subst codec. cbn [N.leb N.compare andb Z.of_N]. cbv iota.
    rewrite enc_items_msgs, proto_messages_enc. reflexivity.
  - replace ((1 <=? codec)%N && (codec <=? 4)%N) with true by lia.
    rewrite land_lnot7_small by exact Hc. rewrite proto_messages_enc.
    unfold enc_items. cbn [map concat enc_item]. rewrite app_nil_r.
    unfold enc_wrap. rewrite codec_of_small by exact Hc. rewrite proto_message_enc. reflexivity.
Qed.

(* ZM31 + 4: the bound is on the set's content, proto_v1 also writes its 4-byte size *)
Theorem proto_v1_decodable codec now rs :
  (codec <= 4)%N -> in_i64 now -> Forall wf_in rs -> ptimes_ok now rs -> small rs ->
  zlen (proto_messages 0 now rs) < ZM31 -> zlen (proto_v1 comp (Z.of_N codec) now rs) < ZM31 + 4 ->
  exists its, dec_set decomp (proto_v1 comp (Z.of_N codec) now rs) = Some its /\
    raw_records its = mapi_from (fun i r => mk_rec i (pts now (i_ns r)) (i_key r) (i_val r) []) 0 rs.
Proof.
  intros Hc Hnow Hwf Ht Hn Hinner Hsz.
  exists (v1_items codec now (fun i _ => i) (fun r => pts now (i_ns r)) rs). split.
  - rewrite proto_v1_is_enc in * by exact Hc. apply v1_items_decodable; try assumption.
    + intros r Hr. pose proof (Ht r Hr). unfold in_i64, ZM63, ZM31 in *. lia.
    + intros i r Hi _. unfold small in Hn. unfold in_i64, ZM63, ZM31 in *. lia.
    + rewrite proto_messages_enc in Hinner. destruct (codec =? 0)%N; exact Hinner.
    + unfold enc_set in Hsz. cbn zeta in Hsz. rewrite zlen_app, zlen_put_bes in Hsz. lia.
  - rewrite raw_records_v1_items. destruct (codec =? 0)%N; reflexivity.
Qed.

Lemma message_set_size_enc (ms : list msg) :
  (forall m, In m ms -> m_magic m = 1) ->
  message_set_size (map (fun m => (m_key m, m_val m)) ms) = zlen (concat (map enc_msg ms)).
Proof.
  intros Hm. unfold message_set_size. induction ms as [|m ms IH]; [reflexivity|].
  cbn [map zsum fold_right concat]. rewrite zlen_app. unfold zsum in IH.
  rewrite IH by (intros x Hx; apply Hm; right; exact Hx).
  rewrite zlen_enc_msg. unfold msg_body. rewrite (Hm m (or_introl eq_refl)).
  change (1 =? 0) with false. cbv iota. rewrite !zlen_app, !zlen_put_bes.
  rewrite <- !wb_bytes_enc, !zlen_wb_bytes. cbn [fst snd]. lia.
Qed.

Lemma legacy_inner_enc off rs :
  concat (mapi_from (fun i m => write_message (off i m) 0 (ts_ms (i_ns m)) (i_key m) (i_val m)) 0 rs) =
  concat (map enc_msg (msgs_of off (fun r => ts_ms (i_ns r)) rs)).
Proof. unfold msgs_of. rewrite map_mapi. f_equal. apply mapi_ext. intros j x. apply write_message_enc. Qed.

Lemma msgs_of_kv off ts rs i :
  map (fun m => (m_key m, m_val m)) (mapi_from (fun i r => mk_msg (off i r) 0 (ts r) (i_key r) (i_val r)) i rs) =
  map (fun m => (i_key m, i_val m)) rs.
Proof. rewrite map_mapi. apply (mapi_const (fun m => (i_key m, i_val m))). Qed.

Lemma legacy_v1_is_enc codec ms : (codec <= 4)%N ->
  zlen (enc_items comp (v1_items codec 0 (fun _ r => i_off r) (fun r => ts_ms (i_ns r)) ms)) < ZM31 ->
  legacy_v1 comp codec ms =
  enc_set comp (v1_items codec 0 (fun _ r => i_off r) (fun r => ts_ms (i_ns r)) ms).
Proof.
  intros Hc Hsz. unfold legacy_v1, v1_items, enc_set in *.
  destruct (N.eqb_spec codec 0) as [E|E].
  - rewrite enc_items_msgs in *.
    pose proof (zlen_nonneg (concat (map enc_msg (msgs_of (fun _ r => i_off r) (fun r => ts_ms (i_ns r)) ms)))).
    rewrite <- (msgs_of_kv (fun _ r => i_off r) (fun r => ts_ms (i_ns r)) ms 0).
    fold (msgs_of (fun _ r => i_off r) (fun r => ts_ms (i_ns r)) ms).
    rewrite message_set_size_enc.
    2:{ intros m Hm. apply mapi_In in Hm as (j & r & _ & _ & ->). reflexivity. }
    rewrite wrap32_id by (unfold in_i32, ZM31 in *; lia).
    f_equal. rewrite <- (mapi_const (fun m => write_message (i_off m) 0 (ts_ms (i_ns m)) (i_key m) (i_val m)) ms 0).
    apply legacy_inner_enc.
  - rewrite legacy_inner_enc.
    unfold enc_items in *. cbn [map concat enc_item] in *. rewrite app_nil_r in *.
    unfold enc_wrap in *. rewrite codec_of_small in * by exact Hc.
    set (W := mk_msg 0 (Z.of_N codec) 0 None (Some (comp codec (concat (map enc_msg (msgs_of (fun i _ => i) (fun r => ts_ms (i_ns r)) ms)))))) in *.
    change (message_set_size [(None, Some (comp codec (concat (map enc_msg (msgs_of (fun i _ => i) (fun r => ts_ms (i_ns r)) ms)))))])
      with (message_set_size (map (fun m => (m_key m, m_val m)) [W])).
    rewrite message_set_size_enc by (intros m [<-|[]]; reflexivity).
    cbn [map concat]. rewrite app_nil_r.
    rewrite write_message_enc. fold W.
    pose proof (zlen_nonneg (enc_msg W)).
    assert (HszW : zlen (enc_msg W) < ZM31) by exact Hsz.
    rewrite wrap32_id by (unfold in_i32, ZM31 in *; lia). reflexivity.
Qed.

Theorem legacy_v1_decodable codec ms :
  (codec <= 4)%N -> Forall wf_in ms -> ltimes_ok ms -> small ms -> Forall (fun m => in_i64 (i_off m)) ms ->
  zlen (concat (map enc_msg (msgs_of (if (codec =? 0)%N then (fun _ r => i_off r) else (fun i _ => i))
                                     (fun r => ts_ms (i_ns r)) ms))) < ZM31 ->
  zlen (enc_items comp (v1_items codec 0 (fun _ r => i_off r) (fun r => ts_ms (i_ns r)) ms)) < ZM31 ->
  exists its, dec_set decomp (legacy_v1 comp codec ms) = Some its /\
    raw_records its = mapi_from (fun i r => mk_rec (if (codec =? 0)%N then i_off r else i)
                                              (ts_ms (i_ns r)) (i_key r) (i_val r) []) 0 ms.
Proof.
  intros Hc Hwf Ht Hn Hoff Hinner Hsz.
  exists (v1_items codec 0 (fun _ r => i_off r) (fun r => ts_ms (i_ns r)) ms). split.
  - rewrite legacy_v1_is_enc by assumption. apply v1_items_decodable; try assumption.
    + unfold in_i64, ZM63. lia.
    + intros r Hr. pose proof (Ht r Hr). unfold in_i64, ZM63, ZM31 in *. lia.
    + intros i r _ Hr. rewrite Forall_forall in Hoff. apply Hoff, Hr.
  - apply raw_records_v1_items.
Qed.

End Codec.
