(* Proofs/TransportPoolProofs.v — structural invariant of the transport pool: a connection
   is held by at most one requester, idle connections have no pending exchange. *)
From Coq Require Import List ZArith Bool Arith Lia.
From KV Require Import Lib.LTS Model.ConnMux Model.TransportPool Proofs.ConnMuxBase Proofs.TransportPoolBase.
Import ListNotations.
Local Open Scope Z_scope.

Record PInv (s : pstate) : Prop := mkPInv {
  p_nodup : NoDup (idle s);
  p_idle : forall c, In c (idle s) -> cst (cn s c) = CLoop /\ (c < nconn s)%nat;
  p_hold : forall r c, qph (rq s r) = QHold c ->
           cst (cn s c) = CLoop /\ ~ In c (idle s) /\ (c < nconn s)%nat;
  p_excl : forall r r' c, qph (rq s r) = QHold c -> qph (rq s r') = QHold c -> r = r';
  p_fresh : forall c, (nconn s <= c)%nat -> cn s c = conn0;
  p_ok : forall c, cst (cn s c) <> CClosed -> lastok (cn s c) = true
}.

Lemma PInv_init : PInv pinit.
Proof.
  constructor; cbn; try constructor; try contradiction; try discriminate; auto.
Qed.

(* a connection that is neither pooled nor in a requester's hands: its run loop has it (or it
   is closed, or it does not exist yet) *)
Definition free (s : pstate) (c : cid) : Prop :=
  ~ In c (idle s) /\ forall r, qph (rq s r) <> QHold c.

(* ... waiting in its loop: it may be pooled or handed out *)
Definition spare (s : pstate) (c : cid) : Prop :=
  cst (cn s c) = CLoop /\ free s c /\ (c < nconn s)%nat.

Lemma busy_free : forall s c, PInv s -> cst (cn s c) <> CLoop -> free s c.
Proof.
  intros s c I N. split.
  - intros X. destruct (p_idle s I c X). contradiction.
  - intros r X. destruct (p_hold s I r c X). contradiction.
Qed.

Lemma idle_unheld : forall s c r, PInv s -> In c (idle s) -> qph (rq s r) <> QHold c.
Proof. intros s c r I X H. destruct (p_hold s I r c H) as [_ [N _]]. contradiction. Qed.

Lemma live_lt : forall s c, PInv s -> cn s c <> conn0 -> (c < nconn s)%nat.
Proof.
  intros s c I N. destruct (le_lt_dec (nconn s) c) as [L|L]; [|exact L].
  destruct (N (p_fresh s I c L)).
Qed.

Lemma PInv_upd_conn : forall s c v, PInv s -> (c < nconn s)%nat ->
  (cst (cn s c) = CLoop -> cst v = CLoop \/ free s c) ->
  (cst v <> CClosed -> lastok v = true) -> PInv (upd_conn s c v).
Proof.
  intros s c v I L F0 O.
  assert (F : cst v = CLoop \/ free s c).
  { destruct (cst (cn s c)) eqn:E; auto; right; apply busy_free; auto; congruence. }
  constructor.
  - exact (p_nodup s I).
  - intros c' X. rewrite cn_upd_conn. destruct (Nat.eqb_spec c c') as [<-|_]; [|exact (p_idle s I c' X)].
    split; [|exact L]. destruct F as [F|[F _]]; [exact F|contradiction].
  - intros r c' X. rewrite cn_upd_conn. destruct (Nat.eqb_spec c c') as [<-|_]; [|exact (p_hold s I r c' X)].
    destruct (p_hold s I r c X) as [_ A]. split; [|exact A].
    destruct F as [F|[_ F]]; [exact F|destruct (F r X)].
  - exact (p_excl s I).
  - intros c' X. rewrite cn_upd_conn. destruct (Nat.eqb_spec c c') as [<-|_]; [|exact (p_fresh s I c' X)].
    cbn [nconn upd_conn] in X. lia.
  - intros c'. rewrite cn_upd_conn. destruct (Nat.eqb c c'); [exact O|exact (p_ok s I c')].
Qed.

Lemma PInv_upd_req : forall s r q, PInv s ->
  (forall c, qph q = QHold c -> qph (rq s r) = QHold c \/ spare s c) -> PInv (upd_req s r q).
Proof.
  intros s r q I K.
  assert (New : forall r' c, qph (rq (upd_req s r q) r') = QHold c ->
                  qph (rq s r') = QHold c \/ (r' = r /\ spare s c)).
  { intros r' c. rewrite rq_upd_req. destruct (Nat.eqb_spec r r') as [<-|_]; auto.
    intros X. destruct (K c X); auto. }
  destruct I as [N Pi Ph Pe Pf Po]. constructor; auto.
  - intros r' c X. destruct (New r' c X) as [Y|[_ [A [[Fi _] L]]]]; [exact (Ph r' c Y)|auto].
  - intros r1 r2 c X Y.
    destruct (New r1 c X) as [X'|[-> [_ [[_ Fh] _]]]]; destruct (New r2 c Y) as [Y'|[-> [_ [[_ Fh'] _]]]];
      [exact (Pe r1 r2 c X' Y')|destruct (Fh' _ X')|destruct (Fh _ Y')|reflexivity].
Qed.

Lemma PInv_set_idle : forall s l, PInv s -> NoDup l ->
  (forall c, In c l -> In c (idle s) \/ spare s c) -> PInv (set_idle s l).
Proof.
  intros s l [N Pi Ph Pe Pf Po] Nl Sub. constructor; auto.
  - intros c X. destruct (Sub c X) as [Y|[A [_ L]]]; [exact (Pi c Y)|auto].
  - intros r c X. destruct (Ph r c X) as [A [B C]]. split; [exact A|split; [|exact C]].
    intros Y. destruct (Sub c Y) as [Z|[_ [[_ Fh] _]]]; [exact (B Z)|exact (Fh r X)].
Qed.

Lemma PInv_bump : forall s, PInv s -> PInv (bump_nconn s) /\ free (bump_nconn s) (nconn s).
Proof.
  intros s [N Pi Ph Pe Pf Po]. split; [constructor; auto|split].
  - intros c X. destruct (Pi c X). cbn [nconn bump_nconn]. auto.
  - intros r c X. destruct (Ph r c X) as [A [B C]]. cbn [nconn bump_nconn]. auto.
  - intros c X. apply Pf. cbn [nconn bump_nconn] in X. lia.
  - intros X. destruct (Pi _ X). lia.
  - intros r X. destruct (Ph r _ X) as [_ [_ C]]. lia.
Qed.

Lemma PInv_close_all : forall l s, PInv s ->
  (forall c, In c l -> (c < nconn s)%nat /\ free s c) -> PInv (close_all s l).
Proof.
  induction l as [|a l IH]; intros s I F; [exact I|]. cbn [close_all].
  destruct (F a (or_introl eq_refl)) as [L Fa]. apply IH.
  - apply PInv_upd_conn; auto.
  - intros c X. exact (F c (or_intror X)).
Qed.

Lemma PInv_release : forall s c, PInv s -> cst (cn s c) = CResolved -> PInv (release_or_close s c).
Proof.
  intros s c I R.
  assert (F : free s c) by (apply busy_free; [exact I|congruence]).
  assert (L : (c < nconn s)%nat) by (apply live_lt; [exact I|intros E; rewrite E in R; discriminate R]).
  assert (O : lastok (cn s c) = true) by (apply (p_ok s I); congruence).
  destruct (release_or_close_cases s c) as [-> | ->].
  - apply PInv_upd_conn; auto.
  - apply (PInv_set_idle (upd_conn s c _)).
    + apply PInv_upd_conn; auto.
    + constructor; [apply F|apply (p_nodup s I)].
    + intros c' [<-|X]; [right|left; exact X].
      split; [rewrite cn_upd_conn, Nat.eqb_refl; reflexivity|split; [exact F|exact L]].
Qed.

Lemma PInv_step : forall s l s', PInv s -> pstep s l = Some s' -> PInv s'.
Proof.
  intros s l s' I H. apply pstep_pstepR in H.
  destruct H as [r g c rest P|r g|r|r g|r c Q A|l c v A B M O|l c r v x A B M O V|c A|c X|g|r v P|r];
    unfold resolve.
  (* the requester ends or only its promise changes; a connection (if any) is updated and stays
     in its loop if it was there *)
  all: try solve
    [ try (apply PInv_upd_req; [|cbn [qph]; solve [discriminate|auto]]);
      first [ exact I
            | apply PInv_upd_conn; [exact I|apply live_lt; assumption|auto|];
              exact (O (p_ok s I c)) ] ].
  - (* Grab: c leaves the idle stack for r's hands *)
    destruct (pop_group_spec s g (idle s) c rest P) as [Pa [Pb [_ Pd]]].
    destruct (Pd (p_nodup s I)) as [Nr Nc]. destruct (p_idle s I c Pa) as [A L].
    apply PInv_upd_req.
    + apply PInv_upd_conn; auto; [apply PInv_set_idle; auto|apply (p_ok s I)].
    + intros c' X. injection X as <-. right. split; [|split; [split|exact L]].
      * rewrite cn_upd_conn, Nat.eqb_refl. exact A.
      * exact Nc.
      * intros r'. apply (idle_unheld s c r' I Pa).
  - destruct (PInv_bump s I) as [I1 F1]. apply PInv_upd_req.
    + apply PInv_upd_conn; auto.
    + intros c' X. injection X as <-. right.
      split; [rewrite cn_upd_conn, Nat.eqb_refl; reflexivity|split; [exact F1|cbn; lia]].
  - apply PInv_upd_req; [|discriminate].
    destruct (PInv_bump s I) as [I1 F1]. apply PInv_release.
    + apply PInv_upd_conn; auto.
    + rewrite cn_upd_conn, Nat.eqb_refl. reflexivity.
  - (* HandOff: r lets go of c, then c is free to leave its loop *)
    destruct (p_hold s I r c Q) as [_ [Ni L]].
    apply (PInv_upd_conn (upd_req s r _)); auto.
    + apply PInv_upd_req; [exact I|discriminate].
    + intros _. right. split; [exact Ni|]. intros r'. rewrite rq_upd_req.
      destruct (Nat.eqb_spec r r') as [<-|Nr]; [discriminate|].
      intros Y. exact (Nr (p_excl s I r r' c Q Y)).
    + intros _. apply (p_ok s I). congruence.
  - apply PInv_release; assumption.
  - destruct (remove_cid_spec c (idle s)) as [Ra [Rb Rc]]. destruct (p_idle s I c X) as [_ L].
    apply PInv_upd_conn; auto.
    + apply PInv_set_idle; auto. apply Rc, (p_nodup s I).
    + intros _. right. split; [exact Ra|]. intros r. apply (idle_unheld s c r I X).
  - apply PInv_close_all.
    + destruct I as [N Pi Ph Pe Pf Po]. apply (PInv_set_idle (add_gclosed s g)).
      * constructor; assumption.
      * apply NoDup_filter. exact N.
      * intros c X. left. apply filter_In in X. apply X.
    + intros c X. apply filter_In in X. destruct X as [X G]. split; [apply (p_idle s I c X)|].
      split; [|intros r; apply (idle_unheld s c r I X)].
      intros Y. apply filter_In in Y. destruct Y as [_ Y]. cbn [idle set_idle add_gclosed] in *.
      rewrite G in Y. discriminate Y.
Qed.

Lemma PInv_run : forall ls s, prun pinit ls = Some s -> PInv s.
Proof. intros ls s H. eapply (inv_run _ _ pstep PInv); [|exact PInv_init|exact H]. intros; eapply PInv_step; eauto. Qed.

