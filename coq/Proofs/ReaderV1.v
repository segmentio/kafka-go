(* Proofs/ReaderV1.v — C02, L1: v0 / v1 (uncompressed) messages as the specification
   encodes them are decoded by the model's readNextHeader / readMessageV1; on every proper
   prefix they report errShortRead. *)
From Coq Require Import List NArith ZArith Bool Lia.
From Coq Require Import ZifyN ZifyNat ZifyBool.
From KV Require Import Lib.Bits Lib.Bytes Lib.Varint Model.MsgSetReader Model.ReaderModel Spec.FetchSpec
  Proofs.ReaderPrim Proofs.ReaderV2.
Import ListNotations.
Open Scope Z_scope.

Lemma i32_len z : len (i32 z) = 4.
Proof. unfold i32. apply put_bes_len. Qed.

(* read.go readBytesWith: an int32 length n, errShortRead when the response has fewer bytes
   left, else the callback; [p_bytes32] and [p_discard_bytes32] unfold to it (used so by conversion) *)
Definition p_len32 {A} (cb : Z -> rd -> pres A) (s : rd) : pres A :=
  match p_int 4 s with
  | PErr e s' => PErr e s'
  | POk n s' => if snd s' <? n then PErr EShort s' else cb n s'
  end.

Lemma pspec_len32 {A} (cb : Z -> rd -> pres A) o v : blen (opt_bytes o) < 2 ^ 30 ->
  pspec (cb (match o with Some b => len b | None => -1 end)) (opt_bytes o) v ->
  pspec (p_len32 cb) (b32 o) v.
Proof.
  intros Hl Hcb rest. unfold p_len32, b32. destruct o as [b|]; cbn [opt_bytes] in *.
  - rewrite <- app_assoc.
    rewrite (pspec_int 4 (blen b)) by (try lia; apply sg4; unfold blen in *; lia).
    unfold ex at 1. cbn [snd]. rewrite len_app. pose proof (len_nonneg rest).
    replace (len b + len rest <? blen b) with false by (unfold blen, len in *; lia). apply Hcb.
  - rewrite (pspec_int 4 (-1)) by (try lia; apply sg4; lia).
    unfold ex at 1. cbn [snd]. pose proof (len_nonneg rest).
    replace (len rest <? -1) with false by lia. apply (Hcb rest).
Qed.

Lemma pshort_len32 {A} (cb : Z -> rd -> pres A) o : blen (opt_bytes o) < 2 ^ 30 -> pshort (p_len32 cb) (b32 o).
Proof.
  intros Hl q q' He Hq. unfold b32 in He. unfold p_len32.
  destruct o as [b|]; cbn [opt_bytes] in *.
  - destruct (prefix_split _ _ _ _ He) as [(r & H1 & H2 & H3)|(q2 & H1 & H2)].
    + destruct (pshort_int 4 (i32 (blen b)) (i32_len _) q r H1 H2) as [i' Hi']. rewrite Hi'. exists i'. reflexivity.
    + subst q. rewrite (pspec_int 4 (blen b)) by (try lia; apply sg4; unfold blen in *; lia).
      unfold ex at 1. cbn [snd]. pose proof (len_pos q' Hq).
      replace (len q2 <? blen b) with true
        by (rewrite H2; unfold blen, len in *; rewrite app_length; lia).
      exists q2. reflexivity.
  - rewrite <- (app_nil_r (i32 (-1))) in He.
    destruct (prefix_split _ _ _ _ He) as [(r & H1 & H2 & H3)|(q2 & H1 & H2)].
    + destruct (pshort_int 4 (i32 (-1)) (i32_len _) q r H1 H2) as [i' Hi']. rewrite Hi'. exists i'. reflexivity.
    + destruct q2; destruct q'; try discriminate H2. contradiction.
Qed.

Lemma pspec_discard bs : pspec (p_discard (len bs)) bs tt.
Proof.
  intros rest. unfold p_discard, ex. rewrite len_app. pose proof (len_nonneg rest). pose proof (len_nonneg bs).
  replace (len bs <=? len bs + len rest) with true by lia. replace (len bs <? 0) with false by lia.
  replace (len bs + len rest <? len bs) with false by lia. rewrite zdrop_app. f_equal. f_equal. lia.
Qed.

Lemma pshort_discard bs : pshort (p_discard (len bs)) bs.
Proof.
  intros q q' -> Hq. rewrite len_app. pose proof (len_pos q' Hq). pose proof (len_nonneg q).
  unfold p_discard, ex. replace (len q + len q' <=? len q) with false by lia. replace (len q <? 0) with false by lia.
  replace (len q <? len q) with false by lia. rewrite zdrop_all. exists []. reflexivity.
Qed.

Lemma pspec_bytes32 o : blen (opt_bytes o) < 2 ^ 30 -> pspec p_bytes32 (b32 o) (opt_bytes o).
Proof.
  intros Hl. apply (pspec_len32 p_newbytes o _ Hl). destruct o as [b|]; [apply pspec_newbytes|apply pspec_newbytes_null; lia].
Qed.

Lemma pspec_discard32 o : blen (opt_bytes o) < 2 ^ 30 -> pspec p_discard_bytes32 (b32 o) tt.
Proof.
  intros Hl. apply (pspec_len32 (fun n s' => if n <? 0 then POk tt s' else p_discard n s') o tt Hl).
  destruct o as [b|]; intros rest; cbn beta; [|reflexivity].
  pose proof (len_nonneg b). replace (len b <? 0) with false by lia. apply pspec_discard.
Qed.

Definition msize (fmt : Z) (r : record) : Z :=
  blen (i32 0 ++ i8 fmt ++ i8 0 ++ (if fmt =? 1 then i64 (r_ts r) else []) ++ b32 (r_key r) ++ b32 (r_val r)).

Definition mh (fmt : Z) (r : record) : list N :=
  i64 (r_off r) ++ i32 (msize fmt r) ++ i32 0 ++ i8 fmt ++ i8 0 ++ (if fmt =? 1 then i64 (r_ts r) ++ [] else []).
Definition mb (r : record) : list N := b32 (r_key r) ++ b32 (r_val r) ++ [].

Definition mhdr (fmt : Z) (r : record) : hdr :=
  mkHdr (r_off r) (msize fmt r) fmt 0 (if fmt =? 1 then r_ts r else 0) 0 0.

Lemma enc_message_eq fmt r :
  enc_message fmt 0 (r_off r) (r_ts r) (r_key r) (r_val r) = mh fmt r ++ mb r.
Proof.
  unfold enc_message, mh, mb, msize. cbv zeta. destruct (fmt =? 1); rewrite <- ?app_assoc, ?app_nil_r; reflexivity.
Qed.

(* 2^29 for key and value: the size of the message must fit its int32 field ([msize_bound]) *)
Definition msg_fits (fmt : Z) (r : record) : Prop :=
  (fmt = 0 \/ fmt = 1) /\ small (r_off r) /\ small (r_ts r)
  /\ blen (opt_bytes (r_key r)) < 2 ^ 29 /\ blen (opt_bytes (r_val r)) < 2 ^ 29
  /\ (fmt = 0 -> r_ts r = 0) /\ r_hdrs r = [].

Lemma b32_len o : len (b32 o) = 4 + (match o with Some b => len b | None => 0 end).
Proof. unfold b32. destruct o; [rewrite len_app|]; rewrite i32_len; lia. Qed.

Lemma msize_bound fmt r : msg_fits fmt r -> 0 <= msize fmt r < 2 ^ 31.
Proof.
  intros (Hf & _ & _ & Hk & Hv & _). unfold msize, blen.
  change (Z.of_nat (length ?l)) with (len l). rewrite !len_app, !b32_len.
  unfold i32, i8, i64. rewrite !put_bes_len.
  assert (len (if fmt =? 1 then put_bes 8 (r_ts r) else []) <= 8)
    by (destruct (fmt =? 1); [rewrite put_bes_len; lia|unfold len; cbn; lia]).
  pose proof (len_nonneg (if fmt =? 1 then put_bes 8 (r_ts r) else [])).
  unfold blen in *. destruct (r_key r), (r_val r); cbn [opt_bytes] in *; unfold len in *; cbn [length] in *; lia.
Qed.

(* attr: 0 for a plain message, the codec for a compressed wrapper.  The [++ []] (also in [mh],
   [mb]) lets the fields end as the [bind]s do, in [mdec_nil] *)
Definition lh (fmt attr off ts size : Z) : list N :=
  i64 off ++ i32 size ++ i32 0 ++ i8 fmt ++ i8 attr ++ (if fmt =? 1 then i64 ts ++ [] else []).
Definition lhdr (fmt attr off ts size : Z) : hdr :=
  mkHdr off size fmt attr (if fmt =? 1 then ts else 0) 0 0.
Definition lh_fits (fmt attr off ts size : Z) : Prop :=
  (fmt = 0 \/ fmt = 1) /\ 0 <= attr <= 4 /\ small off /\ small ts /\ 0 <= size < 2 ^ 31.

Definition lh_store (fmt attr off ts size : Z) : M unit :=
  upd_top (fun f => mkFrame (f_in f) (f_remain f) (f_base f) 1 (lhdr fmt attr off ts size)) ;;; set_lrem 1.

Lemma lheader_dec fmt attr off ts size :
  lh_fits fmt attr off ts size -> mdec read_next_header (lh fmt attr off ts size) (lh_store fmt attr off ts size).
Proof.
  unfold lh_fits, small. intros (Hfmt & Ha & Ho & Ht & Hs). unfold read_next_header, lh.
  eapply mdec_bind; [apply dec_i64; lia|].
  eapply mdec_bind; [apply dec_i32; lia|].
  eapply mdec_bind; [apply dec_i32; lia|].
  destruct Hfmt as [-> | ->]; (eapply mdec_bind; [apply dec_i8; lia|]); cbn [Z.eqb Pos.eqb].
  - eapply mdec_bind; [apply dec_i8; lia|]. apply mdec_nil.
  - eapply mdec_bind; [apply dec_i8; lia|]. eapply mdec_bind; [apply dec_i64; lia|]. apply mdec_nil.
Qed.

Lemma lheader_ok ps bse fmt attr off ts size rest c h lr el :
  lh_fits fmt attr off ts size ->
  read_next_header (stp ps bse (lh fmt attr off ts size ++ rest) c h lr el)
  = MOk tt (stp ps bse rest 1 (lhdr fmt attr off ts size) 1 el).
Proof. intros Hf. rewrite (proj1 (lheader_dec _ _ _ _ _ Hf) _ _ ps rest (stp_exact ps bse _ c h lr el)). reflexivity. Qed.

Lemma lheader_ok_st fmt attr off ts size rest c h lr el :
  lh_fits fmt attr off ts size ->
  read_next_header (st (lh fmt attr off ts size ++ rest) c h lr el) = MOk tt (st rest 1 (lhdr fmt attr off ts size) 1 el).
Proof. exact (lheader_ok [] 0 fmt attr off ts size rest c h lr el). Qed.

Lemma lh_len fmt attr off ts size : (fmt = 0 \/ fmt = 1) -> len (lh fmt attr off ts size) = if fmt =? 1 then 26 else 18.
Proof.
  intros [-> | ->]; unfold lh; cbn [Z.eqb Pos.eqb]; rewrite !len_app; unfold i64, i32, i8; rewrite !put_bes_len; reflexivity.
Qed.

Lemma lheader_short fmt attr off ts size q q' c h lr el :
  lh_fits fmt attr off ts size -> lh fmt attr off ts size = q ++ q' -> q' <> [] ->
  exists i', read_next_header (st q c h lr el) = MErr EShort (st i' c h lr el).
Proof. intros Hf. apply mshort_st, (lheader_dec _ _ _ _ _ Hf). Qed.

(* a plain message: [mh fmt r] is [lh fmt 0 (r_off r) (r_ts r) (msize fmt r)] *)
Lemma mh_fits fmt r : msg_fits fmt r -> lh_fits fmt 0 (r_off r) (r_ts r) (msize fmt r).
Proof.
  intros Hf. pose proof (msize_bound fmt r Hf). destruct Hf as (Hfmt & Ho & Ht & _).
  split; [exact Hfmt|]. split; [lia|]. split; [exact Ho|]. split; assumption.
Qed.

Lemma mheader_ok ps bse fmt r rest c h lr el :
  msg_fits fmt r ->
  read_next_header (stp ps bse (mh fmt r ++ rest) c h lr el) = MOk tt (stp ps bse rest 1 (mhdr fmt r) 1 el).
Proof. intros Hf. exact (lheader_ok ps bse fmt 0 _ _ _ rest c h lr el (mh_fits fmt r Hf)). Qed.

Lemma mh_len fmt r : (fmt = 0 \/ fmt = 1) -> len (mh fmt r) = if fmt =? 1 then 26 else 18.
Proof. exact (lh_len fmt 0 _ _ _). Qed.

Definition rd_kv : M (list N * list N) := k <- lift p_bytes32 ;; v <- lift p_bytes32 ;; ret (k, v).
Definition rd_skip : M unit := lift p_discard_bytes32 ;;; lift p_discard_bytes32 ;;; ret tt.

Lemma fits29 o : blen (opt_bytes o) < 2 ^ 29 -> blen (opt_bytes o) < 2 ^ 30.
Proof. lia. Qed.

Lemma mspec_kv fmt r : msg_fits fmt r -> mspec rd_kv (mb r) (opt_bytes (r_key r), opt_bytes (r_val r)).
Proof.
  intros (_ & _ & _ & Hk & Hv & _). unfold rd_kv, mb.
  apply mspec_bind with (v1 := opt_bytes (r_key r)); [apply mspec_lift, pspec_bytes32, fits29, Hk|].
  apply mspec_bind with (v1 := opt_bytes (r_val r)); [apply mspec_lift, pspec_bytes32, fits29, Hv|].
  apply mspec_ret.
Qed.
Lemma mspec_skip fmt r : msg_fits fmt r -> mspec rd_skip (mb r) tt.
Proof.
  intros (_ & _ & _ & Hk & Hv & _). unfold rd_skip, mb.
  apply mspec_bind with (v1 := tt); [apply mspec_lift, pspec_discard32, fits29, Hk|].
  apply mspec_bind with (v1 := tt); [apply mspec_lift, pspec_discard32, fits29, Hv|].
  apply mspec_ret.
Qed.
Lemma mshort_two {A B} (p : rd -> pres A) (k : A -> A -> M B) r va vb :
  pspec p (b32 (r_key r)) va -> pshort p (b32 (r_key r)) -> pspec p (b32 (r_val r)) vb -> pshort p (b32 (r_val r)) ->
  mshort (x <- lift p ;; y <- lift p ;; k x y) (mb r).
Proof.
  intros S1 H1 S2 H2. unfold mb.
  apply mshort_bind with (v1 := va); [apply mspec_lift, S1|apply mshort_lift, H1|].
  apply mshort_bind with (v1 := vb); [apply mspec_lift, S2|apply mshort_lift, H2|]. apply mshort_nil.
Qed.

Lemma mshort_kv {B} fmt r (k : list N -> list N -> M B) :
  msg_fits fmt r -> mshort (x <- lift p_bytes32 ;; y <- lift p_bytes32 ;; k x y) (mb r).
Proof.
  intros (_ & _ & _ & Hk%fits29 & Hv%fits29 & _).
  exact (mshort_two p_bytes32 k r _ _ (pspec_bytes32 _ Hk) (pshort_len32 _ _ Hk) (pspec_bytes32 _ Hv) (pshort_len32 _ _ Hv)).
Qed.

Lemma mshort_skip {B} fmt r (k : M B) :
  msg_fits fmt r -> mshort (lift p_discard_bytes32 ;;; lift p_discard_bytes32 ;;; k) (mb r).
Proof.
  intros (_ & _ & _ & Hk%fits29 & Hv%fits29 & _).
  exact (mshort_two p_discard_bytes32 (fun _ _ => k) r tt tt
           (pspec_discard32 _ Hk) (pshort_len32 _ _ Hk) (pspec_discard32 _ Hv) (pshort_len32 _ _ Hv)).
Qed.

Lemma mb_len_pos r : 8 <= len (mb r).
Proof.
  unfold mb. rewrite !len_app, !b32_len. change (len []) with 0.
  destruct (r_key r), (r_val r); unfold len; lia.
Qed.
