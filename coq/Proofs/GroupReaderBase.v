(* Proofs/GroupReaderBase.v — basic lemmas for Model/GroupReader.v: association maps,
   merge/store, functional update, shape of one step. *)
From Coq Require Import List NArith ZArith Bool Lia.
From Coq Require Import ZifyN ZifyNat ZifyBool.
From KV Require Import Lib.LTS Model.GroupReader.
Import ListNotations.
Open Scope Z_scope.

Lemma tp_eqb_eq : forall a b, tp_eqb a b = true <-> a = b.
Proof.
  intros [a1 a2] [b1 b2]; unfold tp_eqb; cbn [fst snd]. rewrite andb_true_iff, !N.eqb_eq.
  split; [intros [-> ->]; reflexivity|intros H; inversion H; auto].
Qed.
Lemma tp_eqb_refl : forall a, tp_eqb a a = true.
Proof. intros; apply tp_eqb_eq; reflexivity. Qed.
Lemma tp_eqb_neq : forall a b, tp_eqb a b = false <-> a <> b.
Proof.
  intros a b; split; intros H.
  - intros E; apply tp_eqb_eq in E; congruence.
  - destruct (tp_eqb a b) eqn:E; [apply tp_eqb_eq in E; contradiction|reflexivity].
Qed.
Lemma tp_eqb_sym : forall a b, tp_eqb a b = tp_eqb b a.
Proof.
  intros a b. destruct (tp_eqb a b) eqn:E.
  - apply tp_eqb_eq in E; subst; symmetry; apply tp_eqb_refl.
  - symmetry; apply tp_eqb_neq; apply tp_eqb_neq in E; congruence.
Qed.

Lemma lookup_aset_same : forall m k v, lookup (aset m k v) k = Some v.
Proof.
  induction m as [|[k' v'] m IH]; intros k v; cbn [aset lookup].
  - rewrite tp_eqb_refl; reflexivity.
  - destruct (tp_eqb k k') eqn:E; cbn [lookup]; rewrite E; [reflexivity|apply IH].
Qed.
Lemma lookup_aset_other : forall m k v k', k' <> k -> lookup (aset m k v) k' = lookup m k'.
Proof.
  induction m as [|[k0 v0] m IH]; intros k v k' H; cbn [aset lookup].
  - apply tp_eqb_neq in H; rewrite H; reflexivity.
  - destruct (tp_eqb k k0) eqn:E; cbn [lookup].
    + apply tp_eqb_eq in E; subst k0. apply tp_eqb_neq in H; rewrite H; reflexivity.
    + destruct (tp_eqb k' k0); [reflexivity|apply IH; exact H].
Qed.
Lemma lookup_aset : forall m k v k',
  lookup (aset m k v) k' = if tp_eqb k' k then Some v else lookup m k'.
Proof.
  intros. destruct (tp_eqb k' k) eqn:E.
  - apply tp_eqb_eq in E; subst; apply lookup_aset_same.
  - apply lookup_aset_other; apply tp_eqb_neq; exact E.
Qed.

Lemma In_aset : forall m k v t c, In (t, c) (aset m k v) -> In (t, c) m \/ (t = k /\ c = v).
Proof.
  induction m as [|[k0 v0] m IH]; intros k v t c H; cbn [aset] in H.
  - destruct H as [H|[]]; inversion H; auto.
  - destruct (tp_eqb k k0) eqn:E.
    + apply tp_eqb_eq in E; subst k0. destruct H as [H|H]; [inversion H; auto|left; right; exact H].
    + destruct H as [H|H]; [left; left; exact H|].
      apply IH in H; destruct H; [left; right; assumption|right; assumption].
Qed.

Lemma In_lookup_some : forall m t c, In (t, c) m -> exists c', lookup m t = Some c'.
Proof.
  induction m as [|[k0 v0] m IH]; intros t c H; [destruct H|].
  cbn [lookup]. destruct (tp_eqb t k0) eqn:E; [eauto|].
  destruct H as [H|H].
  - inversion H; subst. rewrite tp_eqb_refl in E; discriminate.
  - eapply IH; exact H.
Qed.

Lemma lookup_In : forall m t c, lookup m t = Some c -> In (t, c) m.
Proof.
  induction m as [|[k0 v0] m IH]; intros t c H; cbn [lookup] in H; [discriminate|].
  destruct (tp_eqb t k0) eqn:E.
  - apply tp_eqb_eq in E; subst; inversion H; left; reflexivity.
  - right; apply IH; exact H.
Qed.

Lemma In_merge1 : forall s c t o, In (t, o) (merge1 s c) -> In (t, o) s \/ (t, o) = c.
Proof.
  intros s [k v] t o H; unfold merge1 in H; cbn [fst snd] in H.
  destruct (lookup s k).
  - destruct (v >? z); [|left; exact H].
    apply In_aset in H; destruct H as [H|[-> ->]]; auto.
  - apply In_aset in H; destruct H as [H|[-> ->]]; auto.
Qed.
Lemma In_merge : forall cs s t o, In (t, o) (merge s cs) -> In (t, o) s \/ In (t, o) cs.
Proof.
  unfold merge. induction cs as [|c cs IH]; intros s t o H; cbn [fold_left] in H; [left; exact H|].
  apply IH in H; destruct H as [H|H]; [|right; right; exact H].
  apply In_merge1 in H; destruct H as [H|H]; [left; exact H|right; left; symmetry; exact H].
Qed.

(* the stash value only grows, and covers every merged commit *)
Definition le_opt (c : Z) (o : option Z) : Prop := exists c', o = Some c' /\ c <= c'.

Lemma merge1_mono : forall s c t x, le_opt x (lookup s t) -> le_opt x (lookup (merge1 s c) t).
Proof.
  intros s [k v] t x [c' [H L]]; unfold merge1; cbn [fst snd].
  destruct (lookup s k) eqn:E.
  - destruct (v >? z) eqn:G; [|exists c'; auto].
    rewrite lookup_aset. destruct (tp_eqb t k) eqn:Ek; [|exists c'; auto].
    apply tp_eqb_eq in Ek; subst. rewrite E in H; inversion H; subst. exists v; split; [reflexivity|lia].
  - rewrite lookup_aset. destruct (tp_eqb t k) eqn:Ek; [|exists c'; auto].
    apply tp_eqb_eq in Ek; subst; congruence.
Qed.
Lemma merge1_covers : forall s k v, le_opt v (lookup (merge1 s (k, v)) k).
Proof.
  intros s k v; unfold merge1; cbn [fst snd]. destruct (lookup s k) eqn:E.
  - destruct (v >? z) eqn:G.
    + rewrite lookup_aset_same; exists v; split; [reflexivity|lia].
    + exists z; split; [exact E|lia].
  - rewrite lookup_aset_same; exists v; split; [reflexivity|lia].
Qed.
Lemma merge_mono : forall cs s t x, le_opt x (lookup s t) -> le_opt x (lookup (merge s cs) t).
Proof.
  unfold merge; induction cs as [|c cs IH]; intros s t x H; cbn [fold_left]; [exact H|].
  apply IH; apply merge1_mono; exact H.
Qed.
Lemma merge_covers : forall cs s t v, In (t, v) cs -> le_opt v (lookup (merge s cs) t).
Proof.
  unfold merge; induction cs as [|c cs IH]; intros s t v H; [destruct H|]. cbn [fold_left].
  destruct H as [H|H].
  - subst c. apply (merge_mono cs). apply merge1_covers.
  - apply IH; exact H.
Qed.

Lemma foldmerge_mono : forall (rqs : list creq) s t x, le_opt x (lookup s t) ->
  le_opt x (lookup (fold_left (fun acc rq => merge acc (cq_commits rq)) rqs s) t).
Proof.
  induction rqs as [|rq rqs IH]; intros s t x H; cbn [fold_left]; [exact H|].
  apply IH; apply merge_mono; exact H.
Qed.
Lemma foldmerge_covers : forall (rqs : list creq) s rq t v, In rq rqs -> In (t, v) (cq_commits rq) ->
  le_opt v (lookup (fold_left (fun acc rq => merge acc (cq_commits rq)) rqs s) t).
Proof.
  induction rqs as [|rq0 rqs IH]; intros s rq t v H Hc; [destruct H|]. cbn [fold_left].
  destruct H as [H|H].
  - subst rq0. apply foldmerge_mono. apply merge_covers; exact Hc.
  - eapply IH; eauto.
Qed.
Lemma In_foldmerge : forall (rqs : list creq) s t o,
  In (t, o) (fold_left (fun acc rq => merge acc (cq_commits rq)) rqs s) ->
  In (t, o) s \/ exists rq, In rq rqs /\ In (t, o) (cq_commits rq).
Proof.
  induction rqs as [|rq rqs IH]; intros s t o H; cbn [fold_left] in H; [left; exact H|].
  apply IH in H; destruct H as [H|[rq' [H1 H2]]].
  - apply In_merge in H; destruct H; [left; assumption|right; exists rq; split; [left; reflexivity|assumption]].
  - right; exists rq'; split; [right; assumption|assumption].
Qed.

Lemma lookup_store : forall offs m t,
  lookup (store m offs) t = match lookup offs t with Some c => Some c | None => lookup m t end.
Proof.
  unfold store; induction offs as [|[k v] offs IH]; intros m t; cbn [fold_right lookup fst snd]; [reflexivity|].
  rewrite lookup_aset. destruct (tp_eqb t k); [reflexivity|apply IH].
Qed.

Lemma upd_same : forall f r x, upd f r x r = x.
Proof. intros; unfold upd; rewrite Nat.eqb_refl; reflexivity. Qed.
Lemma upd_other : forall f r x r', r' <> r -> upd f r x r' = f r'.
Proof. intros f r x r' H; unfold upd. apply Nat.eqb_neq in H; rewrite H; reflexivity. Qed.

Lemma replies_events : forall r ws w res es w',
  replies r ws w res = (es, w') ->
  forall e, In e es -> exists id, In id ws /\ e = EvCommitRet r id res.
Proof.
  induction ws as [|id ws IH]; intros w res es w' H e He; cbn [replies] in H.
  - inversion H; subst; destruct He.
  - destruct (replies r ws w res) as [es0 w0] eqn:E.
    destruct (memnat id w0).
    + inversion H; subst. destruct He as [He|He].
      * exists id; split; [left; reflexivity|symmetry; exact He].
      * destruct (IH _ _ _ _ E e He) as [i [Hi Hei]]; exists i; split; [right; exact Hi|exact Hei].
    + inversion H; subst. destruct (IH _ _ _ _ E e He) as [i [Hi Hei]]; exists i; split; [right; exact Hi|exact Hei].
Qed.

(* finish with its replies named: an ordinary update of member r *)
Lemma finish_eq : forall cfg s r x ws final (ok : bool) code pre, exists es w st,
  replies r ws (rd_waiting x) (if ok then RNil else RErr code) = (es, w) /\ incl st (rd_stash x) /\
  finish cfg s r x ws final ok code pre =
    push (set_rd s r (with_loop x (rd_commits x) w (if final then CLExited else CLIdle) st)) (es ++ pre).
Proof.
  intros. unfold finish. destruct (replies _ _ _ _) as [es w]. do 3 eexists. split; [reflexivity|].
  split; [|reflexivity]. destruct final; [|destruct (cfg_sync cfg); [|destruct ok]];
    first [apply incl_nil_l | apply incl_refl].
Qed.

Ltac open_finish :=
  match goal with |- context [finish ?c ?s ?r ?x ?ws ?f ?ok ?cd ?pre] =>
    let es := fresh "es" in let w := fresh "w" in let st := fresh "st" in
    let Hrep := fresh "Hrep" in let Hst := fresh "Hst" in
    destruct (finish_eq c s r x ws f ok cd pre) as (es & w & st & Hrep & Hst & ->) end.

Lemma finish_ncall : forall cfg s r x ws final (ok : bool) code pre,
  st_ncall (finish cfg s r x ws final ok code pre) = st_ncall s.
Proof. intros; unfold finish. destruct (replies _ _ _ _); reflexivity. Qed.

(* hist_ok: a predicate on every event together with the history before it *)
Section HistOk.
  Variable P : event -> list event -> Prop.
  Fixpoint hist_ok (h : list event) {struct h} : Prop :=
    match h with
    | [] => True
    | e :: rest => P e rest /\ hist_ok rest
    end.
  Lemma hist_ok_split : forall h h1 e h2, hist_ok h -> h = h1 ++ e :: h2 -> P e h2.
  Proof.
    intros h h1; revert h. induction h1 as [|a h1 IH]; intros h e h2 H E; subst h; cbn in H.
    - tauto.
    - eapply IH; [exact (proj2 H)|reflexivity].
  Qed.
  Lemma hist_ok_app_triv : forall es h, hist_ok h -> (forall e, In e es -> forall h', P e h') -> hist_ok (es ++ h).
  Proof.
    induction es as [|a es IH]; intros h H Hs; cbn; [exact H|].
    split; [apply Hs; left; reflexivity|apply IH; [exact H|intros e He; apply Hs; right; exact He]].
  Qed.
  Lemma hist_ok_replies : forall r ws w res es w' pre h, replies r ws w res = (es, w') ->
    (forall id h', P (EvCommitRet r id res) h') -> hist_ok (pre ++ h) -> hist_ok ((es ++ pre) ++ h).
  Proof.
    intros r ws w res es w' pre h Hrep Hp Ho. rewrite <- app_assoc. apply hist_ok_app_triv; [exact Ho|].
    intros e He h'. destruct (replies_events _ _ _ _ _ _ Hrep e He) as [id [_ ->]]. apply Hp.
  Qed.
  Lemma hist_ok_app : forall es h, hist_ok h ->
    (forall e1 esa esb, es = esa ++ e1 :: esb -> P e1 (esb ++ h)) -> hist_ok (es ++ h).
  Proof.
    induction es as [|a es IH]; intros h H Hs; cbn; [exact H|].
    split.
    - apply (Hs a [] es); reflexivity.
    - apply IH; [exact H|]. intros e1 esa esb E; apply (Hs e1 (a :: esa) esb); rewrite E; reflexivity.
  Qed.
End HistOk.

Ltac destr_step H :=
  repeat match type of H with
  | Some _ = Some _ => injection H as <-; subst
  | None = Some _ => discriminate H
  | (if ?x then _ else _) = Some _ => let E := fresh "E" in destruct x eqn:E
  | (let '(a, b) := ?x in _) = Some _ => let E := fresh "E" in destruct x eqn:E
  | match ?x with _ => _ end = Some _ => let E := fresh "E" in destruct x eqn:E
  end.

Definition is_co (l : label) : bool :=
  match l with LCoBump | LCoEvict _ | LCoCompleting _ => true | _ => false end.
Definition to_idle (r : nat) (l : label) : bool :=
  match l with
  | LJoinFail r' _ | LOffsetFetchFail r' _ | LGenClose r' => Nat.eqb r r'
  | _ => false end.
Definition applied_co (c : coord) (b : bool) (offs : amap) : coord :=
  if b then {| co_gen := co_gen c; co_members := co_members c; co_next := co_next c;
               co_completing := co_completing c; co_committed := store (co_committed c) offs |} else c.

(* one step: member r goes from x to x', the coordinator to c', the watermarks to hw'; events es *)
Inductive gkind (cfg : config) (s : state) (r : nat) (x : rstate) :
  label -> rstate -> coord -> amap -> list event -> Prop :=
| KAppend t : gkind cfg s r x (LAppend t) x (st_co s) (aset (st_hw s) t (hw_of (st_hw s) t + 1)) [EvAppend t]
| KCo l c' : is_co l = true -> co_committed c' = co_committed (st_co s) ->
    gkind cfg s r x l x c' (st_hw s) []
| KJoinSync bump asg mid g c' : rd_phase x = PIdle -> co_committed c' = co_committed (st_co s) ->
    gkind cfg s r x (LJoinSync r bump asg) (with_group x (Some mid) (PJoined g mid asg)) c' (st_hw s)
      [EvAssign r mid g asg]
| KToIdle l m : to_idle r l = true -> gkind cfg s r x l (with_group x m PIdle) (st_co s) (st_hw s) []
| KOffsetFetch g mid asg : rd_phase x = PJoined g mid asg ->
    gkind cfg s r x (LOffsetFetch r)
      (with_group x (rd_mid x) (PFetched g mid
         (map (fun t => (t, start_of_raw (cfg_start cfg) (fetch_raw (co_committed (st_co s)) t))) asg)))
      (st_co s) (st_hw s)
      (rev (map (fun t => EvOffsetFetch r g t (fetch_raw (co_committed (st_co s)) t)
                            (start_of_raw (cfg_start cfg) (fetch_raw (co_committed (st_co s)) t))) asg))
| KSubscribe g mid offs : rd_phase x = PFetched g mid offs ->
    gkind cfg s r x (LSubscribe r)
      {| rd_version := (rd_version x + 1)%N; rd_msgs := rd_msgs x; rd_commits := rd_commits x;
         rd_waiting := rd_waiting x; rd_fetch := rd_fetch x; rd_mid := rd_mid x;
         rd_phase := PRunning g mid; rd_done := false; rd_loop := CLIdle; rd_stash := [];
         rd_readers := map mk_reader offs; rd_unsub := false |} (st_co s) (st_hw s) []
| KGenEnd l rs u : (l = LGenEnd r /\ rs = rd_readers x /\ u = rd_unsub x) \/ (l = LUnsubscribe r /\ rs = [] /\ u = true) ->
    gkind cfg s r x l
      {| rd_version := rd_version x; rd_msgs := rd_msgs x; rd_commits := rd_commits x;
         rd_waiting := rd_waiting x; rd_fetch := rd_fetch x; rd_mid := rd_mid x;
         rd_phase := rd_phase x; rd_done := true; rd_loop := rd_loop x; rd_stash := rd_stash x;
         rd_readers := rs; rd_unsub := u |} (st_co s) (st_hw s) []
| KReaderInit t p : find_reader (rd_readers x) t = Some p -> pr_next p = None ->
    gkind cfg s r x (LReaderInit r t)
      (with_readers x (set_reader (rd_readers x) t (Some (resolve_start (pr_start p) (hw_of (st_hw s) t)))))
      (st_co s) (st_hw s)
      [EvReaderInit r (rd_version x) t (pr_start p) (resolve_start (pr_start p) (hw_of (st_hw s) t))]
| KReaderEmit t p n : find_reader (rd_readers x) t = Some p -> pr_next p = Some n ->
    gkind cfg s r x (LReaderEmit r t)
      (with_readers (with_msgs x (rd_msgs x ++ [(rd_version x, t, n)])) (set_reader (rd_readers x) t (Some (n + 1))))
      (st_co s) (st_hw s) []
| KFetchSnap : rd_fetch x = FIdle ->
    gkind cfg s r x (LFetchSnap r) (with_fetch x (FWait (rd_version x))) (st_co s) (st_hw s) []
| KFetchRecv snap v t o q : rd_fetch x = FWait snap -> rd_msgs x = (v, t, o) :: q ->
    gkind cfg s r x (LFetchRecv r) (with_fetch (with_msgs x q) FIdle) (st_co s) (st_hw s)
      [if (snap <=? v)%N then EvDeliver r v t o else EvDrop r v t o]
| KFetchCancel snap : rd_fetch x = FWait snap ->
    gkind cfg s r x (LFetchCancel r) (with_fetch x FIdle) (st_co s) (st_hw s) []
| KCommitCall msgs w es0 : forallb (handed (st_hist s) r) msgs = true ->
    (cfg_sync cfg = true /\ w = st_ncall s :: rd_waiting x /\ es0 = []) \/
    (cfg_sync cfg = false /\ w = rd_waiting x /\ es0 = [EvCommitRet r (st_ncall s) RNil]) ->
    gkind cfg s r x (LCommitCall r msgs)
      (with_commits x (rd_commits x ++ [{| cq_id := st_ncall s; cq_commits := makeCommits msgs |}]) w)
      (st_co s) (st_hw s) (es0 ++ [EvCommitCall r (st_ncall s) msgs])
| KCommitCancel id :
    gkind cfg s r x (LCommitCancel r id) (with_commits x (rd_commits x) (remnat id (rd_waiting x)))
      (st_co s) (st_hw s) [EvCommitRet r id (RErr (-2))]
| KLoopRecv rq rest : rd_loop x = CLIdle -> rd_commits x = rq :: rest ->
    gkind cfg s r x (LLoopRecv r)
      (with_loop x rest (rd_waiting x)
         (if cfg_sync cfg then CLBusy [cq_id rq] commitRetries false 0 else CLIdle)
         (merge (rd_stash x) (cq_commits rq))) (st_co s) (st_hw s) []
| KLoopTick : cfg_sync cfg = false ->
    gkind cfg s r x (LLoopTick r)
      (with_loop x (rd_commits x) (rd_waiting x) (CLBusy [] commitRetries false 0) (rd_stash x))
      (st_co s) (st_hw s) []
| KLoopFinal :
    gkind cfg s r x (LLoopFinal r)
      (with_loop x [] (rd_waiting x)
         (CLBusy (if cfg_sync cfg then map cq_id (rd_commits x) else []) commitRetries true 0)
         (fold_left (fun acc rq => merge acc (cq_commits rq)) (rd_commits x) (rd_stash x)))
      (st_co s) (st_hw s) []
| KFinish l ws lft final le (ok : bool) code pre c' es0 w st :
    rd_loop x = CLBusy ws lft final le ->
    replies r ws (rd_waiting x) (if ok then RNil else RErr code) = (es0, w) -> incl st (rd_stash x) ->
    (pre = [] /\ c' = st_co s /\ (ok = true -> rd_stash x = [])) \/
    (exists mid g z b, pre = [EvOffsetCommit r mid g (rd_stash x) z b] /\ c' = applied_co (st_co s) b (rd_stash x) /\
                       (ok = true -> z = 0 /\ b = true)) ->
    gkind cfg s r x l (with_loop x (rd_commits x) w (if final then CLExited else CLIdle) st) c' (st_hw s) (es0 ++ pre)
| KRetry f ws n final le mid g z b : rd_loop x = CLBusy ws (S (S n)) final le ->
    gkind cfg s r x (LLoopAttempt r f)
      (with_loop x (rd_commits x) (rd_waiting x) (CLBusy ws (S n) final z) (rd_stash x))
      (applied_co (st_co s) b (rd_stash x)) (st_hw s) [EvOffsetCommit r mid g (rd_stash x) z b].

Lemma upd_id : forall (f : nat -> rstate) r r', upd f r (f r) r' = f r'.
Proof. intros. unfold upd. destruct (Nat.eqb r' r) eqn:E; [apply Nat.eqb_eq in E; subst|]; reflexivity. Qed.

Lemma step_kind : forall cfg s l s', step cfg s l = Some s' ->
  exists r x' c' hw' es, gkind cfg s r (st_rd s r) l x' c' hw' es /\
    (forall r', st_rd s' r' = upd (st_rd s) r x' r') /\ st_co s' = c' /\ st_hw s' = hw' /\
    st_hist s' = es ++ st_hist s.
Proof.
  intros cfg s l s' H. destruct l; cbn [step] in H; destr_step H; try open_finish.
  1-4: exists 0%nat, (st_rd s 0%nat); do 3 eexists; split; cycle 1;
    [cbn [push set_co st_rd st_co st_hw st_hist]; repeat split; try reflexivity; try exact (eq_sym (app_nil_l _)); intro; symmetry; apply upd_id
    |first [apply KAppend | apply KCo; reflexivity]].
  all: try (do 5 eexists; split; cycle 1;
            [cbn [push set_rd set_co st_rd st_co st_hw st_hist]; repeat split; try reflexivity; try exact (eq_sym (app_nil_l _)); intro; reflexivity
            |first [econstructor; first [eassumption | reflexivity] | idtac]]).
  - apply KToIdle. cbn. apply Nat.eqb_refl.
  - apply KToIdle. cbn. apply Nat.eqb_refl.
  - rewrite <- E. apply (KGenEnd cfg s r _ (LGenEnd r)). left. auto.
  - rewrite <- E. apply (KGenEnd cfg s r _ (LUnsubscribe r)). right. auto.
  - apply KToIdle. cbn. apply Nat.eqb_refl.
  - pose proof (KFetchRecv cfg s r _ snap n t z l E E0) as K. rewrite E3 in K. exact K.
  - pose proof (KFetchRecv cfg s r _ snap n t z l E E0) as K. rewrite E3 in K. exact K.
  - apply (KCommitCall cfg s r _ msgs _ []); auto.
  - apply (KCommitCall cfg s r _ msgs _ [_]); auto.
  - pose proof (KLoopRecv cfg s r _ c l E0 E1) as K. rewrite E2 in K. exact K.
  - pose proof (KLoopRecv cfg s r _ c l E0 E1) as K. rewrite E2 in K. exact K.
  - apply (KFinish cfg s r _ _ waiters _ final _ true 0 [] _ es w st E0 Hrep Hst). left. auto.
  - apply (KFinish cfg s r _ _ waiters _ final _ true 0 _ _ es w st E0 Hrep Hst). right.
    exists mid, g, z, b. rewrite E2. split; [reflexivity|]. split; [destruct b; reflexivity|].
    intros _. assert (z = 0) by lia. subst z. split; [reflexivity|].
    destruct f; inversion E3; subst; try reflexivity; try discriminate; lia.
  - apply (KFinish cfg s r _ _ waiters _ final _ false z _ _ es w st E0 Hrep Hst). right.
    exists mid, g, z, b. rewrite E2. split; [reflexivity|]. split; [destruct b; reflexivity|discriminate].
  - rewrite <- E2. replace (if b then _ else st_co s) with (applied_co (st_co s) b (rd_stash (st_rd s r)))
      by (rewrite E2; destruct b; reflexivity).
    apply (KRetry cfg s r _ f waiters n0 final lasterr mid g z b E0).
  - apply (KFinish cfg s r _ _ waiters _ final _ false lasterr [] _ es w st E0 Hrep Hst). left. split; [reflexivity|]. split; [reflexivity|discriminate].
Qed.

Lemma step_hist_ext : forall cfg s l s', step cfg s l = Some s' -> exists es, st_hist s' = es ++ st_hist s.
Proof.
  intros cfg s l s' H. destruct (step_kind _ _ _ _ H) as (_ & _ & _ & _ & es & _ & _ & _ & _ & Hh). eauto.
Qed.

(* a property that is a match on the event, for each event of an explicit list *)
Ltac each_event :=
  let e := fresh "e" in let He := fresh "He" in
  intros e He; cbn in He; repeat (destruct He as [He|He]; [subst e; exact I|]); try contradiction;
  try (apply in_rev in He; apply in_map_iff in He; destruct He as [? [<- _]]; exact I).
