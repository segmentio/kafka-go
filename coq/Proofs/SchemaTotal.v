(* Proofs/SchemaTotal.v — what a decode of ARBITRARY bytes must satisfy: no panic, fuel left, and
   a success consumed at least so many bytes of the input and exactly what it took from the
   frame's remaining size.  The induction over the schema is in SchemaAlloc.v. *)
From Coq Require Import List NArith ZArith Bool Lia.
From Coq Require Import ZifyN ZifyNat ZifyBool.
From KV Require Import Lib.Bits Lib.Bytes Lib.Varint Model.Schema
  Proofs.SchemaBase Proofs.SchemaDefs Proofs.SchemaPrims Proofs.SchemaEqns.
Import ListNotations.

Definition consumes (m : nat) (s s' : dstate) : Prop :=
  exists k, (m <= k <= length (d_in s))%nat /\
    d_in s' = skipn k (d_in s) /\ d_remain s' = (d_remain s - Z.of_nat k)%Z /\
    ((0 <= d_remain s)%Z -> (0 <= d_remain s')%Z) /\ (d_alloc s <= d_alloc s')%N.

Definition good {A} (m : nat) (s : dstate) (r : res A) : Prop :=
  match r with
  | Ok _ s' => consumes m s s'
  | Err _ _ _ => True
  | Oom => True
  | Panic => False
  | OutOfFuel => False
  end.

Lemma consumes_refl s : consumes 0 s s.
Proof. exists 0%nat. cbn [skipn]. repeat split; try lia. Qed.

Lemma skipn_skipn' {A} (a b : nat) (l : list A) : skipn a (skipn b l) = skipn (b + a) l.
Proof.
  revert l. induction b as [|b IH]; intros l; [reflexivity|].
  destruct l as [|x l]; [rewrite !skipn_nil; reflexivity|]. cbn [skipn Nat.add]. apply IH.
Qed.

Lemma consumes_trans m1 m2 s1 s2 s3 : consumes m1 s1 s2 -> consumes m2 s2 s3 -> consumes (m1 + m2) s1 s3.
Proof.
  intros [k1 [Hk1 [Hi1 [Hr1 [Hp1 Ha1]]]]] [k2 [Hk2 [Hi2 [Hr2 [Hp2 Ha2]]]]].
  exists (k1 + k2)%nat. rewrite Hi1 in *. rewrite skipn_length in Hk2.
  repeat split; try lia.
  - rewrite Hi2. rewrite skipn_skipn'. reflexivity.
Qed.

Lemma consumes_weaken m m' s s' : (m' <= m)%nat -> consumes m s s' -> consumes m' s s'.
Proof. intros H [k [Hk R]]. exists k. split; [lia|exact R]. Qed.

Lemma good_weaken {A} m m' s (r : res A) : (m' <= m)%nat -> good m s r -> good m' s r.
Proof. intros H. destruct r; cbn [good]; try tauto. apply consumes_weaken. exact H. Qed.

Lemma good_bind {A B} m m1 m2 s (r : res A) (f : A -> dstate -> res B) :
  good m1 s r -> (forall a s', consumes m1 s s' -> good m2 s' (f a s')) -> (m <= m1 + m2)%nat ->
  good m s (bind r f).
Proof.
  destruct r as [a s'| | | |]; cbn [good bind]; intros H Hf Hm; try exact H; try exact I.
  specialize (Hf a s' H). destruct (f a s') as [b s''| | | |]; cbn [good] in *; try exact Hf; try exact I.
  eapply consumes_weaken; [exact Hm|]. eapply consumes_trans; eassumption.
Qed.

Lemma read_z_good k s : good (Z.to_nat k) s (read_z k s).
Proof.
  unfold read_z.
  destruct (Z.leb_spec k 0).
  - cbn [good]. replace (Z.to_nat k) with 0%nat by lia. apply consumes_refl.
  - destruct (Z.leb_spec (d_remain s) 0); [exact I|].
    destruct (Z.ltb_spec (Z.of_nat (length (d_in s))) (Z.min k (d_remain s))); [exact I|].
    destruct (Z.ltb_spec (Z.min k (d_remain s)) k); [exact I|].
    cbn [good]. exists (Z.to_nat k). cbn [d_in d_remain d_alloc].
    repeat split; try lia.
Qed.

Lemma read_n_good k s : good k s (read_n k s).
Proof. unfold read_n. rewrite <- (Nat2Z.id k) at 1. apply read_z_good. Qed.

Lemma fail_good {A} m e s : good m s (@fail A e s).
Proof. exact I. Qed.

(* remain below 2^31 (the frame size is an int32) is what keeps make() in range *)
Definition small (s : dstate) : Prop := (d_remain s < ZM31)%Z.

Lemma consumes_small m s s' : consumes m s s' -> small s -> small s'.
Proof. intros [k [_ [_ [Hr _]]]]. unfold small. lia. Qed.

(* n fits an int32 frame and an element has at most 64 KiB: less than 2^31 * 2^16 bytes, below
   the runtime's 2^48, so no panic; only the budget can fail *)
Lemma alloc_cases c n esize s : (0 <= n <= d_remain s)%Z -> small s -> (esize <= 65536)%N ->
  let s1 := {| d_in := d_in s; d_remain := d_remain s; d_alloc := d_alloc s + Z.to_N n * esize |} in
  (alloc c n esize s = Oom /\ (budget c < d_alloc s1)%N) \/ alloc c n esize s = Ok tt s1.
Proof.
  intros Hn Hs He. unfold alloc, small, ZM31 in *.
  destruct (Z.ltb_spec n 0); [lia|].
  destruct (N.ltb_spec max_alloc (Z.to_N n * esize)); [unfold max_alloc in *; nia|].
  destruct (N.ltb_spec (budget c) (d_alloc s + Z.to_N n * esize)); [left; split; [reflexivity|assumption]|right; reflexivity].
Qed.
