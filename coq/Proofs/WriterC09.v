(* Proofs/WriterC09.v — C09 (Writer): Close, the WaitGroup, stuckness.  The WaitGroup counter
   is the sum of what calls and partition writers account for ([wg_inv]); with well-formed
   partition writers and valid batch references that makes some step enabled while Close
   waits; a measure [mu] decreases on every step that is not the environment's. *)
From Coq Require Import List NArith Bool Arith Lia.
From KV Require Import Lib.LTS Model.Writer Proofs.WriterStmts Proofs.WriterBase Proofs.WriterC01a
  Proofs.WriterC01b Proofs.WriterSteps.
(* not imported: used qualified *)
From KV Require Proofs.WriterC07.
Import ListNotations.

Lemma C09_w_after_close_proof : stmt_C09_w_after_close.
Proof.
  unfold stmt_C09_w_after_close. intros cfg s g msgs merr s' Hc H.
  unfold step in H. destruct (call_admissible s g msgs); [|discriminate].
  rewrite Hc in H. inversion H; reflexivity.
Qed.

Lemma is_none_true : forall A (o : option A), is_none o = true -> o = None.
Proof. destruct o; simpl; congruence. Qed.

Lemma in_progress_pw : forall s p, p < length (s_pws s) ->
  forall l, In l [Get p; SenderExit p; Attempt p AppliedAcked; BackoffDone p; Finish p] ->
  In l (progress_labels s).
Proof.
  intros s p Hp l Hl. unfold progress_labels. apply in_or_app. left.
  apply in_flat_map. exists p. split; [apply in_seq; lia|exact Hl].
Qed.

Lemma in_progress_call : forall s c, c < length (s_calls s) ->
  forall l, In l [Assign c; Return c] -> In l (progress_labels s).
Proof.
  intros s c Hc l Hl. unfold progress_labels.
  apply in_or_app. right. apply in_or_app. right. apply in_or_app. left.
  apply in_flat_map. exists c. split; [apply in_seq; lia|exact Hl].
Qed.

Lemma in_combine_seq : forall A (l : list A) a p x,
  nth_error l p = Some x -> In (a + p, x) (combine (seq a (length l)) l).
Proof.
  induction l; intros a0 p x H; destruct p; simpl in *; try discriminate.
  - inversion H; subst. left. f_equal. lia.
  - right. replace (a0 + S p) with (S a0 + p) by lia. apply IHl. exact H.
Qed.

Lemma in_progress_timer : forall s p pw k,
  nth_error (s_pws s) p = Some pw -> In k (pw_await pw) -> In (Timer p k) (progress_labels s).
Proof.
  intros s p pw k Hp Hk. unfold progress_labels.
  apply in_or_app. right. apply in_or_app. left.
  apply in_flat_map. exists (p, pw). split.
  - apply (in_combine_seq _ (s_pws s) 0 p pw Hp).
  - simpl. apply in_map. exact Hk.
Qed.

Lemma in_progress_cwd : forall s, In CloseWaitDone (progress_labels s).
Proof.
  intros s. unfold progress_labels.
  apply in_or_app. right. apply in_or_app. right. apply in_or_app. right. left. reflexivity.
Qed.

(* [progress_labels] has a representative of every enabled step that is not the environment's:
   the step itself, or the same attempt with another reaction of the broker *)
Lemma progress_complete : forall cfg s l s', is_env l = false -> step cfg s l = Some s' ->
  exists l', In l' (progress_labels s) /\ step cfg s l' <> None.
Proof.
  intros cfg s l s' Henv H. pose proof (step_Step cfg _ _ _ H) as T.
  assert (E : step cfg s l <> None) by congruence.
  destruct T; try discriminate Henv.
  - eexists; (split; [|exact E]). apply (in_progress_call s c (nth_error_lt _ _ _ _ Nc)). simpl; auto.
  - eexists; (split; [|exact E]). apply (in_progress_call s c (nth_error_lt _ _ _ _ Nc)). simpl; auto.
  - eexists; (split; [|exact E]). eapply in_progress_timer; eauto.
  - eexists; (split; [|exact E]). apply (in_progress_pw s p (nth_error_lt _ _ _ _ Np)). simpl; auto.
  - eexists; (split; [|exact E]). apply (in_progress_pw s p (nth_error_lt _ _ _ _ Np)). simpl; auto.
  - exists (Attempt p AppliedAcked). split; [apply (in_progress_pw s p (nth_error_lt _ _ _ _ Np)); simpl; auto|].
    unfold step. rewrite Np, Sn. discriminate.
  - eexists; (split; [|exact E]). apply (in_progress_pw s p (nth_error_lt _ _ _ _ Np)). simpl; auto 6.
  - eexists; (split; [|exact E]). apply (in_progress_pw s p (nth_error_lt _ _ _ _ Np)). simpl; auto 6.
  - eexists; (split; [|exact E]). apply (in_progress_call s c (nth_error_lt _ _ _ _ Nc)). simpl; auto.
  - eexists; (split; [|exact E]). apply (in_progress_call s c (nth_error_lt _ _ _ _ Nc)). simpl; auto.
  - eexists; (split; [|exact E]). apply in_progress_cwd.
Qed.

Lemma stuckb_sound_proof : stmt_stuckb_sound.
Proof.
  unfold stmt_stuckb_sound, stuckb, stuck. intros cfg s H.
  destruct (s_close s) eqn:Ec; try discriminate. split; [reflexivity|].
  rewrite forallb_forall in H. intros l Henv. destruct (step cfg s l) as [s'|] eqn:E; [exfalso|reflexivity].
  destruct (progress_complete _ _ _ _ Henv E) as (l' & Hin & En). apply En, is_none_true, H, Hin.
Qed.

Fixpoint lsum {A} (f : A -> nat) (l : list A) : nat :=
  match l with [] => 0 | x :: r => f x + lsum f r end.

Lemma lsum_upd : forall A (f : A -> nat) l p x y,
  nth_error l p = Some x -> lsum f (upd l p y) + f x = lsum f l + f y.
Proof.
  induction l; destruct p; simpl; intros x y H; try discriminate.
  - inversion H; subst; lia.
  - specialize (IHl _ _ y H). lia.
Qed.

Lemma lsum_app : forall A (f : A -> nat) a b, lsum f (a ++ b) = lsum f a + lsum f b.
Proof. induction a; simpl; intros; auto. rewrite IHa; lia. Qed.

Lemma lsum_ge : forall A (f : A -> nat) l p x, nth_error l p = Some x -> f x <= lsum f l.
Proof.
  induction l as [|a l IH]; destruct p; simpl; intros x H; try discriminate.
  - inversion H; subst; lia.
  - specialize (IH _ _ H). lia.
Qed.

Lemma lsum_map : forall A (f : A -> nat) (g : A -> A) l, (forall x, f (g x) = f x) -> lsum f (map g l) = lsum f l.
Proof. induction l; simpl; intros H; [reflexivity|]. rewrite H, IHl; auto. Qed.

Lemma lsum_0 : forall A (f : A -> nat) l, Forall (fun x => f x = 0) l -> lsum f l = 0.
Proof. induction 1; simpl; lia. Qed.

(* pww, acw: the goroutines a partition writer (live sender, live awaitBatch timers) / a call
   (between enter and leave) accounts for in the WaitGroup *)
Definition pww (pw : pwriter) : nat := (if pw_alive pw then 1 else 0) + length (pw_await pw).
Definition acw (c : call) : nat := if returned c then 0 else 1.

Lemma live_lsum : forall l, length (filter pw_alive l) + length (flat_map pw_await l) = lsum pww l.
Proof.
  induction l; simpl; auto. rewrite <- IHl, app_length. unfold pww. destruct (pw_alive a); simpl; lia.
Qed.

Lemma active_lsum : forall l, length (filter (fun c => negb (returned c)) l) = lsum acw l.
Proof. induction l; simpl; auto. rewrite <- IHl. unfold acw. destruct (returned a); simpl; lia. Qed.

Lemma pww_ext : forall pw pw', pw_await pw' = pw_await pw -> pw_alive pw' = pw_alive pw -> pww pw' = pww pw.
Proof. unfold pww. intros pw pw' -> ->. auto. Qed.

Lemma put_tp : forall pw b, pw_tp (put pw b) = pw_tp pw.
Proof. intros. unfold put. destruct (pw_open pw); reflexivity. Qed.
Lemma put_fin : forall pw b, pw_fin (put pw b) = pw_fin pw.
Proof. intros. unfold put. destruct (pw_open pw); reflexivity. Qed.
Lemma put_snd : forall pw b, pw_snd (put pw b) = pw_snd pw.
Proof. intros. unfold put. destruct (pw_open pw); reflexivity. Qed.
Lemma put_curr : forall pw b, pw_curr (put pw b) = pw_curr pw.
Proof. intros. unfold put. destruct (pw_open pw); reflexivity. Qed.

Lemma pw_add_pww : forall cfg pw m pw' k sp, pw_add cfg pw m = (pw', k, sp) -> pw_open pw = true ->
  pww pw' = pww pw + sp.
Proof.
  intros cfg pw m pw' k sp H Ho.
  destruct (pw_add_spec cfg _ _ _ _ _ H Ho) as (_ & _ & _ & _ & A & C). unfold pww. rewrite A.
  destruct C as [(l & b & _ & _ & _ & _ & -> & ->)|(_ & _ & _ & -> & ->)]; rewrite ?app_length; simpl; lia.
Qed.

Lemma filter_neq_notin : forall l k, ~ In k l -> filter (fun x => negb (Nat.eqb x k)) l = l.
Proof.
  induction l as [|a l IH]; simpl; intros k H; [reflexivity|].
  destruct (Nat.eqb_spec a k) as [->|N]; simpl; [tauto|]. rewrite IH; tauto.
Qed.

Lemma filter_neq_length : forall l k, NoDup l -> In k l ->
  S (length (filter (fun x => negb (Nat.eqb x k)) l)) = length l.
Proof.
  induction l as [|a l IH]; simpl; intros k ND Hin; [contradiction|]. inversion ND; subst.
  destruct (Nat.eqb_spec a k) as [->|N]; simpl.
  - rewrite filter_neq_notin; auto.
  - f_equal. apply IH; tauto.
Qed.

Lemma pwstep_pww : forall cfg p pw l pw' j cp, pwstep cfg p pw l pw' j cp -> wf_pw pw ->
  exists d, pww pw = d + pww pw' /\ forall wg, wg_after l wg = wg - d.
Proof.
  intros cfg p pw l pw' j cp T W. destruct T; [exists 1|exists 0|exists 1|exists 0|exists 0|exists 0];
    (split; [|intros wg; simpl; lia]); unfold pww.
  - rewrite <- (filter_neq_length _ k (wf_nodup _ W) Aw).
    destruct (flush_fields pw) as (_ & _ & _ & _ & _ & F6 & F7 & _).
    destruct (timer_pw_cases pw k) as [[-> _]|[-> _]]; simpl; rewrite ?F6, ?F7; lia.
  - simpl. lia.
  - simpl. rewrite Al. lia.
  - simpl. lia.
  - simpl. lia.
  - simpl. lia.
Qed.

Definition wg_inv (s : state) : Prop := s_wg s = lsum acw (s_calls s) + lsum pww (s_pws s).

Lemma wg_inv_step : forall cfg s l s', wf_state s -> wg_inv s -> stepped cfg s l s' -> wg_inv s'.
Proof.
  unfold wg_inv. intros cfg s l s' [W _] I T.
  destruct T as [g msgs merr wg ph _ Ph | l c cl r Ec Ph | c cl pws wg refs Ec Ep _ EA
                | l p pw pw' j cp E T | |]; simpl; auto.
  - rewrite lsum_app. destruct Ph as [(-> & -> & _)|((r & ->) & -> & _)]; simpl; lia.
  - pose proof (lsum_upd _ acw _ _ _ (mkCall (c_g cl) (c_msgs cl) (c_refs cl) (CReturned r)) Ec) as U.
    assert (A : acw cl = 1) by (unfold acw, returned; destruct Ph as [[-> _]|[-> _]]; reflexivity).
    change (acw (mkCall (c_g cl) (c_msgs cl) (c_refs cl) (CReturned r))) with 0 in U. lia.
  - pose proof (lsum_upd _ acw _ _ _ (mkCall (c_g cl) (c_msgs cl) refs CWaiting) Ec) as U.
    assert (Ac : acw cl = 1) by (unfold acw, returned; rewrite Ep; reflexivity).
    change (acw (mkCall (c_g cl) (c_msgs cl) refs CWaiting)) with 1 in U.
    assert (wg + lsum pww (s_pws s) = s_wg s + lsum pww pws); [|lia].
    eapply (assign_all_by_msg cfg (c_msgs cl) (fun _ pws1 wg1 _ =>
              wg1 + lsum pww (s_pws s) = s_wg s + lsum pww pws1)); [|reflexivity|exact EA].
    intros ms1 m ms2 pws1 wg1 refs1 pws' wg' refs' _ I1 A. destruct A as [p pw pw' k sp E Ho _ Ad|pw' k sp _ Ad].
    + pose proof (lsum_upd _ pww _ _ _ pw' E) as U1. rewrite (pw_add_pww _ _ _ _ _ _ Ad Ho) in U1. lia.
    + rewrite lsum_app. cbn [lsum]. rewrite (pw_add_pww _ _ _ _ _ _ Ad eq_refl). simpl. lia.
  - destruct (pwstep_pww _ _ _ _ _ _ _ T (Forall_nth _ _ _ _ _ W E)) as (d & D & ->).
    pose proof (lsum_upd _ pww _ _ _ pw' E) as U. lia.
  - rewrite lsum_map; [exact I|]. intros x. rewrite close_pw_eq.
    destruct (flush_fields x) as (_ & _ & _ & _ & _ & F6 & F7 & _). destruct (pw_open x); auto.
    apply pww_ext; auto.
Qed.

Lemma wg_inv_runs : forall cfg ls s, runs cfg ls s -> wf_state s /\ wg_inv s.
Proof. intros cfg. apply runs_stepped; [reflexivity|apply wg_inv_step]. Qed.

Lemma C09_w_waitgroup_exact_proof : stmt_C09_w_waitgroup_exact.
Proof.
  unfold stmt_C09_w_waitgroup_exact. intros cfg ls s Hr.
  destruct (wg_inv_runs _ _ _ Hr) as [_ H].
  unfold active_calls, alive_senders, awaiters.
  rewrite active_lsum, <- Nat.add_assoc, live_lsum. exact H.
Qed.

Lemma ex_or_all : forall A (f : A -> bool) l,
  (exists p x, nth_error l p = Some x /\ f x = true) \/ Forall (fun x => f x = false) l.
Proof.
  induction l as [|a l IH]; [right; constructor|].
  destruct (f a) eqn:E.
  - left. exists 0, a. simpl. auto.
  - destruct IH as [[p [x [H1 H2]]]|IH].
    + left. exists (S p), x. simpl. auto.
    + right. constructor; auto.
Qed.

Lemma find_fin : forall k (fin : list (batch * option err)),
  In k (map b_k (map fst fin)) -> find (fun be => Nat.eqb (b_k (fst be)) k) fin <> None.
Proof.
  induction fin as [|a fin IH]; simpl; intros H; [contradiction|].
  destruct (Nat.eqb (b_k (fst a)) k) eqn:E; [discriminate|].
  destruct H as [H|H]; [apply Nat.eqb_neq in E; contradiction|auto].
Qed.

Definition quiet (pw : pwriter) : Prop := pww pw = 0.

Lemma quiet_done : forall pw, wf_pw pw -> quiet pw ->
  pw_curr pw = None /\ pw_queue pw = [] /\ pw_snd pw = None /\ pw_alive pw = false /\ pw_await pw = [].
Proof.
  unfold quiet, pww. intros pw W Q.
  assert (Hal : pw_alive pw = false) by (destruct (pw_alive pw); [discriminate|reflexivity]).
  assert (Haw : pw_await pw = []) by (destruct (pw_await pw); [reflexivity|rewrite Hal in Q; discriminate]).
  destruct (wf_dead _ W Hal) as (Hq & Hs & _). repeat split; auto.
  destruct (pw_curr pw) as [b|] eqn:Ec; [|reflexivity].
  destruct (wf_curr _ W _ Ec) as [_ Hin]. rewrite Haw in Hin. destruct Hin.
Qed.

Lemma all_results_some : forall pws refs,
  Forall wf_pw pws -> Forall quiet pws ->
  (forall r, In r refs -> exists pw, nth_error pws (fst r) = Some pw /\ In (snd r) (map b_k (pw_all pw))) ->
  all_results pws refs <> None.
Proof.
  induction refs as [|r rs IH]; simpl; intros W Q R; [discriminate|].
  destruct (R r (or_introl eq_refl)) as (pw & H1 & Hin). unfold batch_result. rewrite H1.
  destruct (quiet_done _ (Forall_nth _ _ _ _ _ W H1) (Forall_nth _ _ _ _ _ Q H1)) as (Hc & Hq & Hs & _).
  unfold pw_all in Hin. rewrite Hq, Hs, Hc in Hin. simpl in Hin. rewrite app_nil_r in Hin.
  apply find_fin in Hin.
  destruct (find (fun be => Nat.eqb (b_k (fst be)) (snd r)) (pw_fin pw)); [|congruence]. simpl.
  specialize (IH W Q (fun r0 H => R r0 (or_intror H))). destruct (all_results pws rs); congruence.
Qed.

Lemma call_refs : forall cfg pws cl r, call_ok cfg pws cl -> In r (c_refs cl) ->
  exists pw, nth_error pws (fst r) = Some pw /\ In (snd r) (map b_k (pw_all pw)).
Proof.
  intros cfg pws cl r [R _] Hr. apply In_nth_error in Hr. destruct Hr as [i Hi].
  destruct (R i r Hi) as (m & pw & _ & Hp & _ & b & Hb & <- & _). exists pw. split; [exact Hp|apply in_map, Hb].
Qed.

Lemma C09_w_close_no_stuck_proof : stmt_C09_w_close_no_stuck.
Proof.
  unfold stmt_C09_w_close_no_stuck. intros cfg ls s Hr HC.
  destruct (wg_inv_runs _ _ _ Hr) as [[I1 I2] Hwg].
  pose proof (Cks_runs _ _ _ Hr) as I3.
  assert (Hcl : closed s = true) by (unfold closed; rewrite HC; reflexivity).
  rewrite Hcl in I2. simpl in I2.
  (* (i) a live awaitBatch goroutine *)
  destruct (ex_or_all _ (fun pw => match pw_await pw with [] => false | _ => true end) (s_pws s))
    as [[p [pw [E Hf]]]|NoAw].
  { destruct (pw_await pw) as [|k aw] eqn:Ea; [discriminate|].
    exists (Timer p k). split; [reflexivity|]. unfold step. rewrite E, Ea. simpl.
    rewrite Nat.eqb_refl. simpl. discriminate. }
  (* (ii) a live sender *)
  destruct (ex_or_all _ pw_alive (s_pws s)) as [[p [pw [E Hal]]]|NoAl].
  { pose proof (Forall_nth _ _ _ _ _ I2 E) as Ho. simpl in Ho.
    destruct (pw_snd pw) as [[b n [| |e]]|] eqn:Es.
    - exists (Attempt p AppliedAcked). split; [reflexivity|]. unfold step. rewrite E, Es. discriminate.
    - exists (BackoffDone p). split; [reflexivity|]. unfold step. rewrite E, Es. discriminate.
    - exists (Finish p). split; [reflexivity|]. unfold step. rewrite E, Es. discriminate.
    - destruct (pw_queue pw) as [|b q] eqn:Eq.
      + exists (SenderExit p). split; [reflexivity|]. unfold step. rewrite E, Hal, Es, Eq, Ho. discriminate.
      + exists (Get p). split; [reflexivity|]. unfold step. rewrite E, Hal, Es, Eq. discriminate. }
  assert (HQ : Forall quiet (s_pws s)).
  { rewrite Forall_forall in *. intros pw Hin. specialize (NoAw pw Hin). specialize (NoAl pw Hin).
    simpl in *. unfold quiet, pww. rewrite NoAl. destruct (pw_await pw); [reflexivity|discriminate]. }
  (* (iii) a call before batchMessages *)
  destruct (ex_or_all _ (fun c => match c_ph c with CEntered => true | _ => false end) (s_calls s))
    as [[c [cl [E Hf]]]|NoEnt].
  { exists (Assign c). split; [reflexivity|]. unfold step. rewrite E.
    destruct (c_ph cl); try discriminate. rewrite Hcl. discriminate. }
  (* (iv) a waiting call *)
  destruct (ex_or_all _ (fun c => match c_ph c with CWaiting => true | _ => false end) (s_calls s))
    as [[c [cl [E Hf]]]|NoWait].
  { exists (Return c). split; [reflexivity|]. unfold step. rewrite E.
    destruct (c_ph cl); try discriminate.
    destruct (async cfg); [discriminate|].
    destruct (all_results (s_pws s) (c_refs cl)) eqn:EA; [discriminate|].
    exfalso. revert EA. apply all_results_some; auto.
    intros r. apply (call_refs cfg _ cl), (I3 _ _ E). }
  (* (v) the counter is 0 *)
  exists CloseWaitDone. split; [reflexivity|]. unfold step. rewrite HC.
  assert (H0 : s_wg s = 0).
  { rewrite Hwg, (lsum_0 _ pww _ HQ), lsum_0; auto.
    rewrite Forall_forall in *. intros c0 Hin. specialize (NoEnt c0 Hin). specialize (NoWait c0 Hin).
    simpl in *. unfold acw, returned. destruct (c_ph c0); try discriminate; reflexivity. }
  rewrite H0. discriminate.
Qed.

Lemma C09_w_close_never_stuck_proof : stmt_C09_w_close_never_stuck.
Proof.
  unfold stmt_C09_w_close_never_stuck. intros cfg ls s Hr [HC Hst].
  destruct (C09_w_close_no_stuck_proof cfg ls s Hr HC) as [l [Hl Hen]].
  apply Hen. apply Hst. exact Hl.
Qed.

Lemma wg_after_le : forall l wg, wg_after l wg <= wg.
Proof. intros l wg. destruct l; simpl; lia. Qed.

(* once Close has returned nothing enters the WaitGroup any more *)
Lemma returned_wg0 : forall cfg ls s, runs cfg ls s -> s_close s = ClReturned -> s_wg s = 0.
Proof.
  intros cfg ls s Hr. apply (runs_stepped cfg (fun s => s_close s = ClReturned -> s_wg s = 0)) with (ls := ls);
    [discriminate| |exact Hr].
  clear. intros s l s' _ I H.
  destruct H as [g msgs merr wg ph _ Ph | | c cl pws wg refs _ _ Ecl _ | l p pw pw' j cp _ _ | |];
    simpl; try congruence; intros HC; unfold call_outcome, closed in *; try rewrite HC in *.
  - destruct Ph as [(_ & _ & Ecl)|(_ & -> & _)]; [discriminate|auto].
  - rewrite (I eq_refl). reflexivity.
  - discriminate.
  - pose proof (wg_after_le l (s_wg s)). specialize (I eq_refl). lia.
Qed.

Lemma close_returned_quiet :
  forall cfg ls s, runs cfg ls s -> s_close s = ClReturned ->
    (forall p pw, nth_error (s_pws s) p = Some pw ->
       pw_curr pw = None /\ pw_queue pw = [] /\ pw_snd pw = None /\ pw_alive pw = false /\ pw_await pw = []) /\
    (forall c cl, nth_error (s_calls s) c = Some cl -> returned cl = true).
Proof.
  intros cfg ls s Hr HC. pose proof (returned_wg0 _ _ _ Hr HC) as J.
  destruct (wg_inv_runs _ _ _ Hr) as [[W _] Hwg]. unfold wg_inv in Hwg. split.
  - intros p pw E. pose proof (lsum_ge _ pww _ _ _ E) as G.
    apply (quiet_done _ (Forall_nth _ _ _ _ _ W E)). unfold quiet. lia.
  - intros c cl E. pose proof (lsum_ge _ acw _ _ _ E) as G.
    assert (Hp : acw cl = 0) by lia. unfold acw in Hp. destruct (returned cl); [reflexivity|discriminate].
Qed.

(* the third conjunct: every message of an accepted call was batched (C07's invariant), all
   batches are finished, and finished batches were completed (Cps of WriterC01b) *)
Lemma C09_w_close_post_proof : stmt_C09_w_close_post.
Proof.
  unfold stmt_C09_w_close_post. intros cfg ls s Hr HC.
  destruct (close_returned_quiet _ _ _ Hr HC) as [H1 H2].
  split; [exact H1|split; [exact H2|]].
  intros c cl m E Hrej Hin.
  destruct (WriterC07.order_invs_runs _ _ _ Hr) as [_ I2].
  assert (Hph : c_ph cl <> CEntered).
  { specialize (H2 _ _ E). unfold returned in H2. intros Ep. rewrite Ep in H2. discriminate. }
  destruct (WriterC07.i2_cover _ _ I2 _ _ _ E Hph Hrej Hin) as (p & pw & Ep & _ & Hm).
  destruct (H1 _ _ Ep) as (Hc & Hq & Hs & _).
  unfold WriterC07.pw_seq, pw_all in Hm. rewrite Hc, Hq, Hs in Hm. simpl in Hm.
  rewrite app_nil_r in Hm. apply in_flat_map in Hm. destruct Hm as [b [Hb Hm]].
  apply in_map_iff in Hb. destruct Hb as [[b' e] [Hb' Hbe]]. simpl in Hb'. subst b'.
  exists (b_msgs b), e. split; [|exact Hm].
  apply (proj1 (Cps_runs _ _ _ Hr) _ _ Ep). exact Hbe.
Qed.

(* bc, a batch not yet taken: Get, per attempt Attempt and BackoffDone, Finish, rounded up.
   sc: what is left of that for the batch being sent.  pwc: SenderExit, a Timer per live
   awaitBatch, the batches.  cc: before batchMessages Assign and Return, and per message what
   pw_add can add to a writer (bc + 1, pw_add_cost) plus 1 for a new sender. *)
Definition bc (cfg : config) : nat := 2 * maxAttempts cfg + 3.
Definition sc (cfg : config) (sd : sending) : nat :=
  match sd_ph sd with
  | PAttempt => 2 * (maxAttempts cfg - sd_att sd) + 2
  | PBackoff => 2 * (maxAttempts cfg - sd_att sd) + 3
  | PFinish _ => 1
  end.
Definition pwc (cfg : config) (pw : pwriter) : nat :=
  (if pw_alive pw then 1 else 0) + length (pw_await pw)
  + match pw_snd pw with Some sd => sc cfg sd | None => 0 end
  + length (pw_queue pw) * bc cfg
  + match pw_curr pw with Some _ => bc cfg | None => 0 end.
Definition cc (cfg : config) (c : call) : nat :=
  match c_ph c with
  | CEntered => 2 + length (c_msgs c) * (bc cfg + 2)
  | CWaiting => 1
  | CReturned _ => 0
  end.
Definition mu (cfg : config) (s : state) : nat :=
  (match s_close s with ClWaiting => 1 | _ => 0 end)
  + lsum (cc cfg) (s_calls s) + lsum (pwc cfg) (s_pws s).

Lemma pwc_pend : forall cfg pw, pwc cfg pw =
  (if pw_alive pw then 1 else 0) + length (pw_await pw)
  + match pw_snd pw with Some sd => sc cfg sd | None => 0 end + length (pend pw) * bc cfg.
Proof.
  intros cfg pw. unfold pwc, pend. rewrite app_length, Nat.mul_add_distr_r.
  destruct (pw_curr pw); simpl; lia.
Qed.

Lemma pw_add_cost : forall cfg pw m pw' k sp, pw_add cfg pw m = (pw', k, sp) -> pw_open pw = true ->
  pwc cfg pw' <= pwc cfg pw + bc cfg + 1.
Proof.
  intros cfg pw m pw' k sp H Ho.
  destruct (pw_add_spec cfg _ _ _ _ _ H Ho) as (_ & _ & F & S & A & C).
  assert (L : length (pend pw') <= length (pend pw) + 1 /\ length (pw_await pw') <= length (pw_await pw) + 1).
  { assert (Fs : pw_done pw' = pw_done pw) by (unfold pw_done; rewrite F, S; reflexivity).
    destruct C as [(l & b & E & E' & _ & _ & _ & ->)|(E' & _ & _ & _ & ->)];
      apply (f_equal (@length _)) in E'; rewrite ?pw_all_split, ?Fs in *;
      try apply (f_equal (@length _)) in E; rewrite !app_length in *; simpl in *; lia. }
  rewrite !pwc_pend, S, A. destruct L as [L1 L2]. clear - L1 L2.
  assert (length (pend pw') * bc cfg <= length (pend pw) * bc cfg + bc cfg); [|lia].
  rewrite <- (Nat.mul_succ_l (length (pend pw))). apply Nat.mul_le_mono_r. lia.
Qed.

Lemma filter_le : forall A (f : A -> bool) l, length (filter f l) <= length l.
Proof. induction l; simpl; auto. destruct (f a); simpl; lia. Qed.

Lemma filter_lt : forall k l, In k l -> length (filter (fun x => negb (Nat.eqb x k)) l) < length l.
Proof.
  induction l as [|a l IH]; simpl; intros H; [contradiction|].
  pose proof (filter_le _ (fun x => negb (Nat.eqb x k)) l) as Hle.
  destruct (Nat.eqb a k) eqn:E; simpl; [lia|].
  destruct H as [->|H]; [rewrite Nat.eqb_refl in E; discriminate|]. specialize (IH H). lia.
Qed.

(* in any state, well-formed or not: a batch that Put drops costs nothing any more *)
Lemma flush_cost : forall cfg pw, pwc cfg (flush pw) <= pwc cfg pw.
Proof.
  intros cfg pw. unfold flush, put. destruct (pw_curr pw) as [b|] eqn:E; [|lia].
  destruct (pw_open pw); unfold pwc; simpl; rewrite ?E, ?app_length, ?Nat.mul_add_distr_r; simpl; lia.
Qed.

Lemma pwstep_cost : forall cfg p pw l pw' j cp, pwstep cfg p pw l pw' j cp -> pwc cfg pw' < pwc cfg pw.
Proof.
  intros cfg p pw l pw' j cp T. destruct T.
  - pose proof (filter_lt _ _ Aw) as HL. pose proof (flush_cost cfg pw) as HF.
    destruct (flush_fields pw) as (_ & _ & _ & _ & _ & _ & F7 & _).
    destruct (timer_pw_cases pw k) as [[-> _]|[-> _]]; unfold pwc in *; simpl; rewrite ?F7 in *; lia.
  - unfold pwc; simpl. rewrite Al, Sn, Qu. unfold sc, bc; simpl. destruct (0 <? maxAttempts cfg); simpl; lia.
  - unfold pwc; simpl. rewrite Al. lia.
  - unfold pwc; simpl. rewrite Sn. unfold sc; simpl.
    unfold after_attempt. destruct (r_seen r) as [e|]; simpl; [|lia].
    destruct (retriable cfg e); simpl; [|lia].
    destruct (S n <? maxAttempts cfg) eqn:El; simpl; [|lia]. apply Nat.ltb_lt in El. lia.
  - unfold pwc; simpl. rewrite Sn. unfold sc; simpl. lia.
  - unfold pwc; simpl. rewrite Sn. unfold sc; simpl. lia.
Qed.

(* holds in every state, reachable or not *)
Lemma mu_decreases : forall cfg s l s',
  is_env l = false -> step cfg s l = Some s' -> mu cfg s' < mu cfg s.
Proof.
  intros cfg s l s' Henv H. apply step_stepped in H. unfold mu.
  destruct H as [| l c cl r Ec Ph | c cl pws wg refs Ec Ep _ EA | l p pw pw' j cp E T | | Ec _];
    simpl; try discriminate.
  - pose proof (lsum_upd _ (cc cfg) _ _ _ (mkCall (c_g cl) (c_msgs cl) (c_refs cl) (CReturned r)) Ec) as U.
    assert (C : 1 <= cc cfg cl) by (unfold cc; destruct Ph as [[-> _]|[-> _]]; lia).
    change (cc cfg (mkCall (c_g cl) (c_msgs cl) (c_refs cl) (CReturned r))) with 0 in U. lia.
  - pose proof (lsum_upd _ (cc cfg) _ _ _ (mkCall (c_g cl) (c_msgs cl) refs CWaiting) Ec) as U.
    assert (C : cc cfg cl = 2 + length (c_msgs cl) * (bc cfg + 2)) by (unfold cc; rewrite Ep; reflexivity).
    change (cc cfg (mkCall (c_g cl) (c_msgs cl) refs CWaiting)) with 1 in U.
    assert (lsum (pwc cfg) pws <= lsum (pwc cfg) (s_pws s) + length (c_msgs cl) * (bc cfg + 2)); [|lia].
    eapply (assign_all_by_msg cfg (c_msgs cl) (fun ms1 pws1 _ _ =>
              lsum (pwc cfg) pws1 <= lsum (pwc cfg) (s_pws s) + length ms1 * (bc cfg + 2)));
      [| |exact EA]; [|simpl; lia].
    intros ms1 m ms2 pws1 wg1 refs1 pws' wg' refs' _ I1 A. rewrite app_length, Nat.mul_add_distr_r. simpl.
    destruct A as [p pw pw' k sp E Ho _ Ad|pw' k sp _ Ad].
    + pose proof (lsum_upd _ (pwc cfg) _ _ _ pw' E) as U1. pose proof (pw_add_cost _ _ _ _ _ _ Ad Ho). lia.
    + rewrite lsum_app. pose proof (pw_add_cost _ _ _ _ _ _ Ad eq_refl) as U1.
      change (pwc cfg (new_pw (tp_of cfg m))) with 1 in U1. simpl. lia.
  - pose proof (lsum_upd _ (pwc cfg) _ _ _ pw' E) as U. pose proof (pwstep_cost _ _ _ _ _ _ _ T). lia.
  - rewrite Ec. lia.
Qed.

Lemma C09_w_variant_proof : forall cfg ls s l s',
  runs cfg ls s -> is_env l = false -> step cfg s l = Some s' -> mu cfg s' < mu cfg s.
Proof. intros cfg ls s l s' _. apply mu_decreases. Qed.
