(* Proofs/LifecycleBase.v — list lemmas, the inversion of one step, and what a step leaves alone ([frame]) *)
From Coq Require Import List Arith Bool Lia.
From KV Require Import Lib.LTS Model.Lifecycle.
Import ListNotations.

Lemma nth_upd_eq : forall A (l : list A) i x y, nth_error l i = Some y -> nth_error (upd i x l) i = Some x.
Proof. induction l; intros [|i] x y H; simpl in *; try discriminate; eauto. Qed.
Lemma nth_upd_neq : forall A (l : list A) i j x, i <> j -> nth_error (upd i x l) j = nth_error l j.
Proof. induction l; intros [|i] [|j] x H; simpl; auto; try congruence. Qed.
Lemma nth_upd : forall A (l : list A) i j x,
  nth_error (upd i x l) j = if Nat.eqb i j then (match nth_error l j with Some _ => Some x | None => None end) else nth_error l j.
Proof.
  intros. destruct (Nat.eqb_spec i j).
  - subst. destruct (nth_error l j) eqn:E; [eapply nth_upd_eq; eauto|].
    revert j E. induction l; intros [|j] E; simpl in *; auto; discriminate.
  - apply nth_upd_neq; auto.
Qed.
Lemma upd_length : forall A (l : list A) i x, length (upd i x l) = length l.
Proof. induction l; intros [|i] x; simpl; auto. Qed.
Lemma nth_app_last : forall A (l : list A) x, nth_error (l ++ [x]) (length l) = Some x.
Proof. induction l; simpl; auto. Qed.
Lemma nth_app_cases : forall A (l : list A) x i y,
  nth_error (l ++ [x]) i = Some y -> nth_error l i = Some y \/ (i = length l /\ y = x).
Proof.
  intros. destruct (Nat.lt_ge_cases i (length l)).
  - rewrite nth_error_app1 in H by auto. auto.
  - rewrite nth_error_app2 in H by auto. destruct (i - length l) as [|[|]] eqn:E; cbn in H; try discriminate.
    inversion H; subst. right. split; auto. lia.
Qed.
Lemma nth_some_lt : forall A (l : list A) i x, nth_error l i = Some x -> i < length l.
Proof. intros. apply nth_error_Some. congruence. Qed.

Lemma forallb_upd : forall A (p : A -> bool) l i x,
  forallb p l = true -> p x = true -> forallb p (upd i x l) = true.
Proof.
  induction l; intros [|i] x H Hx; simpl in *; auto; apply andb_true_iff in H as [H1 H2];
    apply andb_true_iff; split; auto.
Qed.
Lemma forallb_nth : forall A (p : A -> bool) l i x, forallb p l = true -> nth_error l i = Some x -> p x = true.
Proof. intros. rewrite forallb_forall in H. apply H. eapply nth_error_In; eauto. Qed.
Lemma forallb_app1 : forall A (p : A -> bool) l x, forallb p (l ++ [x]) = forallb p l && p x.
Proof. intros. rewrite forallb_app. simpl. rewrite andb_true_r. reflexivity. Qed.
Lemma forallb_false_nth : forall A (p : A -> bool) l, forallb p l = false -> exists i x, nth_error l i = Some x /\ p x = false.
Proof.
  induction l; simpl; intros H; [discriminate|]. destruct (p a) eqn:E.
  - destruct (IHl H) as (i & x & H1 & H2). exists (S i), x. auto.
  - exists 0, a. auto.
Qed.
Lemma existsb_nth : forall A (p : A -> bool) l, existsb p l = true -> exists i x, nth_error l i = Some x /\ p x = true.
Proof.
  induction l; simpl; intros H; [discriminate|]. destruct (p a) eqn:E.
  - exists 0, a. auto.
  - destruct (IHl H) as (i & x & H1 & H2). exists (S i), x. auto.
Qed.
Lemma existsb_nth_intro : forall A (p : A -> bool) l i x, nth_error l i = Some x -> p x = true -> existsb p l = true.
Proof. intros. apply existsb_exists. exists x. split; auto. eapply nth_error_In; eauto. Qed.
Lemma forallb_repeat : forall A (p : A -> bool) x n, (n = 0 \/ p x = true) -> forallb p (repeat x n) = true.
Proof. induction n; simpl; auto. intros [H|H]; [discriminate|]. rewrite H. auto. Qed.

Lemma count_app : forall A (p : A -> bool) l1 l2, count p (l1 ++ l2) = count p l1 + count p l2.
Proof. intros. unfold count. rewrite filter_app, app_length. reflexivity. Qed.
Lemma count_cons : forall A (p : A -> bool) a l, count p (a :: l) = (if p a then 1 else 0) + count p l.
Proof. intros. unfold count. simpl. destruct (p a); reflexivity. Qed.
Lemma count_upd : forall A (p : A -> bool) l i x y, nth_error l i = Some y ->
  count p (upd i x l) + (if p y then 1 else 0) = count p l + (if p x then 1 else 0).
Proof.
  induction l; intros [|i] x y H; simpl in *; try discriminate.
  - inversion H; subst. rewrite !count_cons. lia.
  - rewrite !count_cons. specialize (IHl _ x _ H). lia.
Qed.
Lemma count_zero_forallb : forall A (p : A -> bool) l, count p l = 0 <-> forallb (fun x => negb (p x)) l = true.
Proof.
  induction l; simpl; [tauto|]. rewrite count_cons. destruct (p a); simpl; [split; [lia|discriminate]|]. exact IHl.
Qed.
Lemma count_repeat : forall A (p : A -> bool) x n, count p (repeat x n) = if p x then n else 0.
Proof. induction n; simpl; [destruct (p x); reflexivity|]. rewrite count_cons, IHn. destruct (p x); reflexivity. Qed.

Definition reach (c : config) (s : state) : Prop := exists ls, run step (init c) ls = Some s.
Lemma reach_ind : forall c (P : state -> Prop),
  P (init c) -> (forall s l s', P s -> step s l = Some s' -> P s') -> forall ls s, run step (init c) ls = Some s -> P s.
Proof. intros c P H0 Hs ls s Hr. eapply (inv_run _ _ step P); eauto. Qed.
Lemma reply_calls_only : forall c ok s, reply c ok s = set_calls (calls (reply c ok s)) s.
Proof.
  intros. unfold reply. destruct (nth_error (calls s) c); [|destruct s; reflexivity].
  destruct (k_ph c0) as [| | | |[rp|]| | |]; destruct s; reflexivity.
Qed.
Lemma reply_all_calls_only : forall cs ok s, reply_all cs ok s = set_calls (calls (reply_all cs ok s)) s.
Proof.
  induction cs; intros; simpl; [destruct s; reflexivity|].
  rewrite IHcs. rewrite (reply_calls_only a ok s) at 2. destruct s; reflexivity.
Qed.

Ltac unf := unfold after_close, fail_ng, enter_leave, finish_leave, exit_cg, cl_finish, fn_return, start_fn,
  ret, set_call, start, set_f, push, end_gen, close_conn, set_fn, set_fn_dirty, ev in *.
Ltac destr_in H :=
  repeat match type of H with
  | context [match ?x with _ => _ end] => destruct x eqn:?; try discriminate
  | context [if ?x then _ else _] => destruct x eqn:?; try discriminate
  end.
Ltac destr_goal :=
  repeat match goal with
  | |- context [match ?x with _ => _ end] => destruct x eqn:?
  | |- context [if ?x then _ else _] => destruct x eqn:?
  end.
Ltac rw_field f :=
  repeat match goal with E : f ?s = _ |- _ => is_var s; rewrite E in *; revert E end; intros.
(* case analysis of one step: one goal per label and per branch of its guards *)
Ltac step_inv St :=
  unfold step in St;
  match type of St with context [panicked ?s] => destruct (panicked s) eqn:Hpan; [discriminate|] end;
  try (match type of St with context [match ?l with LCall _ => _ | _ => _ end] => is_var l; destruct l end);
  cbv beta iota zeta in St; destr_in St;
  match type of St with Some _ = Some ?x => injection St as St; subst x end.

(* By what a label writes: LFLock, LSetOffset, LRSub may call Reader.start; LCall may start readLag; LFDial,
   LFLookup, LFSeeCancel write [inners]; LClCommit, LClSeeStop answer callers ([reply_all]). *)
Definition run_label (l : label) : bool :=
  match l with
  | LFRunErr _ | LRNextCall | LRNextGen | LRNextErr | LRNextCtx | LRRunErrDrop | LRSub _ | LRStartC | LRStartU
  | LRCgClose | LRCgWait | LRDone => true
  | _ => false end.
Definition cg_label (l : label) : bool :=
  match l with
  | LGCoord _ | LGJoin _ | LGSync _ | LGOfetch _ | LGPublishAbort | LGWaitClosed | LGWaitDone | LGClose | LGJoined
  | LGLeaveCoord _ | LGLeaveReq | LGOfferAbort | LGBackoffAbort | LGBackoffFire => true
  | _ => false end.
Definition fn_label (l : label) : bool :=
  match l with
  | LHbTick _ _ | LFnSeeDone _ | LFnHandler _ | LClTake _ | LClTick _ | LClCommit _ _ | LClBackoffFire _
  | LClSeeStop _ | LUnCancel _ | LUnJoin _ => true
  | _ => false end.
Definition group_label (l : label) : bool := run_label l || cg_label l || fn_label l.
Definition close_label (l : label) : bool := match l with LCloseCall | LCloseStep _ => true | _ => false end.
Definition fetch_label (l : label) : bool :=
  match l with
  | LSetOffset | LFLock _ | LRSub _
  | LFDial _ _ | LFLookup _ _ | LFOffsets _ _ | LFBackoffFire _ | LFSeeCancel _ | LFPushErr _ | LFFetch _ | LFResp _ _
  | LFPush _ | LFBatchEnd _ _ => true
  | _ => false end.
Definition lag_label (l : label) : bool :=
  match l with
  | LCall _ | LLagBegin | LLagGot | LLagTimeout | LLagTick | LLagStop | LInDial _ _ | LInOffsets _ | LInExit _
  | LFDial _ _ | LFLookup _ _ | LFSeeCancel _ => true
  | _ => false end.
Definition call_label (l : label) : bool :=
  match l with
  | LCall _ | LCtx _ | LRetCtx _ | LFLock _ | LFRecv _ | LFEof _ | LFRunErr _ | LCCheck _ | LCEnq _ | LCClosed _
  | LCReply _ | LTReady _ | LTResp _ _ | LClCommit _ _ | LClSeeStop _ => true
  | _ => false end.
Definition msgs_label (l : label) : bool := match l with LFRecv _ | LFPushErr _ | LFPush _ => true | _ => false end.
Definition loud_label (l : label) : bool :=
  match l with LFFetch _ | LGJoin _ | LGSync _ | LHbTick _ _ | LClCommit _ _ => true | _ => false end.

(* What a step leaves alone, by the class of its label; for the history, which labels emit an event
   that a monitor looks at. *)
Record frame (s : state) (l : label) (s' : state) : Prop := {
  fr_run : run_label l = false -> rph s' = rph s /\ rdone s' = rdone s /\ cgdone s' = cgdone s;
  fr_group : group_label l = false -> gens s' = gens s /\ fns s' = fns s;
  fr_mid : cg_label l = false -> mid s' = mid s /\ mstat (hist s') = mstat (hist s);
  fr_gph : run_label l || cg_label l = false -> gph s' = gph s;
  fr_close : close_label l = false ->
    closers s' = closers s /\ closed s' = closed s /\ stctx s' = stctx s /\ mclosed s' = mclosed s /\
    panicked s' = panicked s;
  fr_close_ev : close_label l = false ->
    existsb is_closed_ev (hist s') = existsb is_closed_ev (hist s) /\
    msgs_closes (hist s') = msgs_closes (hist s) /\ mon_leave (hist s') = mon_leave (hist s);
  fr_fetch : fetch_label l = false -> fetchers s' = fetchers s;
  fr_lag : lag_label l = false -> lag s' = lag s /\ inners s' = inners s;
  fr_calls : call_label l = false ->
    calls s' = calls s /\ (forall c, call_info c (hist s') = call_info c (hist s)) /\
    (forall g, mon_after_close g (hist s') = mon_after_close g (hist s));
  fr_msgs : msgs_label l = false -> msgs s' = msgs s;
  fr_silent : loud_label l = false -> mon_silent (hist s') = mon_silent (hist s);
  fr_closed : closed s = true -> closed s' = true;
  fr_curcan : closed s = true -> curcan s = true -> curcan s' = true;
  fr_stctx : stctx s = true -> stctx s' = true;
  fr_rdone : rdone s = true -> rdone s' = true;
  fr_closed_ev : existsb is_closed_ev (hist s) = true -> existsb is_closed_ev (hist s') = true;
  fr_cfg : cfg s' = cfg s }.

Lemma step_frame : forall s l s', step s l = Some s' -> frame s l s'.
Proof.
  intros s l s' St. step_inv St; unf; try rewrite reply_all_calls_only; destr_goal; split; cbn;
  first [ let X := fresh in intros X; discriminate X | intros; repeat split; first [reflexivity | assumption | congruence] ].
Qed.

