(* Proofs/ConsumerGroupProofs.v — the rest of C15: reading of mon_heartbeat, the member id of run across
   one step, the leader's metadata reads, independence of the assignment, the connection layer. *)
From Coq Require Import List ZArith Bool Arith Lia.
From KV Require Import Model.ConsumerGroup Proofs.ConsumerGroupBase Proofs.ConsumerGroupAcc
  Proofs.ConsumerGroupLive Proofs.ConsumerGroupRun.
Import ListNotations.

Lemma existsb_In_pred : forall (p : event -> bool) h, existsb p h = true <-> exists e, In e h /\ p e = true.
Proof. intros. apply existsb_exists. Qed.

Lemma negb_existsb_all : forall (p : event -> bool) h, negb (existsb p h) = true -> forall e, In e h -> p e = false.
Proof.
  intros p h H e He. apply negb_true_iff in H.
  destruct (p e) eqn:E; [|reflexivity].
  assert (existsb p h = true) by (apply existsb_exists; eauto). congruence.
Qed.

Lemma mon_heartbeat_spec : forall h, mon_heartbeat h = true ->
  forall post k f m pre, h = post ++ HHeartbeat k f m :: pre ->
    In (HStart k f true) pre /\ ~ In (HFnRet k f) pre /\ In (HGenNew k m) pre /\
    (forall j m', In (HGenNew j m') pre -> j <= k) /\
    (forall n j, In (HNextRet n j) pre -> j <= k) /\
    (forall x m', ~ In (HRunExit x m') pre).
Proof.
  intros h H0 post k f m pre E. subst h. pose proof (gmon_at chk_heartbeat post _ pre H0) as H.
  cbn [chk_heartbeat] in H.
  apply andb_true_iff in H. destruct H as [H Hx].
  apply andb_true_iff in H. destruct H as [H Hn].
  apply andb_true_iff in H. destruct H as [H Hg].
  apply andb_true_iff in H. destruct H as [H Hm].
  apply andb_true_iff in H. destruct H as [Hs Hr].
  repeat split.
  - apply existsb_exists in Hs. destruct Hs as (e & He & P). destruct e; try discriminate P.
    destruct acc; try discriminate P. cbn in P. apply andb_true_iff in P. destruct P as [P1 P2].
    apply Nat.eqb_eq in P1, P2. subst. exact He.
  - intro I. eapply negb_existsb_all in Hr; [|exact I]. cbn in Hr. rewrite !Nat.eqb_refl in Hr. discriminate.
  - apply existsb_exists in Hm. destruct Hm as (e & He & P). destruct e; try discriminate P.
    cbn in P. apply andb_true_iff in P. destruct P as [P1 P2]. apply Nat.eqb_eq in P1, P2. subst. exact He.
  - intros j m' I. eapply negb_existsb_all in Hg; [|exact I]. cbn in Hg. apply Nat.ltb_ge in Hg. exact Hg.
  - intros n j I. eapply negb_existsb_all in Hn; [|exact I]. cbn in Hn. apply Nat.ltb_ge in Hn. exact Hn.
  - intros x m' I. eapply negb_existsb_all in Hx; [|exact I]. cbn in Hx. discriminate.
Qed.

(* the member id variable of run is only ever cleared right after a leave attempt for it (joinGroup
   returns the id it was given also on error) *)
Lemma mid_finish_leave : forall a s,
  mid (finish_leave a s) = match a with LvReport _ => None | _ => mid s end.
Proof. intros [] s; reflexivity. Qed.

Lemma mid_enter_leave : forall a s, mid (enter_leave a s) = mid s.
Proof.
  intros a s. unfold enter_leave. destruct (mid s) eqn:E; [exact E|].
  rewrite mid_finish_leave, E. destruct a; reflexivity.
Qed.

Lemma mid_fail_ng : forall e s, mid (fail_ng e s) = mid s.
Proof. intros [] s; unfold fail_ng; rewrite ?mid_enter_leave; reflexivity. Qed.

Lemma mid_after_close : forall w s, mid (after_close w s) = mid s.
Proof. intros [] s; [apply mid_enter_leave|reflexivity]. Qed.

#[local] Hint Rewrite mid_finish_leave mid_enter_leave mid_fail_ng mid_after_close : mid_run.

Lemma finish_leave_clears : forall a s m, mid s = Some m -> mid (finish_leave a s) = None ->
  hist (finish_leave a s) = hist s.
Proof. intros [] s m Hm Hn; try reflexivity; cbn in Hn; congruence. Qed.

Lemma id_cleared_only_after_leave : forall s l s' m,
  step s l = Some s' -> mid s = Some m -> mid s' = None -> left_since_join m (hist s') = true.
Proof.
  intros s l s' m H Hm Hn.
  destruct (run_label l) eqn:Hl; [|destruct (other_step _ _ _ Hl H) as (_ & B & _); congruence].
  unfold step in H. destruct (panicked s); [discriminate|].
  destruct l; try discriminate Hl; clear Hl;
    (destruct (pc s); cbv beta iota zeta in H; try discriminate H).
  (* every step of run but the end of a leave keeps the id or takes a new one from JoinGroup *)
  all: try (repeat bm H; try discriminate H; inversion H; subst s';
            autorewrite with mid_run in Hn; cbn in Hn; congruence).
  - destruct (do_start (cur s) KHeartbeat s) as [s1|] eqn:Ed; [|discriminate H].
    destruct (do_start_shape _ _ _ _ Ed) as (g & _ & _ & _ & _ & _ & B & _). inversion H; subst s'. cbn in Hn. congruence.
  - destruct n; [discriminate H|].
    destruct (do_start (cur s) KWatcher s) as [s1|] eqn:Ed; [|discriminate H].
    destruct (do_start_shape _ _ _ _ Ed) as (g & _ & _ & _ & _ & _ & B & _). inversion H; subst s'. cbn in Hn. congruence.
  - destruct (nth_error (gens s) (cur s)) as [g|]; [|discriminate H].
    destruct (end_gen (cur s) g s) as [g1 s1] eqn:Eg. destruct (end_gen_run _ _ _ _ _ Eg) as (_ & B & _).
    inversion H; subst s'. destruct (0 <? g_routines g1)%Z; autorewrite with mid_run in Hn; cbn in Hn; congruence.
  - (* LLeaveCoord: the coordinator cannot be reached *)
    destruct (mid s) as [m0|] eqn:Em; [|discriminate H]. destruct a; inversion H; subst s'; [cbn in Hn; congruence|].
    rewrite (finish_leave_clears _ (ev _ s) m0 Em Hn). inversion Hm; subst m0. cbn. rewrite Nat.eqb_refl. reflexivity.
  - destruct (mid s) as [m0|] eqn:Em; [|discriminate H]. inversion H; subst s'.
    rewrite (finish_leave_clears _ (ev _ s) m0 Em Hn). inversion Hm; subst m0. cbn. rewrite Nat.eqb_refl. reflexivity.
Qed.

Lemma leader_per_topic_spec : forall l n r, leader_per_topic l = (n, r) ->
  n <= length l /\ (forall e, r = Some e -> In (MErr e) l) /\ (r = None -> n = length l /\ forall e, ~ In (MErr e) l).
Proof.
  induction l as [|a t IH]; intros n r H; cbn [leader_per_topic] in H.
  - inversion H; subst. cbn. repeat split; try lia; try discriminate; try (intros e0 []); try tauto.
  - destruct a.
    3: { inversion H; subst. cbn [length]. split; [lia|]. split; [|discriminate].
         intros e0 He. inversion He; subst. left. reflexivity. }
    (* MOk, MUnknown: the read counts, the rest of the list decides *)
    all: destruct (leader_per_topic t) as [n' r'] eqn:E; inversion H; subst;
      destruct (IH _ _ eq_refl) as (A & B & C); cbn [length]; split; [lia|]; split.
    1, 3: intros e He; right; apply B; exact He.
    all: intro Hn; destruct (C Hn) as [C1 C2]; split; [lia|]; intros e [X|X]; [discriminate|eapply C2; eauto].
Qed.

Lemma leader_assign_spec : forall nt first per ld n, leader_assign nt first per = (ld, n) ->
  1 <= n <= S nt /\ (1 < n -> first = MUnknown /\ 2 <= nt) /\
  (forall e, ld = LeaderFail e -> first = MErr e \/ (first = MUnknown /\ In (MErr e) (firstn nt per))) /\
  ld <> NotLeader.
Proof.
  intros nt first per ld n H. unfold leader_assign in H. destruct first.
  - inversion H; subst. repeat split; try lia; try discriminate.
  - destruct (Nat.leb 2 nt) eqn:L.
    + destruct (leader_per_topic (firstn nt per)) as [k r] eqn:E.
      destruct (leader_per_topic_spec _ _ _ E) as (A & B & _).
      assert (Hl : length (firstn nt per) <= nt) by apply firstn_le_length.
      apply Nat.leb_le in L. inversion H; subst. split; [lia|]. split; [intros _; split; [reflexivity|exact L]|].
      split; [|destruct r; discriminate].
      intros e He. right. split; [reflexivity|]. apply B. destruct r; [inversion He; reflexivity|discriminate].
    + inversion H; subst. repeat split; try lia; try discriminate.
  - inversion H; subst. split; [lia|]. split; [lia|]. split; [|discriminate].
    intros e0 He. inversion He; subst. left. reflexivity.
Qed.

(* the assignment of the SyncGroup answer plays no part: heartbeats do not depend on it *)
Definition erase_asg (l : label) : label := match l with LSync a _ => LSync a [] | _ => l end.

Lemma step_erase_asg : forall s l, step s (erase_asg l) = step s l.
Proof. intros s l. destruct l; reflexivity. Qed.

Lemma run_erase_asg : forall ls s, run s (map erase_asg ls) = run s ls.
Proof.
  induction ls as [|l t IH]; intro s; cbn [map run]; [reflexivity|].
  rewrite step_erase_asg. destruct (step s l); [apply IH|reflexivity].
Qed.

Lemma heartbeat_started_and_enabled : forall w ls s, run (init w) ls = Some s ->
  (pc s = PStartHB ->
     exists s' f, step s LStartHB = Some s' /\ nth_error (fns s') (length (fns s)) = Some f /\
                  is_hb f = true /\ f_acc f = true /\ f_gen f = cur s /\ f_st f = FRunning) /\
  (forall i f a, nth_error (fns s) i = Some f -> is_hb f = true -> running f = true ->
     exists s', step s (LHbTick i a) = Some s').
Proof.
  intros w ls s R. apply Inv_run in R. destruct R as [P [H1 H2] B]. split.
  - intro Epc. destruct (ctl_hb _ _ _ B Epc) as (g & Eg & Ec & _).
    unfold step. rewrite P, Epc. unfold do_start, cur. rewrite Eg, Ec. cbn [option_map].
    eexists. eexists. split; [reflexivity|].
    cbn [fns set_pc ev set_fns set_gens]. rewrite nth_error_app2 by lia. rewrite Nat.sub_diag. cbn.
    repeat split; reflexivity.
  - intros i f a Hf Hh Hr. unfold step. rewrite P, Hf, Hr, Hh. cbn [andb].
    destruct (H1 _ _ Hf) as (g & Eg & _). rewrite Eg. destruct a; eexists; reflexivity.
Qed.

Lemma deadline_of_call_spec : forall c,
  (deadline_of_call c = DTimeoutRebalance <-> c = CJoinGroup) /\
  (deadline_of_call c = DTimeoutSession <-> c = CSyncGroup) /\
  (deadline_of_call c = DTimeout <-> c <> CJoinGroup /\ c <> CSyncGroup).
Proof. destruct c; cbn; repeat split; intros; try discriminate; try congruence; try tauto; destruct H; congruence. Qed.

Lemma connect_tries_all : forall up,
  (connect up = None <-> forall b, In b up -> b = false) /\
  (forall i, connect up = Some i ->
     nth_error up i = Some true /\ forall j, j < i -> nth_error up j = Some false).
Proof.
  induction up as [|b t [IH1 IH2]]; cbn [connect].
  - split; [split; [intros _ b []|reflexivity]|discriminate].
  - destruct b.
    + split; [split; [discriminate|]|].
      * intro H. specialize (H true (or_introl eq_refl)). discriminate.
      * intros i H. inversion H; subst. split; [reflexivity|]. intros j Hj. lia.
    + split.
      * destruct (connect t) eqn:E; cbn [option_map]; split; try discriminate.
        -- intro H. exfalso. assert (X : Some n = None) by (apply IH1; intros b Hb; apply H; right; exact Hb).
           discriminate X.
        -- intros _ b [Hb|Hb]; [congruence|]. apply IH1; auto.
        -- reflexivity.
      * intros i H. destruct (connect t) as [k|] eqn:E; cbn [option_map] in H; [|discriminate].
        inversion H; subst. destruct (IH2 k eq_refl) as [A B]. split; [exact A|].
        intros [|j] Hj; [reflexivity|]. cbn. apply B. lia.
Qed.

Lemma dial_attempts_spec : forall up,
  dial_attempts up <= length up \/ (exists i, connect up = Some i /\ dial_attempts up = S i).
Proof. intro up. unfold dial_attempts. destruct (connect up) eqn:E; [right; eauto|left; lia]. Qed.
