(* Proofs/RecordsReaders.v — the protocol reader model (readFromVersion2) on one v2 batch: a
   reference-encoded batch is read back as its records, a batch whose stored CRC is wrong as an
   error.  Go's varint readers agree with the reference's on what the reference wrote. *)
From Coq Require Import List NArith ZArith Bool Lia.
From Coq Require Import ZifyN ZifyNat ZifyBool.
From KV Require Import Lib.Bits Lib.Bytes Lib.Varint Lib.Crc Spec.RecordFormat Model.Records
  Proofs.RecordsCodec Proofs.RecordsSet Proofs.RecordsWriters.
Import ListNotations.
Open Scope Z_scope.
(* the model declares these inside a section; the declaration ends with it *)
Arguments PR {A}. Arguments PE {A}. Arguments PP {A}. Arguments PU {A}.

Lemma go_uvarint_eq : forall fuel bs, go_uvarint fuel bs = uv_dec fuel bs.
Proof.
  induction fuel as [|f IH]; intros bs; cbn [go_uvarint uv_dec]; [reflexivity|].
  destruct bs as [|b t]; [reflexivity|]. rewrite IH. reflexivity.
Qed.

Lemma odd_mod x : N.odd x = (x mod 2 =? 1)%N.
Proof.
  rewrite <- N.bit0_odd. pose proof (N.bit0_mod x) as H.
  destruct (N.testbit x 0); cbn [N.b2n] in H; rewrite <- H; reflexivity.
Qed.

Lemma unzigzag_zz z : unzigzag (zz_enc z) = z.
Proof.
  unfold unzigzag, zz_enc. rewrite odd_mod.
  destruct (Z.ltb_spec z 0) as [Hn|Hp].
  - destruct (N.eqb_spec (Z.to_N (-2 * z - 1) mod 2) 1) as [E|E]; [|exfalso; lia].
    rewrite Z.lxor_m1_r. unfold Z.lnot. lia.
  - destruct (N.eqb_spec (Z.to_N (2 * z) mod 2) 1) as [E|E]; [exfalso; lia|].
    rewrite Z.lxor_0_r. lia.
Qed.

Lemma go_varint_sv fuel z r : (10 <= fuel)%nat -> in_i64 z -> go_varint fuel (sv_enc z ++ r) = Some (z, r).
Proof.
  intros Hf Hz. unfold go_varint, sv_enc. rewrite go_uvarint_eq.
  replace fuel with (S 9 + (fuel - 10))%nat by lia.
  pose proof (zz_enc_lt z Hz). pose proof M64_lt_pow128_10.
  rewrite uv_dec_enc by lia. rewrite N.mod_small by assumption. rewrite unzigzag_zz. reflexivity.
Qed.

Lemma p_vbytes_skip_enc b r : osmall b -> p_vbytes_skip (enc_vbytes b ++ r) = Some (b, r).
Proof.
  intros Hb. unfold p_vbytes_skip, enc_vbytes. destruct b as [l|].
  - rewrite <- app_assoc, go_varint_sv, zlen_ltb0, take_zlen by auto with range. reflexivity.
  - rewrite go_varint_sv by auto with range. reflexivity.
Qed.

Lemma p_hdr_enc h r : wf_hdr h -> p_hdr (enc_hdr h ++ r) = Some (h, r).
Proof.
  intros [Hk Hv]. unfold p_hdr, enc_hdr.
  rewrite <- !app_assoc, go_varint_sv, zlen_ltb0, take_zlen, p_vbytes_skip_enc by auto with range.
  destruct h; reflexivity.
Qed.

Lemma p_hdrs_enc hs : forall r, Forall wf_hdr hs ->
  p_hdrs (length hs) (concat (map enc_hdr hs) ++ r) = Some (hs, r).
Proof.
  induction hs as [|h hs IH]; intros r H; cbn [length map concat p_hdrs app]; [reflexivity|].
  apply Forall_cons_iff in H as [Hh Hs].
  rewrite <- app_assoc, p_hdr_enc, IH by assumption. reflexivity.
Qed.

Lemma p_record_enc base first r rest :
  wf_rec r -> in_i64 (base + r_offd r) -> in_i64 (first + r_tsd r) ->
  p_record base first (enc_rec r ++ rest) =
  Some (mk_rec (base + r_offd r) (first + r_tsd r) (r_key r) (r_val r) (r_hdrs r), rest).
Proof.
  intros (Ht & Ho & Hk & Hv & Hn & Hh & Hsm) Hbo Hft. unfold p_record, enc_rec, rec_body.
  rewrite <- !app_assoc, go_varint_sv, get_int8_put, !go_varint_sv, !p_vbytes_skip_enc, go_varint_sv
    by auto with range.
  rewrite (wrap64_id _ Hbo), (wrap64_id _ Hft).
  (* the header count is read as "0 < n", not "n < 0" *)
  destruct (r_hdrs r) as [|h hs] eqn:E; [reflexivity|].
  rewrite zlen_cons_pos, to_nat_zlen, p_hdrs_enc by exact Hh. reflexivity.
Qed.

Definition rec_ok (b : batch2) (r : rec2) : Prop :=
  in_i64 (b_base b + r_offd r) /\ in_i64 (b_first b + r_tsd r).

Lemma p_records_enc b rs : forall rest,
  Forall wf_rec rs -> Forall (rec_ok b) rs ->
  p_records (length rs) (b_base b) (b_first b) (concat (map enc_rec rs) ++ rest) =
  (map (rec_of_rec2 b) rs, false).
Proof.
  induction rs as [|r rs IH]; intros rest Hw Ho; cbn [length map concat p_records]; [reflexivity|].
  apply Forall_cons_iff in Hw as [Hr Hw]. apply Forall_cons_iff in Ho as [[O1 O2] Ho].
  rewrite <- app_assoc, p_record_enc, IH by assumption. reflexivity.
Qed.

Lemma codec_known_le4 c : (c <= 4)%N -> negb (c =? 0)%N && negb (codec_known c) = false.
Proof.
  intros H. unfold codec_known. destruct (N.eqb_spec c 0); [reflexivity|].
  destruct (N.leb_spec 1 c), (N.leb_spec c 4); (reflexivity || lia).
Qed.

(* the bytes of a v2 batch with an arbitrary stored CRC and arbitrary content after it *)
Definition raw_batch (base epoch : Z) (crc tail : list N) : list N :=
  put_bes 8 base ++ put_bes 4 (9 + zlen tail) ++ put_bes 4 epoch ++ put_bes 1 2 ++ crc ++ tail.

Lemma raw_batch_len base epoch crc tail : (17 <= length (raw_batch base epoch crc tail))%nat.
Proof. unfold raw_batch. rewrite !app_length. unfold put_bes. rewrite !put_be_length. lia. Qed.

Lemma nth16_raw_batch base epoch crc tail rest : nth 16 (raw_batch base epoch crc tail ++ rest) 0%N = 2%N.
Proof.
  unfold raw_batch. rewrite <- !app_assoc. change (put_bes 1 2) with [2%N]. cbn [app].
  apply nth_app3. unfold put_bes. rewrite !put_be_length. reflexivity.
Qed.

Section Framing.
Variable decomp : N -> list N -> list N.

(* readFromVersion2: framing by the length field, the stored CRC against the CRC of what follows *)
Lemma p_read_v2_raw base epoch crc tail rest :
  in_i64 base -> 9 + zlen tail < ZM31 -> length crc = 4%nat ->
  p_read_v2 decomp (raw_batch base epoch crc tail ++ rest) =
  p_batch_tail decomp base (get_be crc 0 =? w32 (crc32c tail))%N tail rest.
Proof.
  intros Hb Hsz Hc. unfold p_read_v2, raw_batch. rewrite <- !app_assoc.
  pose proof (zlen_nonneg tail) as Hnn.
  rewrite get_int64_put, get_int32_put by auto with range.
  set (pre := put_bes 4 epoch ++ put_bes 1 2 ++ crc).
  assert (Hpre : length pre = 9%nat)
    by (unfold pre; rewrite !app_length; unfold put_bes; rewrite !put_be_length; lia).
  replace (put_bes 4 epoch ++ put_bes 1 2 ++ crc ++ tail ++ rest) with ((pre ++ tail) ++ rest)
    by (unfold pre; rewrite <- !app_assoc; reflexivity).
  assert (Hlen : length (pre ++ tail) = Z.to_nat (9 + zlen tail))
    by (rewrite app_length, Hpre; unfold zlen; lia).
  destruct (Z.ltb_spec (Z.of_nat (length ((pre ++ tail) ++ rest))) (9 + zlen tail)) as [Hlt|_].
  { rewrite app_length, Hlen in Hlt. lia. }
  destruct (Z.ltb_spec (9 + zlen tail) 0); [lia|].
  rewrite take_app by exact Hlen. rewrite take_app by exact Hpre.
  unfold pre. rewrite app_assoc.
  rewrite skipn_app_exact by (rewrite app_length; unfold put_bes; rewrite !put_be_length; reflexivity).
  reflexivity.
Qed.

Lemma p_batch_tail_badcrc base tail rest : p_batch_tail decomp base false tail rest = PE.
Proof.
  unfold p_batch_tail.
  destruct (get_i 2 tail) as [[attrs t1]|]; [|reflexivity].
  destruct (take 34 t1) as [[mid t2]|]; [|reflexivity].
  destruct (get_i 4 t2) as [[cnt payload]|]; [|reflexivity].
  cbn zeta. destruct (negb (codec_of attrs =? 0)%N && negb (codec_known (codec_of attrs))); reflexivity.
Qed.

Lemma p_read_v2_badcrc base epoch crc tail rest :
  in_i64 base -> 9 + zlen tail < ZM31 -> length crc = 4%nat ->
  get_be crc 0%N <> w32 (crc32c tail) ->
  p_read_v2 decomp (raw_batch base epoch crc tail ++ rest) = PE.
Proof.
  intros Hb Hsz Hc Hne. rewrite p_read_v2_raw by assumption.
  destruct (N.eqb_spec (get_be crc 0%N) (w32 (crc32c tail))); [contradiction|].
  apply p_batch_tail_badcrc.
Qed.

End Framing.

Section Codec.
Variable comp decomp : N -> list N -> list N.
Hypothesis decomp_comp : forall c b, decomp c (comp c b) = b.

(* a batch a broker may return, as far as the readers are concerned *)
Definition batch_ok (b : batch2) : Prop :=
  wf_batch comp b /\ (codec_of (b_attrs b) <= 4)%N /\ Forall (rec_ok b) (b_recs b).

Definition reader_of (b : batch2) : preader := (is_control (b_attrs b), map (rec_of_rec2 b) (b_recs b)).

Lemma p_batch_tail_enc b rest : batch_ok b ->
  p_batch_tail decomp (b_base b) true (batch_tail comp b) rest = PR (Some (reader_of b)) rest.
Proof.
  intros ((Hb & He & Ha & Hl & Hf & Hm & Hp & Hpe & Hs & Hn & Hr & _) & Hc & Ho).
  unfold p_batch_tail, batch_tail.
  rewrite get_int16_put by exact Ha.
  (* the 34 bytes between attributes and count are skipped, but for the first timestamp *)
  rewrite !app_assoc, <- (app_assoc _ (put_bes 4 (zlen (b_recs b)))).
  rewrite take_app by (rewrite !app_length; unfold put_bes; rewrite !put_be_length; reflexivity).
  rewrite <- !app_assoc.
  rewrite skipn_app_exact, firstn_app_exact by (unfold put_bes; apply put_be_length).
  rewrite get_put_bes by (try lia; apply in_signed_8, Hf).
  rewrite get_int32_put by auto with range.
  cbn zeta. rewrite codec_known_le4 by exact Hc. cbn [negb].
  rewrite zlen_ltb0, to_nat_zlen.
  rewrite (payload_raw comp decomp decomp_comp), <- (app_nil_r (concat _)), p_records_enc by assumption.
  unfold reader_of. destruct (map (rec_of_rec2 b) (b_recs b)); reflexivity.
Qed.

Lemma enc_batch_raw b :
  enc_batch comp b = raw_batch (b_base b) (b_epoch b) (put_be 4 (crc32c (batch_tail comp b))) (batch_tail comp b).
Proof. reflexivity. Qed.

Lemma p_read_v2_enc b rest : batch_ok b ->
  p_read_v2 decomp (enc_batch comp b ++ rest) = PR (Some (reader_of b)) rest.
Proof.
  intros Hok. pose proof (wf_batch_base comp b (proj1 Hok)). pose proof (wf_batch_size comp b (proj1 Hok)).
  rewrite enc_batch_raw, p_read_v2_raw by (try assumption; apply put_be_length).
  rewrite get_put_be_mod. change (pow256 4) with M32. unfold w32. rewrite N.eqb_refl.
  apply p_batch_tail_enc, Hok.
Qed.

End Codec.
