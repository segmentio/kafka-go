(* Proofs/WriterC01a.v — C01_no_foreign_log, C01_duplicates_only_by_retry,
   C08_rejected_never_sent: the journal of produce attempts against the partition writers'
   batches and the calls that submitted them. *)
From Coq Require Import List NArith Bool Arith Lia.
From KV Require Import Lib.LTS Model.Writer Proofs.WriterStmts Proofs.WriterBase Proofs.WriterSteps.
Import ListNotations.

Lemma In_upd_nth : forall A (l : list A) i x y, In y (upd l i x) ->
  (y = x /\ i < length l) \/ In y l.
Proof.
  intros A l i x y H. apply In_nth_error in H. destruct H as [j H].
  apply nth_error_upd in H. destruct H as [[-> [-> L]]|[N H]]; [left; auto|right].
  eapply nth_error_In; eauto.
Qed.

Lemma snoc_decomp : forall A (j : list A) x j1 a j2 b j3,
  j ++ [x] = j1 ++ a :: j2 ++ b :: j3 ->
  (exists j3', j3 = j3' ++ [x] /\ j = j1 ++ a :: j2 ++ b :: j3') \/
  (j3 = [] /\ b = x /\ j = j1 ++ a :: j2).
Proof.
  intros A j x j1 a j2 b j3 H.
  destruct j3 as [|y j3] using rev_ind.
  - right. replace (j1 ++ a :: j2 ++ [b]) with ((j1 ++ a :: j2) ++ [b]) in H
      by (rewrite <- app_assoc; reflexivity).
    apply app_inj_tail in H. destruct H; subst; auto.
  - left. clear IHj3.
    replace (j1 ++ a :: j2 ++ b :: j3 ++ [y]) with ((j1 ++ a :: j2 ++ b :: j3) ++ [y]) in H.
    + apply app_inj_tail in H. destruct H; subst. eauto.
    + rewrite <- app_assoc. simpl. rewrite <- app_assoc. reflexivity.
Qed.

Section WithCfg.
Variable cfg : config.

Definition route (pw : pwriter) : Prop :=
  forall b, In b (pw_all pw) -> forall m, In m (b_msgs b) -> tp_of cfg m = pw_tp pw.

Definition seqinv (pw : pwriter) : Prop :=
  map b_k (pw_all pw) = seq 0 (pw_nb pw) /\ (pw_curr pw <> None -> pw_open pw = true).

Definition wf (pw : pwriter) : Prop := route pw /\ seqinv pw.
Definition wfs (pws : list pwriter) : Prop := forall pw, In pw pws -> wf pw.

Lemma wf_pw_seqinv : forall pw, wf_pw pw -> seqinv pw.
Proof.
  intros pw W. split; [apply (wf_ks _ W)|]. intros C.
  destruct (pw_curr pw) as [b|] eqn:E; [apply (wf_curr _ W _ E)|congruence].
Qed.

Lemma route_pw_add : forall pw m pw' k sp, pw_add cfg pw m = (pw', k, sp) -> pw_open pw = true ->
  pw_tp pw = tp_of cfg m -> route pw -> route pw'.
Proof.
  intros pw m pw' k sp A O T R.
  destruct (pw_add_spec cfg _ _ _ _ _ A O)
    as (T' & _ & _ & _ & _ & [(l & b & E1 & E2 & _)|(E2 & _)]);
    intros b' Hb x Hx; rewrite T'; rewrite E2 in Hb; apply in_app_or in Hb; destruct Hb as [Hb|[<-|[]]].
  - apply (R b'); auto. rewrite E1. apply in_or_app; auto.
  - simpl in Hx. apply in_app_or in Hx. destruct Hx as [Hx|[<-|[]]]; [|congruence].
    apply (R b); auto. rewrite E1. apply in_or_app; simpl; auto.
  - apply (R b'); auto.
  - simpl in Hx. destruct Hx as [<-|[]]. congruence.
Qed.

(* the numbering comes from wf_pw (WriterSteps); only batchMessages changes a writer's batches *)
Lemma wfs_step : forall s l s', wf_state s -> wfs (s_pws s) -> step cfg s l = Some s' -> wfs (s_pws s').
Proof.
  intros s l s' WS W H. apply step_stepped in H. pose proof (wf_step _ _ _ _ WS H) as [W' _].
  assert (R0 : forall pw, In pw (s_pws s) -> route pw) by (intros pw Hin; apply (W pw Hin)).
  assert (R : forall pw, In pw (s_pws s') -> route pw);
    [|intros pw Hin; split; [auto|apply wf_pw_seqinv; rewrite Forall_forall in W'; auto]].
  destruct WS as [Wp _]. rewrite Forall_forall in Wp.
  destruct H as [| | c cl pws wg refs _ _ _ EA | l p pw pw' j cp E T | |]; simpl; try exact R0.
  - eapply (assign_all_by_msg cfg (c_msgs cl) (fun _ pws _ _ => forall pw, In pw pws -> route pw));
      [|exact R0|exact EA].
    intros ms1 m ms2 pws1 wg1 refs1 pws' wg' refs' _ R1 A.
    destruct A as [p pw pw' k sp E Ho Et Ad|pw' k sp _ Ad]; intros x Hx.
    + apply upd_In in Hx. destruct Hx as [->|Hx]; [|auto].
      eapply route_pw_add; eauto. apply R1. eapply nth_error_In; eauto.
    + apply in_app_or in Hx. destruct Hx as [Hx|[<-|[]]]; [auto|].
      apply (route_pw_add _ _ _ _ _ Ad eq_refl eq_refl). intros b [].
  - intros x Hx. apply upd_In in Hx. destruct Hx as [->|Hx]; [|auto].
    pose proof (nth_error_In _ _ E) as Hin. intros b Hb m Hm.
    rewrite (pwstep_all _ _ _ _ _ _ _ T (wf_curr_open _ (Wp _ Hin))) in Hb.
    destruct (pwstep_fields _ _ _ _ _ _ _ T) as (-> & _). apply (R0 _ Hin b Hb m Hm).
  - intros x Hx. apply in_map_iff in Hx. destruct Hx as (y & <- & Hy). intros b Hb m Hm.
    rewrite (close_all _ (wf_curr_open _ (Wp _ Hy))) in Hb.
    replace (pw_tp (close_pw y)) with (pw_tp y); [apply (R0 _ Hy b Hb m Hm)|].
    rewrite close_pw_eq. destruct (flush_fields y) as (F1 & _). destruct (pw_open y); auto.
Qed.

Lemma seqinv_inj : forall pw b1 b2, seqinv pw -> In b1 (pw_all pw) -> In b2 (pw_all pw) ->
  b_k b1 = b_k b2 -> b1 = b2.
Proof.
  intros pw b1 b2 [HS _] H1 H2 E. eapply NoDup_map_inj; eauto. rewrite HS. apply seq_NoDup.
Qed.

Lemma seqinv_done_rest : forall pw b1 b2, seqinv pw -> In b1 (pw_done pw) ->
  In b2 (pw_queue pw ++ opt_list (pw_curr pw)) -> b_k b1 <> b_k b2.
Proof.
  intros pw b1 b2 [HS _] H1 H2 E. rewrite pw_all_done, map_app in HS.
  assert (N : NoDup (map b_k (pw_done pw) ++ map b_k (pw_queue pw ++ opt_list (pw_curr pw))))
    by (rewrite HS; apply seq_NoDup).
  apply NoDup_app_iff in N. destruct N as (_ & _ & D).
  apply (D (b_k b1)); [apply in_map; exact H1|rewrite E; apply in_map; exact H2].
Qed.

Lemma step_journal : forall s l s', step cfg s l = Some s' ->
  (s_journal s' = s_journal s /\ s_log s' = s_log s /\ forall p r, l <> Attempt p r) \/
  exists p r pw b n, l = Attempt p r /\ nth_error (s_pws s) p = Some pw /\
    pw_snd pw = Some (mkSnd b n PAttempt) /\
    s_pws s' = upd (s_pws s) p (set_snd pw (Some (mkSnd b (S n) (after_attempt cfg n (r_seen r))))) /\
    s_calls s' = s_calls s /\
    s_journal s' = s_journal s ++ [mkAtt p (b_k b) (pw_tp pw) (b_msgs b) (r_applied r) (r_seen r)] /\
    s_log s' = s_log s ++ (if r_applied r then map (pair (pw_tp pw)) (b_msgs b) else []).
Proof.
  intros s l s' H. apply step_Step in H.
  destruct H; try (left; repeat split; auto; intros; discriminate).
  right. exists p, r, pw, b, n. auto 10.
Qed.

Definition count (p k : nat) (j : list attempt) : nat :=
  length (filter (fun a => Nat.eqb (a_pw a) p && Nat.eqb (a_k a) k) j).

Lemma count_app : forall p k j1 j2, count p k (j1 ++ j2) = count p k j1 + count p k j2.
Proof. intros. unfold count. rewrite filter_app, app_length. reflexivity. Qed.

Lemma count_zero : forall p k j, (forall a, In a j -> a_pw a = p -> a_k a = k -> False) -> count p k j = 0.
Proof.
  induction j as [|a j IH]; intros H; [reflexivity|]. unfold count in *. simpl.
  destruct (Nat.eqb (a_pw a) p && Nat.eqb (a_k a) k) eqn:E.
  - apply andb_true_iff in E. destruct E as [E1 E2]. apply Nat.eqb_eq in E1, E2.
    exfalso. eapply H; simpl; eauto.
  - apply IH. intros a' Ha. apply H. simpl; auto.
Qed.

Lemma count_one : forall p k a, count p k [a] = if Nat.eqb (a_pw a) p && Nat.eqb (a_k a) k then 1 else 0.
Proof. intros. unfold count. simpl. destruct (_ && _); reflexivity. Qed.

Definition retr (a : attempt) : Prop := exists e, a_seen a = Some e /\ retriable cfg e = true.

Definition journal_batches (pws : list pwriter) (j : list attempt) : Prop :=
  forall a, In a j -> exists pw b, nth_error pws (a_pw a) = Some pw /\ In b (pw_done pw) /\
    b_k b = a_k a /\ b_msgs b = a_msgs a /\ a_tp a = pw_tp pw.

Lemma journal_tp : forall pws j a m, wfs pws -> journal_batches pws j -> In a j -> In m (a_msgs a) ->
  tp_of cfg m = a_tp a.
Proof.
  intros pws j a m W A Ha Hm. destruct (A a Ha) as (pw & b & Np & Hb & _ & M & T).
  rewrite T. rewrite <- M in Hm.
  exact (proj1 (W pw (nth_error_In _ _ Np)) b (pw_done_all _ _ Hb) m Hm).
Qed.

Lemma attempt_by_number : forall pws j a pw b, wfs pws -> journal_batches pws j -> In a j ->
  nth_error pws (a_pw a) = Some pw -> In b (pw_all pw) -> a_k a = b_k b ->
  a_msgs a = b_msgs b /\ a_tp a = pw_tp pw.
Proof.
  intros pws j a pw b W A Ha Hp Hb Hk. destruct (A a Ha) as (pw0 & b0 & N0 & Hb0 & K & M & T).
  rewrite Hp in N0. inversion N0; subst pw0.
  assert (b0 = b); [|split; congruence].
  eapply seqinv_inj; [apply W; eapply nth_error_In; eauto|apply pw_done_all; auto|auto|congruence].
Qed.

Lemma pending_unsent : forall pws j p pw b a, journal_batches pws j -> nth_error pws p = Some pw -> seqinv pw ->
  In b (pw_queue pw ++ opt_list (pw_curr pw)) -> In a j -> a_pw a = p -> a_k a = b_k b -> False.
Proof.
  intros pws j p pw b a A Np SI Hb Ha Hp Hk. destruct (A a Ha) as (pw0 & b1 & N0 & Hb1 & K & _).
  rewrite Hp, Np in N0. inversion N0; subst pw0.
  apply (seqinv_done_rest pw b1 b SI Hb1 Hb). congruence.
Qed.

(* the retry loop of writeBatch: [n] attempts so far; it goes on only after retriable failures
   and below maxAttempts, and gives up on a retriable error only at maxAttempts *)
Definition retry_ok (p : nat) (b : batch) (n : nat) (ph : sphase) (j : list attempt) : Prop :=
  count p (b_k b) j = n /\
  match ph with
  | PFinish o => n <= maxAttempts cfg /\
                 forall e, o = Some e -> retriable cfg e = true -> maxAttempts cfg <= n
  | _ => n < maxAttempts cfg /\ forall a, In a j -> a_pw a = p -> a_k a = b_k b -> retr a
  end.

Definition sending_ok (pws : list pwriter) (j : list attempt) : Prop :=
  forall p pw b n ph, nth_error pws p = Some pw -> pw_snd pw = Some (mkSnd b n ph) -> retry_ok p b n ph j.

Definition attempts_bounded (j : list attempt) : Prop := forall p k, count p k j <= maxAttempts cfg.

Definition same_done (pws pws' : list pwriter) : Prop :=
  length pws <= length pws' /\
  forall p pw', nth_error pws' p = Some pw' ->
    match nth_error pws p with
    | Some pw => pw_tp pw' = pw_tp pw /\ pw_fin pw' = pw_fin pw /\ pw_snd pw' = pw_snd pw
    | None => pw_fin pw' = [] /\ pw_snd pw' = None
    end.

Lemma same_done_refl : forall pws, same_done pws pws.
Proof. intros pws. split; auto. intros p pw' H. rewrite H. auto. Qed.

Lemma same_done_trans : forall a b c, same_done a b -> same_done b c -> same_done a c.
Proof.
  intros a b c [L1 H1] [L2 H2]. split; [lia|]. intros p pw'' H.
  specialize (H2 p pw'' H). destruct (nth_error b p) as [pw'|] eqn:E.
  - specialize (H1 p pw' E). destruct (nth_error a p) as [pw|].
    + destruct H2 as (-> & -> & ->). exact H1.
    + destruct H2 as (_ & -> & ->). exact H1.
  - assert (nth_error a p = None) as ->; auto.
    apply nth_error_None. apply nth_error_None in E. lia.
Qed.

Lemma same_done_upd : forall pws p pw x, nth_error pws p = Some pw ->
  pw_tp x = pw_tp pw -> pw_fin x = pw_fin pw -> pw_snd x = pw_snd pw -> same_done pws (upd pws p x).
Proof.
  intros pws p pw x N T F S. split; [rewrite upd_length; auto|]. intros q pw' H.
  apply nth_error_upd in H. destruct H as [(-> & -> & _)|[_ H]].
  - rewrite N. auto.
  - rewrite H. auto.
Qed.

Lemma same_done_snoc : forall pws x, pw_fin x = [] -> pw_snd x = None -> same_done pws (pws ++ [x]).
Proof.
  intros pws x F S. split; [rewrite app_length; lia|]. intros q pw' H.
  destruct (nth_error pws q) as [pw|] eqn:E.
  - rewrite nth_error_app1 in H by (apply nth_error_Some; congruence). rewrite E in H. inversion H; auto.
  - apply nth_error_None in E. rewrite nth_error_app2 in H by exact E.
    destruct (q - length pws) as [|d]; simpl in H; [inversion H; subst; auto|destruct d; discriminate].
Qed.

Lemma same_done_close : forall pws, same_done pws (map close_pw pws).
Proof.
  intros pws. split; [rewrite map_length; auto|]. intros p pw' H.
  rewrite nth_error_map in H. destruct (nth_error pws p) as [pw|]; [|discriminate].
  inversion H; subst. destruct (close_fields pw) as (T & _ & F & S). auto.
Qed.

Lemma same_done_assign : forall pws wg ms pws' wg' refs',
  assign_all cfg pws wg ms = (pws', wg', refs') -> same_done pws pws'.
Proof.
  intros pws wg ms pws' wg' refs'.
  apply (assign_all_ind cfg (fun _ x _ _ => same_done pws x)).
  - intros pre m post pws1 wg1 refs1 _ R1 _. eapply same_done_trans; [exact R1|].
    apply same_done_snoc; reflexivity.
  - intros pre m post pws1 wg1 refs1 _ R1 j pw pw' k sp N O T PA.
    destruct (pw_add_spec cfg _ _ _ _ _ PA O) as (T' & _ & F' & S' & _).
    eapply same_done_trans; [exact R1|eapply same_done_upd; eauto].
  - apply same_done_refl.
Qed.

(* the labels of the sender goroutine: only they touch pw_fin, pw_snd, the journal and the
   Completion list *)
Definition is_sender (l : label) : bool :=
  match l with Get _ | Attempt _ _ | BackoffDone _ | Finish _ => true | _ => false end.

Lemma Step_quiet : forall s l s', is_sender l = false -> Step cfg s l s' ->
  s_journal s' = s_journal s /\ s_compl s' = s_compl s /\ same_done (s_pws s) (s_pws s').
Proof.
  intros s l s' E H. destruct H; try discriminate E;
    (split; [reflexivity|]); (split; [reflexivity|]); try apply same_done_refl.
  - eapply same_done_assign; eauto.
  - destruct (timer_fields pw k) as (T & F & S). eapply same_done_upd; eauto.
  - eapply same_done_upd; eauto.
  - apply same_done_close.
Qed.

Lemma same_done_journal : forall pws pws' j, same_done pws pws' ->
  journal_batches pws j /\ sending_ok pws j -> journal_batches pws' j /\ sending_ok pws' j.
Proof.
  intros pws pws' j [L H] [A B]. split.
  - intros a Ha. destruct (A a Ha) as (pw & b & N & Hb & K & M & T).
    destruct (nth_error pws' (a_pw a)) as [pw'|] eqn:E.
    + specialize (H _ _ E). rewrite N in H. destruct H as (T' & F' & S').
      exists pw', b. unfold pw_done in *. rewrite F', S', T'. auto.
    + exfalso. apply nth_error_None in E. assert (a_pw a < length pws) by (apply nth_error_Some; congruence). lia.
  - intros p pw' b n ph N S. specialize (H _ _ N). destruct (nth_error pws p) as [pw|] eqn:E.
    + destruct H as (_ & _ & S'). eapply B; eauto. congruence.
    + destruct H; congruence.
Qed.

Lemma journal_batches_upd : forall pws j p pw x, journal_batches pws j -> nth_error pws p = Some pw ->
  pw_tp x = pw_tp pw -> (forall b, In b (pw_done pw) -> In b (pw_done x)) -> journal_batches (upd pws p x) j.
Proof.
  intros pws j p pw x A N T I a Ha. destruct (A a Ha) as (pw0 & b & N0 & Hb & K & M & T0).
  destruct (Nat.eq_dec p (a_pw a)) as [Ep|D].
  - rewrite <- Ep in *. rewrite N in N0. inversion N0; subst pw0. exists x, b.
    rewrite nth_error_upd_eq by (apply nth_error_Some; congruence). rewrite T. auto 6.
  - exists pw0, b. rewrite nth_error_upd_neq by exact D. auto 6.
Qed.

Lemma sending_ok_upd : forall pws j p x, sending_ok pws j ->
  (forall b n ph, pw_snd x = Some (mkSnd b n ph) -> retry_ok p b n ph j) -> sending_ok (upd pws p x) j.
Proof.
  intros pws j p x B Hx q pw' b n ph N S.
  apply nth_error_upd in N. destruct N as [(-> & -> & _)|[_ N]]; eauto.
Qed.

Definition journal_inv (s : state) : Prop :=
  journal_batches (s_pws s) (s_journal s) /\ sending_ok (s_pws s) (s_journal s) /\
  attempts_bounded (s_journal s).

Lemma journal_inv_same : forall s s', journal_inv s -> s_journal s' = s_journal s ->
  same_done (s_pws s) (s_pws s') -> journal_inv s'.
Proof.
  intros s s' (A & B & C) EJ SD. unfold journal_inv. rewrite EJ.
  destruct (same_done_journal _ _ _ SD (conj A B)). auto.
Qed.

Lemma journal_inv_step : forall s l s', wfs (s_pws s) -> journal_inv s -> step cfg s l = Some s' -> journal_inv s'.
Proof.
  intros s l s' W J H. apply step_Step in H. destruct (is_sender l) eqn:E.
  2:{ destruct (Step_quiet _ _ _ E H) as (EJ & _ & SD). eapply journal_inv_same; eauto. }
  destruct J as (A & B & C).
  destruct H; try discriminate E; clear E; unfold journal_inv; cbn [s_pws s_journal with_pw].
  - 
    split; [|split; auto].
    + eapply journal_batches_upd; eauto. intros x. unfold pw_done; simpl. rewrite Sn. simpl.
      rewrite !in_app_iff. simpl. tauto.
    + apply sending_ok_upd; auto. simpl. intros b0 n ph Hs. injection Hs as <- <- <-.
      assert (Z : forall a, In a (s_journal s) -> a_pw a = p -> a_k a = b_k b -> False).
      { intros a. apply (pending_unsent _ _ _ _ _ _ A Np); [apply W; eapply nth_error_In; eauto|].
        rewrite Qu. simpl; auto. }
      split; [apply count_zero; exact Z|].
      destruct (0 <? maxAttempts cfg) eqn:M; [|split; [lia|discriminate]].
      split; [apply Nat.ltb_lt in M; exact M|]. intros a Ha Hp Hk. exfalso. eapply Z; eauto.
  - 
    destruct (B _ _ _ _ _ Np Sn) as [Cn [Lt Rt]].
    assert (Lp : p < length (s_pws s)) by (apply nth_error_Some; congruence).
    split; [|split].
    + intros a Ha. apply in_app_or in Ha. destruct Ha as [Ha|[<-|[]]].
      * eapply journal_batches_upd; eauto. intros x. unfold pw_done; simpl. rewrite Sn. auto.
      * exists (set_snd pw (Some (mkSnd b (S n) (after_attempt cfg n (r_seen r))))), b.
        simpl. rewrite nth_error_upd_eq by exact Lp. unfold pw_done. simpl. rewrite in_app_iff. simpl. auto 7.
    + intros q pw' b' n' ph N' S'. apply nth_error_upd in N'. destruct N' as [(<- & -> & _)|[D N']].
      * simpl in S'. injection S' as <- <- <-. split.
        { rewrite count_app, count_one. simpl. rewrite !Nat.eqb_refl. simpl. lia. }
        unfold after_attempt. destruct (r_seen r) as [e|] eqn:Se; [|split; [lia|discriminate]].
        destruct (retriable cfg e) eqn:Re; [|split; [lia|intros e' Ee; congruence]].
        destruct (S n <? maxAttempts cfg) eqn:M.
        -- apply Nat.ltb_lt in M. split; [exact M|].
           intros a Ha Hp Hk. apply in_app_or in Ha. destruct Ha as [Ha|[<-|[]]]; auto.
           exists e. simpl. auto.
        -- apply Nat.ltb_ge in M. split; [lia|intros; exact M].
      * destruct (B _ _ _ _ _ N' S') as [Cn' Ph']. split.
        { rewrite count_app, count_one. simpl. replace (p =? q) with false by (symmetry; apply Nat.eqb_neq; exact D).
          simpl. lia. }
        destruct ph; auto; destruct Ph' as [L' R']; (split; [exact L'|]);
          intros a Ha Hp Hk; (apply in_app_or in Ha; destruct Ha as [Ha|[<-|[]]]; [auto|simpl in Hp; congruence]).
    + intros q k. rewrite count_app, count_one. simpl.
      destruct ((p =? q) && (b_k b =? k)) eqn:M.
      * apply andb_true_iff in M. destruct M as [M1 M2]. apply Nat.eqb_eq in M1, M2. subst q k. lia.
      * specialize (C q k). lia.
  - 
    split; [|split; auto].
    + eapply journal_batches_upd; eauto. intros x. unfold pw_done; simpl. rewrite Sn. auto.
    + apply sending_ok_upd; auto. simpl. intros b0 n0 ph Hs. injection Hs as <- <- <-.
      exact (B _ _ _ _ _ Np Sn).
  - 
    split; [|split; auto].
    + eapply journal_batches_upd; eauto. intros x. unfold pw_done; simpl. rewrite Sn. simpl.
      rewrite map_app, !in_app_iff. simpl. tauto.
    + apply sending_ok_upd; auto. simpl. intros b0 n0 ph Hs. discriminate.
Qed.

Lemma log_journal_step : forall s l s', s_log s = log_of_journal (s_journal s) -> step cfg s l = Some s' ->
  s_log s' = log_of_journal (s_journal s').
Proof.
  intros s l s' L H.
  destruct (step_journal _ _ _ H) as [(EJ & E & _)|(p & r & pw & b & n & _ & N & S & _ & _ & EJ & E)];
    rewrite E, EJ; auto.
  unfold log_of_journal in *. rewrite flat_map_app. simpl. rewrite app_nil_r. rewrite <- L. reflexivity.
Qed.

Definition witness (cs : list call) (p k : nat) (m : msg) : Prop :=
  exists c cl i, nth_error cs c = Some cl /\ c_ph cl <> CEntered /\ rejected cl = false /\
    nth_error (c_msgs cl) i = Some m /\ nth_error (c_refs cl) i = Some (p, k).

Definition prov (cs : list call) (pws : list pwriter) : Prop :=
  forall p pw b m, nth_error pws p = Some pw -> In b (pw_all pw) -> In m (b_msgs b) ->
    witness cs p (b_k b) m.

Definition calls_ext (cs cs' : list call) : Prop :=
  forall c cl, nth_error cs c = Some cl -> c_ph cl <> CEntered -> rejected cl = false ->
    exists cl', nth_error cs' c = Some cl' /\ c_msgs cl' = c_msgs cl /\ c_refs cl' = c_refs cl /\
                c_ph cl' <> CEntered /\ rejected cl' = false.

Lemma witness_ext : forall cs cs' p k m, calls_ext cs cs' -> witness cs p k m -> witness cs' p k m.
Proof.
  intros cs cs' p k m X (c & cl & i & N & P & R & M & F).
  destruct (X c cl N P R) as (cl' & N' & M' & F' & P' & R').
  exists c, cl', i. rewrite M', F'. auto 6.
Qed.

Lemma calls_ext_refl : forall cs, calls_ext cs cs.
Proof. intros cs c cl N P R. exists cl. auto 6. Qed.

Lemma calls_ext_snoc : forall cs x, calls_ext cs (cs ++ [x]).
Proof.
  intros cs x c cl N P R. exists cl. rewrite nth_error_app1 by (apply nth_error_Some; congruence). auto 6.
Qed.

Lemma calls_ext_upd : forall cs c cl x, nth_error cs c = Some cl ->
  (c_ph cl <> CEntered -> c_msgs x = c_msgs cl /\ c_refs x = c_refs cl /\ c_ph x <> CEntered /\ rejected x = false) ->
  calls_ext cs (upd cs c x).
Proof.
  intros cs c cl x N H d dl Nd P R. destruct (Nat.eq_dec c d) as [<-|D].
  - rewrite N in Nd. inversion Nd; subst dl. exists x.
    rewrite nth_error_upd_eq by (apply nth_error_Some; congruence). destruct (H P) as (? & ? & ? & ?). auto 6.
  - exists dl. rewrite nth_error_upd_neq by exact D. auto 6.
Qed.

Lemma step_calls_ext : forall s l s', step cfg s l = Some s' -> calls_ext (s_calls s) (s_calls s').
Proof.
  intros s l s' H. apply step_Step in H.
  destruct H; cbn [s_calls add_call ret_call with_pw with_pw_done];
    try apply calls_ext_refl; try apply calls_ext_snoc;
    (eapply calls_ext_upd; [eassumption|]); intros P; try congruence;
    cbn; repeat split; try congruence.
  destruct (forallb is_none es); reflexivity.
Qed.

Lemma step_used_ids : forall s l s', step cfg s l = Some s' -> NoDup (used_ids (s_calls s)) ->
  NoDup (used_ids (s_calls s')).
Proof.
  intros s l s' H N. apply step_Step in H.
  destruct H; cbn [s_calls add_call ret_call with_pw with_pw_done]; auto;
    try (eapply admissible_NoDup; eauto; fail); erewrite used_ids_upd; eauto.
Qed.

(* prov while batchMessages works on a call: message i of [ms] has reference i of [refs] *)
Definition placed (cs : list call) (pws : list pwriter) (ms : list msg) (refs : list (nat * nat)) : Prop :=
  forall p pw b m, nth_error pws p = Some pw -> In b (pw_all pw) -> In m (b_msgs b) ->
    witness cs p (b_k b) m \/ exists i, nth_error ms i = Some m /\ nth_error refs i = Some (p, b_k b).

Lemma prov_assign : forall cs pws wg ms pws' wg' refs',
  assign_all cfg pws wg ms = (pws', wg', refs') -> prov cs pws -> placed cs pws' ms refs'.
Proof.
  intros cs pws wg ms pws' wg' refs' A P.
  enough (G : length refs' = length ms /\ placed cs pws' ms refs') by apply G.
  revert A. apply (assign_all_ind cfg (fun pre x _ refs => length refs = length pre /\ placed cs x pre refs)).
  - intros pre m0 post pws1 wg1 refs _ [L R1] _. split; [exact L|].
    intros p1 pw1 b1 m1 N1 Hb. apply nth_error_snoc in N1. destruct N1 as [N1|[_ ->]]; [eauto|destruct Hb].
  - intros pre m0 post pws1 wg1 refs _ [L R1] j pw pw' k sp N O T PA.
    split; [rewrite !app_length; simpl; lia|].
    assert (R0 : placed cs pws1 (pre ++ [m0]) (refs ++ [(j, k)])).
    { intros p1 pw1 b1 m1 N1 Hb Hm. destruct (R1 _ _ _ _ N1 Hb Hm) as [W|(i & I1 & I2)]; auto.
      right. exists i. rewrite !nth_error_app1; auto; apply nth_error_Some; congruence. }
    assert (New : exists i, nth_error (pre ++ [m0]) i = Some m0 /\ nth_error (refs ++ [(j, k)]) i = Some (j, k)).
    { exists (length pre). rewrite nth_error_snoc_last, <- L, nth_error_snoc_last. auto. }
    intros p1 pw1 b1 m1 N1 Hb Hm.
    apply nth_error_upd in N1. destruct N1 as [(<- & -> & _)|[_ N1]]; [|eauto].
    destruct (pw_add_spec cfg _ _ _ _ _ PA O) as (_ & _ & _ & _ & _ & [(l & b & E1 & E2 & K & _)|(E2 & K & _)]);
      rewrite E2 in Hb; apply in_app_or in Hb; destruct Hb as [Hb|[<-|[]]].
    + apply (R0 j pw); auto. rewrite E1. apply in_or_app; auto.
    + simpl in Hm. apply in_app_or in Hm. destruct Hm as [Hm|[<-|[]]].
      * apply (R0 j pw b); auto. rewrite E1. apply in_or_app; simpl; auto.
      * right. simpl. rewrite <- K. exact New.
    + apply (R0 j pw); auto.
    + simpl in Hm. destruct Hm as [<-|[]]. right. simpl. rewrite <- K. exact New.
  - split; auto. intros; left; eapply P; eauto.
Qed.

Lemma one_batch : forall cs pws p1 pw1 b1 m1 p2 pw2 b2 m2,
  NoDup (used_ids cs) -> prov cs pws ->
  nth_error pws p1 = Some pw1 -> In b1 (pw_all pw1) -> In m1 (b_msgs b1) ->
  nth_error pws p2 = Some pw2 -> In b2 (pw_all pw2) -> In m2 (b_msgs b2) ->
  m_id m1 = m_id m2 -> p1 = p2 /\ b_k b1 = b_k b2 /\ m1 = m2.
Proof.
  intros cs pws p1 pw1 b1 m1 p2 pw2 b2 m2 N P N1 B1 M1 N2 B2 M2 E.
  destruct (P _ _ _ _ N1 B1 M1) as (c & cl & i & C1 & _ & _ & C4 & C5).
  destruct (P _ _ _ _ N2 B2 M2) as (c' & cl' & i' & C1' & _ & _ & C4' & C5').
  destruct (ids_unique _ _ _ _ _ _ _ _ _ N C1 C1' C4 C4' E) as [<- <-].
  rewrite C1 in C1'. inversion C1'; subst cl'. rewrite C4 in C4'. rewrite C5 in C5'.
  inversion C4'. inversion C5'. auto.
Qed.

(* a message id names one batch *)
Lemma attempt_batch_of : forall cs pws j a m p pw b x,
  wfs pws -> journal_batches pws j -> NoDup (used_ids cs) -> prov cs pws ->
  In a j -> In m (a_msgs a) -> nth_error pws p = Some pw -> In b (pw_all pw) -> In x (b_msgs b) ->
  m_id x = m_id m ->
  a_pw a = p /\ a_k a = b_k b /\ x = m /\ a_msgs a = b_msgs b /\ a_tp a = pw_tp pw.
Proof.
  intros cs pws j a m p pw b x W A N P Ha Hm Hp Hb Hx Hid.
  destruct (A a Ha) as (pwa & ba & Epa & Hba & Hk & Hms & _). rewrite <- Hms in Hm.
  destruct (one_batch _ _ _ _ _ _ _ _ _ _ N P Hp Hb Hx Epa (pw_done_all _ _ Hba) Hm Hid) as (Ep & Ek & Ex).
  subst p. assert (K : a_k a = b_k b) by congruence.
  destruct (attempt_by_number _ _ _ _ _ W A Ha Hp Hb K). auto.
Qed.

Definition calls_inv (s : state) : Prop := NoDup (used_ids (s_calls s)) /\ prov (s_calls s) (s_pws s).

Lemma calls_inv_step : forall s l s', wf_state s -> calls_inv s -> step cfg s l = Some s' -> calls_inv s'.
Proof.
  intros s l s' WS [N P] H. split; [eapply step_used_ids; eauto|].
  pose proof (step_calls_ext _ _ _ H) as X. apply step_stepped in H.
  destruct (stepped_frame _ _ _ _ WS H) as [(c & cl & wg & refs & Nc & Ph & A & Ec)|[L K]].
  - intros p pw b m Np Hb Hm.
    destruct (prov_assign _ _ _ _ _ _ _ A P _ _ _ _ Np Hb Hm) as [W|(i & I1 & I2)].
    + eapply witness_ext; eauto.
    + exists c, (mkCall (c_g cl) (c_msgs cl) refs CWaiting), i. rewrite Ec.
      rewrite nth_error_upd_eq by (apply nth_error_Some; congruence).
      repeat split; auto; discriminate.
  - intros p pw' b m Np Hb Hm. destruct (nth_error_len _ _ _ _ _ L Np) as [pw Np0].
    destruct (K _ _ _ Np0 Np) as (_ & A & _). rewrite A in Hb. eapply witness_ext; eauto.
Qed.

Lemma NoDup_flat_map_in : forall A B (f : A -> list B) l x, NoDup (flat_map f l) -> In x l -> NoDup (f x).
Proof.
  induction l as [|y l IH]; simpl; intros x N H; [contradiction|].
  apply NoDup_app_iff in N. destruct N as (Ny & Nl & _). destruct H as [->|H]; auto.
Qed.

Definition batch_ids_distinct (pws : list pwriter) : Prop :=
  forall p pw b, nth_error pws p = Some pw -> In b (pw_all pw) -> NoDup (map m_id (b_msgs b)).

Lemma batch_ids_assign : forall cs c cl pws wg pws' wg' refs',
  NoDup (used_ids cs) -> prov cs pws -> nth_error cs c = Some cl -> c_ph cl = CEntered ->
  assign_all cfg pws wg (c_msgs cl) = (pws', wg', refs') -> batch_ids_distinct pws -> batch_ids_distinct pws'.
Proof.
  intros cs c cl pws wg pws' wg' refs' N P Nc Ph A B.
  set (ms := c_msgs cl) in *.
  assert (Nms : NoDup (map m_id ms)).
  { apply (NoDup_flat_map_in _ _ (fun c => map m_id (c_msgs c)) cs cl N). eapply nth_error_In; eauto. }
  (* carried through batchMessages: a message in a batch is an earlier message of this call,
     or its id differs from every id of the call (it belongs to another call) *)
  enough (G : forall p pw b, nth_error pws' p = Some pw -> In b (pw_all pw) ->
            NoDup (map m_id (b_msgs b)) /\
            forall y, In y (b_msgs b) -> (forall z, In z ms -> m_id y <> m_id z) \/ In y ms)
    by (intros p pw b Np Hb; exact (proj1 (G p pw b Np Hb))).
  revert A. apply (assign_all_ind cfg (fun pre x _ _ => forall p pw b, nth_error x p = Some pw -> In b (pw_all pw) ->
            NoDup (map m_id (b_msgs b)) /\
            forall y, In y (b_msgs b) -> (forall z, In z ms -> m_id y <> m_id z) \/ In y pre)).
  - intros pre m0 post pws1 wg1 refs1 _ R1 _ p1 pw1 b1 N1 Hb.
    apply nth_error_snoc in N1. destruct N1 as [N1|[_ ->]]; [eauto|destruct Hb].
  - intros pre m0 post pws1 wg1 refs1 E R0 j pw pw' k sp Nj O T PA.
    assert (W : forall p pw b, nth_error pws1 p = Some pw -> In b (pw_all pw) ->
              NoDup (map m_id (b_msgs b)) /\
              forall y, In y (b_msgs b) -> (forall z, In z ms -> m_id y <> m_id z) \/ In y (pre ++ [m0])).
    { intros p1 pw1 b1 N1 Hb. destruct (R0 _ _ _ N1 Hb) as [X Y]. split; auto.
      intros y Hy. destruct (Y y Hy); auto. right. apply in_or_app; auto. }
    intros p1 pw1 b1 N1 Hb.
    apply nth_error_upd in N1. destruct N1 as [(<- & -> & _)|[_ N1]]; [|eauto].
    destruct (pw_add_spec cfg _ _ _ _ _ PA O) as (_ & _ & _ & _ & _ & [(l & b & E1 & E2 & _)|(E2 & _)]);
      rewrite E2 in Hb; apply in_app_or in Hb; destruct Hb as [Hb|[<-|[]]].
    + apply (W j pw); auto. rewrite E1. apply in_or_app; auto.
    + destruct (R0 j pw b Nj) as [X Y]; [rewrite E1; apply in_or_app; simpl; auto|].
      simpl. split.
      * rewrite map_app. apply NoDup_app_iff. split; [exact X|].
        split; [simpl; constructor; [intros []|constructor]|].
        intros i Hi [<-|[]]. apply in_map_iff in Hi. destruct Hi as (y & Ey & Hy).
        destruct (Y y Hy) as [D|D].
        { apply (D m0); auto. rewrite E. apply in_elt. }
        { rewrite E, map_app in Nms. apply NoDup_app_iff in Nms. destruct Nms as (_ & _ & Dj).
          apply (Dj (m_id y)); [apply in_map; exact D|rewrite Ey; simpl; auto]. }
      * intros y Hy. apply in_app_or in Hy. destruct Hy as [Hy|[<-|[]]].
        { destruct (Y y Hy); auto. right. apply in_or_app; auto. }
        { right. apply in_or_app. simpl. auto. }
    + apply (W j pw); auto.
    + simpl. split; [constructor; [intros []|constructor]|].
      intros y [<-|[]]. right. apply in_or_app. simpl. auto.
  - intros p pw b Np Hb. split; [eapply B; eauto|].
    intros y Hy. left. intros z Hz EQ.
    destruct (P _ _ _ _ Np Hb Hy) as (c0 & cl0 & i0 & C1 & C2 & _ & C4 & _).
    apply In_nth_error in Hz. destruct Hz as [iz Hz].
    destruct (ids_unique _ _ _ _ _ _ _ _ _ N C1 Nc C4 Hz EQ) as [-> _].
    congruence.
Qed.

Lemma batch_ids_step : forall s l s', wf_state s -> calls_inv s -> batch_ids_distinct (s_pws s) ->
  step cfg s l = Some s' -> batch_ids_distinct (s_pws s').
Proof.
  intros s l s' WS [N P] B H. apply step_stepped in H.
  destruct (stepped_frame _ _ _ _ WS H) as [(c & cl & wg & refs & Nc & Ph & A & _)|[L K]].
  - eapply batch_ids_assign; eauto.
  - intros p pw' b Np Hb. destruct (nth_error_len _ _ _ _ _ L Np) as [pw Np0].
    destruct (K _ _ _ Np0 Np) as (_ & A & _). rewrite A in Hb. eapply B; eauto.
Qed.

Definition dup_is_retry (s : state) : Prop :=
  forall j1 a j2 b j3, s_journal s = j1 ++ a :: j2 ++ b :: j3 ->
    (exists m, In m (a_msgs a) /\ In m (a_msgs b)) ->
    a_msgs a = a_msgs b /\ a_tp a = a_tp b /\ exists e, a_seen a = Some e /\ retriable cfg e = true.

Lemma dup_is_retry_step : forall s l s', wfs (s_pws s) -> journal_inv s -> calls_inv s -> dup_is_retry s ->
  step cfg s l = Some s' -> dup_is_retry s'.
Proof.
  intros s l s' W (A & B & _) [N P] D H.
  destruct (step_journal _ _ _ H) as [(EJ & _ & _)|(p & r & pw & sb & n & _ & Np & S & _ & _ & EJ & _)];
    unfold dup_is_retry; rewrite EJ; auto.
  intros j1 a j2 b j3 Ej (m & Ma & Mb).
  apply snoc_decomp in Ej. destruct Ej as [(j3' & -> & Ej)|(-> & -> & Ej)]; [eapply D; eauto|].
  simpl in *.
  assert (Ha : In a (s_journal s)) by (rewrite Ej; apply in_elt).
  destruct (attempt_batch_of _ _ _ _ _ _ _ _ _ W A N P Ha Ma Np (snd_in_all _ _ _ _ S) Mb eq_refl)
    as (Ep & Ek & _ & Em & Et).
  split; [auto|]. split; [auto|].
  destruct (B _ _ _ _ _ Np S) as [_ [_ Rt]]. apply Rt; auto; congruence.
Qed.

End WithCfg.

Record Full (cfg : config) (s : state) : Prop := {
  full_wfs : wfs cfg (s_pws s);
  full_log : s_log s = log_of_journal (s_journal s);
  full_journal : journal_inv cfg s;
  full_calls : calls_inv s;
  full_batch_ids : batch_ids_distinct (s_pws s);
  full_dup : dup_is_retry cfg s;
  full_wf : wf_state s
}.

Lemma Full_init : forall cfg, Full cfg init.
Proof.
  intros cfg. split.
  - intros x [].
  - reflexivity.
  - split; [intros x []|]. split; [intros p pw b n ph N; destruct p; discriminate|].
    intros p k. simpl. unfold count. simpl. lia.
  - split; [constructor|]. intros p pw b m N. destruct p; discriminate.
  - intros p pw b N. destruct p; discriminate.
  - intros j1 a j2 b j3 E. simpl in E. destruct j1; discriminate.
  - split; constructor.
Qed.

Lemma Full_step : forall cfg s l s', Full cfg s -> step cfg s l = Some s' -> Full cfg s'.
Proof.
  intros cfg s l s' [W J1 J C B D WS] St. split.
  - eapply wfs_step; eauto.
  - eapply log_journal_step; eauto.
  - eapply journal_inv_step; eauto.
  - eapply calls_inv_step; eauto.
  - eapply batch_ids_step; eauto.
  - eapply dup_is_retry_step; eauto.
  - eapply wf_step; eauto using step_stepped.
Qed.

Lemma full_inv : forall cfg ls s, runs cfg ls s -> Full cfg s.
Proof. intros cfg. apply runs_inv; [apply Full_init|apply Full_step]. Qed.

Lemma Full_journal_batches : forall cfg s, Full cfg s -> journal_batches (s_pws s) (s_journal s).
Proof. intros cfg s F. apply (full_journal _ _ F). Qed.

Lemma Full_wf_state : forall cfg s, Full cfg s -> wf_state s.
Proof. intros cfg s F. apply (full_wf _ _ F). Qed.

Lemma Full_log_journal : forall cfg s, Full cfg s -> s_log s = log_of_journal (s_journal s).
Proof. intros cfg s F. apply (full_log _ _ F). Qed.

Lemma attempt_batch : forall cfg s a m p pw b x, Full cfg s ->
  In a (s_journal s) -> In m (a_msgs a) ->
  nth_error (s_pws s) p = Some pw -> In b (pw_all pw) -> In x (b_msgs b) -> m_id x = m_id m ->
  a_pw a = p /\ a_k a = b_k b /\ x = m /\ a_msgs a = b_msgs b /\ a_tp a = pw_tp pw.
Proof.
  intros cfg s a m p pw b x [W _ (A & _ & _) (N & P) _ _ _]. exact (attempt_batch_of cfg _ _ _ _ _ _ _ _ _ W A N P).
Qed.

Lemma journal_tp_runs : forall cfg ls s a m, runs cfg ls s -> In a (s_journal s) -> In m (a_msgs a) ->
  tp_of cfg m = a_tp a.
Proof.
  intros cfg ls s a m Hr. destruct (full_inv _ _ _ Hr) as [W _ (A & _) _ _ _ _]. eapply journal_tp; eauto.
Qed.

Lemma C01_no_foreign_log_proof : stmt_C01_no_foreign_log.
Proof.
  intros cfg ls s Hr tp m Hin. rewrite (Full_log_journal _ _ (full_inv _ _ _ Hr)) in Hin.
  apply in_flat_map in Hin. destruct Hin as (a & Ha & Hin).
  destruct (a_applied a); [|destruct Hin]. apply in_map_iff in Hin. destruct Hin as (x & E & Hx).
  inversion E; subst. symmetry. eapply journal_tp_runs; eauto.
Qed.

Lemma C01_duplicates_only_by_retry_proof : stmt_C01_duplicates_only_by_retry.
Proof.
  intros cfg ls s Hr. destruct (full_inv _ _ _ Hr) as [_ J1 (_ & _ & C) _ _ D _].
  split; [exact J1|]. split; [exact D|exact C].
Qed.

Lemma C08_rejected_never_sent_proof : stmt_C08_rejected_never_sent.
Proof.
  intros cfg ls s Hr c cl Nc Rj m a Hm Ha Hma.
  destruct (full_inv _ _ _ Hr) as [_ _ (A & _ & _) (N & P) _ _ _].
  destruct (A a Ha) as (pw & b & Np & Hb & _ & M & _).
  rewrite <- M in Hma.
  destruct (P _ _ _ _ Np (pw_done_all _ _ Hb) Hma) as (c' & cl' & i' & C1 & _ & C3 & C4 & _).
  apply In_nth_error in Hm. destruct Hm as [i Hi].
  destruct (ids_unique _ _ _ _ _ _ _ _ _ N Nc C1 Hi C4 eq_refl) as [<- _].
  congruence.
Qed.

Print Assumptions C01_no_foreign_log_proof.
Print Assumptions C01_duplicates_only_by_retry_proof.
Print Assumptions C08_rejected_never_sent_proof.
