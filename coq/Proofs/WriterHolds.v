(* Proofs/WriterHolds.v — small facts behind Properties/C01.v, C07.v and C08.v that are not
   invariants of runs: the shape of log_is_journal, the defaulted configuration, a late Assign. *)
From Coq Require Import List NArith ZArith Bool Arith Lia.
From KV Require Import Lib.LTS Model.Writer Proofs.WriterStmts Proofs.WriterBase.
Import ListNotations.

(* log_is_journal of a list against itself *)
Lemma log_is_journal_refl : forall l, 
  (length l =? length l) && forallb (fun xy : (tpart * msg) * (tpart * msg) =>
     tp_eqb (fst (fst xy)) (fst (snd xy)) && N.eqb (m_id (snd (fst xy))) (m_id (snd (snd xy)))) (combine l l) = true.
Proof.
  intros l. rewrite Nat.eqb_refl. simpl. induction l as [|x l IH]; simpl; [reflexivity|].
  rewrite tp_eqb_refl, N.eqb_refl. simpl. exact IH.
Qed.

Lemma dflt_pos : forall v d, (0 < d)%Z -> (0 < dflt v d)%Z.
Proof. intros v d H. unfold dflt. destruct (Z.ltb 0 v) eqn:E; [apply Z.ltb_lt in E; exact E|exact H]. Qed.

Lemma cfg_of_options_ok : forall o asy wt retr, cfg_ok (cfg_of_options o asy wt retr).
Proof.
  intros. unfold cfg_ok, cfg_of_options; simpl.
  assert (A : (0 < eff_batchSize o)%Z) by (apply dflt_pos; reflexivity).
  assert (B : (0 < eff_maxAttempts o)%Z) by (apply dflt_pos; reflexivity).
  split; lia.
Qed.

(* batchMessages observes w.closed on EVERY call, in every state (used writer or not): a call
   that reaches it after Close fails with ErrClosedPipe and nothing else changes *)
Lemma late_assign_always_rejected : forall cfg s c cl,
  closed s = true -> nth_error (s_calls s) c = Some cl -> c_ph cl = CEntered ->
  step cfg s (Assign c) = Some (ret_call s c cl (RErr EClosed)).
Proof. intros cfg s c cl Hc Hn Hp. unfold step. rewrite Hn, Hp, Hc. reflexivity. Qed.

