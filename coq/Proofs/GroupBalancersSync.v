(* Proofs/GroupBalancersSync.v — the leader's SyncGroup request (makeSyncGroupRequestV0)
   carries, member by member, exactly the balancer's assignment *)
From Coq Require Import List NArith ZArith Bool Arith Lia Permutation.
From KV Require Import Model.GroupBalancers Proofs.GroupBalancersBase Proofs.GroupBalancersRange
  Proofs.GroupBalancersLeader.
Import ListNotations.

Lemma int32_of_small z : (-2147483648 <= z < 2147483648)%Z -> int32_of z = z.
Proof. intros H. unfold int32_of. rewrite Z.mod_small by lia. lia. Qed.

Lemma dedup_bytes_in l x : In x (dedup_bytes l) <-> In x l.
Proof.
  induction l as [|y l IH]; cbn [dedup_bytes In]; [tauto|].
  destruct (existsb (bytes_eqb y) l) eqn:E.
  - rewrite IH. apply existsb_eqb_in in E. split; [tauto|]. intros [<-|H]; tauto.
  - cbn [In]. rewrite IH. tauto.
Qed.

Lemma dedup_bytes_nodup l : NoDup (dedup_bytes l).
Proof.
  induction l as [|y l IH]; cbn [dedup_bytes]; [constructor|].
  destruct (existsb (bytes_eqb y) l) eqn:E; [exact IH|].
  constructor; [|exact IH]. rewrite dedup_bytes_in. intros H. apply existsb_eqb_in in H. congruence.
Qed.

(* an entry as the request carries it: partitions converted to int32 *)
Definition tkey_id (tr : triple) : bytes := fst (fst tr).
Definition wrap3 (tr : triple) : triple := (fst tr, map int32_of (snd tr)).

Lemma wire_triples_sync a :
  wire_triples (sync_request a) =
  flat_map (fun id => map wrap3 (filter (fun tr => bytes_eqb (tkey_id tr) id) a)) (sync_member_ids a).
Proof.
  unfold wire_triples, sync_request. induction (sync_member_ids a) as [|id ids IH]; [reflexivity|].
  cbn [map flat_map fst snd]. rewrite IH. f_equal.
  unfold sync_entry. rewrite map_map. apply map_ext_in. intros [[i t] l] Hin.
  apply filter_In in Hin. destruct Hin as [_ Hin]. unfold tkey_id in Hin. cbn [fst snd] in *.
  destruct (bytes_eqb_spec i id) as [->|N]; [reflexivity|discriminate].
Qed.

Lemma assigned_wrap_filter a id t :
  assigned (map wrap3 (filter (fun tr => bytes_eqb (tkey_id tr) id) a)) id t =
  map int32_of (assigned a id t).
Proof.
  induction a as [|[[i t'] l] a IH]; [reflexivity|]. cbn [filter]. unfold tkey_id at 1. cbn [fst].
  rewrite (assigned_cons (i, t', l) a). cbn [fst snd]. rewrite map_app, <- IH.
  destruct (bytes_eqb i id) eqn:E; cbn [andb map].
  - rewrite assigned_cons. cbn [wrap3 fst snd]. rewrite E. cbn [andb].
    destruct (bytes_eqb t' t); reflexivity.
  - reflexivity.
Qed.

Lemma assigned_wrap_filter_other a id' id t : id' <> id ->
  assigned (map wrap3 (filter (fun tr => bytes_eqb (tkey_id tr) id') a)) id t = [].
Proof.
  intros N. apply assigned_notin. intros tr Htr. apply in_map_iff in Htr.
  destruct Htr as [tr0 [<- H0]]. apply filter_In in H0. destruct H0 as [_ H0].
  unfold wrap3, tkey_id in *. cbn [fst]. destruct (bytes_eqb_spec (fst (fst tr0)) id'); congruence.
Qed.

Lemma assigned_grouped a ids id t : NoDup ids ->
  assigned (flat_map (fun id' => map wrap3 (filter (fun tr => bytes_eqb (tkey_id tr) id') a)) ids) id t =
  if in_dec bytes_eq_dec id ids then map int32_of (assigned a id t) else [].
Proof.
  induction ids as [|i ids IH]; intros Hnd; [reflexivity|].
  inversion Hnd; subst. cbn [flat_map]. rewrite assigned_app, IH by assumption.
  destruct (bytes_eq_dec i id) as [->|N].
  - rewrite assigned_wrap_filter.
    destruct (in_dec bytes_eq_dec id ids) as [|n0]; [contradiction|].
    destruct (in_dec bytes_eq_dec id (id :: ids)) as [|n1]; [apply app_nil_r|exfalso; apply n1; left; reflexivity].
  - rewrite assigned_wrap_filter_other by exact N. cbn [app].
    destruct (in_dec bytes_eq_dec id ids) as [i0|n0], (in_dec bytes_eq_dec id (i :: ids)) as [[?|?]|n1];
      try reflexivity; try congruence; try contradiction.
    exfalso. apply n1. right. assumption.
Qed.

Lemma sync_member_ids_in a id :
  In id (sync_member_ids a) <-> exists tr, In tr a /\ fst (fst tr) = id.
Proof.
  unfold sync_member_ids. rewrite dedup_bytes_in, in_map_iff. split.
  - intros [tr [E H]]. exists tr. tauto.
  - intros [tr [H E]]. exists tr. tauto.
Qed.

Lemma sync_request_is_assignment a :
  map fst (sync_request a) = sync_member_ids a /\
  NoDup (map fst (sync_request a)) /\
  (forall id, In id (map fst (sync_request a)) <-> exists tr, In tr a /\ fst (fst tr) = id) /\
  (forall id t, assigned (wire_triples (sync_request a)) id t = map int32_of (assigned a id t)).
Proof.
  assert (E : map fst (sync_request a) = sync_member_ids a).
  { unfold sync_request. rewrite map_map. cbn [fst]. apply map_id. }
  split; [exact E|]. rewrite E. split; [apply dedup_bytes_nodup|]. split; [apply sync_member_ids_in|].
  intros id t. rewrite wire_triples_sync, assigned_grouped by apply dedup_bytes_nodup.
  destruct (in_dec bytes_eq_dec id (sync_member_ids a)) as [|n]; [reflexivity|].
  rewrite assigned_notin; [reflexivity|].
  intros tr Htr Eid. apply n, sync_member_ids_in. exists tr. tauto.
Qed.

Lemma wire_triples_perm a : Permutation (wire_triples (sync_request a)) (map wrap3 a).
Proof.
  rewrite wire_triples_sync.
  rewrite (flat_map_map_out wrap3 (fun id => filter (fun tr => bytes_eqb (tkey_id tr) id) a)).
  apply Permutation_map, (group_perm tkey_id); [apply dedup_bytes_nodup|].
  intros tr Htr. apply sync_member_ids_in. exists tr. split; [exact Htr|reflexivity].
Qed.

Lemma exact_partition_perm ms ps a b : Permutation a b ->
  exact_partition ms ps a -> exact_partition ms ps b.
Proof.
  intros Hp [H1 [H2 H3]]. split; [|split].
  - eapply Permutation_NoDup; [apply Permutation_map; exact Hp|exact H1].
  - intros tr Htr. apply H2. eapply Permutation_in; [apply Permutation_sym; exact Hp|exact Htr].
  - intros t. rewrite <- (H3 t). unfold topic_parts.
    apply Permutation_flat_map, Permutation_sym, Hp.
Qed.

Definition int32_cluster (cluster : list partition) : Prop :=
  forall p, In p cluster -> (-2147483648 <= p_id p < 2147483648)%Z.

Lemma wire_exact_partition ms cluster a : int32_cluster cluster ->
  exact_partition ms cluster a -> exact_partition ms cluster (wire_triples (sync_request a)).
Proof.
  intros Hc Ha. apply (exact_partition_perm ms cluster a); [|exact Ha].
  (* every assigned id is a listed one, hence an int32: the conversion changes nothing *)
  rewrite wire_triples_perm. replace (map wrap3 a) with a; [reflexivity|].
  rewrite <- (map_id a) at 1. apply map_ext_in. intros [[i t] l] Htr. unfold wrap3. cbn [fst snd].
  f_equal. rewrite <- (map_id l) at 1. apply map_ext_in. intros p Hp. symmetry. apply int32_of_small.
  destruct Ha as [_ [_ H3]]. specialize (H3 t).
  assert (Hin : In p (topic_parts a t)).
  { unfold topic_parts. apply in_flat_map. exists (i, t, l). split; [exact Htr|].
    cbn [fst snd]. rewrite bytes_eqb_refl. exact Hp. }
  apply (Permutation_in _ H3) in Hin. destruct (existsb (subscribes t) ms); [|destruct Hin].
  unfold find_partitions in Hin. apply in_map_iff in Hin. destruct Hin as [q [<- Hq]].
  apply filter_In in Hq. apply Hc. tauto.
Qed.

Lemma wire_even_loads ms cluster a :
  even_loads ms cluster a -> even_loads ms cluster (wire_triples (sync_request a)).
Proof.
  intros H t m1 m2 I1 I2 T1 T2. specialize (H t m1 m2 I1 I2 T1 T2). cbv zeta in *.
  destruct (sync_request_is_assignment a) as [_ [_ [_ E]]]. rewrite !E, !map_length. exact H.
Qed.

