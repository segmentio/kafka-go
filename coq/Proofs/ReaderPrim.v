(* Proofs/ReaderPrim.v — C02, L1: the size-accounted primitive readers on EXACT streams (the
   declared size equals the bytes present: a response cut at the byte limit, not a broken
   connection).  For each reader: decoding what the specification's encoder wrote succeeds and
   consumes exactly those bytes ([pspec]); on every proper prefix it reports errShortRead and
   leaves an exact stream ([pshort]).  Both compose along the monad ([mspec], [mshort]; [mdec] is
   the two together). *)
From Coq Require Import List NArith ZArith Bool Lia.
From Coq Require Import ZifyN ZifyNat ZifyBool.
From KV Require Import Lib.Bits Lib.Bytes Lib.Varint Model.MsgSetReader.
Import ListNotations.
Open Scope Z_scope.

Definition ex (bs : list N) : rd := (bs, len bs).

Definition pspec {A} (p : rd -> pres A) (bs : list N) (v : A) : Prop :=
  forall rest, p (ex (bs ++ rest)) = POk v (ex rest).
Definition pshort {A} (p : rd -> pres A) (bs : list N) : Prop :=
  forall q q', bs = q ++ q' -> q' <> [] -> exists i', p (ex q) = PErr EShort (ex i').

Lemma len_app a b : len (a ++ b) = len a + len b.
Proof. unfold len. rewrite app_length. lia. Qed.
Lemma len_nonneg a : 0 <= len a.
Proof. unfold len. lia. Qed.
Lemma len_pos a : a <> [] -> 0 < len a.
Proof. destruct a; [contradiction|]. unfold len. cbn [length]. lia. Qed.

Lemma firstn_app_exact {A} (a b : list A) : firstn (length a) (a ++ b) = a.
Proof. rewrite firstn_app, Nat.sub_diag, firstn_all. cbn. apply app_nil_r. Qed.
Lemma skipn_app_exact {A} (a b : list A) : skipn (length a) (a ++ b) = b.
Proof. rewrite skipn_app, Nat.sub_diag, skipn_all. reflexivity. Qed.

(* stated as an equation: unfolding flat_map over an encoder in place makes the kernel compare the
   encodings by evaluating them *)
Lemma flat_map_cons {A B} (f : A -> list B) x l : flat_map f (x :: l) = f x ++ flat_map f l.
Proof. reflexivity. Qed.

Lemma prefix_split (a b q q' : list N) : a ++ b = q ++ q' ->
  (exists r, a = q ++ r /\ r <> [] /\ q' = r ++ b) \/ (exists q2, q = a ++ q2 /\ b = q2 ++ q').
Proof.
  revert q. induction a as [|x a IH]; intros q He.
  - right. exists q. split; [reflexivity|exact He].
  - destruct q as [|y q].
    + left. exists (x :: a). cbn in He. split; [reflexivity|]. split; [discriminate|]. symmetry. exact He.
    + cbn in He. injection He as -> He. destruct (IH q He) as [(r & H1 & H2 & H3)|(q2 & H1 & H2)].
      * left. exists r. subst a. auto.
      * right. exists q2. subst q. auto.
Qed.

Lemma ztake_app a b : ztake (len a) (a ++ b) = a.
Proof. unfold ztake, len. rewrite Nat2Z.id. apply firstn_app_exact. Qed.
Lemma zdrop_app a b : zdrop (len a) (a ++ b) = b.
Proof. unfold zdrop, len. rewrite Nat2Z.id. apply skipn_app_exact. Qed.
Lemma zdrop_all a : zdrop (len a) a = [].
Proof. unfold zdrop, len. rewrite Nat2Z.id. apply skipn_all. Qed.

Lemma ztake_len j l : 0 <= j <= len l -> len (ztake j l) = j.
Proof. intros H. unfold len, ztake in *. rewrite firstn_length. lia. Qed.

Lemma ztake_app_ge j a b : len a <= j -> ztake j (a ++ b) = a ++ ztake (j - len a) b.
Proof.
  intros H. unfold ztake, len in *. rewrite firstn_app.
  rewrite firstn_all2 by lia. f_equal. f_equal. lia.
Qed.

Lemma ztake_app_lt j a b : 0 <= j < len a ->
  ztake j (a ++ b) = ztake j a /\ a = ztake j a ++ zdrop j a /\ zdrop j a <> [].
Proof.
  intros H. unfold ztake, zdrop, len in *. split; [|split].
  - rewrite firstn_app. replace (Z.to_nat j - length a)%nat with O by lia. cbn. apply app_nil_r.
  - symmetry. apply firstn_skipn.
  - intros Hn. apply (f_equal (@length N)) in Hn. rewrite skipn_length in Hn. cbn in Hn. lia.
Qed.

Lemma put_bes_len w z : len (put_bes w z) = Z.of_nat w.
Proof. unfold len, put_bes. rewrite put_be_length. reflexivity. Qed.

Lemma pspec_int w z : (0 < w)%nat -> in_signed w z -> pspec (p_int w) (put_bes w z) z.
Proof.
  intros Hw Hz rest. unfold p_int, p_fixed, ex.
  rewrite len_app, put_bes_len.
  pose proof (len_nonneg rest).
  replace (Z.of_nat w + len rest <? Z.of_nat w) with false by lia.
  assert (Hl : length (put_bes w z) = w) by (unfold put_bes; apply put_be_length).
  pose proof (get_put_bes w z Hw Hz) as Hget.
  remember (put_bes w z) as e.
  assert (F : firstn w (e ++ rest) = e) by (rewrite <- Hl; apply firstn_app_exact).
  assert (S : skipn w (e ++ rest) = rest) by (rewrite <- Hl; apply skipn_app_exact).
  rewrite F, S, Hget. f_equal. f_equal. lia.
Qed.

Lemma pshort_int w bs : len bs = Z.of_nat w -> pshort (p_int w) bs.
Proof.
  intros Hl q q' -> Hq. exists q. unfold p_int, p_fixed, ex.
  rewrite len_app in Hl. pose proof (len_pos q' Hq).
  replace (len q <? Z.of_nat w) with true by lia. reflexivity.
Qed.

Lemma pow128 f : (128 ^ N.of_nat (S f) = 128 * 128 ^ N.of_nat f)%N.
Proof. rewrite Nat2N.inj_succ, N.pow_succ_r'. reflexivity. Qed.

Lemma varint_scan_enc fuel : forall x rest lim shift acc,
  (x < 128 ^ N.of_nat (S fuel))%N -> (length (uvarint_enc fuel x) <= lim)%nat ->
  varint_scan (uvarint_enc fuel x ++ rest) lim shift acc
  = Some (((acc + x * 2 ^ shift) mod M64)%N, rest, (lim - length (uvarint_enc fuel x))%nat).
Proof.
  induction fuel as [|f IH]; intros x rest lim shift acc Hx Hlim.
  - cbn [uvarint_enc] in *. cbn [length] in Hlim. destruct lim as [|lim]; [lia|].
    change (128 ^ N.of_nat 1)%N with 128%N in Hx.
    rewrite N.mod_small by lia. cbn [app varint_scan].
    replace (x <? 128)%N with true by lia. cbn [length]. f_equal. f_equal. lia.
  - cbn [uvarint_enc] in *. destruct (x <? 128)%N eqn:E.
    + cbn [length] in Hlim. destruct lim as [|lim]; [lia|]. cbn [app varint_scan]. rewrite E.
      cbn [length]. f_equal. f_equal. lia.
    + cbn [length] in Hlim. destruct lim as [|lim]; [lia|]. cbn [app varint_scan].
      replace (x mod 128 + 128 <? 128)%N with false by lia.
      rewrite IH.
      * cbn [length]. f_equal. f_equal; try lia. f_equal.
        replace ((x mod 128 + 128) mod 128)%N with (x mod 128)%N
          by (rewrite <- N.add_mod_idemp_r by discriminate; cbn; rewrite N.add_0_r, N.mod_mod by discriminate; reflexivity).
        rewrite N.add_mod_idemp_l by discriminate.
        f_equal. rewrite N.pow_add_r.
        pose proof (N.div_mod x 128 ltac:(discriminate)) as Hd.
        change (2 ^ 7)%N with 128%N. nia.
      * rewrite pow128 in Hx. apply N.div_lt_upper_bound; [discriminate|exact Hx].
      * lia.
Qed.

(* a proper prefix of an unsigned varint has only continuation bytes *)
Lemma varint_scan_prefix fuel : forall x q q' lim shift acc,
  uvarint_enc fuel x = q ++ q' -> q' <> [] -> varint_scan q lim shift acc = None.
Proof.
  induction fuel as [|f IH]; intros x q q' lim shift acc He Hq.
  - cbn [uvarint_enc] in He. destruct q as [|b q]; [destruct lim; reflexivity|].
    destruct q; destruct q'; cbn in He; try discriminate He; contradiction.
  - cbn [uvarint_enc] in He. destruct (x <? 128)%N eqn:E.
    + destruct q as [|b q]; [destruct lim; reflexivity|].
      destruct q; destruct q'; cbn in He; try discriminate He; contradiction.
    + destruct q as [|b q]; [destruct lim; reflexivity|].
      cbn [app] in He. injection He as Hb He. destruct lim as [|lim]; [reflexivity|].
      cbn [varint_scan]. subst b. replace (x mod 128 + 128 <? 128)%N with false by lia.
      apply (IH (x / 128)%N q q' _ _ _ He Hq).
Qed.

Definition vsmall (z : Z) : Prop := - 2 ^ 62 <= z < 2 ^ 62.

Lemma zigzag_lt z : vsmall z -> (zigzag z < 2 ^ 63)%N /\ unzigzag (zigzag z) = z.
Proof.
  unfold vsmall, zigzag, unzigzag, u64, wrap64, ZM63, ZM64. intros Hz.
  destruct (z <? 0) eqn:E.
  - rewrite Z.lxor_m1_r. unfold Z.lnot.
    rewrite (Z.mod_small (z * 2 + _)) by lia.
    replace (Z.pred (- (z * 2 + 9223372036854775808 - 9223372036854775808))) with (- 2 * z - 1) by lia.
    rewrite Z.mod_small by lia. split; [lia|].
    replace (Z.to_N (-2 * z - 1)) with (1 + 2 * Z.to_N (- z - 1))%N by lia.
    rewrite N.odd_add_mul_2. change (N.odd 1) with true. cbv iota.
    replace ((1 + 2 * Z.to_N (- z - 1)) / 2)%N with (Z.to_N (- z - 1))
      by (apply (N.div_unique _ 2 _ 1); lia).
    rewrite Z.lxor_m1_r. unfold Z.lnot. lia.
  - rewrite Z.lxor_0_r. rewrite (Z.mod_small (z * 2 + _)) by lia.
    replace (z * 2 + 9223372036854775808 - 9223372036854775808) with (2 * z) by lia.
    rewrite Z.mod_small by lia. split; [lia|].
    replace (Z.to_N (2 * z)) with (2 * Z.to_N z)%N by lia.
    rewrite N.odd_mul, andb_false_l. rewrite N.mul_comm, N.div_mul by discriminate.
    rewrite Z.lxor_0_r. lia.
Qed.

Lemma put_varint_eq z : vsmall z -> put_varint z = uvarint_enc 10 (zigzag z).
Proof.
  intros Hz. unfold put_varint, put_uvarint. destruct (zigzag_lt z Hz) as [Hl _].
  rewrite N.mod_small; [reflexivity|]. unfold M64. change (2 ^ 63)%N with 9223372036854775808%N in Hl. lia.
Qed.

Lemma zigzag_fuel z : vsmall z -> (zigzag z < 128 ^ N.of_nat 11)%N.
Proof.
  intros Hz. destruct (zigzag_lt z Hz) as [Hl _].
  eapply N.lt_trans; [exact Hl|]. reflexivity.
Qed.

Lemma pspec_varint z : vsmall z -> pspec p_varint (put_varint z) z.
Proof.
  intros Hz rest. rewrite put_varint_eq by exact Hz. unfold p_varint, ex.
  rewrite len_app. pose proof (len_nonneg rest) as Hr.
  set (e := uvarint_enc 10 (zigzag z)).
  rewrite (varint_scan_enc 10 (zigzag z) rest).
  - destruct (zigzag_lt z Hz) as [Hl Hu].
    rewrite N.add_0_l, N.pow_0_r, N.mul_1_r, N.mod_small
      by (unfold M64; change (2 ^ 63)%N with 9223372036854775808%N in Hl; lia).
    unfold s64_of_u. rewrite Hu. f_equal. f_equal. unfold len, e. lia.
  - apply zigzag_fuel, Hz.
  - unfold len, e. lia.
Qed.

Lemma pshort_varint z : vsmall z -> pshort p_varint (put_varint z).
Proof.
  intros Hz q q' He Hq. rewrite put_varint_eq in He by exact Hz.
  unfold p_varint, ex.
  rewrite (varint_scan_prefix 10 (zigzag z) q q') by assumption.
  replace (len q <? len q) with false by lia. rewrite zdrop_all. exists []. reflexivity.
Qed.

Lemma pspec_newbytes b : pspec (p_newbytes (len b)) b b.
Proof.
  intros rest. unfold p_newbytes, ex. destruct (len b <=? 0) eqn:E.
  - assert (b = []) by (destruct b; [reflexivity|unfold len in E; cbn [length] in E; lia]). subst b. reflexivity.
  - rewrite len_app. pose proof (len_nonneg rest).
    replace (len b + len rest <? len b) with false by lia.
    replace (len b + len rest <? len b) with false by lia.
    rewrite ztake_app, zdrop_app. f_equal. unfold ex. f_equal. lia.
Qed.

Lemma pshort_newbytes b : pshort (p_newbytes (len b)) b.
Proof.
  intros q q' -> Hq. unfold p_newbytes, ex. rewrite len_app. pose proof (len_pos q' Hq). pose proof (len_nonneg q).
  replace (len q + len q' <=? 0) with false by lia.
  replace (len q <? len q + len q') with true by lia.
  replace (len q <? len q) with false by lia.
  rewrite zdrop_all. exists []. unfold ex, len. cbn [length]. f_equal. f_equal. lia.
Qed.

Lemma pspec_newbytes_null n : n <= 0 -> pspec (p_newbytes n) [] [].
Proof. intros Hn rest. unfold p_newbytes, ex. replace (n <=? 0) with true by lia. reflexivity. Qed.

Definition top_exact (m : msr) (f : frame) (ps : list frame) (bs : list N) : Prop :=
  m_stack m = f :: ps /\ f_in f = bs /\ f_remain f = len bs.

Definition with_in (m : msr) (f : frame) (ps : list frame) (i : list N) : msr :=
  set_stack m (set_rd f (ex i) :: ps).

(* c reads bs whole, touches nothing but the top frame's stream, and goes on as K does on what
   follows *)
Definition mrun {A} (c : M A) (bs : list N) (K : M A) : Prop :=
  forall m f ps rest, top_exact m f ps (bs ++ rest) -> c m = K (with_in m f ps rest).
(* c decodes bs to v: [mrun c bs (ret v)] *)
Definition mspec {A} (c : M A) (bs : list N) (v : A) : Prop :=
  forall m f ps rest, top_exact m f ps (bs ++ rest) -> c m = MOk v (with_in m f ps rest).
(* on every proper prefix of bs, c reports errShortRead and leaves an exact stream, which is what
   lets Batch.close skip the rest of the response without an error *)
Definition mshort {A} (c : M A) (bs : list N) : Prop :=
  forall m f ps q q', top_exact m f ps q -> bs = q ++ q' -> q' <> [] ->
    exists i', c m = MErr EShort (with_in m f ps i').
(* both at once; a reader built by [bind] and composition from such parts is one itself *)
Definition mdec {A} (c : M A) (bs : list N) (K : M A) : Prop := mrun c bs K /\ mshort c bs.

Lemma with_in_exact m f ps i : top_exact (with_in m f ps i) (set_rd f (ex i)) ps i.
Proof. unfold top_exact, with_in, set_stack, set_rd, ex. cbn. auto. Qed.

Lemma with_in_with_in m f ps i j :
  with_in (with_in m f ps i) (set_rd f (ex i)) ps j = with_in m f ps j.
Proof. unfold with_in, set_stack, set_rd, ex. cbn. reflexivity. Qed.

Lemma mspec_lift {A} (p : rd -> pres A) bs v : pspec p bs v -> mspec (lift p) bs v.
Proof.
  intros Hp m f ps rest (Hs & Hi & Hr). unfold lift. rewrite Hs.
  replace (f_in f, f_remain f) with (ex (bs ++ rest)) by (unfold ex; rewrite Hi, Hr; reflexivity).
  rewrite Hp. reflexivity.
Qed.

Lemma mshort_lift {A} (p : rd -> pres A) bs : pshort p bs -> mshort (lift p) bs.
Proof.
  intros Hp m f ps q q' (Hs & Hi & Hr) He Hq. unfold lift. rewrite Hs.
  replace (f_in f, f_remain f) with (ex q) by (unfold ex; rewrite Hi, Hr; reflexivity).
  destruct (Hp q q' He Hq) as [i' Hi']. rewrite Hi'. exists i'. reflexivity.
Qed.

Lemma mrun_app {A} (c K K2 : M A) bs1 bs2 : mrun c bs1 K -> mrun K bs2 K2 -> mrun c (bs1 ++ bs2) K2.
Proof.
  intros H1 H2 m f ps rest Ht. rewrite <- app_assoc in Ht. rewrite (H1 m f ps _ Ht).
  rewrite (H2 _ _ ps rest (with_in_exact m f ps (bs2 ++ rest))), with_in_with_in. reflexivity.
Qed.

Lemma mshort_app {A} (c K : M A) bs1 bs2 :
  mrun c bs1 K -> mshort c bs1 -> mshort K bs2 -> mshort c (bs1 ++ bs2).
Proof.
  intros H1 S1 S2 m f ps q q' Ht He Hq.
  destruct (prefix_split _ _ _ _ He) as [(r & Hr & Hrn & _)|(q2 & -> & Hb2)].
  - (* the cut is inside bs1 *)
    apply (S1 m f ps q r Ht Hr Hrn).
  - (* bs1 was read whole *)
    rewrite (H1 m f ps q2 Ht).
    destruct (S2 _ _ ps q2 q' (with_in_exact m f ps q2) Hb2 Hq) as [i' Hi'].
    rewrite Hi'. exists i'. rewrite with_in_with_in. reflexivity.
Qed.

Lemma mrun_then {A B} (c : M A) (k : A -> M B) bs v1 : mspec c bs v1 -> mrun (bind c k) bs (k v1).
Proof. intros H m f ps rest Ht. unfold bind. rewrite (H m f ps rest Ht). reflexivity. Qed.

Lemma mshort_then {A B} (c : M A) (k : A -> M B) bs : mshort c bs -> mshort (bind c k) bs.
Proof.
  intros S m f ps q q' Ht He Hq. unfold bind. destruct (S m f ps q q' Ht He Hq) as [i' Hi'].
  rewrite Hi'. exists i'. reflexivity.
Qed.

Lemma mrun_bind {A B} (c : M A) (k : A -> M B) bs1 bs2 v1 K :
  mspec c bs1 v1 -> mrun (k v1) bs2 K -> mrun (bind c k) (bs1 ++ bs2) K.
Proof. intros H1. apply mrun_app, mrun_then, H1. Qed.

Lemma mspec_bind {A B} (c : M A) (k : A -> M B) bs1 bs2 v1 v2 :
  mspec c bs1 v1 -> mspec (k v1) bs2 v2 -> mspec (bind c k) (bs1 ++ bs2) v2.
Proof. apply (mrun_bind c k bs1 bs2 v1 (ret v2)). Qed.

Lemma mshort_bind {A B} (c : M A) (k : A -> M B) bs1 bs2 v1 :
  mspec c bs1 v1 -> mshort c bs1 -> mshort (k v1) bs2 -> mshort (bind c k) (bs1 ++ bs2).
Proof. intros H1 S1. apply mshort_app; [apply mrun_then, H1|apply mshort_then, S1]. Qed.

Lemma mshort_nil {A} (c : M A) : mshort c [].
Proof. intros m f ps q q' _ He Hq. destruct q; destruct q'; try discriminate He. contradiction. Qed.

Lemma mspec_top {A} (k : frame -> M A) bs v :
  (forall fr, mspec (k fr) bs v) -> mspec (bind top k) bs v.
Proof.
  intros H m f ps rest Ht. unfold bind, top. destruct Ht as (Hs & Hi & Hr). rewrite Hs.
  apply H. repeat split; assumption.
Qed.
Lemma mshort_top {A} (k : frame -> M A) bs :
  (forall fr, mshort (k fr) bs) -> mshort (bind top k) bs.
Proof.
  intros H m f ps q q' Ht He Hq. unfold bind, top. pose proof Ht as (Hs & _). rewrite Hs.
  apply (H f m f ps q q' Ht He Hq).
Qed.

Lemma with_in_same m f ps i : top_exact m f ps i -> with_in m f ps i = m.
Proof.
  intros (Hs & Hi & Hr). destruct m as [st e l el], f as [fi fr fb fc fh]. cbn in *. subst. reflexivity.
Qed.

Lemma mspec_ret {A} (v : A) : mspec (ret v) [] v.
Proof. intros m f ps rest Ht. rewrite (with_in_same m f ps rest Ht). reflexivity. Qed.

Lemma mdec_lift {A} (p : rd -> pres A) bs v : pspec p bs v -> pshort p bs -> mdec (lift p) bs (ret v).
Proof. intros H1 H2. split; [apply mspec_lift, H1|apply mshort_lift, H2]. Qed.

Lemma mdec_app {A} (c K K2 : M A) bs1 bs2 : mdec c bs1 K -> mdec K bs2 K2 -> mdec c (bs1 ++ bs2) K2.
Proof.
  intros [H1 S1] [H2 S2]. split; [apply (mrun_app c K K2 bs1 bs2 H1 H2)|apply (mshort_app c K bs1 bs2 H1 S1 S2)].
Qed.

Lemma mdec_then {A B} (c : M A) (k : A -> M B) bs v1 : mdec c bs (ret v1) -> mdec (bind c k) bs (k v1).
Proof. intros [H S]. split; [apply mrun_then, H|apply mshort_then, S]. Qed.

Lemma mdec_bind {A B} (c : M A) (k : A -> M B) bs1 bs2 v1 K :
  mdec c bs1 (ret v1) -> mdec (k v1) bs2 K -> mdec (bind c k) (bs1 ++ bs2) K.
Proof. intros H1. apply mdec_app, mdec_then, H1. Qed.

(* the encodings end in [++ []] so that a chain of [mdec_bind] ends here *)
Lemma mdec_nil {A} (c : M A) : mdec c [] c.
Proof.
  split; [|apply mshort_nil]. intros m f ps rest Ht. rewrite (with_in_same m f ps rest Ht). reflexivity.
Qed.

Lemma mshort_after {A B} (c : M A) (k : A -> M B) bs1 bs2 v1 :
  mdec c bs1 (ret v1) -> mshort (k v1) bs2 -> mshort (bind c k) (bs1 ++ bs2).
Proof. intros [H S]. apply mshort_bind; assumption. Qed.

Lemma dec_int w z : (0 < w)%nat -> in_signed w z -> mdec (lift (p_int w)) (put_bes w z) (ret z).
Proof. intros Hw Hz. apply mdec_lift; [apply pspec_int; assumption|apply pshort_int, put_bes_len]. Qed.

Lemma dec_varint z : vsmall z -> mdec (lift p_varint) (put_varint z) (ret z).
Proof. intros Hz. apply mdec_lift; [apply pspec_varint|apply pshort_varint]; exact Hz. Qed.

Lemma dec_newbytes b : mdec (lift (p_newbytes (len b))) b (ret b).
Proof. apply mdec_lift; [apply pspec_newbytes|apply pshort_newbytes]. Qed.
