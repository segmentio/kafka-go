(* Proofs/WriterInFlight.v — C07_one_round_trip_in_flight and no_early_giveup_holds on every run. *)
From Coq Require Import List NArith Bool Arith Lia.
From KV Require Import Lib.LTS Model.Writer Proofs.WriterStmts Proofs.WriterBase Proofs.WriterC01a
  Proofs.WriterHolds2.
Import ListNotations.

Lemma filter_nil_if : forall A (f : A -> bool) l, (forall x, In x l -> f x = true -> False) -> filter f l = [].
Proof.
  intros A f l H. destruct (filter f l) as [|x r] eqn:E; auto. exfalso.
  assert (In x (filter f l)) by (rewrite E; simpl; auto).
  apply filter_In in H0. destruct H0. eapply H; eauto.
Qed.

Lemma C07_one_round_trip_in_flight_proof : stmt_C07_one_round_trip_in_flight.
Proof.
  intros cfg ls s Hr p pw Np.
  destruct (full_inv _ _ _ Hr) as [W _ (A & B & _) _ _ _ _]. split.
  - intros [b n ph] S. simpl. destruct (B _ _ _ _ _ Np S) as [Cn _]. exact Cn.
  - intros b Hb. apply filter_nil_if. intros a Ha F.
    apply andb_true_iff in F. destruct F as [F1 F2]. apply Nat.eqb_eq in F1, F2.
    destruct (W pw (nth_error_In _ _ Np)) as [_ SIp].
    exact (pending_unsent _ _ _ _ _ _ A Np SIp Hb Ha F1 F2).
Qed.

Section WithCfg.
Variable cfg : config.

(* a Completion with a retriable error: maxAttempts journal entries for that batch precede it *)
Definition giveup_late (s : state) : Prop :=
  forall ms e, In (ms, Some e) (s_compl s) -> retriable cfg e = true ->
    exists p k j0 jr, s_journal s = j0 ++ jr /\ maxAttempts cfg <= count p k j0 /\
      forall a, In a j0 -> a_pw a = p -> a_k a = k -> a_msgs a = ms.

Lemma giveup_late_step : forall s l s', wfs cfg (s_pws s) -> journal_inv cfg s -> giveup_late s ->
  step cfg s l = Some s' -> giveup_late s'.
Proof.
  intros s l s' W (A & B & _) G H. apply step_Step in H.
  (* only Attempt and Finish change s_journal or s_compl: for the other fourteen cases the
     statement about s' is convertible with G *)
  destruct H; try exact G.
  - (* Attempt *) intros ms e Hc R. simpl in *.
    destruct (G ms e Hc R) as (p1 & k & j0 & jr & Ej & Cn & M).
    exists p1, k, j0, (jr ++ [mkAtt p (b_k b) (pw_tp pw) (b_msgs b) (r_applied r) (r_seen r)]).
    rewrite Ej, <- app_assoc. auto.
  - (* Finish *) intros ms e0 Hc R. simpl in *.
    apply in_app_or in Hc. destruct Hc as [Hc|[Hc|[]]]; [exact (G ms e0 Hc R)|].
    inversion Hc; subst; clear Hc.
    exists p, (b_k b), (s_journal s), []. rewrite app_nil_r. split; [auto|]. split.
    + destruct (B _ _ _ _ _ Np Sn) as [Cn [_ Fe]]. rewrite Cn. exact (Fe e0 eq_refl R).
    + intros a Ha Hp Hk. rewrite <- Hp in Np.
      apply (attempt_by_number cfg _ _ _ _ _ W A Ha Np (snd_in_all _ _ _ _ Sn) Hk).
Qed.

End WithCfg.

Lemma giveup_inv : forall cfg ls s, runs cfg ls s -> giveup_late cfg s.
Proof.
  intros cfg ls s Hr.
  enough (G : Full cfg s /\ giveup_late cfg s) by apply G.
  revert ls s Hr. apply runs_inv.
  - split; [apply Full_init|intros ms e []].
  - intros s l s' (F & G) St. split; [eapply Full_step; eauto|].
    eapply giveup_late_step; eauto; [apply (full_wfs _ _ F)|apply (full_journal _ _ F)].
Qed.

Lemma no_early_giveup_holds_runs : forall cfg ls s, runs cfg ls s ->
  no_early_giveup_holds cfg (s_journal s) (s_compl s) = true.
Proof.
  intros cfg ls s Hr. pose proof (giveup_inv _ _ _ Hr) as G.
  unfold no_early_giveup_holds. apply forallb_forall. intros [ms [e|]] Hc; simpl; auto.
  destruct (retriable cfg e) eqn:R; simpl; auto.
  apply forallb_forall. intros m Hm. apply Nat.leb_le.
  destruct (G ms e Hc R) as (p & k & j0 & jr & Ej & Cn & M).
  unfold attempts_of. rewrite Ej, filter_app, app_length.
  eapply Nat.le_trans; [exact Cn|]. eapply Nat.le_trans; [|apply Nat.le_add_r].
  unfold count. apply filter_length_mono. intros a Ha Fa.
  apply andb_true_iff in Fa. destruct Fa as [F1 F2]. apply Nat.eqb_eq in F1, F2.
  rewrite (M a Ha F1 F2). apply mem_id_In. exact Hm.
Qed.

Print Assumptions C07_one_round_trip_in_flight_proof.
Print Assumptions no_early_giveup_holds_runs.
