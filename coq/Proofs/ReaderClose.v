(* Proofs/ReaderClose.v — C02 / C17: Batch.Close after the run, and a connection cut inside the
   compressed payload of a v2 batch: nothing of the batch is delivered, Conn.offset stays where
   it was before the batch, Close reports an error and the connection is closed. *)
From Coq Require Import List NArith ZArith Bool Lia.
From Coq Require Import ZifyN ZifyNat ZifyBool.
From KV Require Import Lib.Bits Lib.Bytes Model.MsgSetReader.
Import ListNotations.
Open Scope Z_scope.

Section Close.
Variable decomp : Z -> list N -> option (list N).

Lemma batch_run_b_run : forall fuel b acc,
  batch_run decomp fuel b acc
  = match batch_run_b decomp fuel b acc with
    | Some (ms, e, b') => Some (ms, e, b_off b')
    | None => None
    end.
Proof.
  induction fuel as [|f IH]; intros b acc; [reflexivity|].
  cbn [batch_run batch_run_b]. destruct (batch_read decomp (S f) b) as [g b'|e b'|]; [apply IH|reflexivity|reflexivity].
Qed.

(* when Close returns nil the connection is kept (the converse fails for the errors a broker sent,
   kafka.Error, and a passed deadline: they are reported and leave the connection usable) *)
Lemma close_nil_keeps b : batch_close_err b = None -> snd (batch_close b) = false.
Proof.
  unfold batch_close_err, batch_close. cbn [snd].
  (* Close returns nil only when skipping the rest succeeded and Batch.err is nil or io.EOF: both
     functions are tables over the skip result and Batch.err *)
  destruct (match b_msgs b with Some m => msr_discard m | None => None end) as [d|]; destruct (b_err b) as [[]|]; cbn; congruence.
Qed.

(* the header of a compressed v2 batch is current, the batch is announced whole, but fewer bytes
   than its payload arrive before the connection ends *)
Definition cut_payload (m1 : msr) : Prop :=
  m_empty m1 = false /\
  exists f ps code,
    m_stack m1 = f :: ps /\ 0 < f_count f /\ h_magic (f_hdr f) = 2 /\ f_count f = h_count (f_hdr f)
    /\ codec_of (f_hdr f) m1 = MOk (Some code) m1
    /\ 0 <= wrap32 (h_length (f_hdr f) - 49) <= f_remain f
    /\ len (f_in f) < wrap32 (h_length (f_hdr f) - 49).

Lemma read_v2_cut fuel m1 : cut_payload m1 -> exists m', read_v2 decomp fuel m1 = MErr EIO m'.
Proof.
  intros (_ & f & ps & code & Hst & Hc & Hmag & Hcnt & Hcodec & Hrem & Hshort).
  unfold read_v2. unfold bind at 1. unfold read_header. unfold bind at 1, top at 1. rewrite Hst.
  replace (0 <? f_count f) with true by lia. unfold ret at 1.
  unfold bind at 1, top at 1. rewrite Hst. unfold bind at 1. unfold read_v2_prepare.
  replace (f_count f =? h_count (f_hdr f)) with true by lia.
  unfold bind at 1. rewrite Hcodec.
  replace (f_remain f <? wrap32 (h_length (f_hdr f) - 49)) with false by lia.
  replace (wrap32 (h_length (f_hdr f) - 49) <? 0) with false by lia.
  unfold bind at 1. unfold lift at 1. rewrite Hst. unfold p_decompress.
  replace (wrap32 (h_length (f_hdr f) - 49) <? 0) with false by lia.
  replace (len (f_in f) <? wrap32 (h_length (f_hdr f) - 49)) with true by lia.
  eexists. reflexivity.
Qed.

(* an I/O error of messageSetReader.readMessage: the batch keeps its offset, Close reports the
   error and the library closes the connection *)
Lemma io_error_keeps_offset fuel m m' co off last late acc :
  msr_read decomp (S fuel) off m = MErr EIO m' ->
  exists b',
    batch_run_b decomp (S fuel) (mkBatch (Some m) true co off last None late) acc = Some (rev acc, EIO, b')
    /\ b_off b' = off /\ batch_close b' = (off, true) /\ batch_close_err b' = Some EIO.
Proof.
  intros Hm. cbn [batch_run_b batch_read]. unfold batch_read1. cbn [b_err b_msgs b_off]. rewrite Hm.
  eexists. split; [reflexivity|]. unfold set_b. cbn [b_off b_has_conn b_conn_off b_last b_late b_msgs b_err].
  split; [reflexivity|]. unfold batch_close, batch_close_err. cbn [b_msgs b_err b_off closes_conn].
  split; [destruct (msr_discard m'); reflexivity|destruct (msr_discard m'); reflexivity].
Qed.

Lemma msr_read_cut_payload fuel mn m m1 :
  m_empty m = false -> read_header fuel m = MOk tt m1 -> cut_payload m1 ->
  exists m', msr_read decomp fuel mn m = MErr EIO m'.
Proof.
  intros Hemp Hhdr Hcut. destruct (read_v2_cut fuel m1 Hcut) as [m' Hr]. exists m'.
  destruct Hcut as (_ & f & ps & code & Hst & Hc & Hmag & _).
  unfold msr_read. rewrite Hemp. unfold bind at 1. rewrite Hhdr. unfold bind at 1, top at 1. rewrite Hst.
  rewrite Hmag. cbn [Z.eqb Pos.eqb orb]. unfold bind at 1. rewrite Hr. reflexivity.
Qed.

(* the header of a compressed v0 / v1 wrapper message is current; after the null key the value
   length n is read, the response announces at least n more bytes, fewer arrive *)
Definition cut_wrapper (m1 : msr) : Prop :=
  m_empty m1 = false /\
  exists f ps code s1 n s2,
    m_stack m1 = f :: ps /\ 0 < f_count f /\ (h_magic (f_hdr f) = 0 \/ h_magic (f_hdr f) = 1)
    /\ f_remain f <> 0
    /\ (forall m, codec_of (f_hdr f) m = MOk (Some code) m)
    /\ p_discard 4 (f_in f, f_remain f) = POk tt s1
    /\ p_int 4 s1 = POk n s2
    /\ 0 <= n <= snd s2 /\ len (fst s2) < n.

Lemma v1_body_cut mn m1 : cut_wrapper m1 -> exists m', forall again, v1_body decomp again mn m1 = MErr EIO m'.
Proof.
  intros (_ & f & ps & code & s1 & n & s2 & Hst & Hc & Hmag & Hrem & Hcodec & Hd & Hi & Hn & Hshort).
  destruct s1 as [i1 z1]. destruct s2 as [i2 z2]. cbn [fst snd] in *.
  eexists. intros again.
  unfold v1_body. unfold bind at 1, top at 1. rewrite Hst. cbv zeta.
  unfold bind at 1. rewrite Hcodec.
  unfold bind at 1. unfold lift at 1. rewrite Hst, Hd.
  unfold bind at 1. unfold lift at 1. cbn [m_stack set_stack set_rd f_in f_remain fst snd]. rewrite Hi.
  unfold bind at 1, top at 1. cbn [m_stack set_stack].
  unfold bind at 1. cbn [set_rd f_remain fst snd].
  replace (z2 <? n) with false by lia. unfold ret at 1.
  unfold bind at 1. unfold lift at 1. cbn [m_stack set_stack set_rd f_in f_remain fst snd]. unfold p_decompress.
  replace (n <? 0) with false by lia. replace (len i2 <? n) with true by lia.
  reflexivity.
Qed.

Lemma msr_read_cut_wrapper fuel mn m m1 :
  m_empty m = false -> read_header (S fuel) m = MOk tt m1 -> cut_wrapper m1 ->
  exists m', msr_read decomp (S fuel) mn m = MErr EIO m'.
Proof.
  intros Hemp Hhdr Hcut. destruct (v1_body_cut mn m1 Hcut) as [m' Hr]. exists m'.
  destruct Hcut as (_ & f & ps & code & s1 & n & s2 & Hst & Hc & Hmag & Hrem & _).
  unfold msr_read. rewrite Hemp. unfold bind at 1. rewrite Hhdr. unfold bind at 1, top at 1. rewrite Hst.
  assert (Hm : ((h_magic (f_hdr f) =? 0) || (h_magic (f_hdr f) =? 1)) = true) by (destruct Hmag as [E|E]; rewrite E; reflexivity).
  rewrite Hm. unfold bind at 1.
  cbn [read_v1]. rewrite Hst. replace (f_remain f =? 0) with false by lia.
  unfold bind at 1. unfold read_header. unfold bind at 1, top at 1. rewrite Hst.
  replace (0 <? f_count f) with true by lia. unfold ret at 1. rewrite Hr. reflexivity.
Qed.

(* for every fetch version the Batch gets the high_watermark field (not the last stable offset) *)
Lemma hwm_of_header_any v h : hwm_of_header v h = fh_hwm h.
Proof. unfold hwm_of_header. destruct (v <? 4); [reflexivity|]. destruct (v <? 10); reflexivity. Qed.

End Close.
