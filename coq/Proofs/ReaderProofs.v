(* Proofs/ReaderProofs.v — C02, L2: one generation of the background fetcher sends exactly the
   stored records of a range [a, offset) in order, provided every data response obeys the
   fetch contract (what the byte level is meant to establish, see Properties/C02.v). *)
From Coq Require Import List NArith ZArith Bool Lia.
From Coq Require Import ZifyBool.
From KV Require Import Lib.Bits Model.MsgSetReader Model.ReaderModel Spec.FetchSpec.
Import ListNotations.
Open Scope Z_scope.

Definition inr (lo hi : Z) (r : record) : bool := (lo <=? r_off r) && (r_off r <? hi).

Lemma between_eq lo hi log : between lo hi log = filter (inr lo hi) log.
Proof. reflexivity. Qed.

Lemma between_nil_iff lo hi log :
  between lo hi log = [] <-> (forall r, In r log -> ~ (lo <= r_off r < hi)).
Proof.
  unfold between. induction log as [|x t IH]; cbn [filter].
  - split; [intros _ r []|reflexivity].
  - destruct ((lo <=? r_off x) && (r_off x <? hi)) eqn:E.
    + split; [discriminate|]. intros H. exfalso. apply (H x (or_introl eq_refl)). lia.
    + rewrite IH. split.
      * intros H r [->|Hr]; [lia|apply H, Hr].
      * intros H r Hr. apply H. right. exact Hr.
Qed.

Definition empty (log : list record) (x y : Z) : Prop := between x y log = [].

Lemma empty_trivial log x y : y <= x -> empty log x y.
Proof. intros H. apply between_nil_iff. intros r _. lia. Qed.

Lemma empty_mono log x y x' y' : empty log x y -> x <= x' -> y' <= y -> empty log x' y'.
Proof.
  unfold empty. rewrite !between_nil_iff. intros H Hx Hy r Hr Hc. apply (H r Hr). lia.
Qed.

Lemma empty_join log x y z : empty log x y -> empty log y z -> empty log x z.
Proof.
  unfold empty. rewrite !between_nil_iff. intros H1 H2 r Hr Hc.
  destruct (Z_lt_le_dec (r_off r) y); [apply (H1 r Hr)|apply (H2 r Hr)]; lia.
Qed.

Lemma increasing_lb lo log : increasing lo log -> forall r, In r log -> lo <= r_off r.
Proof.
  revert lo. induction log as [|x t IH]; intros lo H r Hr; [destruct Hr|].
  destruct H as [H1 H2]. destruct Hr as [->|Hr]; [exact H1|].
  specialize (IH _ H2 r Hr). lia.
Qed.

Lemma increasing_weaken lo lo' log : increasing lo log -> lo' <= lo -> increasing lo' log.
Proof. destruct log as [|x t]; [trivial|]. intros [H1 H2] H. split; [lia|exact H2]. Qed.

Lemma between_above lo log a hi : increasing lo log -> hi <= lo -> between a hi log = [].
Proof.
  intros Hs H. apply between_nil_iff. intros r Hr. pose proof (increasing_lb _ _ Hs r Hr). lia.
Qed.

Lemma between_split lo0 log a b c :
  increasing lo0 log -> a <= b -> b <= c ->
  between a c log = between a b log ++ between b c log.
Proof.
  revert lo0. induction log as [|x t IH]; intros lo0 Hs Hab Hbc; [reflexivity|].
  destruct Hs as [Hx Ht]. pose proof (between_above (r_off x + 1) t a b Ht) as Hnil.
  unfold between in *. cbn [filter]. rewrite (IH _ Ht Hab Hbc).
  destruct (Z_lt_le_dec (r_off x) b) as [C|C].
  - replace ((b <=? r_off x) && (r_off x <? c)) with false by lia.
    replace ((a <=? r_off x) && (r_off x <? c)) with ((a <=? r_off x) && (r_off x <? b)) by lia.
    destruct ((a <=? r_off x) && (r_off x <? b)); reflexivity.
  - (* x is at or after b: so is the rest *)
    replace ((a <=? r_off x) && (r_off x <? b)) with false by lia.
    replace ((a <=? r_off x) && (r_off x <? c)) with ((b <=? r_off x) && (r_off x <? c)) by lia.
    rewrite Hnil by lia. reflexivity.
Qed.

Lemma between_in lo hi log r : In r (between lo hi log) -> In r log /\ lo <= r_off r < hi.
Proof. unfold between. rewrite filter_In. intros [H1 H2]. split; [exact H1|lia]. Qed.

Lemma between_prefix_from lo0 log a l :
  increasing lo0 log -> a <= l -> exists rest, from a log = between a l log ++ rest.
Proof.
  revert lo0. induction log as [|x t IH]; intros lo0 Hs Hal; [exists []; reflexivity|].
  destruct Hs as [Hx Ht]. destruct (IH _ Ht Hal) as [rest Hr].
  unfold from, between in *. cbn [filter].
  destruct (a <=? r_off x) eqn:Ea; destruct (r_off x <? l) eqn:El; cbn [andb].
  - exists rest. cbn [app]. f_equal. exact Hr.
  - pose proof (between_above (r_off x + 1) t a l Ht ltac:(lia)) as Hnil. unfold between in Hnil.
    rewrite Hnil. cbn [app]. eexists. reflexivity.
  - exists rest. exact Hr.
  - exists rest. exact Hr.
Qed.

Definition mm (rs : list record) : list msg := map msg_of rs.

(* a fetch issued at c that delivered ms and left Conn.offset = f *)
Definition fetch_ok (log : list record) (c : Z) (ms : list msg) (f : Z) : Prop :=
  (c <= f /\ ms = mm (between c f log)) \/ (f < c /\ ms = [] /\ empty log f c).

Lemma increasing_app_l lo a b : increasing lo (a ++ b) -> increasing lo a.
Proof.
  revert lo. induction a as [|x t IH]; intros lo H; [exact I|].
  destruct H as [H1 H2]. split; [exact H1|apply (IH _ H2)].
Qed.

Lemma increasing_app_r a : forall lo b, increasing lo (a ++ b) -> exists lo2, increasing lo2 b.
Proof.
  induction a as [|x t IH]; intros lo b H; [exists lo; exact H|].
  destruct H as [_ H2]. apply (IH _ _ H2).
Qed.

Lemma filter_all_false {A} (f : A -> bool) l : Forall (fun x => f x = false) l -> filter f l = [].
Proof. induction 1 as [|x t Hx _ IH]; [reflexivity|]. cbn. rewrite Hx. exact IH. Qed.

Lemma filter_ext_Forall {A} (f g : A -> bool) l : Forall (fun x => f x = g x) l -> filter f l = filter g l.
Proof. induction 1 as [|x t Hx _ IH]; [reflexivity|]. cbn. rewrite Hx, IH. reflexivity. Qed.

Lemma rev_nonempty {A} (l : list A) : l <> [] -> rev l <> [].
Proof. destruct l as [|a t]; [contradiction|]. intros _ H. cbn [rev] in H. destruct (rev t); discriminate. Qed.

(* what a run of a Batch did, for a fetch at o: from position off with acc delivered, the records of
   R at or after o were delivered next, in order, and the position reached, x, is above all of R;
   ms is all that was delivered *)
Definition delivered (o : Z) (acc : list msg) (off : Z) (R : list record) (ms : list msg) (x : Z) : Prop :=
  ms = rev acc ++ mm (filter (fun r => o <=? r_off r) R) /\ Forall (fun r => r_off r < x) R /\ off <= x.

Lemma delivered_nil o acc off : delivered o acc off [] (rev acc) off.
Proof. split; [cbn; rewrite app_nil_r; reflexivity|]. split; [constructor|lia]. Qed.

Lemma delivered_app o acc off R1 acc1 x1 R2 ms x :
  delivered o acc off R1 (rev acc1) x1 -> delivered o acc1 x1 R2 ms x -> delivered o acc off (R1 ++ R2) ms x.
Proof.
  intros (E1 & F1 & L1) (E2 & F2 & L2). split; [|split; [|lia]].
  - rewrite E2, E1, filter_app. unfold mm. rewrite map_app, <- app_assoc. reflexivity.
  - apply Forall_app. split; [eapply Forall_impl; [|exact F1]; cbn; intros; lia|exact F2].
Qed.

Lemma delivered_cons o acc off sk r :
  Forall (fun x => r_off x < o) sk -> o <= r_off r -> off <= r_off r ->
  delivered o acc off (sk ++ [r]) (rev (msg_of r :: acc)) (r_off r + 1).
Proof.
  intros Hsk Hor Hoff. split; [|split; [|lia]].
  - rewrite filter_app, (filter_all_false _ sk) by (eapply Forall_impl; [|exact Hsk]; cbn; intros; lia).
    cbn [app filter rev]. replace (o <=? r_off r) with true by lia. reflexivity.
  - apply Forall_app. split; [eapply Forall_impl; [|exact Hsk]; cbn; intros; lia|constructor; [lia|constructor]].
Qed.

Lemma delivered_nonempty o acc off R ms x : delivered o acc off R ms x -> acc <> [] -> ms <> [].
Proof. intros (-> & _) Ha Hn. apply app_eq_nil in Hn as [Hn _]. exact (rev_nonempty _ Ha Hn). Qed.

(* the contract from a three-way split of the log: what lies before the response, what the run
   delivered from, what it did not reach (nothing of it in [o, x)) *)
Lemma fetch_ok_of_split o x pre Rp Rs ms :
  Forall (fun r => r_off r < o) pre -> delivered o [] o Rp ms x ->
  (forall r, In r Rs -> o <= r_off r -> x <= r_off r) -> fetch_ok (pre ++ Rp ++ Rs) o ms x.
Proof.
  intros Hpre (-> & Hp & Hox) Hs. left. split; [exact Hox|]. cbn [rev app]. f_equal.
  unfold between. rewrite !filter_app.
  rewrite (filter_all_false _ pre), (filter_all_false _ Rs), app_nil_r.
  - apply filter_ext_Forall. eapply Forall_impl; [|exact Hp]. cbn. intros a Ha. lia.
  - apply Forall_forall. intros r Hr. specialize (Hs r Hr). lia.
  - eapply Forall_impl; [|exact Hpre]. cbn. intros a Ha. lia.
Qed.

Definition next_off (ms : list msg) (l : Z) : Z :=
  match rev ms with [] => l | m :: _ => g_off m + 1 end.

(* the heart of L2: a response that obeys the contract extends the emitted range *)
Lemma fetch_extends log lo0 a l c ms f :
  increasing lo0 log -> a <= l -> empty log l c -> empty log c l ->
  fetch_ok log c ms f ->
  let l' := next_off ms l in
  mm (between a l log) ++ ms = mm (between a l' log) /\ a <= l' /\ l <= l'
  /\ empty log l' f /\ empty log f l'.
Proof.
  intros Hs Hal H1 H2 Hok. cbn zeta.
  destruct Hok as [[Hcf Hms]|(Hfc & Hms & He)].
  2:{ subst ms. unfold next_off. cbn [rev]. rewrite app_nil_r.
      repeat split; try lia.
      - destruct (Z_lt_le_dec l f); [|apply empty_trivial; lia].
        apply (empty_mono log l c); [exact H1|lia|lia].
      - destruct (Z_lt_le_dec f l); [|apply empty_trivial; lia].
        destruct (Z_lt_le_dec c l).
        + apply (empty_join log f c l); [exact He|exact H2].
        + apply (empty_mono log f c); [exact He|lia|lia]. }
  destruct (between c f log) as [|r0 rs0] eqn:Eb.
  - (* nothing delivered *)
    subst ms. unfold next_off, mm. cbn [map rev]. rewrite app_nil_r.
    assert (Hc : empty log c f) by exact Eb.
    repeat split; try lia.
    + destruct (Z_lt_le_dec l f); [|apply empty_trivial; lia].
      destruct (Z_lt_le_dec c l).
      * apply (empty_mono log c f); [exact Hc|lia|lia].
      * apply (empty_join log l c f); [exact H1|exact Hc].
    + destruct (Z_lt_le_dec f l); [|apply empty_trivial; lia].
      apply (empty_mono log c l); [exact H2|lia|lia].
  - (* at least one record *)
    rewrite <- Eb in Hms.
    assert (Hne : between c f log <> []) by (rewrite Eb; discriminate).
    destruct (exists_last Hne) as (pre & rl & Hlast).
    assert (Hrl : In rl (between c f log)) by (rewrite Hlast; apply in_or_app; right; left; reflexivity).
    apply between_in in Hrl. destruct Hrl as [Hrl_in Hrl_r].
    assert (Hnext : next_off ms l = r_off rl + 1).
    { unfold next_off. rewrite Hms, Hlast. unfold mm. rewrite map_app, rev_app_distr. reflexivity. }
    rewrite Hnext. set (l' := r_off rl + 1).
    (* rl is not in the hole between c and l *)
    assert (Hl : l <= r_off rl).
    { destruct (Z_lt_le_dec (r_off rl) l) as [C|C]; [|exact C]. exfalso.
      apply (proj1 (between_nil_iff c l log) H2 rl Hrl_in). lia. }
    (* nothing of [c,f) lies at or after l' *)
    assert (Hsplit : between c f log = between c l' log ++ between l' f log)
      by (apply (between_split lo0); [exact Hs|unfold l'; lia|unfold l'; lia]).
    assert (Htail : between l' f log = []).
    { destruct (between l' f log) as [|y ys] eqn:Ey; [reflexivity|exfalso].
      destruct (@exists_last _ (y :: ys) ltac:(discriminate)) as (zs & z & Ez).
      rewrite Hsplit, Ez, app_assoc in Hlast.
      apply app_inj_tail in Hlast. destruct Hlast as [_ Hz]. subst z.
      assert (Hin : In rl (between l' f log)) by (rewrite Ey, Ez; apply in_or_app; right; left; reflexivity).
      apply between_in in Hin. unfold l' in Hin. lia. }
    rewrite Htail, app_nil_r in Hsplit.
    assert (Hll : between l l' log = between c l' log).
    { destruct (Z_lt_le_dec c l) as [C|C].
      - rewrite (between_split lo0 log c l l') by (try exact Hs; unfold l'; lia).
        unfold empty in H2. rewrite H2. reflexivity.
      - rewrite (between_split lo0 log l c l') by (try exact Hs; unfold l'; lia).
        unfold empty in H1. rewrite H1. reflexivity. }
    repeat split; try (unfold l'; lia).
    + rewrite Hms, Hsplit, <- Hll.
      rewrite (between_split lo0 log a l l') by (try exact Hs; unfold l'; lia).
      unfold mm. rewrite map_app. reflexivity.
    + exact Htail.
    + apply empty_trivial. unfold l'. lia.
Qed.

(* reader.run: `offset = start` after the initialisation.  The FirstOffset / LastOffset
   placeholder a generation starts with is resolved by its first initialised connection and
   never again: from then on the restart offset is an absolute offset, so a connection lost
   before the first message was delivered resumes at the resolved offset, not at the partition's
   new first / last offset. *)
Definition resolved (o first last : Z) : Z :=
  if o =? FirstOffset then first else if o =? LastOffset then last else if o <? first then first else o.

Lemma resolved_abs o first last : 0 <= first -> 0 <= last -> 0 <= resolved o first last.
Proof.
  intros Hf Hl. unfold resolved, FirstOffset, LastOffset. destruct (o =? -2); [exact Hf|].
  destruct (o =? -1); [exact Hl|]. destruct (o <? first) eqn:E; lia.
Qed.

(* initialize on a fresh connection, in terms of the resolved offset: Conn.Seek(o1, SeekAbsolute)
   fails with OffsetOutOfRange outside [first2, last2] *)
Lemma resolved_fixed o first last : 0 <= o -> first <= o -> resolved o first last = o.
Proof.
  intros Ho Hf. unfold resolved, FirstOffset, LastOffset. replace (o =? -2) with false by lia.
  replace (o =? -1) with false by lia. replace (o <? first) with false by lia. reflexivity.
Qed.

Lemma gen_step_init run cfg g first last first2 last2 : g_phase g = PInit ->
  gen_step run cfg g (GInit first last first2 last2)
  = let o1 := resolved (g_offset g) first last in
    if (o1 =? FirstOffset) || negb ((o1 <? first2) || (last2 <? o1)) then Some (mkGen PRead o1 o1 0, [])
    else if c_oor_error cfg then Some (mkGen PDone (g_offset g) FirstOffset (g_attempt g), [OErr (EKafka 1)])
    else Some (mkGen PInit (g_offset g) FirstOffset (g_attempt g + 1), []).
Proof.
  intros Hp. unfold gen_step. rewrite Hp. fold (resolved (g_offset g) first last). cbv zeta.
  destruct (_ =? FirstOffset); [reflexivity|]. destruct ((_ <? first2) || _); reflexivity.
Qed.

Section Generation.
Variable run : Z -> Z -> list N -> Z -> bool -> option (list msg * err * Z).
Variable cfg : gcfg.
Variable log : list record.
Hypothesis log_sorted : increasing 0 log.

Definition msgs_of (outs : list gout) : list msg :=
  flat_map (fun o => match o with OMsg g _ => [g] | OErr _ => [] end) outs.

(* what the environment may answer to generation state g *)
Definition ev_ok (g : gen) (ev : gev) : Prop :=
  match ev with
  | GInit first last first2 last2 =>
    (forall r, In r log -> first <= r_off r) /\ (forall r, In r log -> r_off r < last)
  | GOffsets (Some (first, last)) => forall r, In r log -> first <= r_off r
  | GFetch (FData hwm bytes remain late) =>
    g_phase g = PRead ->
    exists ms e f, run (g_conn g) hwm bytes remain late = Some (ms, e, f) /\ fetch_ok log (g_conn g) ms f
  | _ => True
  end.

(* E: everything the generation has sent so far: the stored records from an anchor a up to the
   restart offset; a is the start offset s0 once that is absolute (a placeholder FirstOffset /
   LastOffset is negative and the anchor is then what it was resolved to); between two fetches no
   record lies between the restart offset and Conn.offset *)
Definition gen_inv (s0 : Z) (g : gen) (E : list msg) : Prop :=
  exists a, (0 <= s0 -> a = s0) /\ a <= g_offset g /\ E = mm (between a (g_offset g) log)
            /\ ((g_phase g = PRead \/ g_phase g = POffsets) ->
                empty log (g_offset g) (g_conn g) /\ empty log (g_conn g) (g_offset g)).

Lemma msgs_of_app a b : msgs_of (a ++ b) = msgs_of a ++ msgs_of b.
Proof. unfold msgs_of. apply flat_map_app. Qed.

Lemma msgs_of_map ms hwm : msgs_of (map (fun m => OMsg m hwm) ms) = ms.
Proof. induction ms as [|m t IH]; [reflexivity|]. cbn. f_equal. exact IH. Qed.

(* what was sent is a prefix of the stored records from the anchor on *)
Lemma gen_inv_prefix s0 g E : gen_inv s0 g E ->
  exists a rest, (0 <= s0 -> a = s0) /\ E = mm (between a (g_offset g) log) /\ mm (from a log) = E ++ mm rest.
Proof.
  intros (a & Hs0 & Hal & HE & _).
  destruct (between_prefix_from 0 log a (g_offset g) log_sorted Hal) as [rest Hr]. exists a, rest.
  split; [exact Hs0|]. split; [exact HE|]. rewrite HE, Hr. unfold mm. apply map_app.
Qed.

Lemma below_first_empty first x y :
  (forall r, In r log -> first <= r_off r) -> y <= first -> empty log x y.
Proof.
  intros Hf Hy. apply between_nil_iff. intros r Hr Hc. specialize (Hf r Hr). lia.
Qed.

Lemma between_extend_below_first a l first :
  (forall r, In r log -> first <= r_off r) -> a <= l -> l <= first ->
  between a l log = between a first log.
Proof.
  intros Hf Hal Hlf.
  rewrite (between_split 0 log a l first) by (try exact log_sorted; lia).
  rewrite (below_first_empty first l first Hf) by lia. rewrite app_nil_r. reflexivity.
Qed.

Lemma neg_offsets_empty x y : y <= 0 -> empty log x y.
Proof. apply (between_above 0 log x y log_sorted). Qed.

(* a fetch step, whatever the error: the restart offset and Conn.offset are those reader.read left;
   the error decides only the phase (a redial forgets Conn.offset), the attempt counter and whether
   an error item is sent *)
Lemma fetch_step_shape g r g' outs :
  g_phase g = PRead -> gen_step run cfg g (GFetch r) = Some (g', outs) ->
  exists outs0 e o' c' extra,
    read_once run g r = Some (outs0, e, o', c') /\ outs = outs0 ++ extra /\ msgs_of extra = []
    /\ g_offset g' = o' /\ (g_phase g' = PInit \/ g_conn g' = c') /\ g_phase g' <> PDone.
Proof.
  intros Hp Hs. unfold gen_step in Hs. rewrite Hp in Hs.
  destruct (read_once run g r) as [[[[outs0 e] o'] c']|]; [|discriminate].
  exists outs0, e, o', c'.
  repeat match type of Hs with context[match ?x with _ => _ end] => destruct x end; injection Hs as <- <-;
    cbn [g_phase g_conn g_offset];
    first [exists []; rewrite app_nil_r; repeat split; solve [auto|discriminate]
          |eexists [_]; repeat split; solve [auto|discriminate]].
Qed.

Theorem gen_step_inv s0 g ev g' outs E :
  gen_inv s0 g E -> ev_ok g ev -> gen_step run cfg g ev = Some (g', outs) ->
  gen_inv s0 g' (E ++ msgs_of outs).
Proof.
  intros (a & Hs0 & Hal & HE & Hhole) Hev Hstep. pose proof Hstep as Hfetch.
  unfold gen_step in Hstep.
  (* the pairs of phase and event that gen_step ignores change nothing *)
  assert (Hsame : gen_inv s0 g (E ++ msgs_of [])).
  { cbn [msgs_of flat_map]. rewrite app_nil_r. exists a. auto. }
  destruct (g_phase g) eqn:Hph; destruct ev as [|first last first2 last2|r|r];
    try (injection Hstep as <- <-; exact Hsame); clear Hsame.
  - (* PInit, GDialFail *)
    injection Hstep as <- <-. exists a. cbn [g_offset g_phase g_conn].
    split; [exact Hs0|]. split; [exact Hal|]. split.
    + destruct (c_max_attempts cfg <=? g_attempt g); cbn; rewrite app_nil_r; exact HE.
    + intros [H|H]; discriminate H.
  - (* PInit, GInit *)
    destruct Hev as [Hfirst Hlast]. clear Hstep.
    rewrite (gen_step_init run cfg g first last first2 last2 Hph) in Hfetch. cbv zeta in Hfetch.
    set (o := g_offset g) in *. set (o1 := resolved o first last) in *.
    assert (Hanchor : exists a', (0 <= s0 -> a' = s0) /\ a' <= o1 /\ E = mm (between a' o1 log)).
    { unfold o1, resolved. destruct (o =? FirstOffset) eqn:E1.
      - exists first. split; [unfold FirstOffset in *; lia|]. split; [lia|]. rewrite HE.
        rewrite (neg_offsets_empty a o) by (unfold FirstOffset in *; lia).
        rewrite (empty_trivial log first first) by lia. reflexivity.
      - destruct (o =? LastOffset) eqn:E2.
        + exists last. split; [unfold LastOffset in *; lia|]. split; [lia|]. rewrite HE.
          rewrite (neg_offsets_empty a o) by (unfold LastOffset in *; lia).
          rewrite (empty_trivial log last last) by lia. reflexivity.
        + destruct (o <? first) eqn:E3.
          * exists a. split; [exact Hs0|]. split; [lia|]. rewrite HE. f_equal.
            apply between_extend_below_first; [exact Hfirst|lia|lia].
          * exists a. split; [exact Hs0|]. split; [lia|exact HE]. }
    destruct Hanchor as (a' & Hs0' & Ha' & HE').
    destruct (_ || _) in Hfetch.
    + injection Hfetch as <- <-. rewrite app_nil_r. exists a'. cbn [g_offset g_phase g_conn].
      split; [exact Hs0'|]. split; [exact Ha'|]. split; [exact HE'|]. intros _. split; apply empty_trivial; lia.
    + (* OffsetOutOfRange: an error item or a redial, the offset stays *)
      assert (Hkeep : forall ph att extra, msgs_of extra = [] -> ph = PDone \/ ph = PInit ->
                gen_inv s0 (mkGen ph o FirstOffset att) (E ++ msgs_of extra)).
      { intros ph att extra Hex Hp. rewrite Hex, app_nil_r. exists a. cbn [g_offset g_phase g_conn].
        split; [exact Hs0|]. split; [exact Hal|]. split; [exact HE|].
        intros [H|H]; destruct Hp as [-> | ->]; discriminate H. }
      destruct (c_oor_error cfg); injection Hfetch as <- <-; apply Hkeep; auto.
  - (* PRead, GFetch *)
    destruct (Hhole (or_introl eq_refl)) as [H1 H2].
    destruct (fetch_step_shape g r g' outs Hph Hfetch) as (outs0 & e & o' & c' & extra & Ero & -> & Hex & Ho & Hc & Hd).
    (* what read_once guarantees *)
    assert (Hro : exists a', (0 <= s0 -> a' = s0) /\ a' <= o' /\ E ++ msgs_of outs0 = mm (between a' o' log)
                             /\ empty log o' c' /\ empty log c' o').
    { unfold read_once in Ero.
      destruct r as [hwm bytes remain late|code| |].
      - destruct (Hev Hph) as (ms & e0 & f & Hrun & Hok).
        rewrite Hrun in Ero. injection Ero as <- <- <- <-.
        rewrite msgs_of_map.
        pose proof (fetch_extends log 0 a (g_offset g) (g_conn g) ms f log_sorted Hal H1 H2 Hok) as Hx.
        cbn zeta in Hx. unfold next_off in Hx.
        destruct Hx as (Hx1 & Hx2 & Hx3 & Hx4 & Hx5).
        exists a. rewrite HE. auto.
      - injection Ero as <- <- <- <-. exists a. cbn. rewrite app_nil_r. auto.
      - injection Ero as <- <- <- <-. exists a. cbn. rewrite app_nil_r. auto.
      - injection Ero as <- <- <- <-. exists a. cbn. rewrite app_nil_r. auto. }
    destruct Hro as (a' & Hs0' & Ha' & HE' & Hh1 & Hh2).
    exists a'. rewrite Ho. split; [exact Hs0'|]. split; [exact Ha'|]. split.
    + rewrite msgs_of_app, Hex, app_nil_r. exact HE'.
    + intros Hph'. destruct Hc as [Hc|Hc]; [rewrite Hc in Hph'; destruct Hph'; discriminate|rewrite Hc; auto].
  - (* POffsets, GOffsets *)
    destruct (Hhole (or_intror eq_refl)) as [H1 H2].
    destruct r as [[first last]|].
    + cbn in Hev. destruct (g_offset g <? first) eqn:Elt; injection Hstep as <- <-; rewrite app_nil_r;
        exists a; cbn [g_offset g_phase g_conn].
      * split; [exact Hs0|]. split; [lia|]. split.
        -- rewrite HE. f_equal. apply between_extend_below_first; [exact Hev|lia|lia].
        -- intros _. split.
           ++ destruct (Z_lt_le_dec first (g_conn g)); [|apply empty_trivial; lia].
              apply (empty_mono log (g_offset g) (g_conn g)); [exact H1|lia|lia].
           ++ destruct (Z_lt_le_dec (g_conn g) first); [|apply empty_trivial; lia].
              apply (below_first_empty first); [exact Hev|lia].
      * split; [exact Hs0|]. split; [exact Hal|]. split; [exact HE|]. intros _. auto.
    + injection Hstep as <- <-. rewrite app_nil_r. exists a. cbn [g_offset g_phase g_conn].
      split; [exact Hs0|]. split; [exact Hal|]. split; [exact HE|]. intros [H|H]; discriminate H.
Qed.

Fixpoint gen_run (g : gen) (evs : list gev) {struct evs} : option (gen * list gout) :=
  match evs with
  | [] => Some (g, [])
  | ev :: t =>
    match gen_step run cfg g ev with
    | None => None
    | Some (g1, o1) =>
      match gen_run g1 t with
      | None => None
      | Some (g2, o2) => Some (g2, o1 ++ o2)
      end
    end
  end.

Fixpoint evs_ok (g : gen) (evs : list gev) {struct evs} : Prop :=
  match evs with
  | [] => True
  | ev :: t => ev_ok g ev /\ (forall g1 o1, gen_step run cfg g ev = Some (g1, o1) -> evs_ok g1 t)
  end.

Lemma gen_run_inv s0 evs : forall g E g' outs,
  gen_inv s0 g E -> evs_ok g evs -> gen_run g evs = Some (g', outs) -> gen_inv s0 g' (E ++ msgs_of outs).
Proof.
  induction evs as [|ev t IH]; intros g E g' outs Hinv Hok Hrun; cbn [gen_run] in Hrun.
  - injection Hrun as <- <-. cbn. rewrite app_nil_r. exact Hinv.
  - destruct Hok as [Hev Hrest].
    destruct (gen_step run cfg g ev) as [[g1 o1]|] eqn:E1; [|discriminate].
    destruct (gen_run g1 t) as [[g2 o2]|] eqn:E2; [|discriminate].
    injection Hrun as <- <-.
    rewrite msgs_of_app, app_assoc.
    apply (IH g1 (E ++ msgs_of o1) g2 o2); [|apply (Hrest g1 o1 eq_refl)|exact E2].
    apply (gen_step_inv s0 g ev); assumption.
Qed.

Lemma gen_start_inv o : gen_inv o (gen_start o) [].
Proof.
  exists o. cbn [gen_start g_offset g_phase]. split; [reflexivity|]. split; [apply Z.le_refl|]. split.
  - rewrite (empty_trivial log o o) by apply Z.le_refl. reflexivity.
  - intros [H|H]; discriminate H.
Qed.

End Generation.

(* the link from the byte level: a data response decoded within the contract is a legal answer *)
Lemma contract_of_decode run log g hwm bytes remain :
  (exists ms f, run (g_conn g) hwm bytes remain false = Some (ms, EEOF, f) /\ fetch_ok log (g_conn g) ms f) ->
  ev_ok run log g (GFetch (FData hwm bytes remain false)).
Proof. intros (ms & f & Hr & Hok) _. exists ms, EEOF, f. split; assumption. Qed.

Section RestartOffset.
Variable run : Z -> Z -> list N -> Z -> bool -> option (list msg * err * Z).
Variable cfg : gcfg.

(* the broker answers absolute offsets, messages carry absolute offsets *)
Definition ev_abs (g : gen) (ev : gev) : Prop :=
  match ev with
  | GInit first last _ _ => 0 <= first /\ 0 <= last
  | GOffsets (Some (first, _)) => 0 <= first
  | GFetch (FData hwm bytes remain late) =>
    forall ms e off, run (g_conn g) hwm bytes remain late = Some (ms, e, off) -> Forall (fun m => 0 <= g_off m) ms
  | _ => True
  end.

(* once absolute, always absolute: no later step — a redial and its initialisation, an error
   answer, OffsetOutOfRange handling, deliveries — brings a placeholder back *)
Lemma restart_offset_stays_absolute g ev g' outs :
  gen_step run cfg g ev = Some (g', outs) -> ev_abs g ev -> 0 <= g_offset g -> 0 <= g_offset g'.
Proof.
  intros Hs Hev Ho. pose proof Hs as Hfetch. unfold gen_step in Hs.
  destruct (g_phase g) eqn:Hp; destruct ev as [|first last first2 last2|r|r]; try (injection Hs as <- _; exact Ho).
  - (* PInit, GInit *)
    cbn [ev_abs] in Hev. destruct Hev as [Hf Hl].
    rewrite (gen_step_init run cfg g first last first2 last2 Hp) in Hfetch. cbv zeta in Hfetch.
    destruct (_ || _) in Hfetch; [injection Hfetch as <- _; apply resolved_abs; assumption|].
    destruct (c_oor_error cfg); injection Hfetch as <- _; exact Ho.
  - (* PRead, GFetch *)
    destruct (fetch_step_shape run cfg g r g' outs Hp Hfetch) as (outs0 & e & o' & c' & _ & Er & _ & _ & -> & _).
    unfold read_once in Er. destruct r as [hwm bytes remain late|code| |].
    + destruct (run (g_conn g) hwm bytes remain late) as [[[ms e0] off]|] eqn:Erun; [|discriminate].
      injection Er as _ _ <- _. cbn [ev_abs] in Hev. specialize (Hev ms e0 off Erun).
      destruct (rev ms) as [|m t] eqn:Erev; [exact Ho|].
      assert (Hin : In m ms) by (apply in_rev; rewrite Erev; left; reflexivity).
      pose proof (proj1 (Forall_forall _ _) Hev m Hin) as Hm. cbn beta in Hm. lia.
    + injection Er as _ _ <- _. exact Ho.
    + injection Er as _ _ <- _. exact Ho.
    + injection Er as _ _ <- _. exact Ho.
  - (* POffsets, GOffsets *)
    destruct r as [[first last]|]; [|injection Hs as <- _; exact Ho].
    cbn [ev_abs] in Hev. destruct (g_offset g <? first); injection Hs as <- _; cbn [g_offset]; [exact Hev|exact Ho].
Qed.

End RestartOffset.
