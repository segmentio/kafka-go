(* Proofs/DRFPublish.v — C10: the ownership-phase argument behind the policy kinds
   WriteOnceBeforePublish and HandedOff.  The semantic conditions (a publication /
   hand-off event that happens-before every later access) are NOT established by the
   syntactic check; they are what "safe publication" and "hand-off through channel c" mean. *)
From Coq Require Import List Arith Bool Lia Relations.
From KV Require Import Model.DRF Proofs.DRFSound.
Import ListNotations.

(* x is written (or otherwise accessed) only by its constructor thread t0 before the
   publication event at index p; every other access is a plain read that the publication
   happens-before *)
Definition published (tr : trace) (x : loc) (t0 : thread) (p : nat) : Prop :=
  (exists e, ev tr p = Some (t0, e)) /\
  forall i t a, ev tr i = Some (t, a) -> acc_loc a = Some x ->
    (t = t0 /\ i < p) \/ (is_rd a = true /\ hb tr p i).

(* x is accessed by the sender ts before the hand-off event at p (a Send/Close), and
   afterwards only by the single receiver t1, after the hand-off happened-before it *)
Definition handed_off (tr : trace) (x : loc) (ts t1 : thread) (p : nat) : Prop :=
  (exists e, ev tr p = Some (ts, e)) /\
  forall i t a, ev tr i = Some (t, a) -> acc_loc a = Some x ->
    (t = ts /\ i < p) \/ (t = t1 /\ hb tr p i).

Lemma po_hb : forall tr i j t a b, i < j -> ev tr i = Some (t, a) -> ev tr j = Some (t, b) -> hb tr i j.
Proof. intros. apply t_step. eapply e_po; eauto. Qed.

(* Both kinds are one ownership-phase argument: before the event at p only the owner t0 touches x;
   every other access comes after p in happens-before and is [late]; two late accesses of
   different threads do not conflict.  An early and a late access are ordered through p. *)
Lemma phased_no_race : forall (late : thread -> event -> Prop) tr x t0 p,
  (forall u1 a1 u2 a2, late u1 a1 -> late u2 a2 -> u1 = u2 \/ conflict a1 a2 = false) ->
  (exists e, ev tr p = Some (t0, e)) ->
  (forall i t a, ev tr i = Some (t, a) -> acc_loc a = Some x ->
     (t = t0 /\ i < p) \/ (late t a /\ hb tr p i)) ->
  ~ race_on tr x.
Proof.
  intros late tr x t0 p Hlate [e Hp] H (i & j & t1 & t2 & a1 & a2 & Hij & Hi & Hj & Hne & Hx1 & Hx2 & Hc & Hnhb).
  destruct (H i t1 a1 Hi Hx1) as [[E1 L1]|[R1 B1]]; destruct (H j t2 a2 Hj Hx2) as [[E2 L2]|[R2 B2]].
  - subst. congruence.
  - subst. apply Hnhb. eapply t_trans; [eapply po_hb; eauto|exact B2].
  - apply hb_lt in B1. lia.
  - destruct (Hlate _ _ _ _ R1 R2); congruence.
Qed.

Lemma publish_no_race : forall tr x t0 p, published tr x t0 p -> ~ race_on tr x.
Proof.
  intros tr x t0 p [Hp H]. apply (phased_no_race (fun _ a => is_rd a = true) tr x t0 p); auto.
  intros u1 a1 u2 a2 R1 R2. right. unfold conflict. rewrite R1, R2. reflexivity.
Qed.

Lemma handoff_no_race : forall tr x ts t1 p, handed_off tr x ts t1 p -> ~ race_on tr x.
Proof.
  intros tr x ts t1 p [Hp H]. apply (phased_no_race (fun t _ => t = t1) tr x ts p); auto.
  intros u1 a1 u2 a2 -> ->. left. reflexivity.
Qed.

(* non-vacuity: a value written before a channel send and read after the matching receive *)
Definition tr_handoff : trace :=
  [(0, Go 1); (0, Wr 7); (0, Send 3); (1, Recv 3); (1, Rd 7); (1, Wr 7)].
Lemma tr_handoff_ok : handed_off tr_handoff 7 0 1 2.
Proof.
  split; [eexists; reflexivity|].
  assert (E23 : hb tr_handoff 2 3).
  { apply t_step. eapply e_send with (c := 3); try reflexivity. lia. }
  assert (P34 : hb tr_handoff 3 4) by (eapply po_hb; [|reflexivity|reflexivity]; lia).
  assert (P35 : hb tr_handoff 3 5) by (eapply po_hb; [|reflexivity|reflexivity]; lia).
  intros i t a Hi Hx.
  destruct i as [|[|[|[|[|[|i]]]]]]; cbn in Hi; inversion Hi; subst; cbn in Hx; try discriminate.
  - left. split; [reflexivity|lia].
  - right. split; [reflexivity|]. eapply t_trans; [exact E23|exact P34].
  - right. split; [reflexivity|]. eapply t_trans; [exact E23|exact P35].
  - destruct i; discriminate.
Qed.
