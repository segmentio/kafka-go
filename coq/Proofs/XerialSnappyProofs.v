(* Proofs/XerialSnappyProofs.v — facts about the strict snappy block decoder of Spec/SnappyBlock.v. *)
From Coq Require Import List NArith Bool Lia.
From KV Require Import Spec.SnappyBlock.
Import ListNotations.
Local Open Scope N_scope.

Theorem snappy_decode_needs_preamble c :
  snappy_block_decoded_len c = None -> snappy_block_decode c = None.
Proof.
  unfold snappy_block_decode, snappy_block_decoded_len.
  destruct (sb_uvarint 10 c 0 0) as [[dlen rest]|]; [|reflexivity].
  destruct (4294967296 <=? dlen); [reflexivity|discriminate].
Qed.

(* with no output yet every copy offset is refused: it is 0 or reaches before the start *)
Lemma zero_or_beyond off : (off =? 0) || (0 <? off) = true.
Proof. destruct (N.eqb_spec off 0); [reflexivity|]. cbn [orb]. apply N.ltb_lt. lia. Qed.
