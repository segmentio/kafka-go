(* Proofs/RoutingProofs.v — lemmas about Model/Routing.v: version selection, routing by
   leader / controller / coordinator, makeLayout well-formedness, the pool transition system. *)
From Coq Require Import List NArith ZArith Bool Lia Permutation.
From Coq Require Import ZifyBool.
From KV Require Import Model.Routing Proofs.RoutingSort.
Import ListNotations.
Open Scope Z_scope.

Lemma select_version_clamp : forall cmin cmax bmin bmax,
  cmin <= cmax -> select_version cmin cmax bmin bmax = Z.max cmin (Z.min cmax bmax).
Proof.
  intros. unfold select_version.
  destruct (Z.gtb_spec cmin bmax); [lia|]. destruct (Z.ltb_spec cmax bmax); lia.
Qed.

Lemma mget_mset_same : forall (V : Type) (m : list (Z * V)) k v, mget Z.eqb (mset Z.eqb m k v) k = Some v.
Proof. intros. unfold mset. cbn [mget]. rewrite Z.eqb_refl. reflexivity. Qed.

Lemma mget_mdel_other : forall (V : Type) (m : list (Z * V)) k k', k' <> k ->
  mget Z.eqb (mdel Z.eqb m k) k' = mget Z.eqb m k'.
Proof.
  induction m as [|[k0 v0] m IH]; intros; cbn [mdel mget]; [reflexivity|].
  destruct (Z.eqb_spec k k0) as [<-|].
  - rewrite IH by assumption. destruct (Z.eqb_spec k' k); [contradiction | reflexivity].
  - cbn [mget]. rewrite IH by assumption. reflexivity.
Qed.

Lemma mget_mdel_same : forall (V : Type) (m : list (Z * V)) k, mget Z.eqb (mdel Z.eqb m k) k = None.
Proof.
  induction m as [|[k0 v0] m IH]; intros; cbn [mdel mget]; [reflexivity|].
  destruct (Z.eqb k k0) eqn:E; [apply IH|]. cbn [mget]. rewrite E. apply IH.
Qed.

Lemma mget_mset_other : forall (V : Type) (m : list (Z * V)) k v k', k' <> k ->
  mget Z.eqb (mset Z.eqb m k v) k' = mget Z.eqb m k'.
Proof.
  intros. unfold mset. cbn [mget].
  destruct (Z.eqb_spec k' k); [contradiction | apply mget_mdel_other; assumption].
Qed.

Lemma mget_in : forall (K V : Type) (eqb : K -> K -> bool) (m : list (K * V)) k v,
  (forall a b, eqb a b = true -> a = b) -> mget eqb m k = Some v -> In (k, v) m.
Proof.
  intros K V eqb m k v Heq. induction m as [|[k0 v0] m IH]; intro H; cbn [mget] in H; [discriminate|].
  destruct (eqb k k0) eqn:E; [|right; apply IH; assumption].
  apply Heq in E. inversion H. subst. left. reflexivity.
Qed.

Arguments mget_in {K V eqb m k v}.

Lemma mdel_incl : forall (K V : Type) (eqb : K -> K -> bool) (m : list (K * V)) k x,
  In x (mdel eqb m k) -> In x m.
Proof.
  induction m as [|[k0 v0] m IH]; intros k x H; cbn [mdel] in H; [contradiction|].
  destruct (eqb k k0); [right | destruct H as [H|H]; [left; assumption | right]]; eapply IH; eassumption.
Qed.

Lemma mset_in : forall (K V : Type) (eqb : K -> K -> bool) (m : list (K * V)) k v x,
  In x (mset eqb m k v) -> x = (k, v) \/ In x m.
Proof. intros K V eqb m k v x [H|H]; [left; symmetry; assumption | right; eapply mdel_incl; eassumption]. Qed.

Lemma mdel_keys : forall (V : Type) (m : list (Z * V)) k x,
  In x (map fst (mdel Z.eqb m k)) -> In x (map fst m) /\ x <> k.
Proof.
  induction m as [|[k0 v0] m IH]; intros k x H; cbn [mdel] in H; [contradiction|].
  destruct (Z.eqb_spec k k0) as [E|E].
  - destruct (IH _ _ H). split; [right; assumption | assumption].
  - cbn [map fst In] in H. destruct H as [<-|H]; [split; [left; reflexivity | auto]|].
    destruct (IH _ _ H). split; [right; assumption | assumption].
Qed.

Lemma mdel_nodup : forall (V : Type) (m : list (Z * V)) k,
  NoDup (map fst m) -> NoDup (map fst (mdel Z.eqb m k)).
Proof.
  induction m as [|[k0 v0] m IH]; intros k H; cbn [mdel]; [constructor|].
  inversion H as [|? ? Hn Hd]. subst.
  destruct (Z.eqb k k0); [apply IH; assumption|].
  cbn [map fst]. constructor; [|apply IH; assumption].
  intro Hin. apply mdel_keys in Hin. destruct Hin. contradiction.
Qed.

Lemma mset_nodup : forall (V : Type) (m : list (Z * V)) k v,
  NoDup (map fst m) -> NoDup (map fst (mset Z.eqb m k v)).
Proof.
  intros. unfold mset. cbn [map fst]. constructor; [|apply mdel_nodup; assumption].
  intro Hin. apply mdel_keys in Hin. destruct Hin. congruence.
Qed.

Lemma mget_none_notin : forall (V : Type) (m : list (Z * V)) k,
  ~ In k (map fst m) -> mget Z.eqb m k = None.
Proof.
  induction m as [|[k0 v0] m IH]; intros k H; cbn [mget]; [reflexivity|].
  destruct (Z.eqb_spec k k0) as [->|]; [destruct H; left; reflexivity|].
  apply IH. intro. apply H. right. assumption.
Qed.

Lemma in_mget : forall (V : Type) (m : list (Z * V)) k v,
  NoDup (map fst m) -> In (k, v) m -> mget Z.eqb m k = Some v.
Proof.
  induction m as [|[k0 v0] m IH]; intros k v Hd H; [contradiction|].
  inversion Hd as [|? ? Hn Hd']. subst. cbn [mget]. destruct H as [H|H].
  - inversion H. subst. rewrite Z.eqb_refl. reflexivity.
  - destruct (Z.eqb_spec k k0) as [->|]; [|apply IH; assumption].
    destruct Hn. apply (in_map fst) in H. exact H.
Qed.

Lemma existsb_filter_key : forall (V : Type) (f : Z * V -> bool) (m : list (Z * V)) id,
  NoDup (map fst m) ->
  existsb (fun kv => fst kv =? id) (filter f m) =
  match mget Z.eqb m id with Some v => f (id, v) | None => false end.
Proof.
  induction m as [|[k v] m IH]; intros id Hd; [reflexivity|].
  inversion Hd as [|? ? Hn Hd']. subst. cbn [filter mget].
  destruct (Z.eqb_spec id k) as [<-|E].
  - destruct (f (id, v)) eqn:Ef.
    + cbn [existsb fst]. rewrite Z.eqb_refl. reflexivity.
    + rewrite IH by assumption. rewrite (mget_none_notin _ m id Hn). reflexivity.
  - destruct (f (k, v)); [|apply IH; assumption].
    cbn [existsb fst]. destruct (Z.eqb_spec k id); [congruence | apply IH; assumption].
Qed.

Lemma fold_mdel_get : forall (V : Type) (l : list (Z * V)) (cs : list (Z * V)) id,
  mget Z.eqb (fold_left (fun cs kv => mdel Z.eqb cs (fst kv)) l cs) id =
  if existsb (fun kv => fst kv =? id) l then None else mget Z.eqb cs id.
Proof.
  induction l as [|[k v] l IH]; intros cs id; cbn [fold_left existsb fst]; [reflexivity|].
  rewrite IH. destruct (existsb (fun kv => fst kv =? id) l); [rewrite orb_true_r; reflexivity|].
  rewrite orb_false_r. destruct (Z.eqb_spec k id) as [->|]; [apply mget_mdel_same | apply mget_mdel_other; auto].
Qed.

Lemma fold_mset_get : forall (V : Type) (new : list (Z * V)) (l : list (Z * V)) (cs : list (Z * V)) id,
  (forall kv, In kv l -> mget Z.eqb new (fst kv) = Some (snd kv)) ->
  mget Z.eqb (fold_left (fun cs kv => mset Z.eqb cs (fst kv) (snd kv)) l cs) id =
  if existsb (fun kv => fst kv =? id) l then mget Z.eqb new id else mget Z.eqb cs id.
Proof.
  intros V new. induction l as [|[k v] l IH]; intros cs id H; cbn [fold_left existsb fst snd]; [reflexivity|].
  rewrite IH by (intros kv Hkv; apply H; right; assumption).
  destruct (existsb (fun kv => fst kv =? id) l); [rewrite orb_true_r; reflexivity|].
  rewrite orb_false_r. destruct (Z.eqb_spec k id) as [->|]; [|apply mget_mset_other; auto].
  rewrite mget_mset_same. symmetry. apply (H (id, v)). left. reflexivity.
Qed.

Lemma fold_left_inv : forall (B X : Type) (I : B -> Prop) (f : B -> X -> B) (l : list X) b,
  (forall b x, In x l -> I b -> I (f b x)) -> I b -> I (fold_left f l b).
Proof.
  induction l as [|x l IH]; intros b Hf Hb; cbn [fold_left]; [assumption|].
  apply IH; [intros; apply Hf; [right|]; assumption | apply Hf; [left; reflexivity | assumption]].
Qed.

(* the broker that layout [c] designates for partition [p] of topic [t] *)
Definition leader_of (c : cluster) (t : name) (p : Z) : option broker :=
  match get_topic c t with
  | None => None
  | Some tp =>
      match mget Z.eqb (t_parts tp) p with
      | None => None
      | Some part => get_broker c (p_leader part)
      end
  end.

Definition names_topic (ts : tps) (t : name) : Prop := exists ps, In (t, ps) ts.
Definition names_part (ts : tps) (t : name) (p : Z) : Prop := exists ps, In (t, ps) ts /\ In p ps.

(* Brokers map: key = ID field, ids non-negative (what makeLayout builds from a metadata
   response whose node ids are non-negative) *)
Definition brokers_wf (c : cluster) : Prop :=
  forall k b, In (k, b) (c_brokers c) -> b_id b = k /\ 0 <= k.

(* what is wrong with a request when routing by leader fails *)
Inductive route_problem (c : cluster) (ts : tps) : rerr -> Prop :=
| PNoTopic : forall t, names_topic ts t -> get_topic c t = None -> route_problem c ts (ENoTopic t)
| PNoPartition : forall t p tp, names_part ts t p -> get_topic c t = Some tp ->
    mget Z.eqb (t_parts tp) p = None -> route_problem c ts (ENoPartition t p)
| PNoLeader : forall t p tp part, names_part ts t p -> get_topic c t = Some tp ->
    mget Z.eqb (t_parts tp) p = Some part -> get_broker c (p_leader part) = None ->
    route_problem c ts (ENoLeader t p)
| PMismatch : forall t p t' p' b b', names_part ts t p -> names_part ts t' p' ->
    leader_of c t p = Some b -> leader_of c t' p' = Some b' -> b_id b <> b_id b' ->
    route_problem c ts (EMismatch (b_id b) (b_id b')).

Lemma leader_of_known : forall c t tp p, get_topic c t = Some tp ->
  leader_of c t p = match mget Z.eqb (t_parts tp) p with
                    | Some part => get_broker c (p_leader part)
                    | None => None
                    end.
Proof. intros c t tp p H. unfold leader_of. rewrite H. reflexivity. Qed.

Lemma leader_registered : forall c t p b, brokers_wf c -> leader_of c t p = Some b ->
  0 <= b_id b /\ get_broker c (b_id b) = Some b.
Proof.
  intros c t p b W H. unfold leader_of in H.
  destruct (get_topic c t) as [tp|]; [|discriminate].
  destruct (mget Z.eqb (t_parts tp) p) as [part|]; [|discriminate].
  destruct (W _ _ (mget_in (fun a b => proj1 (Z.eqb_eq a b)) H)) as [E P]. rewrite E. auto.
Qed.

(* The loop variable [broker] of Broker(): still Broker{ID: -1}, or the leader of a partition the
   request [ts] names.  Both loops keep this, so a mismatch is always one between two named
   partitions; and once the variable is set it never changes again. *)
Definition cur_from (c : cluster) (ts : tps) (cur : broker) : Prop :=
  b_id cur < 0 \/ exists t p, names_part ts t p /\ leader_of c t p = Some cur.

Lemma route_parts_spec : forall c ts tn tp, brokers_wf c -> get_topic c tn = Some tp ->
  forall ps cur, (forall p, In p ps -> names_part ts tn p) -> cur_from c ts cur ->
  match route_parts c tn tp ps cur with
  | Ok b => cur_from c ts b /\ (0 <= b_id cur \/ ps = [] -> b = cur)
            /\ forall p, In p ps -> leader_of c tn p = Some b
  | Err e => route_problem c ts e
  | Panic => False
  end.
Proof.
  intros c ts tn tp W Et. induction ps as [|p ps IH]; intros cur N G; cbn [route_parts].
  - split; [assumption|]. split; [reflexivity | intros p []].
  - pose proof (N p (or_introl eq_refl)) as Np.
    pose proof (leader_of_known c tn tp p Et) as L.
    assert (N' : forall q, In q ps -> names_part ts tn q) by (intros q Hq; apply N; right; assumption).
    destruct (mget Z.eqb (t_parts tp) p) as [part|] eqn:Ep; [|eapply PNoPartition; eassumption].
    destruct (get_broker c (p_leader part)) as [b1|] eqn:Eb; [|eapply PNoLeader; eassumption].
    assert (G1 : cur_from c ts b1) by (right; exists tn, p; auto).
    destruct (leader_registered c tn p b1 W L) as [Hnn Hself].
    destruct (Z.ltb_spec (b_id cur) 0) as [Hneg|Hpos].
    + (* first partition seen: broker := b1, for good *)
      specialize (IH b1 N' G1). destruct (route_parts c tn tp ps b1) as [b|e|]; [|assumption..].
      destruct IH as [G' [S A]]. pose proof (S (or_introl Hnn)) as ->.
      split; [assumption|]. split; [intros [H|H]; [lia | discriminate]|].
      intros q [<-|Hq]; [assumption | apply A; assumption].
    + destruct G as [G|[t0 [p0 [N0 L0]]]]; [lia|].
      destruct (Z.eqb_spec (b_id b1) (b_id cur)) as [E|E]; cbn [negb].
      2: exact (PMismatch c ts tn p t0 p0 b1 cur Np N0 L L0 E).
      assert (b1 = cur) as ->.
      { destruct (leader_registered c t0 p0 cur W L0) as [_ Hc]. rewrite E in Hself. congruence. }
      specialize (IH cur N' G1). destruct (route_parts c tn tp ps cur) as [b|e|]; [|assumption..].
      destruct IH as [G' [S A]]. pose proof (S (or_introl Hpos)) as ->.
      split; [assumption|]. split; [reflexivity|].
      intros q [<-|Hq]; [assumption | apply A; assumption].
Qed.

Lemma route_topics_spec : forall c ts, brokers_wf c -> forall ts' cur, incl ts' ts -> cur_from c ts cur ->
  match route_topics c ts' cur with
  | Ok b => (0 <= b_id cur \/ (forall t p, ~ names_part ts' t p) -> b = cur)
            /\ (forall t, names_topic ts' t -> get_topic c t <> None)
            /\ (forall t p, names_part ts' t p -> leader_of c t p = Some b)
  | Err e => route_problem c ts e
  | Panic => False
  end.
Proof.
  intros c ts W. induction ts' as [|[tn ps] ts' IH]; intros cur Hin G; cbn [route_topics].
  - split; [reflexivity|]. split; [intros t [ps []] | intros t p [ps [[] _]]].
  - assert (Hhd : In (tn, ps) ts) by (apply Hin; left; reflexivity).
    destruct (get_topic c tn) as [tp|] eqn:Et; [|apply PNoTopic; [exists ps|]; assumption].
    pose proof (route_parts_spec c ts tn tp W Et ps cur (fun p Hp => ex_intro _ ps (conj Hhd Hp)) G) as R.
    destruct (route_parts c tn tp ps cur) as [cur'|e|]; [|assumption..].
    destruct R as [G1 [S1 A1]].
    specialize (IH cur' (fun x Hx => Hin x (or_intror Hx)) G1).
    destruct (route_topics c ts' cur') as [b|e|]; [|assumption..].
    destruct IH as [S2 [T2 A2]]. split; [|split].
    + intros [Hc|Hno].
      * pose proof (S1 (or_introl Hc)) as ->. apply S2. left. assumption.
      * assert (ps = []) as ->.
        { destruct ps as [|p0 ps0]; [reflexivity|]. destruct (Hno tn p0).
          exists (p0 :: ps0). split; left; reflexivity. }
        rewrite <- (S1 (or_intror eq_refl)). apply S2. right.
        intros t p [ps' [Hi Hp]]. apply (Hno t p). exists ps'. split; [right|]; assumption.
    + intros t [ps' [Hi|Hi]]; [inversion Hi; subst; congruence | apply T2; exists ps'; assumption].
    + intros t p [ps' [[Hi|Hi] Hp]]; [|apply A2; exists ps'; split; assumption].
      inversion Hi; subst t ps'. specialize (A1 p Hp).
      (* the broker after this topic is cur', a leader; after the rest it is still cur' *)
      rewrite <- (S2 (or_introl (proj1 (leader_registered c tn p cur' W A1)))) in A1. assumption.
Qed.

Lemma led_by_one_no_problem : forall c ts b e,
  (forall t, names_topic ts t -> get_topic c t <> None) ->
  (forall t p, names_part ts t p -> leader_of c t p = Some b) -> ~ route_problem c ts e.
Proof.
  intros c ts b e T A P. destruct P as [t N E | t p tp N E1 E2 | t p tp part N E1 E2 E3 | t p t' p' b1 b2 N N' L L' D].
  - exact (T t N E).
  - specialize (A t p N). rewrite (leader_of_known c t tp p E1), E2 in A. discriminate.
  - specialize (A t p N). rewrite (leader_of_known c t tp p E1), E2, E3 in A. discriminate.
  - rewrite (A t p N) in L. rewrite (A t' p' N') in L'. congruence.
Qed.

Lemma route_leader_outcome : forall c ts, brokers_wf c ->
  match route_leader c ts with
  | Ok b => (forall t, names_topic ts t -> get_topic c t <> None)
            /\ (forall t p, names_part ts t p -> leader_of c t p = Some b)
            /\ ((forall t p, ~ names_part ts t p) -> b = no_broker)
  | Err e => route_problem c ts e
  | Panic => False
  end.
Proof.
  intros c ts W. unfold route_leader.
  pose proof (route_topics_spec c ts W ts no_broker (incl_refl ts) (or_introl eq_refl)) as R.
  destruct (route_topics c ts no_broker); [|assumption..].
  destruct R as [S [T A]]. auto.
Qed.

Definition parts_wf (c : cluster) : Prop :=
  forall n tp k part, get_topic c n = Some tp -> In (k, part) (t_parts tp) -> p_id part = k.

Lemma find_part_by_id : forall (parts : list (Z * partition)) p,
  (forall k x, In (k, x) parts -> p_id x = k) ->
  option_map snd (find (fun kv => p_id (snd kv) =? p) parts) = mget Z.eqb parts p.
Proof.
  induction parts as [|[k0 x0] parts IH]; intros p W; [reflexivity|].
  cbn [find mget snd]. rewrite (W k0 x0 (or_introl eq_refl)), (Z.eqb_sym k0 p).
  destruct (p =? k0); [reflexivity|]. apply IH. intros k x H. apply W. right. assumption.
Qed.

Lemma in_split_listoffsets : forall ts m,
  In m (split_listoffsets ts) <-> exists t p, m = [(t, [p])] /\ names_part ts t p.
Proof.
  intros ts m. unfold split_listoffsets. rewrite in_flat_map. split.
  - intros [[t ps] [Hin Hm]]. apply in_map_iff in Hm. destruct Hm as [p [<- Hp]].
    exists t, p. split; [reflexivity | exists ps; auto].
  - intros [t [p [-> [ps [Hin Hp]]]]]. exists (t, ps). split; [assumption | apply (in_map (fun q => [(t, [q])])); assumption].
Qed.

(* grabBrokerConn, for the non-negative ids of brokers *)
Lemma send_to_broker : forall conns pre id api, 0 <= id ->
  send_to conns pre id api =
  if mhas Z.eqb conns id then Sent (pre ++ [WReq (TBroker id) api]) else Rejected pre RejBrokerNotAvailable.
Proof.
  intros conns pre id api H. unfold send_to, grab.
  destruct (Z.geb_spec id 0); [|lia]. destruct (mhas Z.eqb conns id); reflexivity.
Qed.

Lemma via_coordinator_found : forall conns coord kt key api a,
  coord kt key = Some a -> fc_err a = 0 ->
  via_coordinator conns coord kt key api = send_to conns [WFind kt key] (fc_node a) api.
Proof. intros conns coord kt key api a Hk He. unfold via_coordinator. rewrite Hk, He. reflexivity. Qed.

(* a GroupMessage looks up (Group, m.Group()), a TransactionalMessage (Transaction, m.Transaction()) *)
Lemma send_group_is : forall c conns coord api g,
  send_request c conns (RGroup api g) coord = via_coordinator conns coord KT_Group g api.
Proof. reflexivity. Qed.

Lemma send_txn_is : forall c conns coord api t,
  send_request c conns (RTxn api t) coord = via_coordinator conns coord KT_Txn t api.
Proof. reflexivity. Qed.

Lemma make_layout_brokers_wf : forall m,
  (forall b, In b (md_brokers m) -> 0 <= mb_id b) -> brokers_wf (make_layout m).
Proof.
  intros m Hnn. unfold brokers_wf, make_layout. cbn [c_brokers].
  apply fold_left_inv; [|intros k b []].
  intros acc x Hx I k b H. apply mset_in in H. destruct H as [H|H]; [|apply I; assumption].
  inversion H. split; [reflexivity | apply Hnn; assumption].
Qed.

Lemma make_partitions_wf : forall ps k part, In (k, part) (make_partitions ps) -> p_id part = k.
Proof.
  intro ps. unfold make_partitions. apply fold_left_inv; [|intros k part []].
  intros acc x _ I k part H. apply mset_in in H. destruct H as [H|H]; [|apply I; assumption].
  inversion H. reflexivity.
Qed.

Lemma make_layout_parts_wf : forall m, parts_wf (make_layout m).
Proof.
  intros m n tp k part Ht. apply (mget_in (fun a b => proj1 (name_eqb_eq a b))) in Ht.
  revert n tp Ht k part. unfold make_layout. cbn [c_topics].
  apply fold_left_inv; [|intros n' tp []].
  intros acc t _ I n' tp H. destruct (mt_internal t); [eapply I; eassumption|].
  apply mset_in in H. destruct H as [H|H]; [|eapply I; eassumption].
  inversion H. cbn [t_parts]. apply make_partitions_wf.
Qed.

Lemma make_layout_controller : forall m, c_controller (make_layout m) = md_controller m.
Proof. reflexivity. Qed.

Lemma make_layout_brokers_nodup : forall m, NoDup (map fst (c_brokers (make_layout m))).
Proof.
  intros m. unfold make_layout. cbn [c_brokers].
  apply fold_left_inv; [intros; apply mset_nodup; assumption | constructor].
Qed.

Lemma update_error_keeps : forall p m e md,
  ps_meta p = Some md -> update p m (Some e) = p.
Proof. intros p m e md H. unfold update. rewrite H. reflexivity. Qed.

Lemma update_error_first : forall p m e,
  ps_meta p = None ->
  let p' := update p m (Some e) in
  ps_meta p' = None /\ ps_err p' = Some e /\ ps_layout p' = ps_layout p /\ ps_conns p' = ps_conns p
  /\ ps_ready p' = true.
Proof. intros p m e H. unfold update. rewrite H. cbn. auto. Qed.

(* labels that are not a successful update *)
Definition keeps_view (l : label) : Prop :=
  match l with
  | LRefresh _ (Some _) => True     (* failed refresh *)
  | LRefresh _ None => False
  | LRequest _ _ => True
  end.

(* "the pool's view is the one installed by the update with metadata M" *)
Definition view_of (m : metadata) (p : pool) : Prop :=
  ps_meta p = Some (normalize m) /\ ps_err p = None /\ ps_layout p = make_layout (normalize m)
  /\ ps_ready p = true.

Lemma update_success : forall p m, view_of m (update p (Some m) None).
Proof. intros p m. unfold update, view_of. cbn. auto. Qed.

Lemma pool_step_keeps_view : forall m p l, view_of m p -> keeps_view l -> view_of m (fst (pool_step p l)).
Proof.
  intros m p [md [e|] | q fc] V K; try contradiction; cbn [pool_step fst]; [|assumption].
  rewrite (update_error_keeps p md e _ (proj1 V)). assumption.
Qed.

Lemma pool_run_app : forall ls1 ls2 p,
  pool_run p (ls1 ++ ls2) =
  (fst (pool_run (fst (pool_run p ls1)) ls2), snd (pool_run p ls1) ++ snd (pool_run (fst (pool_run p ls1)) ls2)).
Proof.
  induction ls1 as [|l ls1 IH]; intros ls2 p; cbn [app pool_run].
  - cbn [fst snd app]. destruct (pool_run p ls2). reflexivity.
  - destruct (pool_step p l) as [p1 o]. rewrite IH.
    destruct (pool_run p1 ls1) as [p2 os]. cbn [fst snd]. destruct (pool_run p2 ls2). cbn [fst snd].
    destruct o; reflexivity.
Qed.

Lemma pool_run_inv : forall (I : pool -> Prop) ls p,
  (forall p l, In l ls -> I p -> I (fst (pool_step p l))) -> I p -> I (fst (pool_run p ls)).
Proof.
  intros I. induction ls as [|l ls IH]; intros p Hs Hp; cbn [pool_run]; [assumption|].
  pose proof (Hs p l (or_introl eq_refl) Hp) as H1. destruct (pool_step p l) as [p1 o]. cbn [fst] in H1.
  specialize (IH p1 (fun p l Hl => Hs p l (or_intror Hl)) H1). destruct (pool_run p1 ls). assumption.
Qed.

Lemma view_after_refresh : forall p0 pre m mid,
  Forall keeps_view mid -> view_of m (fst (pool_run p0 (pre ++ [LRefresh (Some m) None] ++ mid))).
Proof.
  intros p0 pre m mid F. rewrite pool_run_app. cbn [fst app pool_run pool_step].
  pose proof (pool_run_inv (view_of m) mid (update (fst (pool_run p0 pre)) (Some m) None)) as K.
  destruct (pool_run (update (fst (pool_run p0 pre)) (Some m) None) mid). apply K; [|apply update_success].
  intros x lb Hl V. apply pool_step_keeps_view; [assumption|].
  rewrite Forall_forall in F. apply F. assumption.
Qed.

Lemma pool_run_request : forall p0 history q fc,
  snd (pool_run p0 (history ++ [LRequest q fc])) =
  snd (pool_run p0 history) ++ [round_trip (fst (pool_run p0 history)) q fc].
Proof. intros. rewrite pool_run_app. reflexivity. Qed.

Lemma round_trip_one_view : forall m p r fc, view_of m p ->
  round_trip p (QOne r) fc = RTSend [send_request (make_layout (normalize m)) (ps_conns p) r fc].
Proof. intros m p r fc [V1 [V2 [V3 V4]]]. unfold round_trip. rewrite V4, V3. reflexivity. Qed.

Lemma round_trip_metadata_view : forall m p names auto fc, view_of m p ->
  round_trip p (QMetadata names auto) fc =
  (if auto && has_unknown (filter_metadata names (normalize m))
   then RTSend [send_request (make_layout (normalize m)) (ps_conns p) (ROther K_Metadata) fc]
   else RTCache (filter_metadata names (normalize m))).
Proof. intros m p names auto fc [V1 [V2 [V3 V4]]]. unfold round_trip. rewrite V4, V2, V1, V3. reflexivity. Qed.

(* a fresh pool: p.ready is not triggered yet and the round trip blocks *)
Lemma round_trip_blocked : forall q fc, round_trip pool_init q fc = RTBlocked.
Proof. reflexivity. Qed.

Lemma discover_wakes : forall s (w : bool), d_phase s = DWaiting ->
  discover_step s (if w then DWake else DTimer) =
  Some {| d_phase := DFetching w; d_pool := d_pool s; d_ctx_err := d_ctx_err s |}.
Proof. intros s [] H; unfold discover_step; rewrite H; reflexivity. Qed.

Definition apply_result (p : pool) (r : refresh_result) : pool :=
  match r with
  | FAnswered m => update p (Some m) None
  | FFailed e | FNoConn e => update p None (Some e)
  end.

Lemma refresh_turn_run : forall s w r,
  d_phase s = DWaiting -> d_ctx_err s = None ->
  discover_run s (refresh_turn w r) =
  Some {| d_phase := DWaiting; d_pool := apply_result (d_pool s) r; d_ctx_err := None |}.
Proof.
  intros s w r Hp Hc. unfold refresh_turn. cbn [discover_run]. rewrite (discover_wakes s w Hp).
  unfold discover_step. cbn [d_phase d_ctx_err d_pool]. rewrite Hc. destruct r; reflexivity.
Qed.

Lemma discover_run_app : forall l1 l2 a b,
  discover_run a l1 = Some b -> discover_run a (l1 ++ l2) = discover_run b l2.
Proof.
  induction l1 as [|x l1 IH]; intros l2 a b H; cbn [app discover_run] in *.
  - inversion H. reflexivity.
  - destruct (discover_step a x); [apply IH; assumption | discriminate].
Qed.

(* whatever the exchanges bring: only the cancellation of the context ends the loop *)
Lemma refresh_turns_run : forall (fs : list (bool * refresh_result)) s,
  d_phase s = DWaiting -> d_ctx_err s = None ->
  exists s', discover_run s (flat_map (fun f => refresh_turn (fst f) (snd f)) fs) = Some s'
             /\ d_phase s' = DWaiting /\ d_ctx_err s' = None.
Proof.
  induction fs as [|[w r] fs IH]; intros s Hp Hc; [exists s; auto|]. cbn [flat_map fst snd].
  destruct (IH {| d_phase := DWaiting; d_pool := apply_result (d_pool s) r; d_ctx_err := None |}
                eq_refl eq_refl) as [s' [R' H]].
  exists s'. rewrite (discover_run_app _ _ _ _ (refresh_turn_run s w r Hp Hc)). auto.
Qed.

Definition negotiate_step (client : list (Z * (Z * Z))) (m : list (Z * Z)) (e : Z * (Z * Z)) : list (Z * Z) :=
  let k := fst e in
  let cr := lookup_range client k in
  mset Z.eqb m k (select_version (fst cr) (snd cr) (fst (snd e)) (snd (snd e))).

Lemma negotiate_fold : forall client adv, negotiate client adv = fold_left (negotiate_step client) adv [].
Proof. reflexivity. Qed.

Lemma negotiate_fold_absent : forall client adv m k,
  (forall e, In e adv -> fst e <> k) ->
  mget Z.eqb (fold_left (negotiate_step client) adv m) k = mget Z.eqb m k.
Proof.
  intros client adv m k H.
  apply (fold_left_inv _ _ (fun b => mget Z.eqb b k = mget Z.eqb m k)); [|reflexivity].
  intros b e He I. unfold negotiate_step. rewrite mget_mset_other; [exact I|].
  intro E. apply (H e He). symmetry. exact E.
Qed.

(* Transcribed from the Kafka protocol (which requests the group / the transaction coordinator
   handles), not from /repo: Model/Routing.v's group_message_apis / txn_message_apis record which
   request types of /repo implement GroupMessage / TransactionalMessage.
   Requests that must be handled by the group coordinator ... *)
Definition kafka_group_coordinator_apis : list Z :=
  [8 (*OffsetCommit*); 9 (*OffsetFetch*); 11 (*JoinGroup*); 12 (*Heartbeat*); 13 (*LeaveGroup*);
   14 (*SyncGroup*); 15 (*DescribeGroups*); 28 (*TxnOffsetCommit*); 42 (*DeleteGroups*); 47 (*OffsetDelete*)].
(* ... and by the transaction coordinator *)
Definition kafka_txn_coordinator_apis : list Z :=
  [22 (*InitProducerId*); 24 (*AddPartitionsToTxn*); 25 (*AddOffsetsToTxn*); 26 (*EndTxn*)].

Lemma broker_eqb_eq : forall a b, broker_eqb a b = true -> a = b.
Proof.
  intros [i1 a1] [i2 a2] H. unfold broker_eqb in H. cbn [b_id b_addr] in H.
  apply andb_true_iff in H. destruct H as [H1 H2].
  apply Z.eqb_eq in H1. apply N.eqb_eq in H2. subst. reflexivity.
Qed.

(* p.conns holds a connection group for exactly the brokers of state.layout; the layout's ids are
   distinct (a Go map), which is what lets update's three filters be read id by id *)
Definition conns_ok (p : pool) : Prop :=
  NoDup (map fst (c_brokers (ps_layout p)))
  /\ forall id, mget Z.eqb (ps_conns p) id = mget Z.eqb (c_brokers (ps_layout p)) id.

Lemma update_conns_ok : forall p m e, conns_ok p -> conns_ok (update p m e).
Proof.
  intros p m e [Hd Hc]. unfold update.
  destruct e as [e|].
  - destruct (ps_meta p); split; assumption.
  - set (layout := match option_map normalize m with Some x => make_layout x | None => empty_cluster end).
    assert (Hn : NoDup (map fst (c_brokers layout))).
    { unfold layout. destruct (option_map normalize m); [apply make_layout_brokers_nodup | constructor]. }
    cbn [ps_layout ps_conns]. split; [assumption|]. intro id.
    set (old := c_brokers (ps_layout p)) in *. set (new := c_brokers layout) in *.
    cbn [ps_layout ps_conns]. fold new.
    rewrite (fold_mset_get broker new).
    2:{ intros [k v] Hin. cbn [fst snd]. apply in_app_or in Hin.
        destruct Hin as [Hin|Hin]; apply filter_In in Hin; destruct Hin as [Hin _]; apply in_mget; assumption. }
    rewrite fold_mdel_get. rewrite !existsb_app.
    rewrite !(existsb_filter_key broker _ new id Hn). rewrite (existsb_filter_key broker _ old id Hd).
    rewrite Hc. cbn [fst snd]. unfold mhas.
    (* id by id: listed before and after, only after, only before, or never *)
    destruct (mget Z.eqb new id) as [b2|] eqn:En; destruct (mget Z.eqb old id) as [b1|] eqn:Eo; cbn; try reflexivity.
    destruct (broker_eqb b1 b2) eqn:Eb; cbn; [|reflexivity].
    apply broker_eqb_eq in Eb. subst. reflexivity.
Qed.

Lemma pool_run_conns_ok : forall ls, conns_ok (fst (pool_run pool_init ls)).
Proof.
  intro ls. apply pool_run_inv; [|split; [constructor | reflexivity]].
  intros p [m e | q fc] _ H; [apply update_conns_ok|]; assumption.
Qed.

Lemma split_describegroups_concat : forall gs, concat (split_describegroups gs) = gs.
Proof.
  induction gs as [|g gs IH]; [reflexivity|].
  unfold split_describegroups in *. cbn [map concat app]. rewrite IH. reflexivity.
Qed.

Lemma split_describegroups_singletons : forall gs part,
  In part (split_describegroups gs) -> exists g, part = [g] /\ In g gs.
Proof.
  intros gs part H. unfold split_describegroups in H. apply in_map_iff in H.
  destruct H as [g [<- Hg]]. exists g. auto.
Qed.

(* the obligation of a split: a part is routed by its first group only, so it must be
   homogeneous -- every group it names has the coordinator it is routed to.  Parts made by
   Split are singletons, hence homogeneous for every coordinator assignment. *)
Definition part_homogeneous (coord : coord_fn) (part : list name) : Prop :=
  forall g g', In g part -> In g' part -> coord KT_Group g = coord KT_Group g'.

(* refc counts the RoundTrips in progress plus the registry, and the context is cancelled exactly
   when it has reached 0 *)
Definition rp_inv (s : rpool) : Prop :=
  (rp_created s = false -> rp_registered s = false /\ rp_users s = 0 /\ rp_cancelled s = false)
  /\ (rp_created s = true ->
      rp_refs s = rp_users s + (if rp_registered s then 1 else 0)
      /\ 0 <= rp_users s
      /\ rp_cancelled s = (rp_refs s =? 0)).

Lemma rp_inv_init : rp_inv rpool_init.
Proof. split; cbn; intros; [auto | discriminate]. Qed.

(* every step moves refs and users together (grab +1/+1, create 2/1, done -1/-1) or gives up the
   registry's reference with its flag; with the flags fixed the invariant is linear arithmetic *)
Lemma rp_step_inv : forall s l s', rp_inv s -> rp_step s l = Some s' -> rp_inv s'.
Proof.
  intros [cr rg rf us cn] l s' [I0 I1] H. cbn in I0, I1.
  (* a registered or used pool is a created one, of which the second half of the invariant speaks *)
  assert (Hc : rg = true \/ 0 < us ->
               cr = true /\ rf = us + (if rg then 1 else 0) /\ 0 <= us /\ cn = (rf =? 0)).
  { destruct cr; [auto|]. destruct (I0 eq_refl) as [-> [-> _]]. intros [?|?]; [discriminate | lia]. }
  destruct l as [[| |]| |]; cbn in H.
  - (* GFast *) destruct rg; [|discriminate]. destruct (Hc (or_introl eq_refl)) as [-> [A [B C]]].
    inversion H; subst s'. split; cbn; intro; [discriminate | lia].
  - (* GRecheck *) destruct rg; [|discriminate]. destruct (Hc (or_introl eq_refl)) as [-> [A [B C]]].
    inversion H; subst s'. split; cbn; intro; [discriminate | lia].
  - (* GCreate *) destruct cr; [discriminate|]. inversion H; subst s'. split; cbn; intro; [discriminate | lia].
  - (* RDone *) destruct (Z.gtb_spec us 0) as [U|]; [|discriminate].
    destruct (Hc (or_intror U)) as [-> [A [B C]]].
    inversion H; subst s'. split; cbn; intro; [discriminate|]. destruct rg; lia.
  - (* RCloseIdle *) destruct rg; [|discriminate]. destruct (Hc (or_introl eq_refl)) as [-> [A [B C]]].
    inversion H; subst s'. split; cbn; intro; [discriminate | lia].
Qed.

Lemma rp_run_inv : forall ls s, rp_run rpool_init ls = Some s -> rp_inv s.
Proof.
  assert (G : forall ls s s', rp_inv s -> rp_run s ls = Some s' -> rp_inv s').
  { induction ls as [|l ls IH]; intros s s' I H; cbn [rp_run] in H; [inversion H; subst; assumption|].
    destruct (rp_step s l) as [s1|] eqn:E; [|discriminate].
    eapply IH; [eapply rp_step_inv|]; eassumption. }
  intros ls s. apply G. apply rp_inv_init.
Qed.

Lemma normalize_topic_parts_perm_fields : forall t p,
  In p (mt_parts (normalize_topic t)) -> In p (mt_parts t).
Proof. intros t p. apply Permutation_in, isort_perm. Qed.

Lemma cm_lookup_snoc : forall bs b id,
  cm_lookup (bs ++ [b]) id = if mb_id b =? id then b else cm_lookup bs id.
Proof. intros. unfold cm_lookup. rewrite fold_left_app. reflexivity. Qed.
