(* Proofs/SkeletonLifecycle.v — who closes a connection: the ownership assumptions of the lookup steps of
   Model/Lifecycle.v and of Model/TransportConnect.v hold of /repo's CURRENT source. *)
From Coq Require Import List String Bool.
From KV Require Import Model.DRF Model.SkeletonAssumptions Gen.Skeleton Proofs.SkeletonBase.
Import ListNotations.
Open Scope string_scope.

Lemma lifecycle_skeleton_ok : lifecycle_assumptions_hold calls accesses = true.
Proof. vm_compute. reflexivity. Qed.

Definition without (caller callee : string) : list call_fact :=
  filter (fun k => negb (String.eqb (k_caller k) caller && String.eqb (k_callee k) callee)) calls.

(* the checker discriminates: the lookup connection closed by the helper goroutine instead of the
   function; the connect helper releasing without closing *)
Lemma lifecycle_skeleton_rejects :
  lifecycle_assumptions_hold
    (mkCall "Dialer.LookupPartition$1" "Conn.Close" HDefer [] [] [] [] true "x" :: without "Dialer.LookupPartition" "Conn.Close") accesses = false /\
  lifecycle_assumptions_hold (without "connGroup.grabConnOrConnect$1" "conn.close") accesses = false.
Proof.
  repeat apply conj.
  - rejected_by 0. (* L1 *)
  - rejected_by 4. (* L2 *)
Qed.
