(* Proofs/SaslAddrConc.v — what a refused dial address (a port that is not a number) leaves
   reachable in Model/Sasl.v, and list-update facts for n set-ups over one Mechanism value. *)
From Coq Require Import List ZArith Bool.
From KV Require Import Model.Sasl Proofs.SaslProofs.
Import ListNotations.
Open Scope Z_scope.

Lemma update_length : forall A (l : list A) i x, length (update l i x) = length l.
Proof. induction l; intros [|i] x; cbn; auto. Qed.

Lemma Forall_update : forall A (P : A -> Prop) (l : list A) i x,
  Forall P l -> P x -> Forall P (update l i x).
Proof.
  induction l; intros [|i] x F Px; cbn; auto; inversion F; subst; constructor; auto.
Qed.

Section Addr.
  Variable mstate : Type.
  Variable mech_start : option (mstate * bytes).
  Variable mech_next : mstate -> bytes -> (bool * mstate * bytes * bool).
  Variable p : path.
  Variable a : advert.

  Local Notation stt := (state mstate).
  Local Notation stp := (step mstate mech_start mech_next p a).
  Local Notation reach := (reachable mstate mech_start mech_next p a).

  (* a service-name port: the phases that can be reached and what can have been written *)
  Definition early_phase (x : phase mstate) : Prop :=
    match x with PDialed | PApiSent | PFailed | PRefused => True | _ => False end.

  Lemma refused_inv : port_is_number (dial_addr a) = false ->
    forall s, reach s ->
      early_phase (ph s) /\
      (ph s = PApiSent -> p = Transport) /\
      (forall m, In (ESend m) (tr s) -> p = Transport /\ m = MReq K_ApiVersions 0).
  Proof.
    intros PN. induction 1 as [|s l s' R (IP & IT & IS) H].
    - cbn. repeat split; try discriminate; intros; tauto.
    - apply step_stepR in H. destruct H; cbn [ph tr fail early_phase];
        try (match goal with E : ph s = _ |- _ => rewrite E in IP; cbn in IP; contradiction end).
      + (* start *)
        assert (PT : p = Transport)
          by (unfold dialer_refuses in *; rewrite PN in *; destruct p; [discriminate|reflexivity]).
        split; [exact I|]. split; [intros _; exact PT|].
        intros m0 X. peel X; [injection X as <-; split; [exact PT|reflexivity] | apply IS; exact X].
      + (* refused *)
        split; [exact I|]. split; [discriminate|].
        intros m0 X. peel X. apply IS; exact X.
      + (* fail *)
        split; [exact I|]. split; [discriminate|].
        intros m0 X. peel X. apply IS; exact X.
      + (* handshake sent: impossible *)
        exfalso. match goal with E : ph s = PApiSent |- _ => specialize (IT E) end.
        match goal with T : transport_refuses p a = false |- _ =>
          unfold transport_refuses in T; rewrite IT, PN in T; discriminate T end.
  Qed.

  Lemma mstep_reach : forall ss i l ss', Forall reach ss ->
    mstep mstate mech_start mech_next p a ss i l = Some ss' ->
    length ss' = length ss /\ Forall reach ss'.
  Proof.
    intros ss i l ss' F H. unfold mstep in H.
    destruct (nth_error ss i) as [s|] eqn:N; [|discriminate H].
    destruct (stp s l) as [s'|] eqn:S; [|discriminate H]. injection H as <-.
    split; [apply update_length|]. apply Forall_update; [exact F|].
    eapply reach_step; [|exact S]. rewrite Forall_forall in F. apply F. eapply nth_error_In; eauto.
  Qed.
End Addr.
