(* Proofs/SaslProofs.v — invariants of the connection set-up transition systems of Model/Sasl.v *)
From Coq Require Import List ZArith Bool Lia.
From KV Require Import Model.Sasl.
Import ListNotations.
Open Scope Z_scope.

Lemma hs_range : forall p a, -1 <= hs_version p a <= 1.
Proof.
  intros p a. unfold hs_version, dialer_negotiate01, transport_select01, select_version.
  destruct p; destruct (hs_max a) as [v|];
    repeat match goal with |- context [if ?b then _ else _] => destruct b eqn:? end; lia.
Qed.

(* what C18_version_framing says about one written message *)
Definition vf_ok (p : path) (a : advert) (m : msg) : Prop :=
  (forall v, m = MReq K_SaslHandshake v -> v = hs_version p a /\ 0 <= v <= 1)
  /\ (authbytes_msg m = true -> (m = MRaw <-> hs_version p a = 0))
  /\ (forall v, m = MReq K_SaslAuthenticate v -> v = auth_version p a /\ hs_version p a = 1).

Lemma vf_api : forall p a, vf_ok p a (MReq K_ApiVersions 0).
Proof. intros p a. repeat split; intros; discriminate. Qed.

Lemma vf_hs : forall p a, (hs_version p a <? 0) = false ->
  vf_ok p a (MReq K_SaslHandshake (hs_version p a)).
Proof.
  intros p a H. apply Z.ltb_ge in H. pose proof (hs_range p a) as R.
  split; [|split].
  - intros v E. injection E as <-. split; [reflexivity|lia].
  - intros E. discriminate E.
  - intros v E. discriminate E.
Qed.

Lemma vf_auth : forall p a, 0 <= hs_version p a ->
  vf_ok p a (authbytes_of p a (framing_of p (hs_version p a))).
Proof.
  intros p a H. pose proof (hs_range p a) as R. unfold framing_of.
  assert (Hraw : hs_version p a = 0 -> vf_ok p a MRaw).
  { intros Z0. split; [|split]; intros; try discriminate. tauto. }
  assert (Hfr : hs_version p a = 1 ->
                vf_ok p a (MReq K_SaslAuthenticate (auth_version p a))).
  { intros Z1. split; [|split].
    - intros v E. discriminate E.
    - intros _. split; [intros E; discriminate E | lia].
    - intros v E. injection E as <-. split; [reflexivity|exact Z1]. }
  destruct p; match goal with |- context [if ?b then _ else _] => destruct b eqn:E end;
    cbn [authbytes_of]; (apply Z.eqb_eq in E || apply Z.eqb_neq in E);
    (apply Hraw || apply Hfr); lia.
Qed.

Lemma vf_use : forall p a k v, (k =? K_SaslHandshake) || (k =? K_SaslAuthenticate) = false ->
  vf_ok p a (MReq k v).
Proof.
  intros p a k v H. apply orb_false_iff in H. destruct H as [H1 H2].
  apply Z.eqb_neq in H1, H2.
  split; [|split].
  - intros v0 E. injection E as E1 E2. contradiction.
  - cbn [authbytes_msg]. intros E. apply Z.eqb_eq in E. contradiction.
  - intros v0 E. injection E as E1 E2. contradiction.
Qed.

Lemma auth_msg_authbytes : forall p a f, auth_msg (authbytes_of p a f) = true.
Proof. intros p a f. destruct f; reflexivity. Qed.

(* the "nothing before the verdict" shape of a newest-first trace *)
Fixpoint guarded (t : list event) : Prop :=
  match t with
  | [] => True
  | ESend m :: t' => (auth_msg m = true \/ In EVerdict t') /\ guarded t'
  | _ :: t' => guarded t'
  end.

Lemma guarded_rev : forall t l1 m l2, guarded t -> rev t = l1 ++ ESend m :: l2 ->
  auth_msg m = false -> In EVerdict l1.
Proof.
  intros t l1 m l2 G T F. apply (f_equal (@rev event)) in T.
  rewrite rev_involutive, rev_app_distr in T. cbn [rev] in T. rewrite <- app_assoc in T.
  rewrite T in G. apply in_rev. clear T. induction (rev l2) as [|e l IH].
  - cbn in G. destruct G as [[G|G] _]; [congruence|exact G].
  - apply IH. destruct e; cbn in G; tauto.
Qed.

(* splits X : In e (e1 :: ... :: en :: t) into the ei that e can be and In e t *)
Ltac peel X := repeat (destruct X as [X|X]; [try discriminate X|]).

Section Machine.
  Variable mstate : Type.
  Variable mech_start : option (mstate * bytes).
  Variable mech_next : mstate -> bytes -> (bool * mstate * bytes * bool).
  Variable p : path.
  Variable a : advert.

  Local Notation stt := (state mstate).
  Local Notation stp := (step mstate mech_start mech_next p a).
  Local Notation reach := (reachable mstate mech_start mech_next p a).
  Local Notation onch := (on_challenge mstate mech_next p a).
  Local Notation failst := (fail mstate).
  Local Notation abytes := (authbytes_of p a).

  (* a request of the set-up is in flight / the verdict has been reached *)
  Definition pre (x : phase mstate) : Prop :=
    match x with PApiSent | PHsSent _ | PAuth _ _ _ _ => True | _ => False end.
  Definition post (x : phase mstate) : Prop :=
    match x with PAccepted | PHandedOut | PUserClosed => True | _ => False end.

  (* a sound over-approximation of [step]: in [SR_next] / [SR_acc] the mechanism's new state,
     response and [done] flag are left free; only [step -> stepR] is proved *)
  Inductive stepR (s : stt) : label -> stt -> Prop :=
  | SR_start : ph s = PDialed -> dialer_refuses p a = false ->
      stepR s LStart (mkState PApiSent (ESend (MReq K_ApiVersions 0) :: tr s))
  | SR_refused : ph s = PDialed -> dialer_refuses p a = true ->
      stepR s LDialRefused (mkState PRefused (ERefused :: tr s))
  | SR_fail r : pre (ph s) -> stepR s (LBroker r) (failst s r)
  | SR_hs pl : ph s = PApiSent -> (hs_version p a <? 0) = false -> transport_refuses p a = false ->
      stepR s (LBroker (ROk pl))
        (mkState (PHsSent (hs_version p a))
           (ESend (MReq K_SaslHandshake (hs_version p a)) :: ERecv (ROk pl) :: tr s))
  | SR_auth0 pl v ms out : ph s = PHsSent v -> mech_start = Some (ms, out) ->
      stepR s (LBroker (ROk pl))
        (mkState (PAuth (framing_of p v) O ms out)
           (ESend (abytes (framing_of p v)) :: ERecv (ROk pl) :: tr s))
  | SR_next r ch f i ms out ms' resp : ph s = PAuth f i ms out ->
      r = ROk ch -> snd (mech_next ms ch) = true ->
      stepR s (LBroker r)
        (mkState (PAuth f (S i) ms' resp) (ESend (abytes f) :: ERecv r :: tr s))
  | SR_acc r ch f i ms out : ph s = PAuth f i ms out ->
      r = ROk ch -> snd (mech_next ms ch) = true ->
      stepR s (LBroker r) (mkState PAccepted (EVerdict :: ERecv r :: tr s))
  | SR_ret : ph s = PAccepted -> stepR s LReturn (mkState PHandedOut (EHandOut :: tr s))
  | SR_use k v : ph s = PHandedOut ->
      (k =? K_SaslHandshake) || (k =? K_SaslAuthenticate) = false ->
      stepR s (LUse k v) (mkState PHandedOut (ESend (MReq k v) :: tr s))
  | SR_close : ph s = PHandedOut ->
      stepR s LUserClose (mkState PUserClosed (EClose :: tr s)).

  Lemma onch_stepR : forall s f i ms out r ch, ph s = PAuth f i ms out ->
    r = ROk ch -> stepR s (LBroker r) (onch s f i ms r ch).
  Proof.
    intros s f i ms out r ch E Hr. unfold on_challenge.
    destruct (mech_next ms ch) as [[[d ms'] resp] ok] eqn:N.
    assert (snd (mech_next ms ch) = ok) by (rewrite N; reflexivity).
    destruct ok.
    - destruct d; [eapply SR_acc | eapply SR_next]; eauto.
    - destruct d; apply SR_fail; rewrite E; exact I.
  Qed.

  Lemma step_stepR : forall s l s', stp s l = Some s' -> stepR s l s'.
  Proof.
    intros s l s' H. unfold step in H.
    destruct (ph s) eqn:E; destruct l as [| |r| |k ver|]; try discriminate H;
      try destruct r as [pl|c| | |]; cbv zeta in H;
      repeat match type of H with
      | context [if ?b then _ else _] => destruct b eqn:?
      | context [match ?x with _ => _ end] => destruct x eqn:?
      end; try discriminate H; injection H as <-;
      try (apply SR_fail; rewrite E; exact I);
      try solve [apply SR_start; assumption | apply SR_refused; assumption
                | eapply SR_auth0; eassumption | apply SR_ret; assumption
                | apply SR_use; assumption | apply SR_close; assumption].
    - match goal with E : _ || _ = false |- _ => apply orb_false_iff in E; apply SR_hs; tauto end.
    - eapply onch_stepR; eauto.
  Qed.

  Lemma pre_not_post : forall x, pre x -> ~ post x.
  Proof. intros x; destruct x; cbn; tauto. Qed.

  Lemma guarded_inv : forall s, reach s ->
    guarded (tr s) /\ (post (ph s) -> In EVerdict (tr s)).
  Proof.
    induction 1 as [|s l s' R [G V] H].
    - cbn. tauto.
    - apply step_stepR in H. destruct H; cbn [tr ph fail guarded post];
        try (assert (In EVerdict (tr s))
               by (apply V; match goal with E : ph s = _ |- _ => rewrite E; exact I end));
        try rewrite auth_msg_authbytes; cbn [In]; try tauto.
  Qed.

  Lemma early_inv : forall s, reach s -> ~ post (ph s) ->
    ~ In EHandOut (tr s) /\ ~ In EVerdict (tr s).
  Proof.
    induction 1 as [|s l s' R IH H].
    - cbn. tauto.
    - apply step_stepR in H. destruct H; cbn [tr ph fail post In]; intros NP;
        try (exfalso; apply NP; exact I);
        (assert (NP' : ~ post (ph s))
           by (match goal with
               | E : ph s = _ |- _ => rewrite E; cbn; tauto
               | Hp : pre (ph s) |- _ => exact (pre_not_post _ Hp)
               end));
        destruct (IH NP') as [A B]; split; intros X; peel X; tauto.
  Qed.

  Lemma failing_step : forall (s s' : stt) r,
    stp s (LBroker r) = Some s' -> failing mstate mech_start mech_next p a s r ->
    pre (ph s) /\ s' = failst s r.
  Proof.
    intros s s' r H F.
    apply step_stepR in H. remember (LBroker r) as l eqn:L. unfold failing in F.
    destruct H as [E D0 | E D0 | r0 P | pl E V T | pl v ms out E M
                  | r0 ch f i ms out ms' resp E D N | r0 ch f i ms out E D N
                  | E | k v E G | E];
      try discriminate L; injection L as <-; cbv beta iota in F.
    - auto.
    - rewrite E in F. destruct F as [F|F]; [apply Z.ltb_ge in V; lia | congruence].
    - rewrite E in F. congruence.
    - subst r0. cbv beta iota in F. rewrite E in F. congruence.
    - subst r0. cbv beta iota in F. rewrite E in F. congruence.
  Qed.

  (* how C18 describes a failed dial *)
  Definition dial_failed (s : stt) (r : reaction) (s' : stt) : Prop :=
    ph s' = PFailed /\ tr s' = EClose :: ERecv r :: tr s
    /\ ~ In EHandOut (tr s') /\ ~ In EVerdict (tr s')
    /\ (forall l, stp s' l = None).

  Lemma fail_final : forall (s : stt) r, reach s -> pre (ph s) -> dial_failed s r (failst s r).
  Proof.
    intros s r R P. destruct (early_inv s R (pre_not_post _ P)) as [A B].
    unfold dial_failed. cbn [ph tr fail]. repeat split.
    - intros X. peel X. tauto.
    - intros X. peel X. tauto.
  Qed.

  Lemma version_inv : forall s, reach s ->
    (forall m, In (ESend m) (tr s) -> vf_ok p a m)
    /\ (forall v, ph s = PHsSent v -> v = hs_version p a /\ 0 <= v)
    /\ (forall f i ms out, ph s = PAuth f i ms out ->
          f = framing_of p (hs_version p a) /\ 0 <= hs_version p a).
  Proof.
    induction 1 as [|s l s' R (IM & IH & IA) H].
    - cbn. repeat split; intros; try discriminate; tauto.
    - apply step_stepR in H. destruct H; cbn [tr ph fail];
        (split; [intros m0 X; peel X; try (apply IM; exact X); injection X as <-
                | split; intros; try discriminate]).
      + (* start: ApiVersions *) apply vf_api.
      + (* the handshake request *) apply vf_hs; assumption.
      + (* ... and its phase *)
        match goal with Q : PHsSent _ = PHsSent _ |- _ => injection Q as <- end.
        split; [reflexivity|]. apply Z.ltb_ge. assumption.
      + (* the first authentication bytes *) destruct (IH v H) as [-> Z0]. apply vf_auth; exact Z0.
      + match goal with Q : PAuth _ _ _ _ = PAuth _ _ _ _ |- _ => injection Q as <- _ _ _ end.
        destruct (IH v H) as [-> Z0]. split; [reflexivity|exact Z0].
      + (* the next authentication bytes *) destruct (IA _ _ _ _ H) as [-> Z0]. apply vf_auth; exact Z0.
      + match goal with Q : PAuth _ _ _ _ = PAuth _ _ _ _ |- _ => injection Q as <- _ _ _ end.
        exact (IA _ _ _ _ H).
      + (* a request of the owner *) apply vf_use; assumption.
  Qed.

End Machine.

Section Run.
  Variable mstate : Type.
  Variable mech_start : option (mstate * bytes).
  Variable mech_next : mstate -> bytes -> (bool * mstate * bytes * bool).
  Variable p : path.
  Variable a : advert.
  Variable sstate : Type.
  Variable srv_next : sstate -> bytes -> sreply sstate.

  Local Notation stt := (state mstate).
  Local Notation stp := (step mstate mech_start mech_next p a).
  Local Notation reach := (reachable mstate mech_start mech_next p a).
  Local Notation drv := (drive mstate mech_start mech_next p a sstate srv_next).
  Local Notation crn := (corun mstate mech_next sstate srv_next).

  Lemma drive_reachable : forall n fault k (s : stt) ss, reach s -> reach (drv n fault k s ss).
  Proof.
    induction n as [|n IH]; intros fault k s ss R; cbn [drive]; [exact R|].
    destruct (ph s); try exact R;
      try (destruct (srv_reply sstate srv_next ss out) as [[ss' pl]|]);
      match goal with
      | |- context [match Sasl.step _ _ _ _ _ ?s0 ?l with _ => _ end] =>
          destruct (Sasl.step mstate mech_start mech_next p a s0 l) eqn:St
      end; try exact R; try (apply IH; eapply reach_step; eauto).
    destruct (Sasl.step mstate mech_start mech_next p a s LDialRefused) eqn:St2; [|exact R].
    eapply reach_step; eauto.
  Qed.

  Lemma first_use_reachable : forall (s : stt) k v,
    reach s -> reach (first_use mstate mech_start mech_next p a s k v).
  Proof.
    intros s k v R. unfold first_use.
    destruct (stp s (LUse k v)) as [s1|] eqn:E1; [|exact R].
    assert (R1 : reach s1) by (eapply reach_step; eauto).
    destruct (stp s1 LUserClose) as [s2|] eqn:E2; [|exact R1].
    eapply reach_step; eauto.
  Qed.

  Lemma drive_stuck : forall n fault k (s : stt) ss,
    ph s = PFailed \/ ph s = PHandedOut \/ ph s = PUserClosed ->
    drv n fault k s ss = s.
  Proof.
    intros n fault k s ss H. destruct n; cbn [drive]; [reflexivity|].
    destruct H as [H|[H|H]]; rewrite H; reflexivity.
  Qed.

  Lemma drive_accepted : forall n fault k (s : stt) ss,
    accepted_or_out s = true -> accepted_or_out (drv n fault k s ss) = true.
  Proof.
    intros n fault k s ss H. destruct n; cbn [drive]; [exact H|].
    unfold accepted_or_out in H. destruct (ph s) eqn:E; try discriminate H.
    - unfold step. rewrite E. rewrite drive_stuck; [reflexivity|cbn; tauto].
    - unfold accepted_or_out. rewrite E. reflexivity.
    - unfold accepted_or_out. rewrite E. reflexivity.
  Qed.

  Lemma drive_corun : forall n (s : stt) ss k f i ms out, ph s = PAuth f i ms out ->
    accepted_or_out (drv n None k s ss) = crn n ms ss out.
  Proof.
    induction n as [|n IH]; intros s ss k f i ms out E.
    - cbn [drive corun]. unfold accepted_or_out. rewrite E. reflexivity.
    - cbn [drive corun]. rewrite E.
      destruct (srv_reply sstate srv_next ss out) as [[ss' pl]|].
      + cbn [pick]. unfold step. rewrite E. unfold on_challenge.
        destruct (mech_next ms pl) as [[[d ms'] resp] ok]. destruct d, ok.
        * apply drive_accepted. reflexivity.
        * rewrite drive_stuck; [reflexivity|cbn; tauto].
        * eapply IH. reflexivity.
        * rewrite drive_stuck; [reflexivity|cbn; tauto].
      + cbn [pick]. unfold step. rewrite E.
        destruct f; cbn; (rewrite drive_stuck; [reflexivity|cbn; tauto]).
  Qed.

End Run.
