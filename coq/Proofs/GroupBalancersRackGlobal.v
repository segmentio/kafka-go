(* Proofs/GroupBalancersRackGlobal.v — RackAffinityGroupBalancer.AssignGroups *)
From Coq Require Import List NArith ZArith Bool Arith Lia Permutation.
From KV Require Import Model.GroupBalancers Proofs.GroupBalancersBase Proofs.GroupBalancersRange
  Proofs.GroupBalancersRackBase Proofs.GroupBalancersRack.
Import ListNotations.

(* the two Go map ranges of assignTopic visit every zone of the topic once, in any order *)
Definition rack_orders_ok (zo ro : bytes -> list bytes) (ps : list partition) : Prop :=
  forall t, Permutation (zo t) (zones_of (aget t (partitions_by_topic ps))) /\
            Permutation (ro t) (zones_of (aget t (partitions_by_topic ps))).

(* assignTopic in the shape [lift] takes, a panic counted as no entries *)
Definition rack_G (zo ro : bytes -> list bytes) (pbt : amap partition) (t : bytes)
  (mems : list member) : list triple :=
  match rack_assign_topic (zo t) (ro t) mems (aget t pbt) with
  | Some r => map (fun e => (fst e, t, snd e)) r
  | None => []
  end.

Lemma rack_G_topic zo ro pbt t mems tr : In tr (rack_G zo ro pbt t mems) -> snd (fst tr) = t.
Proof.
  unfold rack_G. destruct (rack_assign_topic _ _ _ _); [|intros []].
  intros H. apply in_map_iff in H. destruct H as [e [<- _]]. reflexivity.
Qed.
Lemma rack_G_nil zo ro pbt t : rack_G zo ro pbt t [] = [].
Proof. reflexivity. Qed.

Lemma rack_topics_lift zo ro pbt mbt :
  (forall t mems, In (t, mems) mbt ->
     exists r, rack_assign_topic (zo t) (ro t) mems (aget t pbt) = Some r) ->
  rack_topics zo ro pbt mbt = Some (lift (rack_G zo ro pbt) mbt).
Proof.
  induction mbt as [|[t mems] rest IH]; intros H; [reflexivity|].
  cbn [rack_topics lift flat_map fst snd]. fold (lift (rack_G zo ro pbt) rest).
  destruct (H t mems (or_introl eq_refl)) as [r E].
  unfold rack_G at 1. rewrite E. rewrite IH; [reflexivity|].
  intros t' mems' Hin. apply H. right. exact Hin.
Qed.

Lemma assigned_of_amap (r : amap Z) (t id : bytes) : NoDup (akeys r) ->
  assigned (map (fun e => (fst e, t, snd e)) r) id t = aget id r.
Proof.
  unfold akeys. induction r as [|[k l] r IH]; intros Hnd; [reflexivity|].
  cbn [map fst snd] in *. apply NoDup_cons_iff in Hnd. destruct Hnd as [Hk Hnd].
  rewrite assigned_cons. cbn [fst snd aget]. rewrite bytes_eqb_refl, andb_true_r.
  rewrite (bytes_eqb_sym id k).
  destruct (bytes_eqb_spec k id) as [->|Hne].
  - rewrite assigned_notin; [apply app_nil_r|].
    intros tr Htr E. apply in_map_iff in Htr. destruct Htr as [e [<- He]]. cbn [fst] in E.
    apply Hk. rewrite <- E. apply in_map. exact He.
  - cbn [app]. apply IH. exact Hnd.
Qed.

Lemma concat_snd_of_amap (r : amap Z) (t : bytes) :
  concat (map snd (map (fun e => (fst e, t, snd e)) r)) = avalues r.
Proof. unfold avalues. rewrite map_map. reflexivity. Qed.

Section RackGlobal.
Variables (zo ro : bytes -> list bytes) (ms : list member) (ps : list partition).
Hypothesis Hwf : wf_group ms.
Hypothesis Hord : rack_orders_ok zo ro ps.

Let pbt := partitions_by_topic ps.
Let mbt := group_by_topic ms.

Lemma mbt_bucket t : bucket ms t (aget t mbt).
Proof. unfold mbt, bucket. rewrite aget_group_by_topic by exact Hwf. reflexivity. Qed.

Lemma rack_G_spec t mems : bucket ms t mems -> mems <> [] ->
  exists r, rack_G zo ro pbt t mems = map (fun e => (fst e, t, snd e)) r /\
    rack_assign_topic (zo t) (ro t) mems (aget t pbt) = Some r /\
    topic_assigned mems (aget t pbt) r.
Proof.
  intros Hb Hne. destruct (Hord t) as [H1 H2].
  destruct (rack_topic_ok (zo t) (ro t) mems (aget t pbt) Hne
              (bucket_ids_nd ms t mems (proj1 Hwf) Hb) H1 H2) as [r [E HA]].
  exists r. unfold rack_G. rewrite E. auto.
Qed.

Lemma rack_assign_some : rack_assign zo ro ms ps = Some (lift (rack_G zo ro pbt) mbt).
Proof.
  unfold rack_assign. apply rack_topics_lift. intros t mems Hin.
  rewrite <- (aget_in t mems mbt (NoDup_akeys_group_by_topic ms) Hin).
  destruct (rack_G_spec t _ (mbt_bucket t)) as [r [_ [E _]]]; [|exists r; exact E].
  (* a topic is a key only if somebody subscribes to it *)
  apply (in_map fst), akeys_group_by_topic in Hin. destruct Hin as [m Hm]. intros E.
  assert (Hf : In m (aget t mbt))
    by (apply (Permutation_in _ (Permutation_sym (mbt_bucket t))), filter_In; rewrite subscribes_iff; exact Hm).
  rewrite E in Hf. exact Hf.
Qed.

Lemma rack_lift_partition : exact_partition ms ps (lift (rack_G zo ro pbt) mbt).
Proof.
  apply (lift_exact_partition _ (rack_G_topic zo ro pbt) (rack_G_nil zo ro pbt));
    [apply NoDup_akeys_group_by_topic|exact mbt_bucket| | |].
  - intros t mems Hb. destruct mems as [|m0 l]; [constructor|].
    destruct (rack_G_spec t _ Hb) as [r [-> [_ [Hnd _]]]]; [discriminate|].
    unfold tkeys. rewrite map_map. apply NoDup_map_pair, Hnd.
  - intros t mems tr Hb Htr. destruct mems as [|m0 l]; [destruct Htr|].
    destruct (rack_G_spec t _ Hb) as [r [E [_ [_ [Hinc _]]]]]; [discriminate|].
    rewrite E in Htr. apply in_map_iff in Htr. destruct Htr as [e [<- He]]. cbn [fst].
    apply Hinc, (in_map fst), He.
  - intros t mems Hb Hne. destruct (rack_G_spec t _ Hb Hne) as [r [-> [_ [_ [_ [Hp _]]]]]].
    rewrite concat_snd_of_amap, Hp. unfold pbt. rewrite aget_partitions_by_topic. reflexivity.
Qed.

Lemma rack_lift_even : even_loads ms ps (lift (rack_G zo ro pbt) mbt).
Proof.
  apply (lift_even_loads _ (rack_G_topic zo ro pbt) (rack_G_nil zo ro pbt));
    [apply NoDup_akeys_group_by_topic|exact mbt_bucket|].
  intros t mems m Hb Hm P.
  destruct (rack_G_spec t _ Hb) as [r [-> [_ [Hnd [_ [_ [Hlen _]]]]]]]; [intros ->; exact Hm|].
  rewrite assigned_of_amap by exact Hnd. specialize (Hlen _ (in_map m_id _ _ Hm)).
  unfold pbt in Hlen. rewrite aget_partitions_by_topic in Hlen.
  unfold P, find_partitions. rewrite map_length. exact Hlen.
Qed.

Lemma rack_lift_affinity t z : existsb (subscribes t) ms = true ->
  let mems := filter (subscribes t) ms in
  let parts := filter (fun p => bytes_eqb (p_topic p) t) ps in
  let cs := map m_id (filter (fun m => bytes_eqb (m_userdata m) z) mems) in
  let pz := map p_id (filter (fun p => bytes_eqb (p_rack p) z) parts) in
  let T := length parts / length mems in
  let got := flat_map (fun c => assigned (lift (rack_G zo ro pbt) mbt) c t) cs in
  (exists n other, Nat.min (length pz) (length cs * T) <= n /\
                   Permutation got (firstn n pz ++ other)) /\
  Nat.min (length pz) (length cs * T) <= length (filter (fun x => existsb (Z.eqb x) pz) got).
Proof.
  intros Es mems parts cs pz T got.
  assert (Hne : mems <> []) by (unfold mems; rewrite existsb_filter in Es; destruct (filter _ ms); congruence).
  destruct (rack_G_spec t mems (Permutation_refl _) Hne) as [r [E [_ [Hnd [_ [_ [_ Ha]]]]]]].
  destruct (Ha z) as [n [other [Hn Hp]]]. unfold held in Hp.
  rewrite cs_of_eq in Hn, Hp. rewrite aget_zoned_partitions in Hn, Hp.
  unfold pbt in Hn, Hp. rewrite aget_partitions_by_topic in Hn, Hp.
  fold mems parts cs pz T in Hn, Hp.
  assert (Hgot : got = flat_map (fun c => aget c r) cs).
  { unfold got. apply flat_map_ext_in. intros c _.
    rewrite (assigned_lift _ (rack_G_topic zo ro pbt) (rack_G_nil zo ro pbt))
      by apply NoDup_akeys_group_by_topic.
    unfold mbt. rewrite aget_group_by_topic by exact Hwf. fold mems. rewrite E.
    apply assigned_of_amap, Hnd. }
  rewrite <- Hgot in Hp.
  split; [exists n, other; split; assumption|].
  rewrite (Permutation_length (filter_perm _ _ _ Hp)), filter_app, app_length.
  rewrite (filter_all _ (firstn n pz)); [rewrite firstn_length; lia|].
  intros x Hx. apply existsb_exists. exists x. split; [eapply firstn_In_incl; exact Hx|apply Z.eqb_refl].
Qed.
End RackGlobal.

Lemma rack_no_panic zo ro ms ps : wf_group ms -> rack_orders_ok zo ro ps ->
  exists a, rack_assign zo ro ms ps = Some a.
Proof. intros H1 H2. eexists. apply rack_assign_some; assumption. Qed.

Lemma rack_partition zo ro ms ps a : wf_group ms -> rack_orders_ok zo ro ps ->
  rack_assign zo ro ms ps = Some a -> exact_partition ms ps a.
Proof.
  intros H1 H2 E. rewrite (rack_assign_some zo ro ms ps H1 H2) in E. inversion E; subst.
  apply rack_lift_partition; assumption.
Qed.

Lemma rack_even zo ro ms ps a : wf_group ms -> rack_orders_ok zo ro ps ->
  rack_assign zo ro ms ps = Some a -> even_loads ms ps a.
Proof.
  intros H1 H2 E. rewrite (rack_assign_some zo ro ms ps H1 H2) in E. inversion E; subst.
  apply rack_lift_even; assumption.
Qed.

Lemma rack_orders_canonical ps :
  rack_orders_ok (fun t => zones_of (aget t (partitions_by_topic ps)))
                 (fun t => rev (zones_of (aget t (partitions_by_topic ps)))) ps.
Proof. intros t. split; [reflexivity|apply Permutation_sym, Permutation_rev]. Qed.
