(* Proofs/SchemaEqns.v — names for the local fixpoints inside encode/decode, with their
   unfolding equations, and the equations of the decoder's loops. *)
From Coq Require Import List NArith ZArith Bool Lia.
From KV Require Import Lib.Bits Lib.Bytes Lib.Varint Model.Schema Proofs.SchemaBase Proofs.SchemaDefs.
Import ListNotations.

Definition enc_list (E : value -> option (list N)) : list value -> option (list N) :=
  fix go (l : list value) : option (list N) :=
    match l with
    | [] => Some []
    | x :: r => match E x, go r with
                | Some bx, Some br => Some (bx ++ br)
                | _, _ => None
                end
    end.

Definition enc_fields (E : ty -> value -> option (list N)) : list ty -> list value -> option (list N) :=
  fix go (tl : list ty) (vl : list value) : option (list N) :=
    match tl, vl with
    | [], [] => Some []
    | ft :: tr, fv :: vr =>
        match E ft fv, go tr vr with
        | Some bx, Some br => Some (bx ++ br)
        | _, _ => None
        end
    | _, _ => None
    end.

Definition enc_tags (E : ty -> value -> option (list N)) : list (Z * ty) -> list value -> option (N * list N) :=
  fix go (tl : list (Z * ty)) (vl : list value) : option (N * list N) :=
    match tl, vl with
    | [], [] => Some (0%N, [])
    | (id, ft) :: tr, fv :: vr =>
        match go tr vr with
        | None => None
        | Some (cnt, br) =>
          if is_marker ft then Some (cnt, br)
          else match E ft fv with
               | None => None
               | Some bx =>
                 Some ((cnt + 1)%N,
                       put_uvarint (u64 id) ++ put_uvarint (N.of_nat (length bx)) ++ bx ++ br)
               end
        end
    | _, _ => None
    end.

Lemma encode_array_eq flex nullable esize elem a pad :
  encode flex (TArray nullable esize elem) (VArray a pad) =
  if negb (pad =? 0)%N then None else
  let es := match a with None => [] | Some l => l end in
  match enc_list (encode flex elem) es with
  | None => None
  | Some bb =>
    if flex then
      if nullable && (match a with None => true | _ => false end) then Some (put_uvarint 0)
      else Some (put_uvarint (N.of_nat (length es) + 1) ++ bb)
    else
      if nullable && (match a with None => true | _ => false end) then Some (enc_i32 (-1))
      else Some (enc_i32 (lenZ es) ++ bb)
  end.
Proof. reflexivity. Qed.

Lemma encode_struct_eq flex fields tagged fs ts :
  encode flex (TStruct fields tagged) (VStruct fs ts) =
  match enc_fields (encode flex) fields fs, enc_tags (encode flex) tagged ts with
  | Some br, Some (cnt, bt) => if flex then Some (br ++ put_uvarint cnt ++ bt) else Some br
  | _, _ => None
  end.
Proof. reflexivity. Qed.

(* count then body: compact (count + 1 as a varint, 0 for null) when flexible, else an int of
   w bytes (-1 for null) *)
Definition prefixed (flex : bool) (w : nat) (null : bool) (n : nat) (body : list N) : list N :=
  if flex then if null then put_uvarint 0 else put_uvarint (N.of_nat n + 1) ++ body
  else if null then put_bes w (-1) else put_bes w (Z.of_nat n) ++ body.

Lemma encode_string_eq flex nullable s :
  encode flex (TString nullable) (VString s) = Some (prefixed flex 2 (nullable && is_nil s) (length s) s).
Proof. unfold prefixed. cbn [encode]. destruct flex, (nullable && is_nil s) eqn:E; unfold is_nil in E; rewrite E; reflexivity. Qed.

Lemma encode_bytes_eq flex nullable b :
  let l := match b with None => [] | Some l => l end in
  encode flex (TBytes nullable) (VBytes b) = Some (prefixed flex 4 (nullable && is_none b) (length l) l).
Proof. unfold prefixed. cbn [encode]. destruct flex, (nullable && is_none b) eqn:E; unfold is_none in E; rewrite E; reflexivity. Qed.

Lemma encode_array_prefixed flex nullable esize elem a :
  let es := match a with None => [] | Some l => l end in
  encode flex (TArray nullable esize elem) (VArray a 0) =
  match enc_list (encode flex elem) es with
  | None => None
  | Some bb => Some (prefixed flex 4 (nullable && is_none a) (length es) bb)
  end.
Proof.
  rewrite encode_array_eq. cbv zeta. change (negb (0 =? 0)%N) with false. cbv iota.
  destruct (enc_list _ _); [|reflexivity]. unfold prefixed.
  destruct flex, (nullable && is_none a) eqn:E; unfold is_none in E; rewrite E; reflexivity.
Qed.

Definition dec_fields (D : ty -> dstate -> res value) : list ty -> dstate -> res (list value) :=
  fix go (tl : list ty) (s : dstate) : res (list value) :=
    match tl with
    | [] => Ok [] s
    | ft :: tr => bind (D ft s) (fun v s => bind (go tr s) (fun vs s => Ok (v :: vs) s))
    end.

Definition zeros_of : list (Z * ty) -> list value :=
  fix go (l : list (Z * ty)) : list value :=
    match l with [] => [] | (_, x) :: r => zero x :: go r end.

Definition dec_tag_from (D : ty -> dstate -> res value) (id : Z) (s : dstate)
  : list (Z * ty) -> nat -> option (nat * res value) :=
  fix go (l : list (Z * ty)) (i : nat) : option (nat * res value) :=
    match l with
    | [] => None
    | (k, ft) :: r =>
        match go r (S i) with
        | Some x => Some x
        | None => if (k =? id)%Z then Some (i, D ft s) else None
        end
    end.

Lemma dec_tag_none D id s : forall l i, ~ In id (map fst l) -> dec_tag_from D id s l i = None.
Proof.
  induction l as [|[k ft] r IH]; intros i Hn; cbn [dec_tag_from]; [reflexivity|].
  cbn [map fst In] in Hn. rewrite IH by tauto.
  destruct (Z.eqb_spec k id); [exfalso; apply Hn; left; assumption|reflexivity].
Qed.

Lemma dec_tag_found D id s ft post : ~ In id (map fst post) ->
  forall pre i, dec_tag_from D id s (pre ++ (id, ft) :: post) i = Some ((i + length pre)%nat, D ft s).
Proof.
  intros Hn. induction pre as [|[k a] r IH]; intros i.
  - cbn [app dec_tag_from length]. rewrite dec_tag_none by exact Hn.
    rewrite Z.eqb_refl. f_equal. f_equal. lia.
  - cbn [app dec_tag_from length]. rewrite IH. f_equal. f_equal. lia.
Qed.

Lemma dec_tag_from_in (D : ty -> dstate -> res value) id s : forall l i j r,
  dec_tag_from D id s l i = Some (j, r) -> exists p, In p l /\ r = D (snd p) s.
Proof.
  induction l as [|[k ft] l IH]; intros i j r H; cbn [dec_tag_from] in H; [discriminate|].
  destruct (dec_tag_from D id s l (S i)) as [[j' r']|] eqn:E.
  - injection H as <- <-. destruct (IH _ _ _ E) as [p [Hp Hr]]. exists p. split; [right; exact Hp|exact Hr].
  - destruct (Z.eqb k id); [|discriminate]. injection H as <- <-.
    exists (k, ft). split; [left; reflexivity|reflexivity].
Qed.

(* for i := 0; i < n && d.err == nil; i++ { x = step(x) }: the tag loops of a struct, a marker
   and a message header.  The fuel stands for the unread input: a turn that returns Ok consumed
   a byte. *)
Definition counted_loop {X A} (step : X -> dstate -> res X) (fin : X -> A)
  : list N -> Z -> X -> dstate -> res A :=
  fix loop (fuel : list N) (n : Z) (x : X) (s : dstate) {struct fuel} : res A :=
    if (n <=? 0)%Z then Ok (fin x) s
    else match fuel with
         | [] => OutOfFuel
         | _ :: fuel' =>
           match step x s with
           | Ok x' s' => loop fuel' (n - 1)%Z x' s'
           | Err e ra al => Err e ra al
           | Panic => Panic | Oom => Oom | OutOfFuel => OutOfFuel
           end
         end.

Lemma counted_loop_done {X A} (step : X -> dstate -> res X) (fin : X -> A) fuel n x s :
  (n <= 0)%Z -> counted_loop step fin fuel n x s = Ok (fin x) s.
Proof. intros H. apply Z.leb_le in H. destruct fuel; cbn [counted_loop]; rewrite H; reflexivity. Qed.

Lemma counted_loop_step {X A} (step : X -> dstate -> res X) (fin : X -> A) f0 fuel n x s :
  (0 < n)%Z ->
  counted_loop step fin (f0 :: fuel) n x s =
  bind (step x s) (fun x' s' => counted_loop step fin fuel (n - 1) x' s').
Proof.
  intros H. apply Z.leb_gt in H. cbn [counted_loop]. rewrite H. destruct (step x s); reflexivity.
Qed.

Fixpoint steps {X} (step : X -> dstate -> res X) (n : nat) (x : X) (s : dstate) {struct n} : res X :=
  match n with
  | O => Ok x s
  | S n' => bind (step x s) (steps step n')
  end.

Lemma steps_add {X} (step : X -> dstate -> res X) n1 n2 : forall x s,
  steps step (n1 + n2) x s = bind (steps step n1 x s) (steps step n2).
Proof.
  induction n1 as [|n1 IH]; intros x s; cbn [steps Nat.add bind]; [reflexivity|].
  destruct (step x s); cbn [bind]; [apply IH|reflexivity..].
Qed.

Lemma counted_loop_steps {X A} (step : X -> dstate -> res X) (fin : X -> A) : forall n fuel x s,
  (n <= length fuel)%nat ->
  counted_loop step fin fuel (Z.of_nat n) x s = bind (steps step n x s) (fun x' s' => Ok (fin x') s').
Proof.
  induction n as [|n IH]; intros fuel x s Hf.
  - apply counted_loop_done. reflexivity.
  - destruct fuel as [|f0 fuel]; [cbn [length] in Hf; lia|]. cbn [length] in Hf.
    rewrite counted_loop_step by lia. cbn [steps].
    replace (Z.of_nat (S n) - 1)%Z with (Z.of_nat n) by lia.
    destruct (step x s); cbn [bind]; [apply IH; lia|reflexivity..].
Qed.

Definition tag_step (c : cfg) (D : ty -> dstate -> res value) (tagged : list (Z * ty))
  (ts : list value) (s : dstate) : res (list value) :=
  bind (read_uvarint s) (fun tagid s =>
  bind (read_uvarint s) (fun size s =>
    match dec_tag_from D (int_of_u64 tagid) s tagged O with
    | Some (i, r) => bind r (fun v s => Ok (set_nth ts i v) s)
    | None => bind (read_alloc c (int_of_u64 size) s) (fun _ s => Ok ts s)
    end)).

Definition tag_loop (c : cfg) (D : ty -> dstate -> res value) (tagged : list (Z * ty)) (fs : list value)
  : list N -> Z -> list value -> dstate -> res value :=
  counted_loop (tag_step c D tagged) (VStruct fs).

Lemma decode_struct_eq c flex fields tagged s :
  decode c flex (TStruct fields tagged) s =
  bind (dec_fields (decode c flex) fields s) (fun fs s =>
    if negb flex then Ok (VStruct fs (zeros_of tagged)) s
    else bind (read_uvarint s) (fun cnt s =>
           tag_loop c (decode c flex) tagged fs (0%N :: 0%N :: s.(d_in)) (int_of_u64 cnt) (zeros_of tagged) s)).
Proof. reflexivity. Qed.

(* [Kf] (compact count, still + 1) and [Ki] take over once the count is not null *)
Definition dec_prefixed {B} (flex : bool) (w : nat) (nullv : B)
    (Kf : N -> dstate -> res B) (Ki : Z -> dstate -> res B) (s : dstate) : res B :=
  if flex then bind (read_uvarint s) (fun x s => if (x <? 1)%N then Ok nullv s else Kf x s)
  else bind (read_int w s) (fun x s => if (x <? 0)%Z then Ok nullv s else Ki x s).

Lemma decode_string_eq c flex nullable s :
  decode c flex (TString nullable) s =
  dec_prefixed flex 2 (VString [])
    (fun n s => bind (read_alloc c (int_of_u64 (n - 1)) s) (fun bs s => Ok (VString bs) s))
    (fun n s => bind (read_alloc c n s) (fun bs s => Ok (VString bs) s)) s.
Proof. reflexivity. Qed.

Lemma decode_bytes_eq c flex nullable s :
  decode c flex (TBytes nullable) s =
  dec_prefixed flex 4 (VBytes None)
    (fun n s => bind (read_alloc c (int_of_u64 (n - 1)) s) (fun bs s => Ok (VBytes (Some bs)) s))
    (fun n s => bind (read_alloc c n s) (fun bs s => Ok (VBytes (Some bs)) s)) s.
Proof. reflexivity. Qed.

Definition array_body (c : cfg) (dec : dstate -> res value) (esize : N) (n : Z) (s : dstate) : res value :=
  bind (alloc c n esize s) (fun _ s =>
  bind (elems_loop dec (0%N :: s.(d_in)) (Z.to_N n) s) (fun r s =>
    Ok (VArray (Some (fst r)) (snd r)) s)).

Lemma decode_array_eq c flex nullable esize elem s :
  decode c flex (TArray nullable esize elem) s =
  dec_prefixed flex 4 (VArray None 0)
    (fun n s => if (s.(d_remain) <? 0)%Z || (s.(d_remain) <? Z.of_N (n - 1))%Z then fail EEof s
                else array_body c (decode c flex elem) esize (Z.of_N (n - 1)) s)
    (fun n s => if (s.(d_remain) <? n)%Z then fail EEof s
                else array_body c (decode c flex elem) esize n s) s.
Proof. reflexivity. Qed.

Lemma zero_struct_eq fields tagged :
  zero (TStruct fields tagged) = VStruct (map zero fields) (zeros_of tagged).
Proof. reflexivity. Qed.

Definition wf_fields (W : ty -> value -> bool) : list ty -> list value -> bool :=
  fix go (tl : list ty) (vl : list value) : bool :=
    match tl, vl with
    | [], [] => true
    | ft :: tr, fv :: vr => W ft fv && go tr vr
    | _, _ => false
    end.
Definition wf_tags (W : ty -> value -> bool) : list (Z * ty) -> list value -> bool :=
  fix go (tl : list (Z * ty)) (vl : list value) : bool :=
    match tl, vl with
    | [], [] => true
    | (_, ft) :: tr, fv :: vr => W ft fv && go tr vr
    | _, _ => false
    end.
Lemma wfb_array_eq flex nullable esize elem a pad :
  wfb flex (TArray nullable esize elem) (VArray a pad) =
  (pad =? 0)%N &&
  let es := match a with None => [] | Some l => l end in
  (Z.of_nat (length es) <? ZM31)%Z && forallb (wfb flex elem) es.
Proof. reflexivity. Qed.
Lemma wfb_struct_eq flex fields tagged fs ts :
  wfb flex (TStruct fields tagged) (VStruct fs ts) =
  wf_fields (wfb flex) fields fs && wf_tags (wfb flex) tagged ts.
Proof. reflexivity. Qed.

Definition canon_fields (C : ty -> value -> value) : list ty -> list value -> list value :=
  fix go (tl : list ty) (vl : list value) : list value :=
    match tl, vl with
    | ft :: tr, fv :: vr => C ft fv :: go tr vr
    | _, _ => []
    end.
Definition canon_tags (C : ty -> value -> value) : list (Z * ty) -> list value -> list value :=
  fix go (tl : list (Z * ty)) (vl : list value) : list value :=
    match tl, vl with
    | (_, ft) :: tr, fv :: vr => C ft fv :: go tr vr
    | _, _ => []
    end.
Lemma canon_array_eq nullable esize elem a pad :
  canon (TArray nullable esize elem) (VArray a pad) =
  match a with
  | None => if nullable then VArray None 0 else VArray (Some []) 0
  | Some es => VArray (Some (map (canon elem) es)) pad
  end.
Proof. reflexivity. Qed.
Lemma canon_struct_eq fields tagged fs ts :
  canon (TStruct fields tagged) (VStruct fs ts) =
  VStruct (canon_fields canon fields fs) (canon_tags canon tagged ts).
Proof. reflexivity. Qed.

Definition alloc_list (A : value -> N) : list value -> N :=
  fix go (l : list value) : N := match l with [] => 0%N | x :: r => (A x + go r)%N end.
Definition alloc_fields (A : ty -> value -> N) : list ty -> list value -> N :=
  fix go (tl : list ty) (vl : list value) : N :=
    match tl, vl with
    | ft :: tr, fv :: vr => (A ft fv + go tr vr)%N
    | _, _ => 0%N
    end.
Definition alloc_tags (A : ty -> value -> N) : list (Z * ty) -> list value -> N :=
  fix go (tl : list (Z * ty)) (vl : list value) : N :=
    match tl, vl with
    | (_, ft) :: tr, fv :: vr => ((if is_marker ft then 0 else A ft fv) + go tr vr)%N
    | _, _ => 0%N
    end.
Lemma alloc_array_eq nullable esize elem a pad :
  alloc_of (TArray nullable esize elem) (VArray a pad) =
  match a with
  | None => 0%N
  | Some es => (N.of_nat (length es) * esize + alloc_list (alloc_of elem) es)%N
  end.
Proof. reflexivity. Qed.
Lemma alloc_struct_eq fields tagged fs ts :
  alloc_of (TStruct fields tagged) (VStruct fs ts) =
  (alloc_fields alloc_of fields fs + alloc_tags alloc_of tagged ts)%N.
Proof. reflexivity. Qed.

Definition ok_fields (flex : bool) : list ty -> bool :=
  fix go (l : list ty) : bool :=
    match l with [] => true | x :: r => negb (flex && is_marker x) && schema_ok flex x && go r end.
Definition ok_tags (flex : bool) : list (Z * ty) -> bool :=
  fix go (l : list (Z * ty)) : bool :=
    match l with
    | [] => true
    | (i, x) :: r => (if is_marker x then Z.eqb i (-1) else (0 <=? i)%Z && (i <? ZM31)%Z) && schema_ok flex x && go r
    end.
Lemma schema_ok_struct_eq flex fields tagged :
  schema_ok flex (TStruct fields tagged) =
  ok_fields flex fields && ok_tags flex tagged && nodupZ (map fst tagged)
  && (flex || match tagged with [] => true | _ => false end).
Proof. reflexivity. Qed.

Lemma ok_fields_in flex fields : ok_fields flex fields = true ->
  forall x, In x fields -> flex && is_marker x = false /\ schema_ok flex x = true.
Proof.
  induction fields as [|y r IH]; intros H x Hx; [destruct Hx|].
  cbn [ok_fields] in H. apply andb_true_iff in H as [H Hr]. apply andb_true_iff in H as [Hm Hs].
  destruct Hx as [<-|Hx]; [split; [apply negb_true_iff; exact Hm|exact Hs]|exact (IH Hr x Hx)].
Qed.

Lemma ok_tags_in flex tagged : ok_tags flex tagged = true ->
  forall p, In p tagged ->
    schema_ok flex (snd p) = true /\
    (if is_marker (snd p) then fst p = (-1)%Z else (0 <= fst p < ZM31)%Z).
Proof.
  induction tagged as [|[i y] r IH]; intros H p Hp; [destruct Hp|].
  cbn [ok_tags] in H. apply andb_true_iff in H as [H Hr]. apply andb_true_iff in H as [Hi Hs].
  destruct Hp as [<-|Hp]; [|exact (IH Hr p Hp)]. cbn [fst snd]. split; [exact Hs|].
  destruct (is_marker y); [apply Z.eqb_eq; exact Hi|lia].
Qed.

Definition min_fields (flex : bool) : list ty -> N :=
  fix go (l : list ty) : N := match l with [] => 0%N | x :: r => (min_size flex x + go r)%N end.
Lemma min_size_struct_eq flex fields tagged :
  min_size flex (TStruct fields tagged) = (min_fields flex fields + (if flex then 1 else 0))%N.
Proof. reflexivity. Qed.

Definition marker_loop (c : cfg) : list N -> Z -> dstate -> res value :=
  fix loop (fuel : list N) (n : Z) (s : dstate) {struct fuel} : res value :=
    if (n <=? 0)%Z then Ok VUnit s
    else match fuel with
         | [] => OutOfFuel
         | _ :: fuel' =>
           match skip_header_tags_step c s with
           | Ok _ s' => loop fuel' (n - 1)%Z s'
           | Err e ra al => Err e ra al
           | Panic => Panic | Oom => Oom | OutOfFuel => OutOfFuel
           end
         end.

Lemma decode_marker_eq c flex s :
  decode c flex TMarker s =
  if negb flex then Ok VUnit s
  else bind (read_uvarint s) (fun cnt s => marker_loop c (0%N :: 0%N :: s.(d_in)) (int_of_u64 cnt) s).
Proof. reflexivity. Qed.

Lemma marker_loop_counted c : forall fuel n s,
  marker_loop c fuel n s =
  counted_loop (fun _ : unit => skip_header_tags_step c) (fun _ => VUnit) fuel n tt s.
Proof.
  induction fuel as [|f0 fuel IH]; intros n s; cbn [marker_loop counted_loop]; [reflexivity|].
  destruct (n <=? 0)%Z; [reflexivity|]. destruct (skip_header_tags_step c s) as [[] s'| | | |]; [apply IH|reflexivity..].
Qed.

Lemma header_tags_counted c : forall fuel n s,
  header_tags c fuel n s =
  counted_loop (fun _ : unit => skip_header_tags_step c) (fun _ => tt) fuel n tt s.
Proof.
  induction fuel as [|f0 fuel IH]; intros n s; cbn [header_tags counted_loop]; [reflexivity|].
  destruct (n <=? 0)%Z; [reflexivity|]. destruct (skip_header_tags_step c s) as [[] s'| | | |]; [apply IH|reflexivity..].
Qed.

Definition read_header_tags (c : cfg) (flex : bool) (s : dstate) : res unit :=
  if flex
  then bind (read_uvarint s) (fun cnt s => header_tags c (0%N :: 0%N :: s.(d_in)) (int_of_u64 cnt) s)
  else Ok tt s.

Lemma read_response_unfold c flex t input :
  read_response c flex t input =
  bind (read_int 4 {| d_in := input; d_remain := 4; d_alloc := 0 |}) (fun size s =>
  bind (read_int 4 {| d_in := s.(d_in); d_remain := size; d_alloc := s.(d_alloc) |}) (fun corr s =>
  bind (read_header_tags c flex s) (fun _ s =>
  bind (decode c flex t s) (fun v s =>
  bind (discard_all s) (fun _ s => Ok (corr, v) s))))).
Proof. reflexivity. Qed.

Lemma elems_loop_done dec fuel s : elems_loop dec fuel 0 s = Ok ([], 0%N) s.
Proof. destruct fuel; reflexivity. Qed.

Lemma elems_loop_exhausted dec fuel n s : (d_remain s <= 0)%Z -> elems_loop dec fuel n s = Ok ([], n) s.
Proof.
  intros Hr. apply Z.leb_le in Hr. destruct fuel; cbn [elems_loop]; rewrite Hr;
    (destruct (N.eqb_spec n 0) as [->|_]; reflexivity).
Qed.

Lemma elems_loop_step dec f0 fuel n s : n <> 0%N -> (0 < d_remain s)%Z ->
  elems_loop dec (f0 :: fuel) n s =
  bind (dec s) (fun v s' => bind (elems_loop dec fuel (n - 1) s') (fun r s'' => Ok (v :: fst r, snd r) s'')).
Proof.
  intros Hn Hr. apply N.eqb_neq in Hn. apply Z.leb_gt in Hr. cbn [elems_loop]. rewrite Hn, Hr.
  destruct (dec s); reflexivity.
Qed.
