(* Proofs/SaslRawRead.v — the raw (handshake v0) response read of Model/Sasl.v: allocation
   bound of the Transport path's read. *)
From Coq Require Import List ZArith NArith Bool Lia.
From Coq Require Import ZifyN ZifyNat ZifyBool.
From KV Require Import Model.Sasl Proofs.SaslProofs.
Import ListNotations.
Open Scope Z_scope.

(* what C18 / C20 ask of a raw read *)
Definition alloc_bounded (r : rr_result) (announced : Z) (avail : bytes) : Prop :=
  (rr_alloc r <= 10 * rr_received r + 2560)%N /\
  (rr_received r <= N.of_nat (length avail))%N /\
  (0 <= announced -> Z.of_N (rr_received r) <= announced).

Section Grow.
  Variable grow : N -> N.
  (* runtime.growslice: at least 1.25 x the old capacity, at most 2 x (cap >= 256) *)
  Hypothesis grow_lo : forall c, (512 <= c -> 5 * c <= 4 * grow c)%N.
  Hypothesis grow_hi : forall c, (512 <= c -> grow c <= 2 * c)%N.

  (* capacities grow by >= 5/4, so their sum is at most 1/(1 - 4/5) = 5 times the last; the last
     is 512 or, chosen when the slice was full, at most twice the length: total <= 5 * max 512
     (2 * length), hence the 10 * received + 2560 (= 5 * 512) of [readall_bound] *)
  Lemma readall_inv : forall l len cap total,
    (512 <= cap)%N -> (len < cap)%N -> (total <= 5 * cap)%N ->
    (cap <= 512 \/ cap <= 2 * len)%N ->
    let r := readall grow l len cap total in
    (512 <= fst r /\ snd r <= 5 * fst r /\
     (fst r <= 512 \/ fst r <= 2 * (len + N.of_nat (length l))))%N.
  Proof.
    induction l as [|b t IH]; intros len cap total C L T K; cbn [readall length].
    - cbn [fst snd]. lia.
    - cbv zeta. destruct (N.eqb_spec (len + 1) cap) as [E|E].
      + pose proof (grow_lo cap C). pose proof (grow_hi cap C).
        specialize (IH (len + 1)%N (grow cap) (total + grow cap)%N).
        cbv zeta in IH. destruct IH as (A & B & D); try lia.
      + specialize (IH (len + 1)%N cap total).
        cbv zeta in IH. destruct IH as (A & B & D); try lia.
  Qed.

  Lemma readall_bound : forall l,
    (snd (readall grow l 0 512 512) <= 10 * N.of_nat (length l) + 2560)%N.
  Proof.
    intros l. pose proof (readall_inv l 0%N 512%N 512%N) as H. cbv zeta in H.
    destruct H as (A & B & D); lia.
  Qed.

  Lemma transport_raw_read_bounded : forall announced avail e,
    alloc_bounded (transport_raw_read grow announced avail e) announced avail.
  Proof.
    intros announced avail e. unfold alloc_bounded, transport_raw_read.
    destruct (announced <? 0) eqn:Neg; cbv zeta.
    - cbn [rr_alloc rr_received]. lia.
    - destruct (announced <=? Z.of_nat (length avail)) eqn:Cmp.
      + cbn [rr_alloc rr_received]. pose proof (readall_bound (firstn (Z.to_nat announced) avail)).
        pose proof (firstn_le_length (Z.to_nat announced) avail).
        assert (length (firstn (Z.to_nat announced) avail) = Z.to_nat announced)
          by (apply firstn_length_le; lia).
        lia.
      + pose proof (readall_bound avail).
        destruct e; cbn [rr_alloc rr_received]; lia.
  Qed.
End Grow.

Lemma go_grow_lo : forall c, (512 <= c -> 5 * c <= 4 * go_grow c)%N.
Proof. intros c H. unfold go_grow. pose proof (N.div_mod' (c + 768) 4). pose proof (N.mod_lt (c + 768) 4). lia. Qed.

Lemma go_grow_hi : forall c, (512 <= c -> go_grow c <= 2 * c)%N.
Proof. intros c H. unfold go_grow. pose proof (N.div_mod' (c + 768) 4). pose proof (N.mod_lt (c + 768) 4). lia. Qed.
