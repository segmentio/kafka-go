(* Proofs/WriterC01b.v — C01: what a returned WriteMessages means (nil => logged; WriteErrors
   exact; Completion once).  On top of the invariant [Full] of Proofs/WriterC01a.v: what the
   caller's references (c_refs) point to, and what a finished batch says about the journal. *)
From Coq Require Import List NArith Bool Arith Lia.
From KV Require Import Lib.LTS Model.Writer Proofs.WriterStmts Proofs.WriterBase Proofs.WriterSteps
  Proofs.WriterC01a.
Import ListNotations.

Ltac inv H := inversion H; subst; clear H.

Lemma nth_error_nil : forall A i (x : A), nth_error [] i = Some x -> False.
Proof. destruct i; simpl; discriminate. Qed.

Lemma find_app_some : forall A f (l x : list A) y, find f l = Some y -> find f (l ++ x) = Some y.
Proof. induction l; simpl; intros; [discriminate|]. destruct (f a); auto. Qed.

Definition holds (pw : pwriter) (k : nat) (m : msg) : Prop :=
  exists b, In b (pw_all pw) /\ b_k b = k /\ In m (b_msgs b).

Definition pw_wf (pw : pwriter) : Prop :=
  (pw_open pw = false -> pw_curr pw = None) /\
  NoDup (map b_k (pw_all pw)) /\
  (forall b, In b (pw_all pw) -> b_k b < pw_nb pw).

Lemma seqinv_wf : forall pw, seqinv pw -> pw_wf pw.
Proof.
  intros pw [HS O]. split; [|split].
  - intros F. destruct (pw_curr pw); auto. rewrite O in F by discriminate. discriminate.
  - rewrite HS. apply seq_NoDup.
  - intros b Hb. apply (in_map b_k) in Hb. rewrite HS in Hb. apply in_seq in Hb. lia.
Qed.

Lemma fin_in_all : forall pw b o, In (b,o) (pw_fin pw) -> In b (pw_all pw).
Proof.
  intros. unfold pw_all. apply in_app_iff. left. apply in_map_iff. exists (b,o); auto.
Qed.

Lemma fin_other_neq : forall pw b' o b,
  pw_wf pw -> In (b',o) (pw_fin pw) ->
  In b (opt_list (option_map sd_batch (pw_snd pw)) ++ pw_queue pw ++ opt_list (pw_curr pw)) ->
  b_k b' <> b_k b.
Proof.
  intros pw b' o b (_ & W2 & _) Hf Hb E. unfold pw_all in W2. rewrite map_app in W2.
  apply NoDup_app_iff in W2. destruct W2 as (_ & _ & D). apply (D (b_k b')).
  - apply in_map. apply in_map_iff. exists (b', o); auto.
  - rewrite E. apply in_map. exact Hb.
Qed.

Section WithCfg.
Variable cfg : config.
Hypothesis Hok : cfg_ok cfg.

Definition pw_le (pw pw' : pwriter) : Prop :=
  pw_tp pw' = pw_tp pw /\ (exists x, pw_fin pw' = pw_fin pw ++ x) /\
  (forall k m, holds pw k m -> holds pw' k m).

Lemma pw_le_refl : forall pw, pw_le pw pw.
Proof. intros; split; auto. split; auto. exists []. rewrite app_nil_r; auto. Qed.

Lemma pw_le_trans : forall a b c, pw_le a b -> pw_le b c -> pw_le a c.
Proof.
  intros a b c (T1 & (x1 & F1) & H1) (T2 & (x2 & F2) & H2). split; [congruence|]. split; auto.
  exists (x1 ++ x2). rewrite F2, F1, app_assoc. reflexivity.
Qed.

Lemma pw_le_all : forall pw pw', pw_tp pw' = pw_tp pw -> pw_all pw' = pw_all pw ->
  (exists x, pw_fin pw' = pw_fin pw ++ x) -> pw_le pw pw'.
Proof. intros pw pw' T A F. split; auto. split; auto. unfold holds. rewrite A. auto. Qed.

Lemma pw_add_le : forall pw m pw' k sp,
  pw_add cfg pw m = (pw',k,sp) -> pw_open pw = true -> pw_le pw pw' /\ holds pw' k m.
Proof.
  intros pw m pw' k sp H Ho.
  destruct (pw_add_spec cfg _ _ _ _ _ H Ho)
    as (Etp & _ & Ef & _ & _ & [(l & b & E1 & E2 & Ek & _)|(E2 & Ek & _)]);
    (split; [split; [exact Etp|split; [exists []; rewrite app_nil_r; exact Ef|]]|]).
  - intros k0 x (b0 & Hb & Hk & Hx). rewrite E1 in Hb. apply in_app_iff in Hb. destruct Hb as [Hb|[<-|[]]].
    + exists b0. rewrite E2, in_app_iff. auto.
    + exists (add_msg b m). rewrite E2, in_app_iff. simpl. rewrite in_app_iff. auto 6.
  - exists (add_msg b m). rewrite E2, in_app_iff. simpl. rewrite in_app_iff. simpl. auto 6.
  - intros k0 x (b0 & Hb & Hk & Hx). exists b0. rewrite E2, in_app_iff. auto.
  - exists (add_msg (mkBatch (pw_nb pw) [] 0%N) m). rewrite E2, in_app_iff. simpl. auto 6.
Qed.

Definition allpw {A} (P : nat -> A -> Prop) (pws : list A) : Prop :=
  forall p pw, nth_error pws p = Some pw -> P p pw.

Lemma allpw_upd : forall A (P : nat -> A -> Prop) pws p pw', allpw P pws -> P p pw' -> allpw P (upd pws p pw').
Proof.
  intros A0 P pws p pw' A H q pw Hq. apply nth_error_upd in Hq.
  destruct Hq as [(-> & -> & _)|(_ & Hq)]; auto.
Qed.

Lemma allpw_snoc : forall A (P : nat -> A -> Prop) pws x, allpw P pws -> P (length pws) x -> allpw P (pws ++ [x]).
Proof.
  intros A0 P pws x A H q pw Hq. apply nth_error_snoc in Hq. destruct Hq as [Hq|[-> ->]]; auto.
Qed.

Definition ref_ok (pws : list pwriter) (ms : list msg) (i : nat) (r : nat * nat) : Prop :=
  exists m pw, nth_error ms i = Some m /\ nth_error pws (fst r) = Some pw /\
               pw_tp pw = tp_of cfg m /\ holds pw (snd r) m.

Definition refs_ok (pws : list pwriter) (ms : list msg) (refs : list (nat * nat)) : Prop :=
  forall i r, nth_error refs i = Some r -> ref_ok pws ms i r.

Lemma ref_ok_le : forall pws pws' ms i r, fwd pw_le pws pws' -> ref_ok pws ms i r -> ref_ok pws' ms i r.
Proof.
  intros pws pws' ms i r L (m & pw & Hm & Hp & Ht & Hh).
  destruct (L _ _ Hp) as (pw' & Hp' & (T & _ & Hl)). exists m, pw'. repeat split; auto. congruence.
Qed.

Lemma assign_refs : forall pws wg ms pws' wg' refs,
  assign_all cfg pws wg ms = (pws', wg', refs) ->
  length refs = length ms /\ refs_ok pws' ms refs /\ fwd pw_le pws pws'.
Proof.
  intros pws wg ms pws' wg' refs.
  apply (assign_all_ind cfg (fun pre x _ rf => length rf = length pre /\ refs_ok x pre rf /\ fwd pw_le pws x)).
  - intros pre m post pws1 wg1 rf _ (L & R & Le) _. split; [exact L|]. split.
    + intros i r Hi. eapply ref_ok_le; [apply fwd_app, pw_le_refl|auto].
    + eapply fwd_trans; [exact pw_le_trans|exact Le|apply fwd_app, pw_le_refl].
  - intros pre m post pws1 wg1 rf _ (L & R & Le) j pw pw' k sp Hnth Ho Ht Hadd.
    destruct (pw_add_le _ _ _ _ _ Hadd Ho) as [Hle Hh].
    assert (L1 : fwd pw_le pws1 (upd pws1 j pw')) by (eapply fwd_upd; eauto using pw_le_refl).
    split; [rewrite !app_length; simpl; lia|]. split; [|eapply fwd_trans; eauto using pw_le_trans].
    intros i r Hi. apply nth_error_snoc in Hi. destruct Hi as [Hi|[-> ->]].
    + eapply ref_ok_le; [exact L1|]. destruct (R _ _ Hi) as (x & pwx & Hx & Hr). exists x, pwx. split; auto.
      rewrite nth_error_app1; auto. apply nth_error_Some; congruence.
    + exists m, pw'. simpl. rewrite L, nth_error_snoc_last.
      rewrite nth_error_upd_eq by (apply nth_error_Some; congruence).
      destruct Hle as (T & _). repeat split; auto. congruence.
  - split; [reflexivity|]. split; [intros i r Hi; destruct i; discriminate|apply fwd_refl, pw_le_refl].
Qed.

Lemma step_fwd_le : forall s l s', wf_state s -> step cfg s l = Some s' -> fwd pw_le (s_pws s) (s_pws s').
Proof.
  intros s l s' WS H. apply step_stepped in H.
  destruct (stepped_frame _ _ _ _ WS H) as [(c & cl & wg & refs & _ & _ & A & _)|[L K]].
  - apply (assign_refs _ _ _ _ _ _ A).
  - intros p pw Hp. destruct (nth_error_len _ _ _ _ _ (eq_sym L) Hp) as [pw' Hp']. exists pw'. split; auto.
    destruct (K _ _ _ Hp Hp') as (T & A & F). apply pw_le_all; auto.
Qed.

Lemma batch_result_le : forall pws pws' r o,
  fwd pw_le pws pws' -> batch_result pws r = Some o -> batch_result pws' r = Some o.
Proof.
  unfold batch_result. intros pws pws' r o L H.
  destruct (nth_error pws (fst r)) as [pw|] eqn:E; [|discriminate].
  destruct (L _ _ E) as (pw' & -> & (_ & (x & ->) & _)).
  destruct (find (fun be => b_k (fst be) =? snd r) (pw_fin pw)) eqn:F; [|discriminate].
  erewrite find_app_some; eauto.
Qed.

Lemma all_results_le : forall pws pws' refs es,
  fwd pw_le pws pws' -> all_results pws refs = Some es -> all_results pws' refs = Some es.
Proof.
  induction refs; simpl; intros es L H; auto.
  destruct (batch_result pws a) eqn:B; [|discriminate].
  destruct (all_results pws refs) eqn:R; [|discriminate].
  erewrite batch_result_le; eauto. erewrite IHrefs; eauto.
Qed.

Lemma all_results_nth : forall pws refs es, all_results pws refs = Some es ->
  length es = length refs /\
  forall i r, nth_error refs i = Some r -> exists o, nth_error es i = Some o /\ batch_result pws r = Some o.
Proof.
  induction refs; simpl; intros es H.
  - inv H. split; auto. intros i r Hi. destruct i; discriminate.
  - destruct (batch_result pws a) eqn:B; [|discriminate].
    destruct (all_results pws refs) eqn:R; [|discriminate]. inv H.
    destruct (IHrefs _ eq_refl) as [L N]. split; [simpl; auto|].
    intros [|i] r Hi; simpl in *; [inv Hi; eauto|auto].
Qed.

Lemma batch_result_fin : forall pws p k o, batch_result pws (p,k) = Some o ->
  exists pw b, nth_error pws p = Some pw /\ In (b,o) (pw_fin pw) /\ b_k b = k.
Proof.
  unfold batch_result; simpl; intros pws p k o H. destruct (nth_error pws p) as [pw|]; [|discriminate].
  destruct (find (fun be => b_k (fst be) =? k) (pw_fin pw)) as [[b o']|] eqn:F; [|discriminate]. inv H.
  apply find_some in F. destruct F as [F1 F2]. simpl in F2. apply Nat.eqb_eq in F2. exists pw, b. auto.
Qed.

(* Dp ("done"): a batch finished, or about to finish, with nil was applied and acknowledged
   in one attempt (ackedb); feeds C01_nil_means_logged *)
Definition ackedb (J : list attempt) (tp : tpart) (ms : list msg) : Prop :=
  exists a, In a J /\ a_applied a = true /\ a_seen a = None /\ a_msgs a = ms /\ a_tp a = tp.

Definition Dp (J : list attempt) (pw : pwriter) : Prop :=
  (forall b, In (b, None) (pw_fin pw) -> ackedb J (pw_tp pw) (b_msgs b)) /\
  (forall b n, pw_snd pw = Some (mkSnd b n (PFinish None)) -> ackedb J (pw_tp pw) (b_msgs b)).

Lemma ackedb_mono : forall J J' tp ms, incl J J' -> ackedb J tp ms -> ackedb J' tp ms.
Proof. intros J J' tp ms I (a & H & R). exists a. split; auto. Qed.

Lemma Dp_mono : forall J J' pw, incl J J' -> Dp J pw -> Dp J' pw.
Proof. intros J J' pw I [D1 D2]. split; intros; eapply ackedb_mono; eauto. Qed.

Lemma Dp_sim : forall J pw pw', pw_tp pw' = pw_tp pw -> pw_fin pw' = pw_fin pw -> pw_snd pw' = pw_snd pw ->
  Dp J pw -> Dp J pw'.
Proof. intros J pw pw' T F S [D1 D2]. unfold Dp. rewrite T, F, S. auto. Qed.

Definition call_ok (pws : list pwriter) (cl : call) : Prop :=
  refs_ok pws (c_msgs cl) (c_refs cl) /\
  match c_ph cl with
  | CEntered => c_refs cl = []
  | CWaiting => length (c_refs cl) = length (c_msgs cl)
  | CReturned RNil =>
    length (c_refs cl) = length (c_msgs cl) /\
    (async cfg = false -> exists es, all_results pws (c_refs cl) = Some es /\ forallb is_none es = true)
  | CReturned (RWriteErrors we) =>
    length (c_refs cl) = length (c_msgs cl) /\
    all_results pws (c_refs cl) = Some we /\ forallb is_none we = false
  | CReturned (RErr _) => True
  end.

Lemma call_ok_le : forall pws pws' cl, fwd pw_le pws pws' -> call_ok pws cl -> call_ok pws' cl.
Proof.
  intros pws pws' cl L [R Ph]. split.
  - intros i r Hi. eapply ref_ok_le; eauto.
  - destruct (c_ph cl) as [| |[| |we]]; auto.
    + destruct Ph as [Hl He]. split; auto. intros Ha. destruct (He Ha) as (es & E1 & E2).
      exists es. split; auto. eapply all_results_le; eauto.
    + destruct Ph as (Hl & E1 & E2). repeat split; auto. eapply all_results_le; eauto.
Qed.

Definition logC (J : list attempt) (L : list (tpart * msg)) : Prop :=
  forall a m, In a J -> a_applied a = true -> In m (a_msgs a) -> In (a_tp a, m) L.

Definition Inv1 (pws : list pwriter) (calls : list call) (J : list attempt) (L : list (tpart * msg)) : Prop :=
  allpw (fun _ pw => pw_wf pw /\ Dp J pw) pws /\
  allpw (fun _ cl => call_ok pws cl) calls /\
  logC J L.

Definition inv1 (s : state) : Prop := Inv1 (s_pws s) (s_calls s) (s_journal s) (s_log s).

Lemma Inv1_upd_snd : forall pws calls J L p pw sd,
  Inv1 pws calls J L -> nth_error pws p = Some pw ->
  (forall b n, sd = Some (mkSnd b n (PFinish None)) -> ackedb J (pw_tp pw) (b_msgs b)) ->
  pw_all (set_snd pw sd) = pw_all pw ->
  Inv1 (upd pws p (set_snd pw sd)) calls J L.
Proof.
  intros pws calls J L p pw sd (A & B & C) Hn Hs Ha. destruct (A _ _ Hn) as [W [D1 D2]].
  split; [|split; [|exact C]].
  - apply allpw_upd; auto. split; [unfold pw_wf; rewrite Ha; exact W|]. split; simpl; auto.
  - intros c cl Hc. eapply call_ok_le; [|exact (B _ _ Hc)].
    eapply fwd_upd; eauto using pw_le_refl. apply pw_le_all; auto. exists []. rewrite app_nil_r; reflexivity.
Qed.

Lemma r_seen_none : forall r, r_seen r = None -> r_applied r = true.
Proof. destruct r; simpl; auto; discriminate. Qed.

Lemma after_attempt_none : forall n o, after_attempt cfg n o = PFinish None -> o = None.
Proof.
  intros n [e|]; simpl; auto. destruct (retriable cfg e); [destruct (S n <? maxAttempts cfg)|]; discriminate.
Qed.

Definition Dps (s : state) : Prop := allpw (fun _ pw => Dp (s_journal s) pw) (s_pws s).

(* a property of pw_tp, pw_fin, pw_snd, the journal and the Completion list, through the steps
   that touch none of them *)
Lemma quiet_allpw : forall (P : list attempt -> list (list msg * option err) -> nat -> pwriter -> Prop),
  (forall J C p pw pw', pw_tp pw' = pw_tp pw -> pw_fin pw' = pw_fin pw -> pw_snd pw' = pw_snd pw ->
     P J C p pw -> P J C p pw') ->
  (forall J C p pw, pw_fin pw = [] -> pw_snd pw = None -> P J C p pw) ->
  forall s l s', is_sender l = false -> Step cfg s l s' ->
  allpw (P (s_journal s) (s_compl s)) (s_pws s) -> allpw (P (s_journal s') (s_compl s')) (s_pws s').
Proof.
  intros P Psim Pnew s l s' E H A p pw' Hp.
  destruct (Step_quiet cfg _ _ _ E H) as (-> & -> & _ & SD). specialize (SD p pw' Hp).
  destruct (nth_error (s_pws s) p) as [pw|] eqn:Eo.
  - destruct SD as (T & F & S). eapply Psim; eauto.
  - destruct SD as [F S]. auto.
Qed.

Lemma Dps_step : forall s l s', Dps s -> step cfg s l = Some s' -> Dps s'.
Proof.
  intros s l s' D H. apply step_Step in H. destruct (is_sender l) eqn:E.
  2:{ revert D. apply (quiet_allpw (fun J _ _ pw => Dp J pw)) with (l := l); auto;
        [intros; eapply Dp_sim; eauto|].
      intros J _ _ pw F S. split; [rewrite F; intros b []|rewrite S; discriminate]. }
  unfold Dps in *.
  destruct H; try discriminate E; cbn [s_pws s_journal with_pw]; destruct (D _ _ Np) as [D1 D2].
  - (* Get *) apply allpw_upd; auto. split; [exact D1|]. simpl.
    destruct Hok as [_ Hm]. replace (0 <? maxAttempts cfg) with true by (symmetry; apply Nat.ltb_lt; lia).
    discriminate.
  - (* Attempt: an acknowledged attempt is the witness *)
    apply allpw_upd.
    + intros q pwq Hq. eapply Dp_mono; [|eapply D; eauto]. apply incl_appl, incl_refl.
    + split; simpl; [intros b0 Hb; eapply ackedb_mono; [apply incl_appl, incl_refl|auto]|].
      intros b0 n0 E0. injection E0 as <- _ Ea. apply after_attempt_none in Ea.
      eexists. split; [apply in_app_iff; right; left; reflexivity|]. simpl.
      repeat split; auto. apply r_seen_none; auto.
  - (* BackoffDone *) apply allpw_upd; auto. split; [exact D1|]. simpl. discriminate.
  - (* Finish *) apply allpw_upd; auto. split; simpl; [|discriminate].
    intros b0 Hb. apply in_app_iff in Hb. destruct Hb as [Hb|[Hb|[]]]; [auto|]. inv Hb. eauto.
Qed.

(* Cks: every call is call_ok (its refs name the batches that took its messages; a returned
   call saw the results of exactly these batches) *)
Definition Cks (s : state) : Prop := allpw (fun _ cl => call_ok (s_pws s) cl) (s_calls s).

Lemma Cks_step : forall s l s', wf_state s -> Cks s -> step cfg s l = Some s' -> Cks s'.
Proof.
  intros s l s' W B H. pose proof (step_fwd_le _ _ _ W H) as Le. apply step_Step in H.
  assert (Old : allpw (fun _ cl => call_ok (s_pws s') cl) (s_calls s))
    by (intros c cl Hc; eapply call_ok_le; eauto).
  assert (Nil : forall pws ms, refs_ok pws ms []) by (intros pws ms i r Hi; destruct i; discriminate).
  unfold Cks.
  destruct H; cbn [s_calls s_pws add_call ret_call with_pw with_pw_done] in *; auto.
  - 
    apply allpw_snoc; [exact Old|]. split; [apply Nil|exact I].
  - apply allpw_snoc; [exact Old|]. split; [apply Nil|]. split; [reflexivity|]. intros _. exists []. auto.
  - apply allpw_snoc; [exact Old|]. split; [apply Nil|reflexivity].
  - 
    destruct (Old _ _ Nc) as [R _]. apply allpw_upd; [exact Old|]. split; [exact R|exact I].
  - destruct (assign_refs _ _ _ _ _ _ As) as (Lr & Rr & _). apply allpw_upd; [exact Old|]. split; simpl; auto.
  - 
    destruct (Old _ _ Nc) as [R Ph']. rewrite Ph in Ph'. apply allpw_upd; [exact Old|].
    split; [exact R|]. simpl. split; [exact Ph'|]. intros; congruence.
  - destruct (Old _ _ Nc) as [R Ph']. rewrite Ph in Ph'. apply allpw_upd; [exact Old|].
    split; [exact R|]. simpl. destruct (forallb is_none es) eqn:Ef; eauto.
  - destruct (Old _ _ Nc) as [R _]. apply allpw_upd; [exact Old|]. split; [exact R|exact I].
Qed.

Lemma inv1_of : forall s, Full cfg s -> Dps s -> Cks s -> inv1 s.
Proof.
  intros s [W J1 _ _ _ _ _] D B. split; [|split; [exact B|]].
  - intros p pw Hp. split; [|exact (D _ _ Hp)]. apply seqinv_wf, W. eapply nth_error_In; eauto.
  - intros a m Ha Hap Hm. rewrite J1. apply in_flat_map. exists a. split; auto.
    rewrite Hap. apply in_map. exact Hm.
Qed.

Definition noack (J : list attempt) (p k : nat) : Prop :=
  forall a, In a J -> a_pw a = p -> a_k a = k -> a_seen a <> None.

(* the last attempt of batch (p, k) was seen as [o]; an error means no attempt was acknowledged *)
Definition outcome (J : list attempt) (p k : nat) (o : option err) : Prop :=
  (exists j1 a j2, J = j1 ++ a :: j2 /\ a_pw a = p /\ a_k a = k /\ a_seen a = o /\
     forall a', In a' j2 -> ~ (a_pw a' = p /\ a_k a' = k)) /\
  (forall e, o = Some e -> noack J p k).

Lemma noack_snoc : forall J p k a, noack J p k ->
  (a_pw a = p -> a_k a = k -> a_seen a <> None) -> noack (J ++ [a]) p k.
Proof.
  intros J p k a N H a' Ha. apply in_app_iff in Ha. destruct Ha as [Ha|[<-|[]]]; auto.
Qed.

Lemma outcome_snoc : forall J p k o a, outcome J p k o -> ~ (a_pw a = p /\ a_k a = k) ->
  outcome (J ++ [a]) p k o.
Proof.
  intros J p k o a [(j1 & a0 & j2 & -> & H1 & H2 & H3 & H4) N] Hn. split.
  - exists j1, a0, (j2 ++ [a]). rewrite <- app_assoc. simpl. repeat split; auto.
    intros a' Ha. apply in_app_iff in Ha. destruct Ha as [Ha|[<-|[]]]; auto.
  - intros e He. apply noack_snoc; [eapply N; eauto|intros; exfalso; auto].
Qed.

(* Op ("outcome"): the error a batch finished with, or is about to finish with, is what the
   client saw of its last attempt; feeds last_attempt_seen in C01_write_errors_exact *)
Definition Op (J : list attempt) (p : nat) (pw : pwriter) : Prop :=
  (forall b o, In (b,o) (pw_fin pw) -> outcome J p (b_k b) o) /\
  (forall b n ph, pw_snd pw = Some (mkSnd b n ph) ->
     match ph with PFinish o => outcome J p (b_k b) o | _ => noack J p (b_k b) end).

Definition Ops (s : state) : Prop := allpw (Op (s_journal s)) (s_pws s).

Lemma Op_snoc_other : forall J p pw a, Op J p pw -> a_pw a <> p -> Op (J ++ [a]) p pw.
Proof.
  intros J p pw a (O1 & O2) Hne. split.
  - intros b o Hb. apply outcome_snoc; auto. intros [? _]; auto.
  - intros b n ph Hs. specialize (O2 _ _ _ Hs).
    destruct ph; try (apply noack_snoc; auto; intros; exfalso; auto).
    apply outcome_snoc; auto. intros [? _]; auto.
Qed.

Lemma Op_attempt_self : forall J p pw b n r, pw_wf pw -> Op J p pw -> pw_snd pw = Some (mkSnd b n PAttempt) ->
  Op (J ++ [mkAtt p (b_k b) (pw_tp pw) (b_msgs b) (r_applied r) (r_seen r)]) p
     (set_snd pw (Some (mkSnd b (S n) (after_attempt cfg n (r_seen r))))).
Proof.
  intros J p pw b n r W (O1 & O2) Hs.
  pose proof (O2 _ _ _ Hs) as Nk. simpl in Nk.
  assert (Last : forall o, r_seen r = o -> exists j1 a j2,
            J ++ [mkAtt p (b_k b) (pw_tp pw) (b_msgs b) (r_applied r) (r_seen r)] = j1 ++ a :: j2 /\
            a_pw a = p /\ a_k a = b_k b /\ a_seen a = o /\
            forall a', In a' j2 -> ~ (a_pw a' = p /\ a_k a' = b_k b)).
  { intros o Eo. eexists J, _, []. split; [reflexivity|]. simpl. repeat split; auto. }
  split; simpl.
  - intros b' o Hb. apply outcome_snoc; auto. simpl. intros [_ Hk].
    eapply (fin_other_neq pw b' o b); eauto. rewrite Hs. simpl. auto.
  - intros b0 n0 ph E. injection E as <- <- <-. destruct (r_seen r) as [e|] eqn:Er; simpl.
    + assert (Nk' : noack (J ++ [mkAtt p (b_k b) (pw_tp pw) (b_msgs b) (r_applied r) (Some e)]) p (b_k b))
        by (apply noack_snoc; auto; simpl; intros; discriminate).
      destruct (retriable cfg e); [destruct (S n <? maxAttempts cfg)|]; auto; split; auto.
    + split; [auto|intros; discriminate].
Qed.

Lemma Ops_step : forall s l s', Full cfg s -> Ops s -> step cfg s l = Some s' -> Ops s'.
Proof.
  intros s l s' [W _ (A & _ & _) _ _ _ _] O H. apply step_Step in H. destruct (is_sender l) eqn:E.
  2:{ revert O. apply (quiet_allpw (fun J _ p pw => Op J p pw)) with (l := l); auto.
      - intros J _ p pw pw' T F S. unfold Op. rewrite F, S. auto.
      - intros J _ p pw F S. split; [rewrite F; intros b o []|rewrite S; discriminate]. }
  unfold Ops in *.
  destruct H; try discriminate E; cbn [s_pws s_journal with_pw]; destruct (O _ _ Np) as [O1 O2].
  - (* Get: no attempt of this batch yet *)
    apply allpw_upd; auto. split; [exact O1|]. simpl. intros b0 n0 ph E0. injection E0 as <- <- <-.
    destruct Hok as [_ Hm]. replace (0 <? maxAttempts cfg) with true by (symmetry; apply Nat.ltb_lt; lia).
    intros a Ha Hp Hk _. apply (pending_unsent _ _ _ _ b a A Np); auto; [apply W; eapply nth_error_In; eauto|].
    rewrite Qu. simpl; auto.
  - (* Attempt *)
    intros q pwq Hq. apply nth_error_upd in Hq. destruct Hq as [(<- & -> & _)|(Hne & Hq)].
    + apply Op_attempt_self; auto. apply seqinv_wf, W. eapply nth_error_In; eauto.
    + apply Op_snoc_other; auto.
  - (* BackoffDone *)
    apply allpw_upd; auto. split; [exact O1|]. simpl. intros b0 n0 ph E0. injection E0 as <- <- <-.
    apply (O2 _ _ _ Sn).
  - (* Finish *)
    apply allpw_upd; auto. split; simpl; [|discriminate].
    intros b0 o Hb. apply in_app_iff in Hb. destruct Hb as [Hb|[Hb|[]]]; auto.
    inv Hb. apply (O2 _ _ _ Sn).
Qed.

Lemma fin_facts : forall s p pw b o m,
  Full cfg s -> Ops s ->
  nth_error (s_pws s) p = Some pw -> In (b,o) (pw_fin pw) -> In m (b_msgs b) ->
  (forall a, In a (s_journal s) -> In m (a_msgs a) -> a_pw a = p /\ a_k a = b_k b) /\
  (forall a, In a (s_journal s) -> a_pw a = p -> a_k a = b_k b -> In m (a_msgs a)) /\
  last_attempt_seen s m o /\
  (forall a, In a (s_journal s) -> In m (a_msgs a) -> a_seen a = None -> o = None).
Proof.
  intros s p pw b o m F O Hp Hf Hm. pose proof F as [W _ (A & _ & _) _ _ _ _].
  assert (Hb : In b (pw_all pw)) by (eapply fin_in_all; eauto).
  assert (X : forall a, In a (s_journal s) -> In m (a_msgs a) -> a_pw a = p /\ a_k a = b_k b).
  { intros a Ha Hma. destruct (attempt_batch _ _ _ _ _ _ _ _ F Ha Hma Hp Hb Hm eq_refl) as (E1 & E2 & _). auto. }
  assert (Y : forall a, In a (s_journal s) -> a_pw a = p -> a_k a = b_k b -> In m (a_msgs a)).
  { intros a Ha Hpa Hka. rewrite <- Hpa in Hp.
    destruct (attempt_by_number cfg _ _ _ _ _ W A Ha Hp Hb Hka) as [-> _]. exact Hm. }
  destruct (O _ _ Hp) as (O1 & _). destruct (O1 _ _ Hf) as [(j1 & a0 & j2 & EJ & H1 & H2 & H3 & H4) Hno].
  split; auto. split; auto. split.
  - exists j1, a0, j2. split; auto. split.
    + apply Y; auto. rewrite EJ. apply in_app_iff. simpl. auto.
    + split; auto. intros a' Ha' Hma'. apply (H4 _ Ha'). apply X; auto.
      rewrite EJ. apply in_app_iff. simpl. auto.
  - intros a Ha Hma Hs. destruct o as [e|]; auto. exfalso.
    destruct (X _ Ha Hma) as [E1 E2]. eapply (Hno e eq_refl a); eauto.
Qed.

(* Cp: every finished batch had its Completion callback; Kb: every callback was for a finished
   batch; together with NoDup they are Cps and feed C01_completion_once *)
Definition Cp (compl : list (list msg * option err)) (pw : pwriter) : Prop :=
  forall b o, In (b,o) (pw_fin pw) -> In (b_msgs b, o) compl.
Definition Kb (pws : list pwriter) (compl : list (list msg * option err)) : Prop :=
  forall ms o, In (ms,o) compl ->
    exists p pw b, nth_error pws p = Some pw /\ In (b,o) (pw_fin pw) /\ ms = b_msgs b.
Definition compl_ids (compl : list (list msg * option err)) : list N :=
  flat_map (fun ce => map m_id (fst ce)) compl.

Definition Cps (s : state) : Prop :=
  allpw (fun _ pw => Cp (s_compl s) pw) (s_pws s) /\ Kb (s_pws s) (s_compl s) /\
  NoDup (compl_ids (s_compl s)).

Lemma Kb_le : forall pws pws' compl, fwd pw_le pws pws' -> Kb pws compl -> Kb pws' compl.
Proof.
  intros pws pws' compl L K ms o H. destruct (K _ _ H) as (p & pw & b & Hp & Hf & E).
  destruct (L _ _ Hp) as (pw' & Hp' & (_ & (x & Fx) & _)). exists p, pw', b. split; auto. split; auto.
  rewrite Fx. apply in_app_iff; auto.
Qed.

Lemma Cps_step : forall s l s', Full cfg s -> Cps s -> step cfg s l = Some s' -> Cps s'.
Proof.
  intros s l s' [W _ _ (N & P) BNb _ WS] (C & K & Nc) H.
  pose proof (step_fwd_le _ _ _ WS H) as Le. apply step_Step in H. destruct (is_sender l) eqn:E.
  2:{ split.
      - revert C. apply (quiet_allpw (fun _ C _ pw => Cp C pw)) with (l := l); auto.
        + intros _ C _ pw pw' _ F _. unfold Cp. rewrite F. auto.
        + intros _ C _ pw F _ b o Hb. rewrite F in Hb. destruct Hb.
      - destruct (Step_quiet cfg _ _ _ E H) as (_ & -> & _). split; [eapply Kb_le; eauto|exact Nc]. }
  unfold Cps.
  destruct H; try discriminate E; cbn [s_pws s_compl with_pw] in *;
    try (split; [apply allpw_upd; [exact C|exact (C _ _ Np)]|split; [eapply Kb_le; eauto|exact Nc]]).
  (* Finish *)
  assert (Wp : pw_wf pw) by (apply seqinv_wf, W; eapply nth_error_In; eauto).
  assert (Hbin : In b (pw_all pw)) by (eapply snd_in_all; eauto).
  split; [|split].
  - intros q pwq Hq b0 o Hb. apply in_app_iff.
    apply nth_error_upd in Hq. destruct Hq as [(<- & -> & _)|(Hne & Hq)]; [|left; eapply C; eauto].
    simpl in Hb. apply in_app_iff in Hb.
    destruct Hb as [Hb|[Hb|[]]]; [left; eapply C; eauto|right; inv Hb; simpl; auto].
  - intros ms o Hin. apply in_app_iff in Hin. destruct Hin as [Hin|[Hin|[]]].
    + eapply Kb_le; eauto.
    + inv Hin. eexists p, _, b. rewrite nth_error_upd_eq by (apply nth_error_Some; congruence).
      split; [reflexivity|]. simpl. split; auto. apply in_app_iff. simpl. auto.
  - (* an id completed before sits in a finished batch, which is not the one being sent *)
    unfold compl_ids. rewrite flat_map_app. simpl. rewrite app_nil_r.
    apply NoDup_app_iff. split; [exact Nc|]. split; [exact (BNb _ _ _ Np Hbin)|].
    intros x Hin Hx. apply in_map_iff in Hx. destruct Hx as (m & <- & Hm).
    apply in_flat_map in Hin. destruct Hin as ([ms o] & Hce & Hmi). simpl in Hmi.
    apply in_map_iff in Hmi. destruct Hmi as (m' & Eid & Hm').
    destruct (K _ _ Hce) as (p' & pw' & b' & Hp' & Hf' & ->).
    destruct (one_batch _ _ _ _ _ _ _ _ _ _ N P Hp' (fin_in_all _ _ _ Hf') Hm' Np Hbin Hm Eid) as (-> & Ek & _).
    rewrite Np in Hp'. inv Hp'.
    eapply (fin_other_neq pw' b' o b); eauto. rewrite Sn. simpl. auto.
Qed.

(* references and Completion do not need cfg_ok: they get an induction of their own so that
   WriterC09 (whose statements have no cfg_ok) can use Cks_runs and Cps_runs; Dps and Ops need
   1 <= maxAttempts and are added by a second induction in inv3_runs *)
Lemma Cks_Cps_runs : forall ls s, runs cfg ls s -> Full cfg s /\ Cks s /\ Cps s.
Proof.
  apply runs_inv.
  - assert (E : forall A (P : nat -> A -> Prop), allpw P [])
      by (intros A P p x H; exfalso; eapply nth_error_nil; exact H).
    split; [apply Full_init|]. split; [apply E|].
    split; [apply E|]. split; [intros ms o Hin; destruct Hin|constructor].
  - intros s l s' (F & B & C) St. split; [eapply Full_step; eauto|].
    split; [eapply Cks_step; eauto; apply (full_wf _ _ F)|eapply Cps_step; eauto].
Qed.

Lemma Cks_runs : forall ls s, runs cfg ls s -> Cks s.
Proof. intros ls s Hr. apply (Cks_Cps_runs _ _ Hr). Qed.

Lemma Cps_runs : forall ls s, runs cfg ls s -> Cps s.
Proof. intros ls s Hr. apply (Cks_Cps_runs _ _ Hr). Qed.

Definition inv3 (s : state) : Prop := Full cfg s /\ Dps s /\ Cks s /\ Ops s /\ Cps s.

Lemma inv3_runs : forall ls s, runs cfg ls s -> inv3 s.
Proof.
  intros ls s Hr. destruct (Cks_Cps_runs _ _ Hr) as (F & B & C).
  assert (G : Full cfg s /\ Dps s /\ Ops s).
  { clear F B C. revert ls s Hr. apply runs_inv.
    - assert (E : forall A (P : nat -> A -> Prop), allpw P [])
        by (intros A P p x H; exfalso; eapply nth_error_nil; exact H).
      split; [apply Full_init|]. split; apply E.
    - intros s l s' (F & D & O) St. split; [eapply Full_step; eauto|].
      split; [eapply Dps_step; eauto|eapply Ops_step; eauto]. }
  destruct G as (_ & D & O). unfold inv3. auto 6.
Qed.

Lemma inv1_runs : forall ls s, runs cfg ls s -> inv1 s.
Proof. intros ls s Hr. destruct (inv3_runs _ _ Hr) as (F & D & B & _). apply inv1_of; auto. Qed.

Lemma finished_ref : forall pws ms refs i r o,
  allpw (fun _ pw => pw_wf pw) pws -> refs_ok pws ms refs ->
  nth_error refs i = Some r -> batch_result pws r = Some o ->
  exists m pw b, nth_error ms i = Some m /\ nth_error pws (fst r) = Some pw /\
    pw_tp pw = tp_of cfg m /\ In (b,o) (pw_fin pw) /\ b_k b = snd r /\ In m (b_msgs b).
Proof.
  intros pws ms refs i r o A R Hr Hb. destruct r as [p k].
  destruct (R _ _ Hr) as (m & pw & Hm & Hp & Ht & (b & Hin & Hk & Hmb)). simpl in *.
  destruct (batch_result_fin _ _ _ _ Hb) as (pw' & b' & Hp' & Hf & Hk').
  rewrite Hp in Hp'. inv Hp'. destruct (A _ _ Hp) as (W1 & W2 & W3).
  assert (b = b').
  { eapply (NoDup_map_inj _ _ b_k); eauto. eapply fin_in_all; eauto. }
  subst. exists m, pw', b'. auto 10.
Qed.

End WithCfg.

Lemma pw_wf_runs : forall cfg ls s, runs cfg ls s -> allpw (fun _ pw => pw_wf pw) (s_pws s).
Proof.
  intros cfg ls s Hr p pw Hp. destruct (full_inv _ _ _ Hr) as [W _ _ _ _ _ _]. eapply seqinv_wf, W, nth_error_In, Hp.
Qed.

Lemma nil_entry : forall cfg ls s, runs cfg ls s -> async cfg = false ->
  forall c cl, nth_error (s_calls s) c = Some cl -> c_ph cl = CReturned RNil ->
  forall m, In m (c_msgs cl) ->
    exists p pw b, nth_error (s_pws s) p = Some pw /\ pw_tp pw = tp_of cfg m /\
      In (b, None) (pw_fin pw) /\ In m (b_msgs b).
Proof.
  intros cfg ls s Hr Ha c cl Hc Hph m Hm.
  pose proof (pw_wf_runs _ _ _ Hr) as A. pose proof (Cks_runs _ _ _ Hr) as B.
  destruct (B _ _ Hc) as [R Ph]. rewrite Hph in Ph. destruct Ph as [Hl He].
  destruct (He Ha) as (es & E1 & E2).
  apply In_nth_error in Hm. destruct Hm as (i & Hi).
  assert (Hlt : i < length (c_refs cl)) by (rewrite Hl; apply nth_error_Some; congruence).
  destruct (nth_error (c_refs cl) i) as [r|] eqn:Er; [|apply nth_error_None in Er; lia].
  destruct (all_results_nth _ _ _ E1) as [Le N]. destruct (N _ _ Er) as (o & Ho & Hb).
  assert (o = None).
  { apply nth_error_In in Ho. rewrite forallb_forall in E2. specialize (E2 _ Ho).
    destruct o; [discriminate|auto]. }
  subst o.
  destruct (finished_ref cfg _ _ _ _ _ _ A R Er Hb) as (m' & pw & b & Hm' & Hp & Ht & Hf & Hk & Hin).
  rewrite Hi in Hm'. inv Hm'. exists (fst r), pw, b. auto.
Qed.

Lemma fin_acked : forall cfg ls s, cfg_ok cfg -> runs cfg ls s ->
  forall p pw b m, nth_error (s_pws s) p = Some pw -> pw_tp pw = tp_of cfg m ->
    In (b, None) (pw_fin pw) -> In m (b_msgs b) ->
    acked_attempt cfg s m /\ In m (log_of s (tp_of cfg m)).
Proof.
  intros cfg ls s Hok Hr p pw b m Hp Ht Hfin Hin.
  pose proof (inv1_runs cfg Hok _ _ Hr) as (A & B & C).
  destruct (A _ _ Hp) as [W [D1 D2]]. destruct (D1 _ Hfin) as (a & Ha1 & Ha2 & Ha3 & Ha4 & Ha5).
  split.
  - exists a. rewrite Ha4, Ha5. auto 10.
  - unfold log_of. apply in_map_iff. exists (tp_of cfg m, m). split; auto. apply filter_In. split.
    + rewrite <- Ht, <- Ha5. apply C; auto. rewrite Ha4; auto.
    + simpl. apply tp_eqb_refl.
Qed.

Lemma C01_nil_means_logged_proof : stmt_C01_nil_means_logged.
Proof.
  intros cfg ls s Hok Hr Ha c cl Hc Hph m Hm.
  destruct (nil_entry cfg ls s Hr Ha c cl Hc Hph m Hm) as (p & pw & b & Hp & Ht & Hf & Hin).
  eapply fin_acked; eauto.
Qed.

Print Assumptions C01_nil_means_logged_proof.

Lemma we_entry : forall cfg ls s, runs cfg ls s ->
  forall c cl we, nth_error (s_calls s) c = Some cl -> c_ph cl = CReturned (RWriteErrors we) ->
  length we = length (c_msgs cl) /\ forallb is_none we = false /\
  forall i m o, nth_error (c_msgs cl) i = Some m -> nth_error we i = Some o ->
    exists p pw b, nth_error (c_refs cl) i = Some (p, b_k b) /\ nth_error (s_pws s) p = Some pw /\
      pw_tp pw = tp_of cfg m /\ In (b,o) (pw_fin pw) /\ In m (b_msgs b).
Proof.
  intros cfg ls s Hr c cl we Hc Hph.
  pose proof (pw_wf_runs _ _ _ Hr) as A. pose proof (Cks_runs _ _ _ Hr) as B.
  destruct (B _ _ Hc) as [R Ph]. rewrite Hph in Ph. destruct Ph as (Hl & E1 & E2).
  destruct (all_results_nth _ _ _ E1) as [Le N].
  split; [congruence|]. split; auto.
  intros i m o Hi Ho.
  assert (Hlt : i < length (c_refs cl)) by (rewrite Hl; apply nth_error_Some; congruence).
  destruct (nth_error (c_refs cl) i) as [r|] eqn:Er; [|apply nth_error_None in Er; lia].
  destruct (N _ _ Er) as (o' & Ho' & Hb). rewrite Ho in Ho'. inv Ho'.
  destruct (finished_ref cfg _ _ _ _ _ _ A R Er Hb) as (m' & pw & b & Hm' & Hp & Ht & Hf & Hk & Hin).
  rewrite Hi in Hm'. inv Hm'. destruct r as [p k]. simpl in *. subst k.
  exists p, pw, b. auto 10.
Qed.

Lemma forallb_is_none_false : forall (we : list (option err)), forallb is_none we = false ->
  exists i e, nth_error we i = Some (Some e).
Proof.
  induction we as [|[e|] we IH]; simpl; intros H; [discriminate| |].
  - exists 0, e. reflexivity.
  - destruct (IH H) as (i & e & Hi). exists (S i), e. exact Hi.
Qed.



Lemma C01_write_errors_exact_partial_proof :
  forall cfg ls s, cfg_ok cfg -> runs cfg ls s ->
  forall c cl we, nth_error (s_calls s) c = Some cl -> c_ph cl = CReturned (RWriteErrors we) ->
    length we = length (c_msgs cl) /\
    (exists i e, nth_error we i = Some (Some e)) /\
    forall i m o, nth_error (c_msgs cl) i = Some m -> nth_error we i = Some o ->
      (o = None -> acked_attempt cfg s m).
Proof.
  intros cfg ls s Hok Hr c cl we Hc Hph.
  destruct (we_entry cfg ls s Hr c cl we Hc Hph) as (Hl & Hf & He).
  split; auto. split; [apply forallb_is_none_false; auto|].
  intros i m o Hi Ho ->. destruct (He _ _ _ Hi Ho) as (p & pw & b & Er & Hp & Ht & Hfin & Hin).
  eapply fin_acked; eauto.
Qed.

Lemma C01_write_errors_exact_proof : stmt_C01_write_errors_exact.
Proof.
  intros cfg ls s Hok Hr c cl we Hc Hph.
  destruct (we_entry cfg ls s Hr c cl we Hc Hph) as (Hl & Hf & He).
  split; auto. split; [apply forallb_is_none_false; auto|].
  intros i m o Hi Ho. destruct (He _ _ _ Hi Ho) as (p & pw & b & Er & Hp & Ht & Hfin & Hin).
  destruct (inv3_runs cfg Hok _ _ Hr) as (F & _ & _ & O & _).
  destruct (fin_facts cfg _ _ _ _ _ _ F O Hp Hfin Hin) as (_ & _ & Hlast & Hack).
  split; auto. split.
  - intros ->. eapply fin_acked; eauto.
  - intros (a & Ha & _ & Hs & Hm & _). eapply Hack; eauto.
Qed.

Print Assumptions C01_write_errors_exact_proof.

Lemma C01_completion_once_proof : stmt_C01_completion_once.
Proof.
  intros cfg ls s Hok Hr.
  destruct (inv3_runs cfg Hok _ _ Hr) as (F & _ & _ & O & (A3 & K & Nc)).
  split; [exact Nc|]. split.
  - intros ms o m Hin Hm. destruct (K _ _ Hin) as (p & pw & b & Hp & Hf & ->).
    destruct (fin_facts cfg _ _ _ _ _ _ F O Hp Hf Hm) as (_ & _ & Hlast & _). split; auto.
    destruct F as [_ _ _ (_ & P) _ _ _].
    destruct (P _ _ _ _ Hp (fin_in_all _ _ _ Hf) Hm) as (c & cl & i & Hc & _ & Hrej & Hmi & _).
    exists c, cl. split; auto. split; [exact Hrej|eapply nth_error_In; eauto].
  - intros Ha c cl Hc. split.
    + intros Hph m Hm.
      destruct (nil_entry cfg ls s Hr Ha c cl Hc Hph m Hm) as (p & pw & b & Hp & _ & Hf & Hin).
      exists (b_msgs b). split; [exact (A3 _ _ Hp _ _ Hf)|exact Hin].
    + intros we Hph i m o Hi Ho.
      destruct (we_entry cfg ls s Hr c cl we Hc Hph) as (_ & _ & He).
      destruct (He _ _ _ Hi Ho) as (p & pw & b & _ & Hp & _ & Hfin & Hin).
      exists (b_msgs b). split; [exact (A3 _ _ Hp _ _ Hfin)|exact Hin].
Qed.

Print Assumptions C01_completion_once_proof.
