(* Proofs/RecordsWriters.v — Go's varints are the reference's; the record and the batch both format-2 writers
   lay out (wrec, wbatch); the protocol writer emits the reference encoding of the expected batch, which the
   reference decoder returns. *)
From Coq Require Import List NArith ZArith Bool Lia.
From Coq Require Import ZifyN ZifyNat ZifyBool.
From KV Require Import Lib.Bits Lib.Bytes Lib.Varint Lib.Crc Spec.RecordFormat Model.Records
  Proofs.RecordsCodec Proofs.RecordsSet.
Import ListNotations.
Open Scope Z_scope.

Lemma uvarint_enc_uv : forall f x, (x < pow128 (S f))%N -> uvarint_enc (S f) x = uv_enc f x.
Proof.
  induction f as [|f IH]; intros x Hx.
  - change (pow128 1) with 128%N in Hx. cbn [uvarint_enc uv_enc].
    destruct (N.ltb_spec x 128); [reflexivity|lia].
  - rewrite pow128_S in Hx.
    change (uvarint_enc (S (S f)) x) with
      (if (x <? 128)%N then [x] else (x mod 128 + 128)%N :: uvarint_enc (S f) (x / 128)%N).
    cbn [uv_enc]. destruct (N.ltb_spec x 128); [reflexivity|].
    rewrite IH by (apply N.div_lt_upper_bound; lia). reflexivity.
Qed.
Lemma uvarint_len_enc : forall f x, uvarint_len f x = length (uvarint_enc f x).
Proof.
  induction f as [|f IH]; intros x; cbn [uvarint_len uvarint_enc]; [reflexivity|].
  destruct (x <? 128)%N; [reflexivity|]. cbn [length]. rewrite IH. reflexivity.
Qed.
Lemma uvarint_len_uv f x : (x < pow128 (S f))%N -> uvarint_len (S f) x = length (uv_enc f x).
Proof. intros H. rewrite uvarint_len_enc, uvarint_enc_uv by exact H. reflexivity. Qed.

Lemma wrap64_id z : in_i64 z -> wrap64 z = z.
Proof. unfold in_i64, wrap64, ZM63, ZM64. intros H. rewrite Z.mod_small by lia. lia. Qed.

Lemma zigzag_zz z : in_i64 z -> zigzag z = zz_enc z.
Proof.
  intros Hz. unfold zigzag, zz_enc, u64. unfold in_i64, ZM63 in Hz.
  assert (Hw : exists k, wrap64 (z * 2) = 2 * z + ZM64 * k).
  { unfold wrap64. exists (- ((z * 2 + ZM63) / ZM64)).
    pose proof (Z.div_mod (z * 2 + ZM63) ZM64 ltac:(unfold ZM64; lia)). lia. }
  destruct Hw as (k & Hk). rewrite Hk.
  destruct (Z.ltb_spec z 0) as [Hn|Hp].
  - rewrite Z.lxor_m1_r. unfold Z.lnot.
    replace (Z.pred (- (2 * z + ZM64 * k))) with ((-2 * z - 1) + (- k) * ZM64) by lia.
    rewrite Z.mod_add by (unfold ZM64; lia). rewrite Z.mod_small by (unfold ZM64; lia). reflexivity.
  - rewrite Z.lxor_0_r. replace (2 * z + ZM64 * k) with (2 * z + k * ZM64) by lia.
    rewrite Z.mod_add by (unfold ZM64; lia). rewrite Z.mod_small by (unfold ZM64; lia). reflexivity.
Qed.

Lemma put_varint_sv z : in_i64 z -> put_varint z = sv_enc z.
Proof.
  intros Hz. unfold put_varint, put_uvarint, sv_enc. rewrite zigzag_zz by exact Hz.
  pose proof (zz_enc_lt z Hz). pose proof M64_lt_pow128_10.
  rewrite N.mod_small by assumption. apply uvarint_enc_uv. lia.
Qed.
Lemma varint_len_sv z : in_i64 z -> Z.of_nat (uvarint_len 10 (zigzag z)) = zlen (sv_enc z).
Proof.
  intros Hz. unfold sv_enc, zlen. rewrite zigzag_zz by exact Hz.
  pose proof (zz_enc_lt z Hz). pose proof M64_lt_pow128_10.
  rewrite uvarint_len_uv by lia. reflexivity.
Qed.

Lemma zlen_concat_map {A} (g : A -> list N) l : zlen (concat (map g l)) = zsum (map (fun x => zlen (g x)) l).
Proof.
  induction l as [|x l IH]; cbn [map concat zsum fold_right]; [reflexivity|].
  rewrite zlen_app. unfold zsum in IH. rewrite IH. reflexivity.
Qed.
Lemma zsum_map_ext {A} (f g : A -> Z) l : Forall (fun x => f x = g x) l -> zsum (map f l) = zsum (map g l).
Proof.
  induction 1 as [|x l Hx Hl IH]; cbn [map zsum fold_right]; [reflexivity|].
  unfold zsum in IH. rewrite IH, Hx. reflexivity.
Qed.
Lemma concat_map_ext {A} (f g : A -> list N) l : Forall (fun x => f x = g x) l -> concat (map f l) = concat (map g l).
Proof. induction 1 as [|x l Hx Hl IH]; cbn [map concat]; [reflexivity|]. rewrite IH, Hx. reflexivity. Qed.
Lemma rec_body_small_of_fits recs :
  zlen (concat (map enc_rec recs)) < ZM31 -> Forall (fun r => small (rec_body r)) recs.
Proof.
  induction recs as [|r recs IH]; intros H; constructor.
  - cbn [map concat] in H. rewrite zlen_app in H. unfold enc_rec in H at 1. rewrite zlen_app in H.
    pose proof (zlen_nonneg (sv_enc (zlen (rec_body r)))). pose proof (zlen_nonneg (concat (map enc_rec recs))).
    unfold small. lia.
  - apply IH. cbn [map concat] in H. rewrite zlen_app in H.
    pose proof (zlen_nonneg (enc_rec r)). lia.
Qed.

(* mapi_from is a map over the list paired with its indices: its lemmas are map's *)
Definition ixs {A} (i : Z) (l : list A) : list (Z * A) := mapi_from pair i l.
Lemma mapi_ixs {A B} (f : Z -> A -> B) l : forall i,
  mapi_from f i l = map (fun p => f (fst p) (snd p)) (ixs i l).
Proof.
  unfold ixs. induction l as [|x l IH]; intros i; cbn [mapi_from map fst snd]; [reflexivity|].
  rewrite IH. reflexivity.
Qed.
Lemma In_ixs {A} (l : list A) : forall i j x, In (j, x) (ixs i l) -> i <= j < i + zlen l /\ In x l.
Proof.
  unfold ixs. induction l as [|y l IH]; intros i j x H; [destruct H|]. cbn [mapi_from] in H.
  rewrite zlen_cons. pose proof (zlen_nonneg l).
  destruct H as [[= <- <-]|H]; [split; [lia|left; reflexivity]|].
  destruct (IH _ _ _ H) as [Hj Hx]. split; [lia|right; exact Hx].
Qed.
Lemma map_snd_ixs {A} (l : list A) : forall i, map snd (ixs i l) = l.
Proof. unfold ixs. induction l as [|x l IH]; intros i; cbn [mapi_from map snd]; [reflexivity|]. rewrite IH. reflexivity. Qed.

Lemma zlen_mapi {A B} (f : Z -> A -> B) l i : zlen (mapi_from f i l) = zlen l.
Proof. rewrite mapi_ixs. unfold zlen. rewrite map_length, <- (map_length snd), map_snd_ixs. reflexivity. Qed.
Lemma map_mapi {A B C} (h : B -> C) (f : Z -> A -> B) l i :
  map h (mapi_from f i l) = mapi_from (fun j x => h (f j x)) i l.
Proof. rewrite !mapi_ixs, map_map. reflexivity. Qed.
Lemma mapi_ext_in {A B} (f g : Z -> A -> B) l i :
  (forall j x, In (j, x) (ixs i l) -> f j x = g j x) -> mapi_from f i l = mapi_from g i l.
Proof. intros H. rewrite !mapi_ixs. apply map_ext_in. intros [j x] Hp. apply H, Hp. Qed.
Lemma mapi_ext {A B} (f g : Z -> A -> B) l i : (forall j x, f j x = g j x) -> mapi_from f i l = mapi_from g i l.
Proof. intros H. apply mapi_ext_in. intros j x _. apply H. Qed.
Lemma mapi_const {A B} (f : A -> B) l i : mapi_from (fun _ x => f x) i l = map f l.
Proof. rewrite mapi_ixs, <- (map_map snd f), map_snd_ixs. reflexivity. Qed.
Lemma mapi_In {A B} (g : Z -> A -> B) l i y : In y (mapi_from g i l) ->
  exists j x, i <= j < i + zlen l /\ In x l /\ y = g j x.
Proof.
  rewrite mapi_ixs. intros H. apply in_map_iff in H as ([j x] & <- & Hp).
  destruct (In_ixs _ _ _ _ Hp). exists j, x. auto.
Qed.
Lemma mapi_Forall {A B} (P : B -> Prop) (g : Z -> A -> B) l i :
  Forall P (mapi_from g i l) <-> forall j x, In (j, x) (ixs i l) -> P (g j x).
Proof.
  rewrite mapi_ixs, Forall_map, Forall_forall. split; [intros H j x Hp; exact (H _ Hp)|intros H [j x]; apply H].
Qed.

Definition wf_in (r : irec) : Prop :=
  osmall (i_key r) /\ osmall (i_val r) /\ small (i_hdrs r) /\ Forall wf_hdr (i_hdrs r).

Lemma osmall_blen b : osmall b -> in_i64 (blen b).
Proof. destruct b as [l|]; cbn; [apply small_i64|]. intros _. unfold in_i64, ZM63. lia. Qed.

Lemma pw_vnb_enc b : osmall b -> pw_vnb b = enc_vbytes b.
Proof. destruct b as [l|]; cbn [pw_vnb enc_vbytes osmall]; intros H.
  - rewrite put_varint_sv by (apply small_i64, H). reflexivity.
  - apply put_varint_sv. auto with range. Qed.
Lemma size_of_vnb_enc b : osmall b -> size_of_vnb b = zlen (enc_vbytes b).
Proof. destruct b as [l|]; cbn [size_of_vnb enc_vbytes osmall]; intros H; unfold size_of_varint.
  - rewrite zlen_app. rewrite varint_len_sv by (apply small_i64, H). reflexivity.
  - apply varint_len_sv. auto with range. Qed.

Lemma i64_of_small z : 0 <= z < ZM31 -> in_i64 z.
Proof. unfold in_i64, ZM31, ZM63. lia. Qed.
(* times are bounded by 2^62 ms so that the difference of two of them is an int64 *)
Lemma i64_time_diff a b :
  - ZM31 * ZM31 <= a < ZM31 * ZM31 -> - ZM31 * ZM31 <= b < ZM31 * ZM31 -> in_i64 (a - b).
Proof. unfold in_i64, ZM31, ZM63. lia. Qed.

(* the record both format-2 writers lay out *)
Definition wrec (tsd i : Z) (r : irec) : rec2 :=
  {| r_tsd := tsd; r_offd := i; r_key := i_key r; r_val := i_val r; r_hdrs := i_hdrs r |}.

(* the body's bytes and the writers' size formula, on the protocol writer's pieces *)
Lemma wrec_enc tsd i r :
  wf_in r -> in_i64 tsd -> 0 <= i < ZM31 ->
  put_bes 1 0 ++ put_varint tsd ++ put_varint i ++ pw_vnb (i_key r) ++ pw_vnb (i_val r) ++
    put_varint (zlen (i_hdrs r)) ++
    concat (map (fun h => put_varint (zlen (fst h)) ++ fst h ++ pw_vnb (snd h)) (i_hdrs r)) =
  rec_body (wrec tsd i r) /\
  1 + size_of_varint tsd + size_of_varint i + size_of_vnb (i_key r) + size_of_vnb (i_val r) +
    size_of_varint (zlen (i_hdrs r)) +
    zsum (map (fun h => size_of_varint (zlen (fst h)) + zlen (fst h) + size_of_vnb (snd h)) (i_hdrs r)) =
  zlen (rec_body (wrec tsd i r)).
Proof.
  intros (Hk & Hv & Hn & Hh) Ht Hi. unfold rec_body, wrec. cbn [r_tsd r_offd r_key r_val r_hdrs].
  assert (Hhs : Forall (fun h => put_varint (zlen (fst h)) ++ fst h ++ pw_vnb (snd h) = enc_hdr h) (i_hdrs r)).
  { eapply Forall_impl; [|exact Hh]. intros h [H1 H2]. unfold enc_hdr.
    rewrite put_varint_sv by (apply small_i64, H1). rewrite pw_vnb_enc by exact H2. reflexivity. }
  assert (Hsz : Forall (fun h => size_of_varint (zlen (fst h)) + zlen (fst h) + size_of_vnb (snd h) = zlen (enc_hdr h)) (i_hdrs r)).
  { eapply Forall_impl; [|exact Hh]. intros h [H1 H2]. unfold enc_hdr, size_of_varint.
    rewrite !zlen_app. rewrite varint_len_sv by (apply small_i64, H1). rewrite size_of_vnb_enc by exact H2. lia. }
  rewrite (concat_map_ext _ _ _ Hhs), (zsum_map_ext _ _ _ Hsz), <- zlen_concat_map.
  rewrite !pw_vnb_enc, !size_of_vnb_enc by assumption. unfold size_of_varint.
  rewrite (put_varint_sv _ Ht), (varint_len_sv _ Ht).
  rewrite (put_varint_sv i), (varint_len_sv i) by (apply i64_of_small, Hi).
  rewrite (put_varint_sv (zlen (i_hdrs r))), (varint_len_sv (zlen (i_hdrs r))) by (apply small_i64, Hn).
  split; [reflexivity|]. rewrite !zlen_app, zlen_put_bes. unfold header, obytes in *. lia.
Qed.

Definition prec (now first i : Z) (r : irec) : rec2 :=
  {| r_tsd := pts now (i_ns r) - first; r_offd := i; r_key := i_key r; r_val := i_val r; r_hdrs := i_hdrs r |}.

Lemma proto_record_enc now first i r :
  wf_in r -> in_i64 (pts now (i_ns r) - first) -> 0 <= i < ZM31 ->
  small (rec_body (prec now first i r)) ->
  proto_record now first i r = enc_rec (prec now first i r).
Proof.
  intros Hr Ht Hi Hsm. unfold proto_record, enc_rec. cbn zeta. rewrite (wrap64_id _ Ht).
  destruct (wrec_enc _ i r Hr Ht Hi) as [E S]. change (wrec _ i r) with (prec now first i r) in *.
  rewrite S, E, (put_varint_sv _ (small_i64 _ Hsm)). reflexivity.
Qed.

Lemma wrec_fields_ok tsd i r : wf_in r -> in_i64 tsd -> 0 <= i < ZM31 -> rec_fields_ok (wrec tsd i r).
Proof.
  intros (Hk & Hv & Hn & Hh) Ht Hi. unfold rec_fields_ok, wrec. cbn [r_tsd r_offd r_key r_val r_hdrs].
  exact (conj Ht (conj (i64_of_small i Hi) (conj Hk (conj Hv (conj Hn Hh))))).
Qed.

(* the batch both format-2 writers lay out *)
Definition wbatch (attrs last first mx : Z) (recs : list rec2) : batch2 :=
  {| b_base := 0; b_epoch := -1; b_attrs := attrs; b_last := last; b_first := first; b_max := mx;
     b_pid := -1; b_pepoch := -1; b_seq := -1; b_recs := recs |}.

Lemma raw_records_wbatch attrs last first mx (tsd ts : irec -> Z) rs : (forall r, first + tsd r = ts r) ->
  raw_records [IBatch (wbatch attrs last first mx (mapi_from (fun i r => wrec (tsd r) i r) 0 rs))] =
  mapi_from (fun i r => mk_rec i (ts r) (i_key r) (i_val r) (i_hdrs r)) 0 rs.
Proof.
  intros Hts. unfold raw_records. cbn [flat_map raw_records_of b_recs wbatch].
  rewrite app_nil_r, map_mapi. apply mapi_ext. intros j r.
  unfold rec_of_rec2, mk_rec. cbn. rewrite Hts. reflexivity.
Qed.

Section Codec.
Variable comp decomp : N -> list N -> list N.
Hypothesis decomp_comp : forall c b, decomp c (comp c b) = b.

Definition pbatch (attrs now : Z) (rs : list irec) : batch2 :=
  let first := match rs with r0 :: _ => pts now (i_ns r0) | [] => 0 end in
  {| b_base := 0; b_epoch := -1; b_attrs := attrs; b_last := zlen rs - 1; b_first := first;
     b_max := max_ts now rs; b_pid := -1; b_pepoch := -1; b_seq := -1;
     b_recs := mapi_from (prec now first) 0 rs |}.

Definition ptimes_ok (now : Z) (rs : list irec) : Prop :=
  forall r, In r rs -> - ZM31 * ZM31 <= pts now (i_ns r) < ZM31 * ZM31.

Lemma pbatch_wbatch attrs now r0 rs' : let rs := r0 :: rs' in
  pbatch attrs now rs =
  wbatch attrs (zlen rs - 1) (pts now (i_ns r0)) (max_ts now rs) (mapi_from (prec now (pts now (i_ns r0))) 0 rs).
Proof. reflexivity. Qed.

Lemma enc_set_single it : enc_set comp [it] = put_bes 4 (zlen (enc_item comp it)) ++ enc_item comp it.
Proof. unfold enc_set, enc_items. cbn [map concat]. rewrite app_nil_r. reflexivity. Qed.

(* 61 bytes before the payload: 8 + 4 (offset, length: it counts what follows, hence size - 12),
   4 + 1 + 4 (epoch, magic, CRC), 40 (attributes .. count) *)
Lemma zlen_batch_tail b : zlen (batch_tail comp b) = 40 + zlen (batch_payload comp b).
Proof. unfold batch_tail. rewrite !zlen_app, !zlen_put_bes. lia. Qed.
Lemma zlen_enc_batch b : zlen (enc_batch comp b) = 61 + zlen (batch_payload comp b).
Proof. unfold enc_batch. cbn zeta. rewrite !zlen_app, !zlen_put_bes, zlen_put_be, zlen_batch_tail. lia. Qed.

Lemma enc_set_wbatch attrs last first mx recs :
  let P := batch_payload comp (wbatch attrs last first mx recs) in
  let tail := put_bes 2 attrs ++ put_bes 4 last ++ put_bes 8 first ++ put_bes 8 mx ++
              put_bes 8 (-1) ++ put_bes 2 (-1) ++ put_bes 4 (-1) ++ put_bes 4 (zlen recs) ++ P in
  enc_set comp [IBatch (wbatch attrs last first mx recs)] =
  put_bes 4 (61 + zlen P) ++
  put_bes 8 0 ++ put_bes 4 (61 + zlen P - 12) ++ put_bes 4 (-1) ++ put_bes 1 2 ++ put_be 4 (crc32c tail) ++ tail.
Proof.
  cbn zeta. rewrite enc_set_single. cbn [enc_item]. rewrite zlen_enc_batch.
  unfold enc_batch. cbn zeta. rewrite zlen_batch_tail.
  replace (9 + (40 + zlen (batch_payload comp (wbatch attrs last first mx recs))))
    with (61 + zlen (batch_payload comp (wbatch attrs last first mx recs)) - 12) by lia.
  reflexivity.
Qed.

Lemma payload_known attrs last first mx recs : (codec_of attrs <= 4)%N ->
  (if codec_known (codec_of attrs) then comp (codec_of attrs) (concat (map enc_rec recs))
   else concat (map enc_rec recs)) = batch_payload comp (wbatch attrs last first mx recs).
Proof.
  intros Hc. unfold batch_payload, codec_known. cbn [b_attrs b_recs wbatch].
  destruct (N.eqb_spec (codec_of attrs) 0) as [E|E]; [rewrite E; reflexivity|].
  replace ((1 <=? codec_of attrs)%N && (codec_of attrs <=? 4)%N) with true by lia. reflexivity.
Qed.

(* byte-exact: the protocol v2 writer emits the reference encoding of [pbatch] *)
Lemma proto_v2_is_enc attrs now rs :
  rs <> [] -> Forall wf_in rs -> ptimes_ok now rs -> small rs -> (codec_of attrs <= 4)%N ->
  zlen (concat (map enc_rec (b_recs (pbatch attrs now rs)))) < ZM31 ->
  proto_v2 comp attrs now rs = Some (enc_set comp [IBatch (pbatch attrs now rs)]).
Proof.
  intros Hne Hwf Ht Hn Hc Hfit. destruct rs as [|r0 rs']; [contradiction|].
  rewrite pbatch_wbatch in *. cbn [b_recs wbatch] in Hfit.
  assert (Hraw : concat (mapi_from (proto_record now (pts now (i_ns r0))) 0 (r0 :: rs')) =
                 concat (map enc_rec (mapi_from (prec now (pts now (i_ns r0))) 0 (r0 :: rs')))).
  { apply rec_body_small_of_fits in Hfit. rewrite map_mapi. f_equal. apply mapi_ext_in. intros j x Hp.
    destruct (In_ixs _ _ _ _ Hp) as [Hj Hx]. rewrite Forall_forall in Hwf.
    apply proto_record_enc; [apply Hwf, Hx|apply i64_time_diff; apply Ht; [exact Hx|left; reflexivity]
                             |unfold small in Hn; lia|exact (proj1 (mapi_Forall _ _ _ _) Hfit j x Hp)]. }
  unfold proto_v2. cbn beta iota zeta. f_equal.
  rewrite enc_set_wbatch, <- (payload_known _ _ _ _ _ Hc), Hraw, zlen_mapi. reflexivity.
Qed.

Definition v2_fits (b : batch2) : Prop :=
  zlen (concat (map enc_rec (b_recs b))) < ZM31 /\ zlen (enc_batch comp b) < ZM31.

Lemma wbatch_wf attrs last first mx (tsd : irec -> Z) rs :
  -32768 <= attrs < 32768 -> in_i32 last -> in_i64 first -> in_i64 mx -> small rs -> Forall wf_in rs ->
  (forall r, In r rs -> in_i64 (tsd r)) ->
  let b := wbatch attrs last first mx (mapi_from (fun i r => wrec (tsd r) i r) 0 rs) in
  v2_fits b -> wf_batch comp b.
Proof.
  intros Ha Hl Hf Hm Hn Hwf Htsd b [Hf1 Hf0].
  assert (Hsz : 9 + zlen (batch_tail comp b) < ZM31) by (rewrite zlen_enc_batch in Hf0; rewrite zlen_batch_tail; lia).
  assert (Hcnt : small (b_recs b)) by (unfold small, b; cbn [b_recs wbatch]; rewrite zlen_mapi; exact Hn).
  assert (Hrecs : Forall wf_rec (b_recs b)).
  { apply rec_body_small_of_fits in Hf1. unfold b in *. cbn [b_recs wbatch] in *.
    apply mapi_Forall. intros j x Hp. destruct (In_ixs _ _ _ _ Hp) as [Hj Hx]. rewrite Forall_forall in Hwf.
    apply wf_rec_intro; [|exact (proj1 (mapi_Forall _ _ _ _) Hf1 j x Hp)].
    apply wrec_fields_ok; [apply Hwf, Hx|apply Htsd, Hx|unfold small in Hn; lia]. }
  unfold wf_batch. change (b_base b) with 0. change (b_epoch b) with (-1). change (b_pid b) with (-1).
  change (b_pepoch b) with (-1). change (b_seq b) with (-1).
  change (b_attrs b) with attrs. change (b_last b) with last. change (b_first b) with first. change (b_max b) with mx.
  unfold in_i64, in_i32, ZM63, ZM31 in *. repeat split; assumption || lia.
Qed.

Lemma batch_set_decodable b : wf_batch comp b -> v2_fits b ->
  dec_set decomp (enc_set comp [IBatch b]) = Some [IBatch b].
Proof.
  intros Hwf [_ Hf]. apply dec_enc_set; [exact decomp_comp|constructor; [exact Hwf|constructor]|].
  unfold enc_items. cbn [map concat enc_item]. rewrite app_nil_r. exact Hf.
Qed.

Lemma max_ts_range now rs : ptimes_ok now rs -> 0 <= max_ts now rs < ZM31 * ZM31.
Proof.
  unfold max_ts, ptimes_ok. intros H.
  assert (G : forall l m, (forall r, In r l -> In r rs) -> 0 <= m < ZM31 * ZM31 ->
          0 <= fold_left (fun m r => let t := pts now (i_ns r) in if m <? t then t else m) l m < ZM31 * ZM31).
  { induction l as [|x l IH]; intros m Hin Hm; cbn [fold_left]; [exact Hm|].
    apply IH; [intros r Hr; apply Hin; right; exact Hr|].
    cbn zeta. pose proof (H x (Hin x (or_introl eq_refl))).
    destruct (Z.ltb_spec m (pts now (i_ns x))); lia. }
  apply G; [auto|unfold ZM31; lia].
Qed.

Lemma pbatch_wf attrs now rs :
  rs <> [] -> Forall wf_in rs -> ptimes_ok now rs -> small rs -> -32768 <= attrs < 32768 ->
  v2_fits (pbatch attrs now rs) -> wf_batch comp (pbatch attrs now rs).
Proof.
  intros Hne Hwf Ht Hn Ha. destruct rs as [|r0 rs']; [contradiction|]. rewrite pbatch_wbatch.
  pose proof (Ht r0 (or_introl eq_refl)) as Ht0. pose proof (max_ts_range now _ Ht) as Hmx.
  pose proof (zlen_nonneg (r0 :: rs')) as Hnn. unfold small in Hn.
  apply (wbatch_wf attrs _ _ _ (fun r => pts now (i_ns r) - pts now (i_ns r0))); try assumption.
  - unfold in_i32, ZM31 in *. lia.
  - unfold in_i64, ZM63, ZM31 in *. lia.
  - unfold in_i64, ZM63, ZM31 in *. lia.
  - intros r Hr. apply i64_time_diff; [apply Ht, Hr|exact Ht0].
Qed.

(* what a consumer decodes from the bytes the protocol v2 writer produced *)
Theorem proto_v2_decodable attrs now rs :
  rs <> [] -> Forall wf_in rs -> ptimes_ok now rs -> small rs -> -32768 <= attrs < 32768 ->
  (codec_of attrs <= 4)%N -> v2_fits (pbatch attrs now rs) ->
  exists bytes, proto_v2 comp attrs now rs = Some bytes /\
                dec_set decomp bytes = Some [IBatch (pbatch attrs now rs)].
Proof.
  intros Hne Hwf Ht Hn Ha Hc Hf. eexists. split; [apply proto_v2_is_enc; try assumption; apply Hf|].
  apply batch_set_decodable; [apply pbatch_wf; assumption|exact Hf].
Qed.

End Codec.
