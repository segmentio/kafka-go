(* Proofs/RecordsConn.v — the messageSetReader model (Conn / Reader path) on reference-encoded
   sequences of v2 batches: it returns the reference's records (control batches included, nil
   for empty, zero time for t <= 0) and then io.EOF. *)
From Coq Require Import List NArith ZArith Bool Lia.
From Coq Require Import ZifyN ZifyNat ZifyBool.
From KV Require Import Lib.Bits Lib.Bytes Lib.Varint Lib.Crc Spec.RecordFormat Model.Records
  Proofs.RecordsCodec Proofs.RecordsSet Proofs.RecordsWriters Proofs.RecordsReaders.
Import ListNotations.
Open Scope Z_scope.
Arguments MR {A}. Arguments ME {A}.

(* what the Conn path cannot distinguish *)
Definition nilify (b : obytes) : obytes := match b with Some [] => None | x => x end.
Definition conn_view (r : orec) : orec :=
  mk_rec (o_off r) (legacy_ts (o_ts r)) (nilify (o_key r)) (nilify (o_val r))
         (map (fun h : header => (fst h, nilify (snd h))) (o_hdrs r)).

(* lengths are read as "0 < n": an empty byte string comes back as nil *)
Lemma m_vbytes_enc b r : osmall b -> m_vbytes (enc_vbytes b ++ r) = Some (nilify b, r).
Proof.
  intros Hb. unfold m_vbytes, enc_vbytes. destruct b as [[|x t]|].
  - rewrite <- app_assoc, go_varint_sv by auto with range. reflexivity.
  - rewrite <- app_assoc, go_varint_sv, zlen_cons_pos, take_zlen by auto with range. reflexivity.
  - rewrite go_varint_sv by auto with range. reflexivity.
Qed.

Lemma m_hdr_enc h r : wf_hdr h -> m_hdr (enc_hdr h ++ r) = Some ((fst h, nilify (snd h)), r).
Proof.
  intros [Hk Hv]. unfold m_hdr, enc_hdr. rewrite <- !app_assoc, go_varint_sv by auto with range.
  destruct (fst h) as [|x t].
  - cbn [zlen length Z.of_nat Z.ltb Z.compare app]. rewrite m_vbytes_enc by exact Hv. reflexivity.
  - rewrite zlen_cons_pos, take_zlen, m_vbytes_enc by exact Hv. reflexivity.
Qed.

Lemma m_hdrs_enc hs : forall r, Forall wf_hdr hs ->
  m_hdrs (length hs) (concat (map enc_hdr hs) ++ r) =
  Some (map (fun h : header => (fst h, nilify (snd h))) hs, r).
Proof.
  induction hs as [|h hs IH]; intros r H; cbn [length map concat m_hdrs app]; [reflexivity|].
  apply Forall_cons_iff in H as [Hh Hs].
  rewrite <- app_assoc, m_hdr_enc, IH by assumption. reflexivity.
Qed.

Lemma m_record_enc h r rest :
  wf_rec r -> in_i64 (h_first h + r_offd r) -> in_i64 (h_first_ts h + r_tsd r) ->
  m_record h (enc_rec r ++ rest) =
  Some (mk_rec (h_first h + r_offd r) (legacy_ts (h_first_ts h + r_tsd r)) (nilify (r_key r)) (nilify (r_val r))
               (map (fun h : header => (fst h, nilify (snd h))) (r_hdrs r)), rest).
Proof.
  intros (Ht & Ho & Hk & Hv & Hn & Hh & Hsm) Hbo Hft. unfold m_record, enc_rec, rec_body.
  rewrite <- !app_assoc, go_varint_sv, get_int8_put, !go_varint_sv, !m_vbytes_enc, go_varint_sv
    by auto with range.
  rewrite (wrap64_id _ Hbo), (wrap64_id _ Hft).
  destruct (r_hdrs r) as [|h0 hs] eqn:E; [reflexivity|].
  rewrite zlen_cons_pos, to_nat_zlen, m_hdrs_enc by exact Hh. reflexivity.
Qed.

Section Codec.
Variable comp decomp : N -> list N -> list N.
Hypothesis decomp_comp : forall c b, decomp c (comp c b) = b.

Definition hdr_of (b : batch2) : mhdr :=
  {| h_first := b_base b; h_len := 9 + zlen (batch_tail comp b); h_magic := 2; h_a1 := 0; h_ts1 := 0;
     h_a2 := b_attrs b; h_lastd := b_last b; h_first_ts := b_first b; h_cnt := zlen (b_recs b) |}.

Definition recs_bytes (rs : list rec2) : list N := concat (map enc_rec rs).
Definition batches_bytes (bs : list batch2) : list N := concat (map (enc_batch comp) bs).

(* U = the records [rs] of an uncompressed batch, then the next batches; F0 = header just read;
   Kc = pushed reader over a compressed batch's records; Kp = its parent, past that batch *)
Definition frameU b rs more : frame :=
  {| f_bs := recs_bytes rs ++ batches_bytes more; f_base := 0; f_count := zlen rs; f_hdr := hdr_of b |}.
Definition frameF0 b more : frame :=
  {| f_bs := batch_payload comp b ++ batches_bytes more; f_base := 0; f_count := zlen (b_recs b); f_hdr := hdr_of b |}.
Definition frameKc b rs : frame :=
  {| f_bs := recs_bytes rs; f_base := -1; f_count := zlen rs; f_hdr := hdr_of b |}.
Definition frameKp b more : frame :=
  {| f_bs := batches_bytes more; f_base := 0; f_count := 0; f_hdr := hdr_of b |}.

(* the reader stack with [rs] of batch [b] still to read; k = compressed (records in a pushed reader) *)
Definition st_of (k : bool) b rs more : list frame :=
  if k then match rs with [] => [frameKp b more] | _ => [frameKc b rs; frameKp b more] end
  else [frameU b rs more].

Definition out_rec b r : orec := conn_view (rec_of_rec2 b r).

Definition batch_ok' (b : batch2) : Prop := batch_ok comp b /\ b_recs b <> [].

Lemma m_read_header_enc b rest base h0 : wf_batch comp b ->
  m_read_header {| f_bs := enc_batch comp b ++ rest; f_base := base; f_count := 0; f_hdr := h0 |} =
  MR {| f_bs := batch_payload comp b ++ rest; f_base := base; f_count := zlen (b_recs b); f_hdr := hdr_of b |}.
Proof.
  intros (Hb & He & Ha & Hl & Hf & Hm & Hp & Hpe & Hs & Hn & Hr & Hsz).
  unfold m_read_header. cbn [f_count f_bs f_base]. change (0 <? 0) with false. cbv iota.
  unfold enc_batch. cbn zeta. rewrite <- !app_assoc.
  pose proof (zlen_nonneg (batch_tail comp b)).
  rewrite get_int64_put, !get_int32_put, get_int8_put by auto with range.
  change (2 =? 0) with false. change (2 =? 1) with false. change (2 =? 2) with true. cbv iota.
  rewrite take_app by apply put_be_length.
  unfold batch_tail at 1. rewrite <- !app_assoc.
  rewrite get_int16_put, get_int32_put, get_int64_put by auto with range.
  (* the 22 bytes of lastTimestamp, producer id, epoch, base sequence are skipped *)
  rewrite (app_assoc (put_bes 8 (b_max b))), (app_assoc _ (put_bes 2 (b_pepoch b))), (app_assoc _ (put_bes 4 (b_seq b))).
  rewrite take_app by (rewrite !app_length; unfold put_bes; rewrite !put_be_length; reflexivity).
  rewrite get_int32_put by auto with range. reflexivity.
Qed.

Lemma m_compression_hdr b : (codec_of (b_attrs b) <= 4)%N ->
  m_compression (hdr_of b) = Some (codec_of (b_attrs b)).
Proof.
  intros Hc. unfold m_compression, hdr_of. cbn [h_magic h_a2 h_a1]. change (2 =? 2) with true. cbv iota.
  pose proof (codec_known_le4 _ Hc) as Hk.
  destruct (N.eqb_spec (codec_of (b_attrs b)) 0) as [E|E]; [rewrite E; reflexivity|].
  cbn [negb andb] in Hk. apply negb_false_iff in Hk. rewrite Hk. reflexivity.
Qed.

Definition is_comp (b : batch2) : bool := negb (codec_of (b_attrs b) =? 0)%N.

Definition m_take (h : mhdr) (cur : frame) (ps : list frame) : mres (orec * list frame) :=
  match m_record h (f_bs cur) with
  | Some (r, r7) =>
    match m_mark_read ({| f_bs := r7; f_base := f_base cur; f_count := f_count cur; f_hdr := f_hdr cur |} :: ps) with
    | None => ME MPanic
    | Some st' => MR (r, st')
    end
  | None => ME MEof
  end.

Lemma m_take_enc b r rs rest base ps : wf_rec r -> rec_ok b r ->
  m_take (hdr_of b) {| f_bs := enc_rec r ++ rest; f_base := base; f_count := zlen (r :: rs); f_hdr := hdr_of b |} ps =
  MR (out_rec b r, m_unwind ({| f_bs := rest; f_base := base; f_count := zlen rs; f_hdr := hdr_of b |} :: ps)).
Proof.
  intros Hw [O1 O2]. unfold m_take. cbn [f_bs f_base f_count f_hdr].
  rewrite m_record_enc by assumption.
  unfold m_mark_read. cbn [f_bs f_base f_count f_hdr]. rewrite zlen_cons. pose proof (zlen_nonneg rs).
  destruct (Z.eqb_spec (1 + zlen rs) 0); [lia|].
  replace (1 + zlen rs - 1) with (zlen rs) by lia. reflexivity.
Qed.

(* unwindStack pops the pushed reader of a compressed batch once it is exhausted *)
Lemma m_unwind_K b rs more : m_unwind [frameKc b rs; frameKp b more] = st_of true b rs more.
Proof.
  destruct rs as [|r rs]; [reflexivity|]. cbn [m_unwind frameKc f_count st_of].
  rewrite zlen_cons. pose proof (zlen_nonneg rs). destruct (Z.eqb_spec (1 + zlen rs) 0); [lia|reflexivity].
Qed.

Lemma m_read_header_pos fr : 0 < f_count fr -> m_read_header fr = MR fr.
Proof. intros H. unfold m_read_header. destruct (Z.ltb_spec 0 (f_count fr)); [reflexivity|lia]. Qed.

Lemma m_next_counted fuel fr ps min : 0 < f_count fr -> h_magic (f_hdr fr) = 2 ->
  m_next decomp fuel (fr :: ps) min = m_v2 decomp (fr :: ps).
Proof. intros H E. unfold m_next. rewrite m_read_header_pos, E by exact H. reflexivity. Qed.

Lemma m_v2_counted fr ps : 0 < f_count fr -> f_count fr <> h_cnt (f_hdr fr) ->
  m_v2 decomp (fr :: ps) = m_take (f_hdr fr) fr ps.
Proof.
  intros H Hne. unfold m_v2. rewrite m_read_header_pos by exact H. cbn zeta.
  destruct (Z.eqb_spec (f_count fr) (h_cnt (f_hdr fr))); [contradiction|]. destruct fr; reflexivity.
Qed.

Lemma m_next_take fuel b r rs rest base ps min :
  wf_rec r -> rec_ok b r -> zlen (r :: rs) < zlen (b_recs b) ->
  m_next decomp fuel ({| f_bs := enc_rec r ++ rest; f_base := base; f_count := zlen (r :: rs); f_hdr := hdr_of b |} :: ps) min =
  MR (out_rec b r, m_unwind ({| f_bs := rest; f_base := base; f_count := zlen rs; f_hdr := hdr_of b |} :: ps)).
Proof.
  intros Hw Ho Hlt.
  assert (Hpos : 0 < zlen (r :: rs)) by (rewrite zlen_cons; pose proof (zlen_nonneg rs); lia).
  rewrite m_next_counted by (exact Hpos || reflexivity).
  rewrite m_v2_counted by (cbn [f_count f_hdr hdr_of h_cnt]; lia).
  apply m_take_enc; assumption.
Qed.

Lemma m_next_mid fuel k b r rs more min :
  wf_rec r -> rec_ok b r -> zlen (r :: rs) < zlen (b_recs b) ->
  m_next decomp fuel (st_of k b (r :: rs) more) min = MR (out_rec b r, st_of k b rs more).
Proof.
  intros Hw Ho Hlt. destruct k; cbn [st_of].
  - unfold frameKc at 1, recs_bytes at 1. cbn [map concat].
    rewrite (m_next_take fuel b r rs (concat (map enc_rec rs)) (-1) _ min Hw Ho Hlt).
    apply f_equal, f_equal, m_unwind_K.
  - unfold frameU at 1, recs_bytes at 1. cbn [map concat]. rewrite <- app_assoc.
    exact (m_next_take fuel b r rs _ 0 [] min Hw Ho Hlt).
Qed.

Lemma m_v2_fresh fr ps c cb rest : 0 < f_count fr -> f_count fr = h_cnt (f_hdr fr) ->
  m_compression (f_hdr fr) = Some c -> f_bs fr = cb ++ rest -> ((c =? 0)%N = false -> h_len (f_hdr fr) - 49 = zlen cb) ->
  m_v2 decomp (fr :: ps) =
  if (c =? 0)%N then m_take (f_hdr fr) fr ps
  else m_take (f_hdr fr) {| f_bs := decomp c cb; f_base := -1; f_count := f_count fr; f_hdr := f_hdr fr |}
              ({| f_bs := rest; f_base := f_base fr; f_count := 0; f_hdr := f_hdr fr |} :: ps).
Proof.
  intros H Hcnt Hc Hbs Hlen. unfold m_v2. rewrite m_read_header_pos by exact H. cbn zeta.
  rewrite Hcnt, Z.eqb_refl, Hc. destruct (c =? 0)%N; [destruct fr; reflexivity|].
  rewrite (Hlen eq_refl), Hbs, zlen_ltb0, take_zlen.
  destruct (Z.ltb_spec (Z.of_nat (length (cb ++ rest))) (zlen cb)) as [Hl|_]; [|reflexivity].
  rewrite app_length in Hl. unfold zlen in Hl. lia.
Qed.

Lemma m_v2_first b r rs more :
  batch_ok comp b -> b_recs b = r :: rs ->
  m_v2 decomp [frameF0 b more] = MR (out_rec b r, st_of (is_comp b) b rs more).
Proof.
  intros (Hwf & Hc & Hro) Hrs. pose proof (wf_batch_recs comp b Hwf) as Hr.
  rewrite Hrs in Hr, Hro. apply Forall_cons_iff in Hr as [Hw _]. apply Forall_cons_iff in Hro as [Ho _].
  assert (Hpos : 0 < f_count (frameF0 b more))
    by (cbn [frameF0 f_count]; rewrite Hrs, zlen_cons; pose proof (zlen_nonneg rs); lia).
  (* 49 = the 9 header bytes before the tail + the tail's 40 before the payload *)
  assert (Hlen : (codec_of (b_attrs b) =? 0)%N = false -> h_len (hdr_of b) - 49 = zlen (batch_payload comp b))
    by (intros _; cbn [hdr_of h_len]; rewrite zlen_batch_tail; lia).
  rewrite (m_v2_fresh (frameF0 b more) [] _ _ (batches_bytes more) Hpos eq_refl (m_compression_hdr b Hc) eq_refl Hlen).
  unfold frameF0. cbn [f_hdr f_count f_bs f_base]. unfold is_comp, batch_payload.
  destruct (codec_of (b_attrs b) =? 0)%N; cbn [negb]; rewrite ?decomp_comp, Hrs; cbn [map concat].
  - rewrite <- app_assoc, m_take_enc by assumption. reflexivity.
  - rewrite m_take_enc by assumption. apply f_equal, f_equal, m_unwind_K.
Qed.

Lemma m_next_fresh fuel k b b' r rs more min :
  batch_ok' b' -> b_recs b' = r :: rs ->
  m_next decomp fuel (st_of k b [] (b' :: more)) min = MR (out_rec b' r, st_of (is_comp b') b' rs more).
Proof.
  intros Hok Hrs.
  assert (Hst : st_of k b [] (b' :: more) = [frameKp b (b' :: more)]) by (destruct k; reflexivity).
  rewrite Hst. unfold m_next, frameKp. unfold batches_bytes. cbn [map concat]. fold (batches_bytes more).
  rewrite m_read_header_enc by apply Hok.
  cbn [f_hdr hdr_of h_magic]. change (2 =? 2) with true. cbv iota.
  apply (m_v2_first b' r rs more (proj1 Hok) Hrs).
Qed.

Lemma m_next_end fuel k b min : m_next decomp fuel (st_of k b [] []) min = ME MEof.
Proof. destruct k; reflexivity. Qed.

Definition outs (bs : list batch2) : list orec := flat_map (fun b => map (out_rec b) (b_recs b)) bs.

(* [n]: fuel to spare; [pre]: the records already read, not empty, so none of [rs] is the batch's first *)
Lemma m_run_records more b k n : forall rs pre acc fuel min,
  batch_ok' b -> b_recs b = pre ++ rs -> pre <> [] -> (length rs + n < fuel)%nat ->
  exists fuel' min', (n < fuel')%nat /\
    m_run decomp fuel (st_of k b rs more) min acc =
    m_run decomp fuel' (st_of k b [] more) min' (rev (map (out_rec b) rs) ++ acc).
Proof.
  induction rs as [|r rs IH]; intros pre acc fuel min Hb Hsplit Hpre Hfuel.
  - exists fuel, min. split; [exact Hfuel|reflexivity].
  - destruct fuel as [|fuel]; [cbn in Hfuel; lia|]. cbn [m_run].
    pose proof Hb as [(Hwf & Hc & Hro) Hne].
    pose proof (wf_batch_recs comp b Hwf) as Hr.
    rewrite Hsplit in Hr, Hro. apply Forall_app in Hr as [_ Hr]. apply Forall_app in Hro as [_ Hro].
    apply Forall_cons_iff in Hr as [Hw _]. apply Forall_cons_iff in Hro as [Ho _].
    rewrite m_next_mid; [|exact Hw|exact Ho|].
    2:{ rewrite Hsplit, zlen_app. destruct pre as [|p pre']; [contradiction|].
        rewrite (zlen_cons p). pose proof (zlen_nonneg pre'). lia. }
    destruct (IH (pre ++ [r]) (out_rec b r :: acc) fuel (wrap64 (o_off (out_rec b r) + 1)) Hb)
      as (fuel' & min' & Hf' & ->).
    + rewrite <- app_assoc. exact Hsplit.
    + intros E. apply app_eq_nil in E as [_ E]. discriminate.
    + cbn [length] in Hfuel. lia.
    + exists fuel', min'. split; [exact Hf'|]. cbn [map rev]. rewrite <- app_assoc. reflexivity.
Qed.

Lemma m_run_rest b r1 rs1 more acc fuel min :
  (forall acc fuel min, (length (outs more) < fuel)%nat ->
     m_run decomp fuel (st_of (is_comp b) b [] more) min acc = (rev acc ++ outs more, MEof)) ->
  batch_ok' b -> b_recs b = r1 :: rs1 -> (length rs1 + length (outs more) < fuel)%nat ->
  m_run decomp fuel (st_of (is_comp b) b rs1 more) min (out_rec b r1 :: acc) =
  (rev acc ++ out_rec b r1 :: map (out_rec b) rs1 ++ outs more, MEof).
Proof.
  intros Hrest Hb Hrs1 Hfuel.
  destruct (m_run_records more b (is_comp b) (length (outs more)) rs1 [r1] (out_rec b r1 :: acc) fuel min
              Hb Hrs1 ltac:(discriminate) Hfuel) as (fuel' & min' & Hf' & ->).
  rewrite Hrest by exact Hf'. rewrite rev_app_distr, rev_involutive. cbn [rev]. rewrite <- !app_assoc. reflexivity.
Qed.

Lemma outs_cons b r1 rs1 more : b_recs b = r1 :: rs1 ->
  outs (b :: more) = out_rec b r1 :: map (out_rec b) rs1 ++ outs more.
Proof. intros E. unfold outs. cbn [flat_map]. rewrite E. reflexivity. Qed.

Lemma m_run_batches : forall more b k acc fuel min,
  Forall batch_ok' more -> (length (outs more) < fuel)%nat ->
  m_run decomp fuel (st_of k b [] more) min acc = (rev acc ++ outs more, MEof).
Proof.
  induction more as [|b' more IH]; intros b k acc fuel min Hmore Hfuel;
    (destruct fuel as [|fuel]; [cbn in Hfuel; lia|]); cbn [m_run].
  - rewrite m_next_end. cbn [outs flat_map]. rewrite app_nil_r. reflexivity.
  - apply Forall_cons_iff in Hmore as [Hb' Hmore].
    destruct (b_recs b') as [|r1 rs1] eqn:Hrs1; [destruct Hb' as [_ Hne]; contradiction|].
    rewrite (m_next_fresh _ k b b' r1 rs1 more min Hb' Hrs1), (outs_cons b' r1 rs1 more Hrs1) in *.
    cbn [length] in Hfuel. rewrite app_length, map_length in Hfuel.
    apply m_run_rest; [intros; apply IH; assumption|exact Hb'|exact Hrs1|lia].
Qed.

(* Conn / Reader path on any non-empty sequence of non-empty v2 batches, any codec *)
Theorem msr_read_v2_batches bs fuel min :
  bs <> [] -> Forall batch_ok' bs -> (length (outs bs) < fuel)%nat ->
  msr_read decomp fuel min (batches_bytes bs) = (outs bs, MEof).
Proof.
  intros Hne H Hfuel. destruct bs as [|b more]; [contradiction|].
  apply Forall_cons_iff in H as [Hb Hmore].
  destruct (b_recs b) as [|r1 rs1] eqn:Hrs1; [destruct Hb as [_ Hn]; contradiction|].
  rewrite (outs_cons b r1 rs1 more Hrs1) in *. cbn [length] in Hfuel. rewrite app_length, map_length in Hfuel.
  (* newMessageSetReader reads the first header itself *)
  unfold msr_read, batches_bytes. cbn [map concat]. fold (batches_bytes more).
  rewrite m_read_header_enc by apply Hb. fold (frameF0 b more).
  destruct fuel as [|fuel]; [lia|]. cbn [m_run].
  rewrite m_next_counted by (cbn [frameF0 f_count f_hdr hdr_of h_magic]; rewrite ?Hrs1, ?zlen_cons; pose proof (zlen_nonneg rs1); lia).
  rewrite (m_v2_first b r1 rs1 more (proj1 Hb) Hrs1).
  apply (m_run_rest b r1 rs1 more []); [intros; apply m_run_batches; assumption|exact Hb|exact Hrs1|lia].
Qed.

End Codec.
